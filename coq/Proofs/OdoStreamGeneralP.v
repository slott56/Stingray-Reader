(* Lemmas for C06d: the file-level theorems of C06 for the GENERAL OCCURS DEPENDING ON family (wfo, Proofs/LayoutOdoP.v).
   The frame lemma (nav_frame_general): when the walk on record r succeeds and ends inside r, every counter it fetched
   lies inside r, so the walk on r ++ more is the same walk; a subtree without ODO is built into a schema without a
   DependsOnArraySchema (no_odo_build), on which the walk does not read the record at all.  Hence the general family
   meets the file readers through the interface of Proofs/OdoStreamRowsP.v (framed_general), as the flat family does
   (Proofs/OdoStreamP.v framed_flat; flat_stream_*_again below show the two families side by side). *)
From Coq Require Import NArith List Bool Lia.
Import ListNotations.
Require Import SR.Base.Res SR.Gen.RecfmParams SR.Spec.Recfm SR.Model.Recfm.
Require Import SR.Spec.Layout SR.Model.Layout SR.Spec.OdoStream SR.Model.OdoStream.
Require SR.Proofs.OdoStreamP.
Require Import SR.Proofs.LayoutP SR.Proofs.LayoutOdoP SR.Proofs.OdoStreamRowsP.
(* framed, and the example gen_tree with its records: the definitions the statements of Props/C06d.v use *)
Require Export SR.Spec.OdoGeneralWf.
Open Scope nat_scope.

(* a description without OCCURS DEPENDING ON (wf) is built into a schema without a DependsOnArraySchema *)
Definition built_plain (b : built) : Prop := js_has_odo (snd b) = false.

Lemma alts_of_no_odo u : forall all, Forall built_plain all -> alts_have_odo (alts_of u all) = false.
Proof.
  induction all as [|[[i o] s] rest IH]; intros HF; [reflexivity|].
  inversion HF as [|b bs Hb HF']; subst. cbn [alts_of]. destruct o as [u'|]; [|apply IH; exact HF'].
  destruct (N.eqb u u'); [|apply IH; exact HF'].
  cbn [js_has_odo props_have_odo alts_have_odo]. unfold built_plain in Hb. cbn [snd] in Hb. rewrite Hb, (IH HF'). reflexivity.
Qed.

Lemma assemble_no_odo all : Forall built_plain all -> forall bs em, Forall built_plain bs ->
  props_have_odo (assemble all em bs) = false.
Proof.
  intros Hall. induction bs as [|[[i o] s] rest IH]; intros em HF; [reflexivity|].
  inversion HF as [|b bs Hb HF']; subst. unfold built_plain in Hb. cbn [snd] in Hb.
  cbn [assemble]. destruct o as [u|].
  - destruct (existsb (N.eqb u) em); cbn [js_has_odo props_have_odo alts_have_odo].
    + apply IH. exact HF'.
    + rewrite (alts_of_no_odo u all Hall), (IH _ HF'). reflexivity.
  - cbn [js_has_odo props_have_odo alts_have_odo]. rewrite Hb, (IH _ HF'). reflexivity.
Qed.

Lemma plain_no_odo : forall bs, Forall built_plain bs -> props_have_odo (plain bs) = false.
Proof.
  induction bs as [|[[i o] s] rest IH]; intros HF; [reflexivity|].
  inversion HF as [|b bs Hb HF']; subst. unfold built_plain in Hb. cbn [snd] in Hb.
  cbn [plain js_has_odo props_have_odo alts_have_odo]. rewrite Hb, (IH HF'). reflexivity.
Qed.

Lemma no_odo_build e :
  (forall x, wf e x = true -> js_has_odo (build_alt x) = false) /\
  (forall ks, wf_kids e ks = true -> forall tg, Forall built_plain (kid_alts tg ks)).
Proof.
  apply item_items_ind.
  - intros i sz oc rd Hw. destruct oc as [|n|c]; [reflexivity|reflexivity|discriminate].
  - intros i oc rd ks IH Hw. cbn [wf item_oc] in Hw. apply andb_true_iff in Hw. destruct Hw as [Hoc Hw].
    apply andb_true_iff in Hw. destruct Hw as [Hk _]. specialize (IH Hk).
    destruct oc as [|n|c]; [| |discriminate]; cbn [build_alt js_has_odo props_have_odo alts_have_odo].
    + apply assemble_no_odo; apply IH.
    + apply plain_no_odo. apply IH.
  - intros _ tg. constructor.
  - intros x IHx xs IHxs Hw tg. cbn [wf_kids] in Hw. apply andb_true_iff in Hw. destruct Hw as [Hx Hxs].
    rewrite kid_alts_cons. constructor; [exact (IHx Hx)|exact (IHxs Hxs tg)].
Qed.

Lemma alts_red_no_odo u : forall xs,
  (forall y, in_kids y xs -> item_redef y <> None -> js_has_odo (build_alt y) = false) ->
  alts_have_odo (alts_red u xs) = false.
Proof.
  induction xs as [|x xs IH]; intros H; [reflexivity|].
  assert (Hxs : alts_have_odo (alts_red u xs) = false) by (apply IH; intros y Hy; apply H; right; exact Hy).
  cbn [alts_red]. destruct (item_redef x) as [u'|] eqn:Er; [|exact Hxs].
  destruct (N.eqb u u'); [|exact Hxs]. cbn [js_has_odo props_have_odo alts_have_odo].
  rewrite Hxs, (H x (or_introl eq_refl)); [reflexivity|congruence].
Qed.

Section Frame.
  Variable B : Type.
  Variable dcount : list B -> nat.
  Variable r more : list B.
  Variable e : env.
  Notation r2 := (r ++ more).

  Lemma walk_indep s : js_has_odo s = false -> forall st an, walk dcount r2 s st an = walk dcount r s st an.
  Proof. intros H st an. apply (proj1 (walk_no_odo B dcount r r2)), H. Qed.

  (* every available counter is registered as an atom that lies inside the record *)
  Definition CNb (an : anchors) (avail : list id) : Prop :=
    forall c, In c avail -> exists cst csz, lookup (KName c) an = Some (LAtom cst csz) /\ cst + csz <= length r.

  Lemma CNb_same an an' avail :
    CNb an avail -> (forall c, In c avail -> lookup (KName c) an' = lookup (KName c) an) -> CNb an' avail.
  Proof.
    intros H Hl c Hc. destruct (H c Hc) as (cst & csz & Hk & Hb). exists cst, csz. split; [|exact Hb].
    rewrite (Hl c Hc). exact Hk.
  Qed.

  Lemma CNb_extends an an' avail ks :
    CNb an avail -> extends ks an an' -> (forall c, In c avail -> ~ In (KName c) ks) -> CNb an' avail.
  Proof.
    intros H He Hd. apply (CNb_same an); [exact H|]. intros c Hc. apply (extends_lookup _ _ _ _ He (Hd c Hc)).
  Qed.

  (* the ObjectSchema loop registers the anchor of a property a second time, under the same key with the same
     location: no lookup changes *)
  Lemma lookup_reg_again (rr : list B) s st an l an' k :
    walk dcount rr s st an = Ok (l, an') -> lookup k (reg (js_anchor s) l an') = lookup k an'.
  Proof.
    intros H. destruct (js_anchor s) as [k0|] eqn:Ea; [|reflexivity].
    assert (Hhd : exists an0, an' = (k0, l) :: an0).
    { destruct s as [a sz|a n its|a c its|a ps|a alts|t]; cbn [js_anchor] in Ea; try discriminate; subst a.
      - rewrite walk_atom in H. injection H as <- <-. eexists. reflexivity.
      - rewrite walk_arr in H. destruct (walk dcount rr its st an) as [[sub an1]|]; [|discriminate].
        injection H as <- <-. eexists. reflexivity.
      - rewrite walk_odo in H. destruct (lookup (KName c) an) as [[cst csz| | | |]|]; try discriminate.
        destruct (walk dcount rr its st an) as [[sub an1]|]; [|discriminate].
        injection H as <- <-. eexists. reflexivity.
      - rewrite walk_obj in H. destruct (walk_props dcount rr ps st an) as [[[pls off] an1]|]; [|discriminate].
        injection H as <- <-. eexists. reflexivity.
      - destruct alts as [|s0 rest]; [rewrite walk_one_nil in H; discriminate|]. rewrite walk_one in H.
        destruct (walk_alts dcount rr (ACons s0 rest) st an) as [[als an1]|]; [|discriminate].
        injection H as <- <-. eexists. reflexivity. }
    destruct Hhd as [an0 ->]. cbn [reg lookup]. destruct (key_eqb k k0); reflexivity.
  Qed.

  (* one DependsOnArraySchema whose items hold no further one: the counter lies inside r *)
  Lemma frame_odo a c its st an l an' avail :
    js_has_odo its = false -> CNb an avail -> In c avail ->
    walk dcount r (JOdo a c its) st an = Ok (l, an') -> walk dcount r2 (JOdo a c its) st an = Ok (l, an').
  Proof.
    intros Hno Hcn Hc H. destruct (Hcn c Hc) as (cst & csz & Hl & Hb).
    rewrite (walk_odo B dcount r), Hl in H. rewrite (walk_odo B dcount r2), Hl.
    rewrite (walk_indep its Hno), (OdoStreamP.slice_app r more cst (cst + csz) Hb). exact H.
  Qed.

  (* past an item of the family every counter available before it is where it was *)
  Lemma CNb_item x avail st an l an' :
    wfo e avail x = true -> NoDup (ids x) -> (forall c, In c avail -> ~ In c (ids x)) -> CNb an avail ->
    walk dcount r (build_alt x) st an = Ok (l, an') -> CNb an' avail.
  Proof.
    intros Hw Hnd Hav Hcn H. eapply CNb_extends; [exact Hcn|exact (WO_ext B dcount r e x avail st an l an' Hw Hnd H)|].
    intros c Hc. apply not_in_K, Hav, Hc.
  Qed.

  (* the claim, per item: if the walk of x on r, started at st with every available counter inside r, succeeds and ends
     inside r, then the walk on r ++ more is the same, and the counters x supplies lie inside r too *)
  Definition FR (x : item) : Prop :=
    forall avail st an l an', wfo e avail x = true -> NoDup (ids x) -> (forall c, In c avail -> ~ In c (ids x)) ->
      CNb an avail -> walk dcount r (build_alt x) st an = Ok (l, an') -> st + lsize l <= length r ->
      walk dcount r2 (build_alt x) st an = Ok (l, an') /\ CNb an' (avail ++ new_counters x).

  Lemma props_step (rr : list B) k p rest off an pls off' an' :
    walk_props dcount rr (PCons k p rest) off an = Ok (pls, off', an') ->
    exists pl an1 rl, walk dcount rr p off an = Ok (pl, an1)
      /\ walk_props dcount rr rest (off + lsize pl) (reg (js_anchor p) pl an1) = Ok (rl, off', an')
      /\ pls = LPCons k pl rl.
  Proof.
    intros H. rewrite walk_props_cons in H. destruct (walk dcount rr p off an) as [[pl an1]|]; [|discriminate].
    destruct (walk_props dcount rr rest (off + lsize pl) (reg (js_anchor p) pl an1)) as [[[rl o2] an2]|] eqn:E; [|discriminate].
    injection H as <- <- <-. exists pl, an1, rl. repeat split. exact E.
  Qed.

  Lemma props_unstep (rr : list B) k p rest off an pl an1 rl off' an' :
    walk dcount rr p off an = Ok (pl, an1) ->
    walk_props dcount rr rest (off + lsize pl) (reg (js_anchor p) pl an1) = Ok (rl, off', an') ->
    walk_props dcount rr (PCons k p rest) off an = Ok (LPCons k pl rl, off', an').
  Proof. intros H1 H2. rewrite walk_props_cons, H1, H2. reflexivity. Qed.

  Lemma frame_plain p avail off an pl an1 :
    js_has_odo p = false -> (forall c, In c avail -> ~ In (KName c) (keys_js p)) -> CNb an avail ->
    walk dcount r p off an = Ok (pl, an1) ->
    walk dcount r2 p off an = Ok (pl, an1) /\ CNb (reg (js_anchor p) pl an1) avail.
  Proof.
    intros Hno Hk Hcn H. split; [rewrite (walk_indep p Hno); exact H|].
    eapply CNb_extends; [exact Hcn| |exact Hk].
    eapply extends_chain; [exact (proj1 (walk_extends B dcount r) _ _ _ _ _ H)|apply extends_reg, keys_js_anchor].
  Qed.

  Lemma FRK : forall rem, (forall y, in_kids y rem -> FR y) -> NoDup (ids_kids rem) ->
    forall avail off an pls off' an',
      wfo_kids e avail rem = true -> (forall c, In c avail -> ~ In c (ids_kids rem)) -> CNb an avail ->
      walk_props dcount r (assemble_d rem) off an = Ok (pls, off', an') -> off' <= length r ->
      walk_props dcount r2 (assemble_d rem) off an = Ok (pls, off', an') /\ CNb an' (avail ++ kids_counters rem).
  Proof.
    induction rem as [|x xs IH]; intros HW Hnd avail off an pls off' an' Hwf Hav Hcn H Hb.
    - cbn [assemble_d kids_counters] in *. rewrite walk_props_nil in H. injection H as <- <- <-.
      rewrite walk_props_nil, app_nil_r. split; [reflexivity|exact Hcn].
    - assert (Hndx : NoDup (ids x)) by (cbn [ids_kids] in Hnd; apply NoDup_app_l in Hnd; exact Hnd).
      assert (Hndxs : NoDup (ids_kids xs)) by (cbn [ids_kids] in Hnd; apply NoDup_app_r in Hnd; exact Hnd).
      assert (HWxs : forall y, in_kids y xs -> FR y) by (intros y Hy; apply HW; right; exact Hy).
      assert (Havx : forall c, In c avail -> ~ In c (ids x))
        by (intros c Hc Hi; apply (Hav c Hc); cbn [ids_kids]; apply in_or_app; left; exact Hi).
      assert (Havxs : forall c, In c avail -> ~ In c (ids_kids xs))
        by (intros c Hc Hi; apply (Hav c Hc); cbn [ids_kids]; apply in_or_app; right; exact Hi).
      (* every key the loop over these children may register belongs to them, so is none of the available counters *)
      assert (Hfree : forall c, In c avail -> ~ In (KName c) (keys_props (assemble_d (ICons x xs)))).
      { intros c Hc Hin. apply (not_in_K c _ (Hav c Hc)).
        exact (keys_assemble_d (ICons x xs) (proj2 (keys_build_o e) (ICons x xs) avail Hwf Hnd) _ Hin). }
      cbn [assemble_d wfo_kids kids_counters] in *. unfold member in *.
      destruct (item_redef x) as [u|] eqn:Er; [|destruct (existsb (N.eqb (item_id x)) (redef_targets xs)) eqn:Etg];
        apply andb_prop in Hwf as [Hwx Hwfxs];
        destruct (props_step r _ _ _ _ _ _ _ _ H) as (pl & an1 & rl & E1 & E2 & ->).
      + (* a redefiner: a $ref placeholder *)
        destruct (frame_plain (JRef _) avail _ _ _ _ eq_refl (fun c _ Hin => Hin) Hcn E1) as [E1' Hcn1].
        destruct (IH HWxs Hndxs avail _ _ rl off' an' Hwfxs Havxs Hcn1 E2 Hb) as [E2' Hc'].
        split; [exact (props_unstep r2 _ _ _ _ _ _ _ _ _ _ E1' E2')|exact Hc'].
      + (* the redefined item: REDEFINES-x -> oneOf [x, its redefiners], then x -> $ref; no ODO inside *)
        destruct (props_step r _ _ _ _ _ _ _ _ E2) as (pl2 & an2 & rl2 & E3 & E4 & ->).
        assert (HnoJ : js_has_odo (JOne (Some (KRedef (item_id x))) (ACons (build_alt x) (alts_red (item_id x) xs))) = false).
        { cbn [js_has_odo props_have_odo alts_have_odo]. rewrite (proj1 (no_odo_build e) x Hwx). cbn [orb].
          apply alts_red_no_odo. intros y Hy Hr. apply (proj1 (no_odo_build e)).
          eapply wfo_kids_member; [exact Hwfxs|exact Hy|exact Hr]. }
        destruct (frame_plain _ avail _ _ _ _ HnoJ (fun c Hc Hin => Hfree c Hc (in_or_app _ _ _ (or_introl Hin))) Hcn E1)
          as [E1' Hcn1].
        destruct (frame_plain (JRef _) avail _ _ _ _ eq_refl (fun c _ Hin => Hin) Hcn1 E3) as [E3' Hcn2].
        destruct (IH HWxs Hndxs avail _ _ rl2 off' an' Hwfxs Havxs Hcn2 E4 Hb) as [E4' Hc'].
        split; [exact (props_unstep r2 _ _ _ _ _ _ _ _ _ _ E1' (props_unstep r2 _ _ _ _ _ _ _ _ _ _ E3' E4'))|exact Hc'].
      + (* an ordinary child: may contain, or be, an ODO table; may supply counters *)
        pose proof (walk_props_offset B dcount r _ _ _ _ _ _ E2) as Hoff.
        destruct (HW x (or_introl eq_refl) avail off an pl an1 Hwx Hndx Havx Hcn E1) as [E1' Hcn1]; [lia|].
        assert (Hcn2 : CNb (reg (js_anchor (build_alt x)) pl an1) (avail ++ new_counters x)).
        { apply (CNb_same an1); [exact Hcn1|]. intros c _. apply (lookup_reg_again r _ _ _ _ _ _ E1). }
        assert (Hav2 : forall c, In c (avail ++ new_counters x) -> ~ In c (ids_kids xs)).
        { intros c Hc Hi. apply in_app_or in Hc. destruct Hc as [Hc|Hc]; [exact (Havxs c Hc Hi)|].
          apply (proj1 new_counters_incl) in Hc. cbn [ids_kids] in Hnd. exact (NoDup_app_disj _ _ _ Hnd Hc Hi). }
        destruct (IH HWxs Hndxs (avail ++ new_counters x) _ _ rl off' an' Hwfxs Hav2 Hcn2 E2 Hb) as [E2' Hc'].
        split; [exact (props_unstep r2 _ _ _ _ _ _ _ _ _ _ E1' E2')|rewrite app_assoc; exact Hc'].
  Qed.

  Theorem FR_all : (forall x, FR x) /\ (forall ks y, in_kids y ks -> FR y).
  Proof.
    apply item_items_ind.
    - (* elementary *)
      intros i sz oc rd avail st an l an' Hw Hnd Hav Hcn H Hb.
      pose proof (CNb_item _ avail st an l an' Hw Hnd Hav Hcn H) as Hcn'.
      destruct oc as [|n|c]; cbn [new_counters]; try rewrite app_nil_r.
      + (* a fixed item: a potential counter, registered where it lies *)
        cbn [build_alt] in *. rewrite walk_atom in H |- *. injection H as <- <-. split; [reflexivity|].
        intros c0 Hc0. apply in_app_or in Hc0. destruct Hc0 as [Hc0|[ <- |[]]]; [exact (Hcn' c0 Hc0)|].
        exists st, sz. split; [apply lookup_cons_same|exact Hb].
      + split; [rewrite (walk_indep (build_alt (Elem i sz (Times n) rd)) eq_refl); exact H|exact Hcn'].
      + destruct rd as [u|]; [discriminate|]. apply existsb_eqb_In in Hw.
        split; [exact (frame_odo None c (elem_items i sz) st an l an' avail eq_refl Hcn Hw H)|exact Hcn'].
    - (* group *)
      intros i oc rd ks IH avail st an l an' Hw Hnd Hav Hcn H Hb.
      pose proof (CNb_item _ avail st an l an' Hw Hnd Hav Hcn H) as Hcn'.
      assert (Hndk : NoDup (ids_kids ks)) by (inversion Hnd; assumption).
      destruct oc as [|n|c]; cbn [new_counters]; try rewrite app_nil_r.
      + assert (Hik : ~ In i (ids_kids ks)) by (inversion Hnd; assumption).
        assert (Havk : forall c, In c avail -> ~ In c (ids_kids ks)) by (intros c Hc Hin; apply (Hav c Hc); right; exact Hin).
        cbn [wfo] in Hw. apply andb_prop in Hw as [Hwk Hu].
        rewrite (build_group_once e i rd ks Hndk Hu) in H |- *.
        rewrite walk_obj in H. destruct (walk_props dcount r (assemble_d ks) st an) as [[[pls off] an1]|] eqn:E; [|discriminate].
        injection H as <- <-. pose proof (walk_props_offset B dcount r _ _ _ _ _ _ E) as Ho. cbn [lsize] in Hb.
        destruct (FRK ks IH Hndk avail st an pls off an1 Hwk Havk Hcn E) as [E2 Hc]; [lia|].
        split; [rewrite walk_obj, E2; reflexivity|].
        (* the group's own name is neither an available counter nor one its children supply *)
        apply (CNb_same an1); [exact Hc|]. intros c0 Hc0. cbn [reg lookup].
        rewrite key_eqb_neq; [reflexivity|]. intros Eq. injection Eq as ->. apply in_app_or in Hc0. destruct Hc0 as [Hc0|Hc0].
        * apply (Hav i Hc0). left. reflexivity.
        * exact (Hik (proj2 new_counters_incl ks i Hc0)).
      + cbn [wfo] in Hw. apply andb_prop in Hw as [Hwk Hno].
        assert (Hold : wf e (Group i (Times n) rd ks) = true).
        { cbn [wf item_oc no_odo]. rewrite Hwk. unfold no_targets in Hno. destruct (redef_targets ks); [reflexivity|discriminate]. }
        split; [rewrite (walk_indep _ (proj1 (no_odo_build e) _ Hold)); exact H|exact Hcn'].
      + destruct rd as [u|]; [discriminate|]. cbn [wfo] in Hw. apply andb_prop in Hw as [Hw Hno].
        apply andb_prop in Hw as [Hc Hwk]. apply existsb_eqb_In in Hc.
        split; [|exact Hcn']. refine (frame_odo _ c _ st an l an' avail _ Hcn Hc H).
        cbn [js_has_odo props_have_odo alts_have_odo]. apply plain_no_odo, (proj2 (no_odo_build e) ks Hwk).
    - intros y [].
    - intros x IHx xs IHxs y [ -> |Hy]; [exact IHx|apply IHxs; exact Hy].
  Qed.

  Lemma nav_frame_walk t v :
    wfo e [] t = true -> NoDup (ids t) -> nav_of dcount r (build t) = Ok v -> lsize (n_loc v) <= length r ->
    nav_of dcount r2 (build t) = Ok v.
  Proof.
    intros Hw Hnd Hn Hb. rewrite (nav_of_unf B dcount r2). rewrite (nav_of_unf B dcount r) in Hn.
    destruct (walk dcount r (build t) 0 []) as [[l an]|] eqn:E; [|discriminate]. injection Hn as <-.
    assert (E2 : walk dcount r2 (build t) 0 [] = Ok (l, an))
      by exact (proj1 (proj1 FR_all t [] 0 [] l an Hw Hnd (fun c Hc => match Hc with end) (fun c Hc => match Hc with end) E Hb)).
    rewrite E2. reflexivity.
  Qed.

  (* the frame lemma: trailing elements - the next records in the read-ahead buffer, the padding of a fixed-length
     record - do not change the layout *)
  Theorem nav_frame_general t :
    wfo e [] t = true -> NoDup (ids t) -> Holds B dcount r e t 0 -> extent e t <= length r ->
    nav_of dcount (r ++ more) (build t) = nav_of dcount r (build t).
  Proof.
    intros Hw Hnd Hh Hlen. destruct (layout_correct_odo B dcount r e t Hw Hnd Hh) as (v0 & Hn & Hst & Hend & _).
    rewrite Hn. apply (nav_frame_walk t v0 Hw Hnd Hn). unfold lend in Hend. lia.
  Qed.
End Frame.

(* record r of description t carries count vector e: the hypotheses of C06_layout, and r is exactly as long as
   the description says for e *)
Definition rec_okg {A} (dcount : list A -> nat) (t : item) (e : env) (r : list A) : Prop :=
  wfo e [] t = true /\ length r = extent e t /\ Holds A dcount r e t 0.

Lemma framed_general {A} (dcount : list A -> nat) t : NoDup (ids t) -> forall e (r : list A),
  rec_okg dcount t e r -> exists v, framed dcount (build t) r v /\ lend (n_loc v) = extent e t.
Proof.
  intros Hnd e r (Hw & Hlen & Hh). destruct (layout_correct_odo A dcount r e t Hw Hnd Hh) as (v & Hn & _ & Hend & _).
  exists v. split; [split|exact Hend].
  - intros more. rewrite (nav_frame_general A dcount r more e t Hw Hnd Hh); [exact Hn|lia].
  - rewrite Hend. symmetry. exact Hlen.
Qed.

(* The flat family through the same interface (Proofs/OdoStreamP.v framed_flat): the statements of Props/C06.v
   (C06_stream_N_any_buffer, _N, _V, _VB, _F) with [rec_ok] and [padded] for the conjunctions written out there, to be
   read beside those of the general family in Props/C06d.v. *)
Lemma flat_stream_N_any_buffer_again {A} (dcount : list A -> nat) (B : nat) (kind : N) t es (rs : list (list A)) :
  0 < B -> flat_odo t = true -> Forall2 (OdoStreamP.rec_ok dcount t) es rs -> legal_N B rs = true ->
  exists rows s',
    row_loop dcount (S (length (write_N rs))) 0 kind B (build t) (N_init B (write_N rs)) = (rows, Done, s')
    /\ map (@row_buf A) rows = spec_bufs B (write_N rs) (map (@length A) rs)
    /\ heads (map (@length A) rs) (map (@row_buf A) rows) = rs
    /\ Forall2 (fun rw r => nav_of dcount r (build t) = Ok (row_nav rw)) rows rs
    /\ Forall2 (fun rw e => lend (n_loc (row_nav rw)) = extent e t) rows es
    /\ buf s' = [] /\ rest s' = [].
Proof.
  intros HB Hf.
  exact (family_stream_N_any_buffer dcount (build t) _ (fun e => extent e t) (OdoStreamP.framed_flat dcount t Hf) B kind es rs HB).
Qed.

Lemma flat_stream_N_again {A} (dcount : list A -> nat) (kind : N) (lrecl : option nat) t es (rs : list (list A)) :
  flat_odo t = true -> Forall2 (OdoStreamP.rec_ok dcount t) es rs -> legal_N (N.to_nat buffer_size) rs = true ->
  exists rows s',
    rows_N dcount kind lrecl (build t) (write_N rs) = Ok (rows, Done, s')
    /\ map (@row_buf A) rows = spec_bufs (N.to_nat buffer_size) (write_N rs) (map (@length A) rs)
    /\ heads (map (@length A) rs) (map (@row_buf A) rows) = rs
    /\ Forall2 (fun rw r => nav_of dcount r (build t) = Ok (row_nav rw)) rows rs
    /\ Forall2 (fun rw e => lend (n_loc (row_nav rw)) = extent e t) rows es
    /\ buf s' = [] /\ rest s' = [].
Proof.
  intros Hf. exact (family_stream_N dcount (build t) _ (fun e => extent e t) (OdoStreamP.framed_flat dcount t Hf) kind lrecl es rs).
Qed.

Lemma flat_stream_V_again (dcount : list N -> nat) (kind : N) (lrecl : option nat) t es (rs : list (list N)) :
  flat_odo t = true -> Forall2 (OdoStreamP.rec_ok dcount t) es rs -> legal_V rs = true ->
  exists rows,
    rows_V dcount kind lrecl (build t) (write_V rs) = Ok (rows, Done)
    /\ map (@row_buf N) rows = rs
    /\ Forall2 (fun rw r => nav_of dcount r (build t) = Ok (row_nav rw)) rows rs
    /\ Forall2 (fun rw e => lend (n_loc (row_nav rw)) = extent e t) rows es.
Proof.
  intros Hf HF _. exact (family_stream_V dcount (build t) _ (fun e => extent e t) (OdoStreamP.framed_flat dcount t Hf) kind lrecl es rs HF).
Qed.

Lemma flat_stream_VB_again (dcount : list N -> nat) (kind : N) (lrecl : option nat) t ess (blocks : list (list (list N))) :
  flat_odo t = true -> Forall2 (Forall2 (OdoStreamP.rec_ok dcount t)) ess blocks -> legal_VB blocks = true ->
  exists rows,
    rows_VB dcount kind lrecl (build t) (write_VB blocks) = Ok (rows, Done)
    /\ map (@row_buf N) rows = concat blocks
    /\ Forall2 (fun rw r => nav_of dcount r (build t) = Ok (row_nav rw)) rows (concat blocks)
    /\ Forall2 (fun rw e => lend (n_loc (row_nav rw)) = extent e t) rows (concat ess).
Proof.
  intros Hf. exact (family_stream_VB dcount (build t) _ (fun e => extent e t) (OdoStreamP.framed_flat dcount t Hf) kind lrecl ess blocks).
Qed.

Lemma flat_stream_F_again (dcount : list N -> nat) (kind : N) (lrecl : nat) t es (rs ps : list (list N)) :
  flat_odo t = true -> Forall2 (OdoStreamP.rec_ok dcount t) es rs -> Forall2 OdoStreamP.padded rs ps -> legal_F lrecl ps = true ->
  exists rows,
    rows_F dcount kind (Some lrecl) (build t) (write_F ps) = Ok (rows, Done)
    /\ map (@row_buf N) rows = ps
    /\ Forall2 (fun rw r => nav_of dcount r (build t) = Ok (row_nav rw)) rows rs
    /\ Forall2 (fun rw e => lend (n_loc (row_nav rw)) = extent e t) rows es.
Proof.
  intros Hf. exact (family_stream_F dcount (build t) _ (fun e => extent e t) (OdoStreamP.framed_flat dcount t Hf) kind lrecl es rs ps).
Qed.

Lemma gen_r1_ok : rec_okg gen_dcount gen_tree gen_e1 gen_r1.
Proof.
  split; [reflexivity|]. split; [reflexivity|].
  cbn. repeat first [reflexivity | split | eexists].
Qed.

Lemma gen_r2_ok : rec_okg gen_dcount gen_tree gen_e2 gen_r2.
Proof.
  split; [reflexivity|]. split; [reflexivity|].
  cbn. repeat first [reflexivity | split | eexists].
Qed.
