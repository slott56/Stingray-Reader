(* Lemmas for Props/C12e.v: layer A of C12 (Proofs/RefFormatP.v: reference_format alone) composed with the whole-parser model
   (Model/Pipeline.v, Model/TextLayout.v).  The text theorems of Proofs/TextLayoutP.v hold for every text that reads as its
   entries; here card-image noise is shown to preserve that, and card decks to have it: the pipeline model depends on the text
   only through reference_format's answer (factorisation), which decoration does not change (decorated_rf); a card deck -
   columns 1-6, a blank indicator, a code area of up to 65 characters, columns 73 onwards - gives the sentences of its code
   areas (deck_reference_format, deck_sentences). *)
From Coq Require Import NArith List Bool Arith Lia.
Import ListNotations.
Require Import SR.Base.Res.
Require Import SR.Model.RefFormat SR.Spec.RefFormat SR.Proofs.RefFormatP.
Require Import SR.Model.Pipeline SR.Spec.Copybook SR.Proofs.PipelineP.
Require Import SR.Spec.Layout SR.Model.TextLayout SR.Proofs.TextLayoutP.
Require Export SR.Spec.TextNoiseWf.
Open Scope N_scope.

Local Notation str := SR.Model.Pipeline.str.

(* ================================================================ 1. factorisation *)
Lemma same_sentences_schemas : forall a b : str, sentences_of_text a = sentences_of_text b -> schemas_of_text a = schemas_of_text b.
Proof. intros a b S. unfold schemas_of_text. rewrite S. reflexivity. Qed.

Lemma same_schemas_layouts : forall a b : str, schemas_of_text a = schemas_of_text b -> layouts_of_text a = layouts_of_text b.
Proof. intros a b S. unfold layouts_of_text. rewrite S. reflexivity. Qed.

Theorem factorisation : forall a b : str,
  reference_format (lines_of_text a) [] = reference_format (lines_of_text b) [] ->
  sentences_of_text a = sentences_of_text b
  /\ schemas_of_text a = schemas_of_text b
  /\ entries_of_text a = entries_of_text b
  /\ forest_of_text a = forest_of_text b
  /\ layouts_of_text a = layouts_of_text b
  /\ (forall (B : Type) (k : nat) (dcount : list B -> nat) (r : list B) (p : list step),
        located a k dcount r p = located b k dcount r p)
  /\ (forall (xf : list xtree) (k : nat) (dcount : list N -> nat) (r : list N) (p : list step),
        value_in_text a xf k dcount r p = value_in_text b xf k dcount r p).
Proof.
  intros a b H.
  assert (S : sentences_of_text a = sentences_of_text b) by (unfold sentences_of_text; rewrite H; reflexivity).
  pose proof (same_sentences_schemas a b S) as SC. pose proof (same_schemas_layouts a b SC) as LA.
  split; [exact S|]. split; [exact SC|]. split; [unfold entries_of_text; rewrite S; reflexivity|].
  split; [unfold forest_of_text; rewrite S; reflexivity|]. split; [exact LA|]. split.
  - intros B k dcount r p. unfold located. rewrite LA. reflexivity.
  - intros xf k dcount r p. unfold value_in_text. rewrite LA. reflexivity.
Qed.

(* only the code areas, one after the other, matter - not how they are cut into lines or continuation groups *)
Lemma concat_groups : forall cs, concat (groups cs) = concat (map snd cs).
Proof.
  induction cs as [|c r IH]; [reflexivity|]. cbn [groups map concat]. rewrite <- IH.
  destruct (groups r) as [|g gs]; [cbn [concat]; reflexivity|].
  destruct (next_is_cont r); cbn [concat]; rewrite ?app_assoc; reflexivity.
Qed.

Lemma rf_ok_code : forall src gs, reference_format src [] = Ok gs -> concat gs = code_of src.
Proof.
  intros src gs H. rewrite continuation, replace_cards_nil in H. unfold code_of. rewrite <- concat_groups.
  unfold checked in H. destruct (groups (cards src)) as [|g gs0]; [discriminate|].
  destruct (existsb starts_copy (removelast (g :: gs0))); [discriminate|]. injection H as <-. reflexivity.
Qed.

(* ================================================================ 2. card-image noise *)
Lemma decorated_rf : forall s s', decorated s s' -> forall repl, reference_format s repl = reference_format s' repl.
Proof.
  induction 1 as [s|s s' s'' H _ IH|s s' s'' H _ IH|s s' s'' H _ IH]; intros repl.
  - reflexivity.
  - rewrite (seq_area s s' repl H). apply IH.
  - rewrite <- (comments s s' repl H). apply IH.
  - rewrite (comments s' s repl H). apply IH.
Qed.

Lemma decorated_trans : forall a b c, decorated a b -> decorated b c -> decorated a c.
Proof.
  intros a b c H. revert c. induction H as [s|s s' s'' H _ IH|s s' s'' H _ IH|s s' s'' H _ IH]; intros c K.
  - exact K.
  - apply (dec_areas s s'); [exact H|apply IH; exact K].
  - apply (dec_add s s'); [exact H|apply IH; exact K].
  - apply (dec_drop s s'); [exact H|apply IH; exact K].
Qed.

Lemma seq_variant_sym : forall l l', seq_variant l l' -> seq_variant l' l.
Proof.
  intros l l' [H|[[H1 H2]|[(s & s' & mid & t & t' & E & E' & L & L' & M & W) [B D]]]].
  - left. symmetry. exact H.
  - right. left. split; assumption.
  - right. right. split.
    + exists s', s, mid, t', t. repeat split; try assumption. destruct W as [W|[W1 W2]]; [left; exact W|right; split; assumption].
    + split; symmetry; assumption.
Qed.

Lemma Forall2_sym : forall (X : Type) (P : X -> X -> Prop), (forall x y, P x y -> P y x) ->
  forall a b, Forall2 P a b -> Forall2 P b a.
Proof. intros X P S a b F. induction F; constructor; auto. Qed.

Lemma decorated_sym : forall a b, decorated a b -> decorated b a.
Proof.
  induction 1 as [s|s s' s'' H _ IH|s s' s'' H _ IH|s s' s'' H _ IH].
  - apply dec_same.
  - apply (decorated_trans _ _ _ IH). apply (dec_areas s' s); [|apply dec_same]. apply Forall2_sym; [exact seq_variant_sym|exact H].
  - apply (decorated_trans _ _ _ IH). apply (dec_drop s' s); [exact H|apply dec_same].
  - apply (decorated_trans _ _ _ IH). apply (dec_add s' s); [exact H|apply dec_same].
Qed.

(* ================================================================ 3. lines *)
Lemma nolf_no10 : forall l, nolf l = no10 l.
Proof. reflexivity. Qed.

Lemma text_line_shape : forall final l, text_line final l = true ->
  exists b c, l = b ++ [c] /\ nolf b = true /\ (c = 10 \/ (final = true /\ c <> 10)).
Proof.
  intros final l H. unfold text_line in H. destruct (rev l) as [|c b] eqn:E; [discriminate|].
  apply andb_true_iff in H as [Hb Hc]. exists (rev b), c.
  split; [rewrite <- (rev_involutive l), E; reflexivity|]. split; [rewrite nolf_no10, no10_rev; exact Hb|].
  destruct (c =? 10) eqn:C; [left; apply N.eqb_eq; exact C|right; split; [exact Hc|apply N.eqb_neq; exact C]].
Qed.

Lemma lines_of_concat : forall ls, text_lines ls = true -> lines_of_text (concat ls) = ls.
Proof.
  unfold lines_of_text. induction ls as [|l r IH]; intros H; [reflexivity|].
  cbn [text_lines] in H. apply andb_true_iff in H as [Hl Hr]. cbn [concat].
  destruct (text_line_shape _ _ Hl) as (b & c & -> & Nb & Hc).
  rewrite <- app_assoc. rewrite (lines_go_no10 b [] _ Nb). rewrite app_nil_r. cbn [app lines_go].
  destruct Hc as [->|[F Hc]].
  - cbn [N.eqb Pos.eqb]. rewrite (IH Hr). cbn [rev]. rewrite rev_involutive. reflexivity.
  - destruct r as [|l2 r2]; [|discriminate]. cbn [concat lines_go].
    apply N.eqb_neq in Hc. rewrite Hc. cbn [lines_go rev]. rewrite rev_involutive. reflexivity.
Qed.

(* one noise line (C12_noise_blank / C12_noise_comment / C12_noise_directive give plain_noise) put anywhere into a text *)
Lemma inserted_refl : forall P s, inserted P s s.
Proof. intros P. induction s as [|l s IH]; [apply ins_nil|apply ins_keep; exact IH]. Qed.

Lemma inserted_mid : forall P a b l, P l = true -> inserted P (a ++ b) (a ++ l :: b).
Proof.
  intros P a b l H. induction a as [|x a IH]; cbn [app]; [apply ins_add; [exact H|apply inserted_refl]|apply ins_keep; exact IH].
Qed.

(* ================================================================ 4. card decks *)
Lemma ci_ok_facts : forall final c, ci_ok final c = true ->
  length (ci_seq c) = 6%nat /\ text_line final (ci_line c) = true /\ (length (ci_code c) <= 65)%nat
  /\ (length (ci_code c) = 65%nat \/ ci_id c = []) /\ forallb is_ws (ci_code c) = false
  /\ starts_copy (ci_code c) = false /\ directive_word (strip (ci_line c)) = false.
Proof.
  intros final c H. unfold ci_ok in H.
  apply andb_true_iff in H as [H H7]. apply andb_true_iff in H as [H H6]. apply andb_true_iff in H as [H H5].
  apply andb_true_iff in H as [H H4]. apply andb_true_iff in H as [H H3]. apply andb_true_iff in H as [H1 H2].
  apply Nat.eqb_eq in H1. apply Nat.leb_le in H3. apply negb_true_iff in H5, H6, H7.
  repeat split; try assumption.
  apply orb_true_iff in H4 as [H4|H4]; [left; apply Nat.eqb_eq; exact H4|right; destruct (ci_id c); [reflexivity|discriminate]].
Qed.

(* one card: not dropped by any filter, indicator blank, the code area cut out by line[7:72] *)
Lemma deck_card : forall final c, ci_ok final c = true -> cards [ci_line c] = [(32, ci_code c)].
Proof.
  intros final c H. destruct (ci_ok_facts final c H) as (Hlen & _ & Hle & Hid & Hnb & _ & Hd).
  rewrite cards_eq. cbn [filter].
  assert (NE : f_non_empty (ci_line c) = true).
  { unfold f_non_empty. pose proof (rstrip_nonblank (ci_line c)) as R.
    assert (B : forallb is_ws (ci_line c) = false).
    { unfold ci_line. apply forallb_ws_app_false. cbn [forallb]. rewrite forallb_app, Hnb. cbn [andb]. apply andb_false_r. }
    specialize (R B). destruct (rstrip (ci_line c)); [congruence|reflexivity]. }
  rewrite NE. cbn [filter]. unfold f_non_directive. rewrite directive_word_eq, Hd. cbn [negb filter].
  assert (LG : f_long (ci_line c) = true).
  { unfold f_long, ci_line. apply Nat.leb_le. rewrite app_length. cbn [length]. lia. }
  rewrite LG. cbn [map filter].
  assert (TC : to_card (ci_line c) = (32, ci_code c)).
  { unfold ci_line. destruct (ci_seq c) as [|a1 [|a2 [|a3 [|a4 [|a5 [|a6 [|a7 sq]]]]]]]; try discriminate Hlen.
    unfold to_card, indicator, area. cbn [app nth skipn]. f_equal.
    destruct Hid as [H65|Hnil].
    - rewrite <- H65. apply ListFactsP.firstn_exact.
    - rewrite Hnil, app_nil_r. apply firstn_all2. exact Hle. }
  rewrite TC. reflexivity.
Qed.

Lemma deck_cards : forall d, deck_ok d = true -> cards (map ci_line d) = map (fun c => (32, ci_code c)) d.
Proof.
  induction d as [|c r IH]; intros H; [reflexivity|].
  cbn [deck_ok] in H. apply andb_true_iff in H as [Hc Hr]. cbn [map]. rewrite cards_cons_one.
  rewrite (deck_card _ c Hc), (IH Hr). reflexivity.
Qed.

Lemma deck_lines : forall d, deck_ok d = true -> text_lines (map ci_line d) = true.
Proof.
  induction d as [|c r IH]; intros H; [reflexivity|].
  cbn [deck_ok] in H. apply andb_true_iff in H as [Hc Hr]. cbn [map text_lines]. rewrite (IH Hr), andb_true_r.
  destruct (ci_ok_facts _ c Hc) as (_ & T & _). destruct r; exact T.
Qed.

Lemma deck_no_copy : forall d, deck_ok d = true -> forallb (fun l => negb (starts_copy l)) (map ci_code d) = true.
Proof.
  induction d as [|c r IH]; intros H; [reflexivity|].
  cbn [deck_ok] in H. apply andb_true_iff in H as [Hc Hr]. destruct (ci_ok_facts _ c Hc) as (_ & _ & _ & _ & _ & C & _).
  cbn [map forallb]. rewrite C, (IH Hr). reflexivity.
Qed.

Lemma deck_reference_format : forall d, d <> [] -> deck_ok d = true ->
  reference_format (map ci_line d) [] = Ok (map ci_code d).
Proof.
  intros d NE H. rewrite rf_eq, replace_cards_nil, (deck_cards d H).
  pose proof (deck_no_copy d H) as NC. destruct d as [|c r]; [congruence|].
  cbn [map join_all]. rewrite <- (map_map ci_code (fun l => (32, l)) r). apply join_plain. exact NC.
Qed.

Theorem deck_sentences : forall d, d <> [] -> deck_ok d = true ->
  sentences_of_text (deck_text d) = Ok (dde_sentences (map ci_code d)).
Proof.
  intros d NE H. unfold sentences_of_text, deck_text. rewrite (lines_of_concat _ (deck_lines d H)).
  rewrite (deck_reference_format d NE H). reflexivity.
Qed.

(* ================================================================ 5. deciding the relations on concrete lines (for Examples) *)
Local Open Scope nat_scope.
Definition same_codeb (l l' : line) : bool :=
  (7 <=? length l)%nat && (7 <=? length l')%nat
  && leqb (firstn 66 (skipn 6 l)) (firstn 66 (skipn 6 l'))
  && (((66 <=? length (skipn 6 l)) && (66 <=? length (skipn 6 l')))
      || ((length (skipn 6 l) <=? 66) && (length (skipn 6 l') <=? 66)))%nat.

Definition seq_variantb (l l' : line) : bool :=
  leqb l l'
  || ((length l <? 7) && (length l' <? 7))%nat
  || (same_codeb l l' && Bool.eqb (blank l) (blank l')
      && Bool.eqb (directive_word (strip l)) (directive_word (strip l'))).

Lemma same_codeb_sound : forall l l', same_codeb l l' = true -> same_code l l'.
Proof.
  intros l l' H. unfold same_codeb in H.
  apply andb_true_iff in H as [H H4]. apply andb_true_iff in H as [H H3]. apply andb_true_iff in H as [H1 H2].
  apply Nat.leb_le in H1, H2. apply leqb_eq in H3.
  exists (firstn 6 l), (firstn 6 l'), (firstn 66 (skipn 6 l)), (skipn 66 (skipn 6 l)), (skipn 66 (skipn 6 l')).
  split; [rewrite !firstn_skipn; reflexivity|]. split; [rewrite H3, !firstn_skipn; reflexivity|].
  split; [apply firstn_length_le, Nat.lt_le_incl, H1|]. split; [apply firstn_length_le, Nat.lt_le_incl, H2|].
  split.
  - intros E. apply (f_equal (@length N)) in E. rewrite firstn_length, skipn_length in E. cbn [length] in E. lia.
  - apply orb_true_iff in H4 as [H4|H4]; apply andb_true_iff in H4 as [A B]; apply Nat.leb_le in A, B.
    + left. rewrite firstn_length. apply Nat.min_l, A.
    + right. split; apply skipn_all2; assumption.
Qed.

Lemma seq_variantb_sound : forall l l', seq_variantb l l' = true -> seq_variant l l'.
Proof.
  intros l l' H. unfold seq_variantb in H. apply orb_true_iff in H as [H|H]; [apply orb_true_iff in H as [H|H]|].
  - left. apply leqb_eq. exact H.
  - right. left. apply andb_true_iff in H as [A B]. apply Nat.ltb_lt in A, B. split; assumption.
  - right. right. apply andb_true_iff in H as [H D]. apply andb_true_iff in H as [C B].
    split; [apply same_codeb_sound; exact C|]. split; [apply eqb_prop; exact B|apply eqb_prop; exact D].
Qed.

Fixpoint areasb (s s' : list line) : bool :=
  match s, s' with
  | [], [] => true
  | l :: r, l' :: r' => seq_variantb l l' && areasb r r'
  | _, _ => false
  end.

Lemma areasb_sound : forall s s', areasb s s' = true -> Forall2 seq_variant s s'.
Proof.
  induction s as [|l r IH]; intros [|l' r'] H; cbn [areasb] in H; try discriminate; [constructor|].
  apply andb_true_iff in H as [A B]. constructor; [apply seq_variantb_sound; exact A|apply IH; exact B].
Qed.

Fixpoint insertedb (P : line -> bool) (s s' : list line) : bool :=
  match s' with
  | [] => match s with [] => true | _ :: _ => false end
  | l' :: r' =>
      match s with
      | l :: r => if leqb l l' then insertedb P r r' else P l' && insertedb P s r'
      | [] => P l' && insertedb P [] r'
      end
  end.

Lemma insertedb_sound : forall P s' s, insertedb P s s' = true -> inserted P s s'.
Proof.
  intros P. induction s' as [|l' r' IH]; intros s H; cbn [insertedb] in H.
  - destruct s; [apply ins_nil|discriminate].
  - destruct s as [|l r].
    + apply andb_true_iff in H as [A B]. apply ins_add; [exact A|apply IH; exact B].
    + destruct (leqb l l') eqn:E.
      * apply leqb_eq in E. subst l'. apply ins_keep. apply IH. exact H.
      * apply andb_true_iff in H as [A B]. apply ins_add; [exact A|apply IH; exact B].
Qed.

(* one step of [decorated], tried in this order: other areas, lines added, lines taken away *)
Definition stepb (s s' : list line) : bool := areasb s s' || insertedb plain_noise s s' || insertedb plain_noise s' s.

Fixpoint chainb (s : list line) (chain : list (list line)) : bool :=
  match chain with
  | [] => true
  | s' :: rest => stepb s s' && chainb s' rest
  end.

Lemma chainb_sound : forall chain s, chainb s chain = true -> decorated s (last chain s).
Proof.
  induction chain as [|s' rest IH]; intros s H; [apply dec_same|].
  cbn [chainb] in H. apply andb_true_iff in H as [A B].
  assert (L : last (s' :: rest) s = last rest s').
  { clear. destruct rest as [|x r]; [reflexivity|]. change (last (s' :: x :: r) s) with (last (x :: r) s).
    revert x. induction r as [|y r IHr]; intros x; [reflexivity|]. exact (IHr y). }
  rewrite L. specialize (IH s' B). unfold stepb in A.
  apply orb_true_iff in A as [A|A]; [apply orb_true_iff in A as [A|A]|].
  - apply (dec_areas s s'); [apply areasb_sound; exact A|exact IH].
  - apply (dec_add s s'); [apply insertedb_sound; exact A|exact IH].
  - apply (dec_drop s s'); [apply insertedb_sound; exact A|exact IH].
Qed.

Lemma text_chain_sound : forall (a b : str) chain,
  chainb (lines_of_text a) chain = true -> last chain (lines_of_text a) = lines_of_text b -> text_decorated a b.
Proof. intros a b chain H E. unfold text_decorated. rewrite <- E. apply chainb_sound. exact H. Qed.
