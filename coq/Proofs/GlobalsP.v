(* Lemmas for C11: with the modes of the repaired tree every output of the state machine of
   Model/Globals.v is the same from every reachable state; with either old mode it is not. *)
From Coq Require Import NArith List Bool.
Import ListNotations.
Require Import SR.Base.Res SR.Model.Globals.
(* The definitions that occur in theorem statements (history_independent_for, fragment, fname ...) are in Spec/GlobalsWf.v. *)
Require Export SR.Spec.GlobalsWf.

(* what every reachable state satisfies: nobody has put decimal into SchemaMaker.ATOMIC *)
Definition inv (g : globals) : Prop := atomic_has_decimal g = false.

Lemma inv_init : inv init.
Proof. reflexivity. Qed.

Lemma inv_step : forall g o, inv g -> inv (fst (step_m fixed_modes g o)).
Proof.
  intros g o H. unfold inv in *.
  destruct o; cbn [step_m fst ext_made fixed_modes m_ext_mutates m_reset set_count set_decimal set_navs
                   atomic_has_decimal]; try assumption.
  destruct keep; cbn [set_navs atomic_has_decimal]; assumption.
Qed.

Lemma inv_run : forall h g, inv g -> inv (run_m fixed_modes g h).
Proof.
  induction h as [|o h IH]; intros g H; cbn [run_m]; [assumption|].
  apply IH. apply inv_step. assumption.
Qed.

Lemma out_indep : forall g1 g2 o, inv g1 -> inv g2 ->
  snd (step_m fixed_modes g1 o) = snd (step_m fixed_modes g2 o).
Proof.
  intros g1 g2 o H1 H2. unfold inv in *.
  destruct o; cbn [step_m snd start_count fixed_modes m_reset m_ext_mutates]; try reflexivity.
  rewrite H1, H2. reflexivity.
Qed.

Lemma outs_indep : forall qs g1 g2, inv g1 -> inv g2 ->
  outs_m fixed_modes g1 qs = outs_m fixed_modes g2 qs.
Proof.
  induction qs as [|o qs IH]; intros g1 g2 H1 H2; cbn [outs_m]; [reflexivity|].
  rewrite (out_indep g1 g2 o H1 H2). f_equal.
  apply IH; apply inv_step; assumption.
Qed.

Lemma fixed_independent : history_independent_for fixed_modes.
Proof.
  intros h qs. apply outs_indep; [apply inv_run|]; apply inv_init.
Qed.

(* the tree under test has the repaired modes: this is where a change of Gen/GlobalsParams.v breaks the proof *)
Lemma gen_is_fixed : gen_modes = fixed_modes.
Proof. reflexivity. Qed.

Lemma gen_independent : forall (h qs : list op), outs (run init h) qs = outs init qs.
Proof.
  unfold outs, run. rewrite gen_is_fixed. exact fixed_independent.
Qed.

Lemma gen_independent_one : forall (h : list op) (q : op), out_of (run init h) q = out_of init q.
Proof.
  intros h q. pose proof (gen_independent h [q]) as H. unfold outs in H. cbn [outs_m] in H.
  unfold out_of, step. injection H as H. exact H.
Qed.

Lemma fragment_once_any : forall m,
  outs_m m init [ParseCopybook fragment] = [ONames (Ok [fname 1; fname 2])].
Proof. intros [r e]. destruct r; vm_compute; reflexivity. Qed.

Lemma decimal_alone_any : forall m,
  outs_m m init [LoadSchema [decimal_name]] = [OLoad (Err ValueError)].
Proof. intros [r e]. vm_compute. reflexivity. Qed.

Lemma no_reset_refuted : forall ext, ~ history_independent_for {| m_reset := false; m_ext_mutates := ext |}.
Proof.
  intros ext H.
  specialize (H [ParseCopybook fragment] [ParseCopybook fragment]).
  destruct ext; vm_compute in H; discriminate H.
Qed.

Lemma ext_mutates_refuted : forall rs, ~ history_independent_for {| m_reset := rs; m_ext_mutates := true |}.
Proof.
  intros rs H.
  specialize (H [MakeExtendedMaker] [LoadSchema [decimal_name]]).
  destruct rs; vm_compute in H; discriminate H.
Qed.
