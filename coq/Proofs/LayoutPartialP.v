(* Lemmas for C10d: the navigator constructor with a PARTIAL counter decoder (Model/LayoutPartial.v).
   The partial walk is the walk of ANY total decoder that completes the partial one on the counter fields that walk
   consults, preceded by a pre-pass over those fields that stops at the first one the partial decoder rejects
   (walkvp_general; both sides evaluate the same rules of Gen/LayoutParams.v, whatever they are).  Its two instances: the
   completion by 0, dtot (walkvp_prepass), and a total decoder on whose counters the partial one never fails (walkvp_agree).
   From a navigator whose tables have ODO-free items - every navigator of the ODO family (wfo) - partial and total
   navigation steps coincide, which carries the theorems of Proofs/LayoutValueOdoP.v over to the partial constructor. *)
From Coq Require Import List.
Import ListNotations.
Require Import SR.Base.Res SR.Spec.Layout SR.Model.LayoutRule SR.Gen.LayoutParams SR.Model.Layout SR.Model.LayoutValue SR.Spec.Coherence.
Require Import SR.Model.LayoutPartial.
Require Import SR.Proofs.LayoutValueP SR.Proofs.LayoutP SR.Proofs.LayoutOdoP SR.Proofs.LayoutValueOdoP.
Open Scope nat_scope.

Section P.
  Variable B : Type.
  Variable dcountp : list B -> res nat.
  Variable r : list B.

  Lemma first_err_app : forall a b,
    first_err dcountp (a ++ b) = match first_err dcountp a with Some e => Some e | None => first_err dcountp b end.
  Proof.
    induction a as [|x a IH]; intros b; [reflexivity|]. cbn [app first_err].
    destruct (dcountp x); [apply IH|reflexivity].
  Qed.

  Lemma first_err_none_iff : forall l,
    first_err dcountp l = None <-> (forall bs, In bs l -> exists n, dcountp bs = Ok n).
  Proof.
    induction l as [|x l IH]; cbn [first_err]; split.
    - intros _ bs [].
    - reflexivity.
    - destruct (dcountp x) as [n|e] eqn:E; [|discriminate]. intros H bs [ <- |Hb]; [now exists n|]. now apply IH.
    - intros H. destruct (H x (or_introl eq_refl)) as [n Hn]. rewrite Hn. apply IH. intros bs Hb. apply H. now right.
  Qed.

  Lemma first_err_some : forall l e, first_err dcountp l = Some e ->
    exists pre bs post, l = pre ++ bs :: post /\ dcountp bs = Err e /\ (forall b, In b pre -> exists n, dcountp b = Ok n).
  Proof.
    induction l as [|x l IH]; cbn [first_err]; intros e H; [discriminate|].
    destruct (dcountp x) as [n|e0] eqn:E.
    - destruct (IH e H) as (pre & bs & post & -> & Hb & Hpre). exists (x :: pre), bs, post. repeat split; auto.
      intros b [ <- |Hin]; [now exists n|now apply Hpre].
    - inversion H; subst. exists [], x, l. repeat split; auto. intros b [].
  Qed.

  Lemma first_err_ext : forall (f g : nat * nat -> list B) l,
    (forall p, In p l -> dcountp (f p) = dcountp (g p)) ->
    first_err dcountp (map f l) = first_err dcountp (map g l).
  Proof.
    induction l as [|x l IH]; intros H; [reflexivity|]. cbn [map first_err].
    rewrite (H x (or_introl eq_refl)). rewrite IH; [reflexivity|]. intros p Hp. apply H. now right.
  Qed.

  Definition FE (l : list (nat * nat)) : option exn := first_err dcountp (map (field_of r) l).

  Lemma FE_app : forall a b, FE (a ++ b) = match FE a with Some e => Some e | None => FE b end.
  Proof. intros a b. unfold FE. rewrite map_app. apply first_err_app. Qed.

  Lemma FE_nil : FE [] = None.
  Proof. reflexivity. Qed.
End P.

Section Agree.
  Variable B : Type.
  Variable dcountp : list B -> res nat.
  Variable dcount : list B -> nat.
  Variable r : list B.

  Definition completes (l : list (nat * nat)) : Prop :=
    forall p n, In p l -> dcountp (field_of r p) = Ok n -> dcount (field_of r p) = n.

  Lemma completes_app : forall a b, completes (a ++ b) -> completes a /\ completes b.
  Proof. intros a b H. split; intros p n Hp; apply H, in_or_app; [now left|now right]. Qed.

  (* the partial walk raises the exception of the first counter field, in walk order, that the partial decoder rejects -
     everything before it went as in the walk of dcount - and is the walk of dcount if there is none *)
  Lemma walkvp_general :
    (forall s st an, completes (cpos dcount r s st an) ->
       walkvp dcountp r s st an =
       match FE B dcountp r (cpos dcount r s st an) with Some e => Err e | None => walkv dcount r s st an end)
    /\ (forall ps off an, completes (cpos_props dcount r ps off an) ->
       walkvp_props dcountp r ps off an =
       match FE B dcountp r (cpos_props dcount r ps off an) with Some e => Err e | None => walkv_props dcount r ps off an end)
    /\ (forall alts st an, completes (cpos_alts dcount r alts st an) ->
       walkvp_alts dcountp r alts st an =
       match FE B dcountp r (cpos_alts dcount r alts st an) with Some e => Err e | None => walkv_alts dcount r alts st an end).
  Proof.
    apply js_props_alts_ind.
    - intros a sz st an _. reflexivity.
    - intros a n its IH st an H. cbn [walkvp walkv cpos] in *.
      (* both walks branch on the same generated value, so the rule itself need not be known *)
      destruct (dispatch CArray) as [[]|]; try reflexivity.
      destruct (arr_count n) as [cnt|e]; [|reflexivity].
      rewrite (IH _ _ H). destruct (FE B dcountp r _); reflexivity.
    - intros a c its IH st an H. cbn [walkvp walkv cpos] in *.
      destruct (dispatch CDependsOn) as [[]|]; [reflexivity| | |reflexivity|reflexivity|reflexivity|reflexivity].
      + (* the DependsOnArraySchema case: the counter is the first field of the pre-pass *)
        unfold wodo_countp, wodo_count, odo_cpos in *. destruct odo_count_src.
        * cbn [app] in *. rewrite (IH _ _ H). destruct (FE B dcountp r _); reflexivity.
        * destruct (wlookup (KName c) an) as [[ca cst csz| | | |]|]; try reflexivity.
          rewrite FE_app. unfold FE at 1. cbn [map first_err]. unfold field_of at 1. cbn [fst snd].
          destruct (dcountp (slice r cst (cst + csz))) as [n|e] eqn:E; [|reflexivity].
          pose proof (H (cst, csz) n (or_introl eq_refl) E) as Hn. unfold field_of in Hn. cbn [fst snd] in Hn. rewrite Hn in *.
          rewrite (IH _ _ (fun p m Hp => H p m (or_intror Hp))). destruct (FE B dcountp r _); reflexivity.
      + (* the ArraySchema case comes first *)
        destruct odo_as_arr_count as [cnt|e]; [|reflexivity].
        rewrite (IH _ _ H). destruct (FE B dcountp r _); reflexivity.
    - intros a ps IH st an H. cbn [walkvp walkv cpos] in *.
      (* cbn leaves the bodies of the other two mutual functions unfolded: fold puts their names back *)
      fold (walkvp_props dcountp r) (walkv_props dcount r) (cpos_props dcount r) in *.
      destruct (dispatch CObject) as [[]|]; try reflexivity.
      rewrite (IH _ _ H). destruct (FE B dcountp r _); reflexivity.
    - intros a alts IH st an H. cbn [walkvp walkv cpos] in *.
      fold (walkvp_alts dcountp r) (walkv_alts dcount r) (cpos_alts dcount r) in *.
      destruct (dispatch COneOf) as [[]|]; try reflexivity.
      destruct alts as [|s0 rest]; destruct (agg_empty one_agg) as [z|e]; try reflexivity;
        rewrite (IH _ _ H); destruct (FE B dcountp r _); reflexivity.
    - intros t st an _. reflexivity.
    - intros off an _. reflexivity.
    - intros k s IHs rest IHr off an H. cbn [walkvp_props walkv_props cpos_props] in *.
      fold (walkvp dcountp r) (walkvp_props dcountp r) (walkv dcount r) (walkv_props dcount r)
        (cpos dcount r) (cpos_props dcount r) in *.
      apply completes_app in H. destruct H as [Hs Hr]. rewrite FE_app, (IHs _ _ Hs).
      destruct (FE B dcountp r (cpos dcount r s _ an)) as [e|]; [reflexivity|].
      destruct (walkv dcount r s _ an) as [[pl an1]|e]; [|reflexivity].
      rewrite (IHr _ _ Hr). destruct (FE B dcountp r _); reflexivity.
    - intros st an _. reflexivity.
    - intros s IHs rest IHr st an H. cbn [walkvp_alts walkv_alts cpos_alts] in *.
      fold (walkvp dcountp r) (walkvp_alts dcountp r) (walkv dcount r) (walkv_alts dcount r)
        (cpos dcount r) (cpos_alts dcount r) in *.
      apply completes_app in H. destruct H as [Hs Hr]. rewrite FE_app, (IHs _ _ Hs).
      destruct (FE B dcountp r (cpos dcount r s st an)) as [e|]; [reflexivity|].
      destruct (walkv dcount r s st an) as [[l an1]|e]; [|reflexivity].
      rewrite (IHr _ _ Hr). destruct (FE B dcountp r _); reflexivity.
  Qed.

  (* where every counter the total walk reaches decodes to what dcount says, there is no pre-pass left *)
  Lemma decoded_fields : forall l, (forall p, In p l -> dcountp (field_of r p) = Ok (dcount (field_of r p))) ->
    completes l /\ FE B dcountp r l = None.
  Proof.
    intros l H. split.
    - intros p n Hp E. rewrite (H p Hp) in E. now injection E.
    - apply first_err_none_iff. intros bs Hb. apply in_map_iff in Hb. destruct Hb as [p [<- Hp]]. eauto.
  Qed.

  Theorem walkvp_agree : forall s st an,
    (forall bs, In bs (ctrs dcount r s st an) -> dcountp bs = Ok (dcount bs)) ->
    walkvp dcountp r s st an = walkv dcount r s st an.
  Proof.
    intros s st an H. destruct (decoded_fields (cpos dcount r s st an)) as [Hc Hn].
    - intros p Hp. apply H. unfold ctrs. now apply in_map.
    - rewrite (proj1 walkvp_general s st an Hc), Hn. reflexivity.
  Qed.
End Agree.

Section Prepass.
  Variable B : Type.
  Variable dcountp : list B -> res nat.
  Variable r : list B.

  Lemma completes_dtot : forall l, completes B dcountp (dtot dcountp) r l.
  Proof. intros l p n _ E. unfold dtot. now rewrite E. Qed.

  Theorem walkvp_prepass : forall s st an, walkvp dcountp r s st an = walk_prepass dcountp r s st an.
  Proof. intros s st an. exact (proj1 (walkvp_general B dcountp (dtot dcountp) r) s st an (completes_dtot _)). Qed.

  Theorem vnav_ofp_prepass : forall s, vnav_ofp dcountp r s = vnav_of_prepass dcountp r s.
  Proof.
    intros s. unfold vnav_ofp, vfrom_instancep, vnav_of_prepass, bad_counter, vnav_of, vfrom_instance.
    rewrite walkvp_prepass. unfold walk_prepass, nav_ctrs, ctrs, nav_cpos.
    destruct (first_err dcountp _); reflexivity.
  Qed.
End Prepass.

Section Nav.
  Variable B : Type.
  Variable dcountp : list B -> res nat.
  Variable r : list B.

  Theorem bad_counter_blocks : forall s e, bad_counter dcountp r s = Some e -> vnav_ofp dcountp r s = Err e.
  Proof. intros s e H. rewrite vnav_ofp_prepass. unfold vnav_of_prepass. now rewrite H. Qed.

  Theorem readable_iff : forall s v,
    vnav_ofp dcountp r s = Ok v <-> (bad_counter dcountp r s = None /\ vnav_of (dtot dcountp) r s = Ok v).
  Proof.
    intros s v. rewrite vnav_ofp_prepass. unfold vnav_of_prepass.
    destruct (bad_counter dcountp r s); [|tauto]. split; [discriminate|]. intros [H _]. discriminate.
  Qed.

  Theorem readable_iff_counters : forall s,
    (exists v, vnav_of (dtot dcountp) r s = Ok v) ->
    ((exists v, vnav_ofp dcountp r s = Ok v) <-> (forall bs, In bs (nav_ctrs (dtot dcountp) r s) -> exists n, dcountp bs = Ok n)).
  Proof.
    intros s [v0 H0]. unfold bad_counter in *. rewrite <- first_err_none_iff. split.
    - intros [v H]. now apply readable_iff in H.
    - intros H. exists v0. now apply readable_iff.
  Qed.

  Theorem unreadable_is_bad_counter : forall s e,
    (exists v, vnav_of (dtot dcountp) r s = Ok v) ->
    (vnav_ofp dcountp r s = Err e <-> bad_counter dcountp r s = Some e).
  Proof.
    intros s e [v0 H0]. rewrite vnav_ofp_prepass. unfold vnav_of_prepass.
    destruct (bad_counter dcountp r s) as [e'|]; [split; congruence|]. rewrite H0. split; discriminate.
  Qed.
End Nav.

(* the counter fields of the pre-pass in closed form, by computation from the rules of Gen/LayoutParams.v *)
Section Cpos.
  Variable B : Type.
  Variable dc : list B -> nat.

  Lemma cpos_arr : forall r a n its st an, cpos dc r (JArr a n its) st an = cpos dc r its st an.
  Proof. reflexivity. Qed.
  Lemma cpos_odo : forall r a c its st an,
    cpos dc r (JOdo a c its) st an =
    match wlookup (KName c) an with
    | Some (WAtom _ cst csz) => (cst, csz) :: cpos dc r its st an
    | _ => []
    end.
  Proof.
    intros r a c its st an. cbn [cpos]. unfold odo_cpos, wodo_count.
    destruct (wlookup (KName c) an) as [[ca cst csz| | | |]|]; reflexivity.
  Qed.
  Lemma cpos_obj : forall r a ps st an, cpos dc r (JObj a ps) st an = cpos_props dc r ps st an.
  Proof. reflexivity. Qed.
  Lemma cpos_one : forall r a alts st an, cpos dc r (JOne a alts) st an = cpos_alts dc r alts st an.
  Proof. intros r a [|s0 rest] st an; reflexivity. Qed.
  Lemma cpos_props_cons : forall r k p rest off an,
    cpos_props dc r (PCons k p rest) off an =
    cpos dc r p off an ++
    match walkv dc r p off an with
    | Err _ => []
    | Ok (pl, an1) => cpos_props dc r rest (off + wsize pl) (wreg (js_anchor p) pl an1)
    end.
  Proof. reflexivity. Qed.
  Lemma cpos_alts_cons : forall r s rest st an,
    cpos_alts dc r (ACons s rest) st an =
    cpos dc r s st an ++ match walkv dc r s st an with Err _ => [] | Ok (_, an1) => cpos_alts dc r rest st an1 end.
  Proof. reflexivity. Qed.
  Lemma nav_cpos_unf : forall r s, nav_cpos dc r s = cpos dc r s 0 [].
  Proof. reflexivity. Qed.

  Lemma cpos_odo_free : forall r,
    (forall s, odo_free s = true -> forall st an, cpos dc r s st an = [])
    /\ (forall ps, odo_free_props ps = true -> forall off an, cpos_props dc r ps off an = [])
    /\ (forall alts, odo_free_alts alts = true -> forall st an, cpos_alts dc r alts st an = []).
  Proof.
    intros r. apply js_props_alts_ind.
    - reflexivity.
    - intros a n its IH Hf st an. rewrite cpos_arr. now apply IH.
    - discriminate.
    - intros a ps IH Hf st an. rewrite cpos_obj. now apply IH.
    - intros a alts IH Hf st an. rewrite cpos_one. now apply IH.
    - reflexivity.
    - reflexivity.
    - intros k s IHs rest IHr Hf off an. cbn [odo_free_props] in Hf. apply andb_prop in Hf. destruct Hf as [H1 H2].
      rewrite cpos_props_cons, (IHs H1). destruct (walkv dc r s off an) as [[pl an1]|e]; [now apply IHr|reflexivity].
    - reflexivity.
    - intros s IHs rest IHr Hf st an. cbn [odo_free_alts] in Hf. apply andb_prop in Hf. destruct Hf as [H1 H2].
      rewrite cpos_alts_cons, (IHs H1). destruct (walkv dc r s st an) as [[l an1]|e]; [now apply IHr|reflexivity].
  Qed.

  Definition registered (ks : list id) (an : wanchors) (p : nat * nat) : Prop :=
    exists c a, In c ks /\ In (KName c, WAtom a (fst p) (snd p)) an.

  Lemma registered_sub : forall ks ks' an an' p, incl ks ks' -> incl an an' -> registered ks an p -> registered ks' an' p.
  Proof. intros ks ks' an an' p Hk Ha (c & a & Hc & Hin). exists c, a. auto. Qed.

  (* every counter field of the pre-pass is the location registered under the name an ODO table of the schema gives *)
  Lemma cpos_in_anchors : forall (r : list B),
    (forall s st an l an', walkv dc r s st an = Ok (l, an') ->
       forall p, In p (cpos dc r s st an) -> registered (odo_keys s) an' p)
    /\ (forall ps off an pls off' an', walkv_props dc r ps off an = Ok (pls, off', an') ->
       forall p, In p (cpos_props dc r ps off an) -> registered (odo_keys_props ps) an' p)
    /\ (forall alts st an als an', walkv_alts dc r alts st an = Ok (als, an') ->
       forall p, In p (cpos_alts dc r alts st an) -> registered (odo_keys_alts alts) an' p).
  Proof.
    intros r.
    assert (Hnode : forall ks a l an1 p, registered ks an1 p -> registered ks (wreg a l an1) p).
    { intros ks a l an1 p. apply registered_sub; [apply incl_refl|apply incl_wreg]. }
    apply (walkv_ind B dc r).
    - intros a sz st an p [].
    - intros a n its st an sub an1 _ IH p Hp. rewrite cpos_arr in Hp. auto.
    - intros a c its st an ca cst csz sub an1 El Es IH p Hp. rewrite cpos_odo, El in Hp. apply Hnode.
      destruct (proj1 (walkv_extends B dc r) _ _ _ _ _ Es) as [new ->]. destruct Hp as [ <- |Hp].
      + exists c, ca. split; [now left|]. apply in_or_app. right. now apply wlookup_in_key.
      + exact (registered_sub _ _ _ _ p (incl_tl c (incl_refl _)) (incl_refl _) (IH p Hp)).
    - intros a ps st an pls off an1 _ IH p Hp. rewrite cpos_obj in Hp. auto.
    - intros a s0 rest st an als an1 _ IH p Hp. rewrite cpos_one in Hp. auto.
    - intros t st an p [].
    - intros off an p [].
    - intros k s rest off an pl an1 rl off' an2 Es IHs Er IHr p Hp. rewrite cpos_props_cons, Es in Hp.
      destruct (proj1 (proj2 (walkv_extends B dc r)) _ _ _ _ _ _ Er) as [n2 ->]. apply in_app_or in Hp. destruct Hp as [Hp|Hp].
      + exact (registered_sub _ _ _ _ p (incl_appl _ (incl_refl _)) (incl_appr _ (incl_wreg _ _ _)) (IHs p Hp)).
      + exact (registered_sub _ _ _ _ p (incl_appr _ (incl_refl _)) (incl_refl _) (IHr p Hp)).
    - intros st an p [].
    - intros s rest st an l an1 ls an2 Es IHs Er IHr p Hp. rewrite cpos_alts_cons, Es in Hp.
      destruct (proj2 (proj2 (walkv_extends B dc r)) _ _ _ _ _ Er) as [n2 ->]. apply in_app_or in Hp. destruct Hp as [Hp|Hp].
      + exact (registered_sub _ _ _ _ p (incl_appl _ (incl_refl _)) (incl_appr _ (incl_refl _)) (IHs p Hp)).
      + exact (registered_sub _ _ _ _ p (incl_appr _ (incl_refl _)) (incl_refl _) (IHr p Hp)).
  Qed.

  (* a second record that gives every registered counter the same count is walked over the same counter fields *)
  Lemma cpos_counters : forall (r r' : list B),
    (forall s st an l an', walkv dc r s st an = Ok (l, an') -> counters_agree B dc r r' (odo_keys s) an' ->
       cpos dc r' s st an = cpos dc r s st an)
    /\ (forall ps off an pls off' an', walkv_props dc r ps off an = Ok (pls, off', an') ->
       counters_agree B dc r r' (odo_keys_props ps) an' -> cpos_props dc r' ps off an = cpos_props dc r ps off an)
    /\ (forall alts st an als an', walkv_alts dc r alts st an = Ok (als, an') ->
       counters_agree B dc r r' (odo_keys_alts alts) an' -> cpos_alts dc r' alts st an = cpos_alts dc r alts st an).
  Proof.
    intros r r'.
    assert (Hnode : forall ks a l an1, counters_agree B dc r r' ks (wreg a l an1) -> counters_agree B dc r r' ks an1).
    { intros ks a l an1. apply counters_agree_sub; [auto|apply incl_wreg]. }
    apply (walkv_ind B dc r).
    - reflexivity.
    - intros a n its st an sub an1 _ IH H. rewrite !cpos_arr. eauto.
    - intros a c its st an ca cst csz sub an1 El _ IH H. rewrite !cpos_odo, El. f_equal. apply IH.
      apply Hnode in H. revert H. apply counters_agree_sub; [intros c' Hc'; now right|auto].
    - intros a ps st an pls off an1 _ IH H. rewrite !cpos_obj. eauto.
    - intros a s0 rest st an als an1 _ IH H. rewrite !cpos_one. eauto.
    - reflexivity.
    - reflexivity.
    - intros k s rest off an pl an1 rl off' an2 Es IHs Er IHr H. rewrite !cpos_props_cons, Es.
      destruct (proj1 (proj2 (walkv_extends B dc r)) _ _ _ _ _ _ Er) as [n2 ->].
      assert (Hs : counters_agree B dc r r' (odo_keys s) an1).
      { revert H. apply counters_agree_sub; [intros c Hc; apply in_or_app; now left|apply incl_appr, incl_wreg]. }
      rewrite (IHs Hs), (proj1 (walkv_counters B dc r r') _ _ _ _ _ Es Hs). f_equal. apply IHr.
      revert H. apply counters_agree_sub; [intros c Hc; apply in_or_app; now right|auto].
    - reflexivity.
    - intros s rest st an l an1 ls an2 Es IHs Er IHr H. rewrite !cpos_alts_cons, Es.
      destruct (proj2 (proj2 (walkv_extends B dc r)) _ _ _ _ _ Er) as [n2 ->].
      assert (Hs : counters_agree B dc r r' (odo_keys s) an1).
      { revert H. apply counters_agree_sub; [intros c Hc; apply in_or_app; now left|apply incl_appr, incl_refl]. }
      rewrite (IHs Hs), (proj1 (walkv_counters B dc r r') _ _ _ _ _ Es Hs). f_equal. apply IHr.
      revert H. apply counters_agree_sub; [intros c Hc; apply in_or_app; now right|auto].
  Qed.
End Cpos.

Section Registered.
  Variable B : Type.
  Variable dcountp : list B -> res nat.
  Variable r : list B.

  Lemma nav_cpos_registered : forall s v0, vnav_of (dtot dcountp) r s = Ok v0 ->
    forall p, In p (nav_cpos (dtot dcountp) r s) -> registered (odo_keys s) (vn_an v0) p.
  Proof.
    intros s v0 H0 p Hp. rewrite nav_cpos_unf in Hp.
    exact (proj1 (cpos_in_anchors B (dtot dcountp) r) _ _ _ _ _ (vnav_of_ok _ _ _ _ H0) p Hp).
  Qed.

  Theorem vnav_ofp_counters : forall (r' : list B) s v0,
    vnav_ofp dcountp r s = Ok v0 ->
    (forall c a cst csz, In c (odo_keys s) -> In (KName c, WAtom a cst csz) (vn_an v0) ->
       dcountp (slice r cst (cst + csz)) = dcountp (slice r' cst (cst + csz))) ->
    vnav_ofp dcountp r' s = Ok v0.
  Proof.
    intros r' s v0 H Hc. apply readable_iff in H. destruct H as [Hbad H0].
    assert (Hag : counters_agree B (dtot dcountp) r r' (odo_keys s) (vn_an v0)).
    { intros c a cst csz Hk Hin. unfold dtot. now rewrite (Hc c a cst csz Hk Hin). }
    apply readable_iff. split; [|exact (nav_counters B (dtot dcountp) r r' s v0 H0 Hag)].
    rewrite <- Hbad. unfold bad_counter, nav_ctrs. pose proof (nav_cpos_registered s v0 H0) as Hreg.
    rewrite !nav_cpos_unf in *. rewrite (proj1 (cpos_counters B (dtot dcountp) r r') _ _ _ _ _ (vnav_of_ok _ _ _ _ H0) Hag).
    apply first_err_ext. intros p Hp. destruct (Hreg p Hp) as (c & a & Hk & Hin).
    unfold field_of. symmetry. exact (Hc c a (fst p) (snd p) Hk Hin).
  Qed.

  Lemma walkvp_odo_free : forall s st an, odo_free s = true -> walkvp dcountp r s st an = walkv (dtot dcountp) r s st an.
  Proof.
    intros s st an Hf. rewrite walkvp_prepass. unfold walk_prepass, ctrs. now rewrite (proj1 (cpos_odo_free B _ r) s Hf).
  Qed.

  Lemma vnav_indexp_ofree : forall v i, ofree_nav v -> vnav_indexp dcountp r v i = vnav_index (dtot dcountp) r v i.
  Proof.
    intros v i Hv. unfold vnav_indexp, vnav_index, vfrom_instancep, vfrom_instance.
    destruct (vn_loc v) as [a st sz|st sz isz cnt it sch|st sz ps|st sz alts|st t] eqn:El; try reflexivity.
    now rewrite (walkvp_odo_free _ _ _ (ofree_items v _ _ _ _ _ _ Hv El)).
  Qed.

  Lemma vnav_pathp_ofree : forall p v, ofree_nav v -> vnav_pathp dcountp r v p = vnav_path (dtot dcountp) r v p.
  Proof.
    induction p as [|s p IH]; intros v Hv; [reflexivity|]. cbn [vnav_pathp vnav_path].
    assert (Hs : vnav_stepp dcountp r v s = vnav_step (dtot dcountp) r v s).
    { destruct s as [k|i]; cbn [vnav_stepp vnav_step]; [reflexivity|]. now apply vnav_indexp_ofree. }
    rewrite Hs. destruct (vnav_step (dtot dcountp) r v s) as [v1|e] eqn:Es; [|reflexivity].
    apply IH. apply (ofree_path B (dtot dcountp) r [s] v v1 Hv). cbn [vnav_path]. now rewrite Es.
  Qed.

  (* the ODO family: what the partial constructor and the partial path return is what the completed decoder returns, and
     the navigators have ODO-free items in every table *)
  Lemma navp_total_odo : forall (e : SR.Spec.Layout.env) t p v0 v, wfo e [] t = true -> NoDup (ids t) ->
    vnav_ofp dcountp r (build t) = Ok v0 -> vnav_pathp dcountp r v0 p = Ok v ->
    vnav_of (dtot dcountp) r (build t) = Ok v0 /\ vnav_path (dtot dcountp) r v0 p = Ok v /\ ofree_nav v0 /\ ofree_nav v.
  Proof.
    intros e t p v0 v Hw Hnd H0 Hp. apply readable_iff in H0. destruct H0 as [_ H0].
    pose proof (proj2 (J_cobol_o B (dtot dcountp) r e t [] v0 v0 Hw Hnd H0 eq_refl)) as Ho.
    rewrite (vnav_pathp_ofree p v0 Ho) in Hp.
    split; [exact H0|]. split; [exact Hp|]. split; [exact Ho|]. exact (proj2 (J_cobol_o B (dtot dcountp) r e t p v0 v Hw Hnd H0 Hp)).
  Qed.
End Registered.
