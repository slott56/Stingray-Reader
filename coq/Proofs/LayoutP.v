(* Proofs for C01: the Location tree built from a well-formed record description puts every item
   at the bytes the COBOL rules assign it.  Trees here have no OCCURS DEPENDING ON (that is C06's
   theorem, Proofs/LayoutOdoP.v, on the same lemmas); REDEFINES anywhere among the children of a non-repeated group.
   The invariant is Placed (Good, saying how each child is reached); kids_loop is the children loop of a non-repeated
   group.  The induction over the tree is run once (W2_all), under the hypothesis on data names of C01c: distinct
   siblings, and the names the anchors map is consulted under occur once.  C01's hypothesis, every name distinct, is
   the case in which every name counts as consulted (W_all); layout_correct reads C01 off the Good root. *)
From Coq Require Import List Arith NArith Bool Lia.
Import ListNotations.
Require Import SR.Base.Res SR.Spec.Layout SR.Model.Layout SR.Spec.LayoutNamesWf.
Require Export SR.Proofs.ListFactsP.
(* The definitions that theorem statements (Props/) mention are in Spec/LayoutWf.v.  The parsing-only abbreviations let
   other files write them qualified, as LayoutP.wf, LayoutP.ids. *)
Require Export SR.Spec.LayoutWf.
Notation ids := SR.Spec.LayoutWf.ids (only parsing).
Notation wf := SR.Spec.LayoutWf.wf (only parsing).

Lemma existsb_eqb_ext u (a b : list id) : (In u a <-> In u b) -> existsb (N.eqb u) a = existsb (N.eqb u) b.
Proof.
  intros H. destruct (existsb (N.eqb u) b) eqn:E.
  - apply existsb_eqb_In, H, existsb_eqb_In, E.
  - destruct (existsb (N.eqb u) a) eqn:E'; [|reflexivity]. apply existsb_eqb_In, H, existsb_eqb_In in E'. congruence.
Qed.

Lemma find_fst_In {T} u (l : list (id * T)) p :
  find (fun q => N.eqb (fst q) u) l = Some p -> In (fst p) (map fst l) /\ fst p = u.
Proof.
  intros H. apply find_some in H. destruct H as [Hin E]. apply N.eqb_eq in E.
  split; [apply in_map, Hin|exact E].
Qed.

Lemma assoc_cons_eq i v l : assoc i ((i, v) :: l) = Some v.
Proof. cbn [assoc]. rewrite N.eqb_refl. reflexivity. Qed.
Lemma assoc_cons_neq i j v l : j <> i -> assoc i ((j, v) :: l) = assoc i l.
Proof. intros H. cbn [assoc]. destruct (N.eqb_spec j i); [contradiction|reflexivity]. Qed.

Lemma assoc_find t (seen : list (id * nat)) off :
  match find (fun p => N.eqb (fst p) t) seen with Some p => snd p | None => off end
  = match assoc t seen with Some v => v | None => off end.
Proof.
  induction seen as [|[j v] seen IH]; simpl; [reflexivity|].
  destruct (N.eqb j t); [reflexivity|exact IH].
Qed.

Lemma assoc_find_pair u (bases : list (id * nat)) :
  match find (fun p => N.eqb (fst p) u) bases with Some (_, ext) => Some ext | None => None end = assoc u bases.
Proof.
  induction bases as [|[j v] bases IH]; simpl; [reflexivity|].
  destruct (N.eqb j u); [reflexivity|exact IH].
Qed.

Lemma sub_add_cancel a b : a + b - a = b.
Proof. lia. Qed.

Lemma nodupb_NoDup l : nodupb l = true -> NoDup l.
Proof.
  induction l as [|a l IH]; cbn [nodupb]; intros H; [constructor|].
  apply andb_true_iff in H. destruct H as [H1 H2]. apply negb_true_iff in H1. constructor; [|apply IH; exact H2].
  intros Hin. apply existsb_eqb_In in Hin. congruence.
Qed.

Lemma NoDup_nodupb l : NoDup l -> nodupb l = true.
Proof.
  induction l as [|a l IH]; intros H; [reflexivity|]. inversion H as [|? ? Ha Hl]; subst. cbn [nodupb].
  rewrite (IH Hl), andb_true_r. apply negb_true_iff. destruct (existsb (N.eqb a) l) eqn:E; [|reflexivity].
  apply existsb_eqb_In in E. contradiction.
Qed.

Lemma key_eqb_eq a b : key_eqb a b = true <-> a = b.
Proof.
  destruct a as [x|x], b as [y|y]; simpl; split; intros H; try discriminate;
    try (apply N.eqb_eq in H; subst; reflexivity); try (injection H as ->; apply N.eqb_refl).
Qed.
Lemma key_eqb_refl a : key_eqb a a = true.
Proof. apply key_eqb_eq. reflexivity. Qed.
Lemma key_eqb_neq a b : a <> b -> key_eqb a b = false.
Proof. intros H. destruct (key_eqb a b) eqn:E; [apply key_eqb_eq in E; contradiction|reflexivity]. Qed.

Lemma lookup_app k d an :
  lookup k (d ++ an) = match lookup k d with Some l => Some l | None => lookup k an end.
Proof.
  induction d as [|[k' l] d IH]; simpl; [reflexivity|].
  destruct (key_eqb k k'); [reflexivity|exact IH].
Qed.

Lemma lookup_none k d : ~ In k (map fst d) -> lookup k d = None.
Proof.
  induction d as [|[k' l] d IH]; simpl; intros H; [reflexivity|].
  rewrite key_eqb_neq by (intros ->; apply H; left; reflexivity). apply IH. tauto.
Qed.

Lemma lookup_skip k d an : ~ In k (map fst d) -> lookup k (d ++ an) = lookup k an.
Proof. intros H. rewrite lookup_app, lookup_none by exact H. reflexivity. Qed.

Lemma lookup_cons_redef i u l an : lookup (KName i) ((KRedef u, l) :: an) = lookup (KName i) an.
Proof. reflexivity. Qed.
Lemma lookup_cons_same k l an : lookup k ((k, l) :: an) = Some l.
Proof. cbn [lookup]. rewrite key_eqb_refl. reflexivity. Qed.

Definition opt_list {T} (o : option T) : list T := match o with Some x => [x] | None => [] end.

(* every key a walk of s may register *)
Fixpoint keys_js (s : js) : list key :=
  opt_list (js_anchor s) ++
  match s with
  | JArr _ _ its | JOdo _ _ its => keys_js its
  | JObj _ ps => keys_props ps
  | JOne _ alts => keys_alts alts
  | _ => []
  end
with keys_props (ps : props) : list key :=
  match ps with PNil => [] | PCons _ s r => keys_js s ++ keys_props r end
with keys_alts (alts : jalts) : list key :=
  match alts with ANil => [] | ACons s r => keys_js s ++ keys_alts r end.

Lemma keys_js_anchor s : incl (opt_list (js_anchor s)) (keys_js s).
Proof. destruct s; cbn [keys_js]; apply incl_appl, incl_refl. Qed.

(* Location.__init__ under the current rules *)
Lemma loc_start_eq s e : loc_start s e = s.
Proof. reflexivity. Qed.
(* a constructor called with (start, start + z) stores the size z *)
Lemma loc_size_plus s z : loc_size s (s + z) = z.
Proof.
  change (loc_size s (s + z)) with (if s + z =? 0 then 0 else s + z - s).
  destruct (s + z =? 0) eqn:E; [apply Nat.eqb_eq in E|]; lia.
Qed.
(* the model keeps (start, size) and takes start + size for the end (lend): that is the end the constructor stores *)
Lemma loc_end_consistent s e : s <= e -> loc_end s e = loc_start s e + loc_size s e.
Proof.
  intros H.
  change (loc_end s e) with (if e =? 0 then s else e).
  change (loc_size s e) with (if e =? 0 then 0 else e - s). rewrite loc_start_eq.
  destruct (e =? 0) eqn:E; [apply Nat.eqb_eq in E|]; lia.
Qed.
(* a $ref placeholder takes no room *)
Lemma ref_size_0 s : ref_size s = 0.
Proof. reflexivity. Qed.
Lemma lsize_ref s k : lsize (LRef s k) = 0.
Proof. reflexivity. Qed.

Section Walk.
  Variable B : Type.
  Variable dcount : list B -> nat.
  Variable r : list B.
  Notation walk := (Layout.walk dcount r).
  Notation walk_props := (Layout.walk_props dcount r).
  Notation walk_alts := (Layout.walk_alts dcount r).

  (* unfolding equations (cbn does not refold the mutual fixpoint).  Model/Layout.v evaluates the rules that
     harness/t1_layout.py read in the source (Gen/LayoutParams.v); the equations below state what the walk is under
     those rules, in the form every later proof uses, and each is proved by computation from the
     generated parameters (plus loc_size_plus).  A source edit that changes a parameter makes them fail. *)
  Lemma walk_atom a sz st an : walk (JAtom a sz) st an = Ok (LAtom st sz, reg a (LAtom st sz) an).
  Proof.
    change (walk (JAtom a sz) st an)
      with (Ok (LAtom st (loc_size st (st + sz)), reg a (LAtom st (loc_size st (st + sz))) an) : res (loc * anchors)).
    rewrite loc_size_plus. reflexivity.
  Qed.
  Lemma walk_arr a n its st an :
    walk (JArr a n its) st an =
    match walk its st an with
    | Err e => Err e
    | Ok (sub, an1) => Ok (LArr st (lsize sub * n) (lsize sub) n sub its, reg a (LArr st (lsize sub * n) (lsize sub) n sub its) an1)
    end.
  Proof.
    change (walk (JArr a n its) st an)
      with (match walk its st an with
            | Err e => Err e
            | Ok (sub, an1) =>
                Ok (LArr st (loc_size st (st + lsize sub * n)) (lsize sub) n sub its,
                    reg a (LArr st (loc_size st (st + lsize sub * n)) (lsize sub) n sub its) an1)
            end).
    destruct (walk its st an) as [[sub an1]|ex]; [|reflexivity]. rewrite loc_size_plus. reflexivity.
  Qed.
  Lemma walk_odo a c its st an :
    walk (JOdo a c its) st an =
    match lookup (KName c) an with
    | None => Err KeyError
    | Some (LAtom cst csz) =>
        match walk its st an with
        | Err e => Err e
        | Ok (sub, an1) =>
            Ok (LArr st (lsize sub * dcount (slice r cst (cst + csz))) (lsize sub) (dcount (slice r cst (cst + csz))) sub its,
                reg a (LArr st (lsize sub * dcount (slice r cst (cst + csz))) (lsize sub) (dcount (slice r cst (cst + csz))) sub its) an1)
        end
    | Some _ => Err TypeError
    end.
  Proof.
    change (walk (JOdo a c its) st an)
      with (match odo_count dcount r c an with
            | Err e => Err e
            | Ok cnt =>
                match walk its st an with
                | Err e => Err e
                | Ok (sub, an1) =>
                    Ok (LArr st (loc_size st (st + lsize sub * cnt)) (lsize sub) cnt sub its,
                        reg a (LArr st (loc_size st (st + lsize sub * cnt)) (lsize sub) cnt sub its) an1)
                end
            end).
    change (odo_count dcount r c an)
      with (match lookup (KName c) an with
            | None => Err KeyError
            | Some (LAtom cst csz) => Ok (dcount (slice r cst (cst + csz)))
            | Some _ => Err TypeError
            end).
    destruct (lookup (KName c) an) as [[cst csz| | | |]|]; try reflexivity.
    destruct (walk its st an) as [[sub an1]|ex]; [|reflexivity]. rewrite loc_size_plus. reflexivity.
  Qed.
  Lemma walk_ref k st an : walk (JRef k) st an = Ok (LRef st k, an).
  Proof. reflexivity. Qed.
  Lemma walk_props_nil off an : walk_props PNil off an = Ok (LPNil, off, an).
  Proof. reflexivity. Qed.
  Lemma walk_props_cons k p rest off an :
    walk_props (PCons k p rest) off an =
    match walk p off an with
    | Err e => Err e
    | Ok (pl, an1) =>
        match walk_props rest (off + lsize pl) (reg (js_anchor p) pl an1) with
        | Err e => Err e
        | Ok (rl, off', an2) => Ok (LPCons k pl rl, off', an2)
        end
    end.
  Proof. reflexivity. Qed.
  Lemma walk_alts_nil st an : walk_alts ANil st an = Ok (LANil, an).
  Proof. reflexivity. Qed.
  Lemma walk_alts_cons s rest st an :
    walk_alts (ACons s rest) st an =
    match walk s st an with
    | Err e => Err e
    | Ok (l, an1) =>
        match walk_alts rest st an1 with
        | Err e => Err e
        | Ok (ls, an2) => Ok (LACons l ls, an2)
        end
    end.
  Proof. reflexivity. Qed.

  (* the running offset of the ObjectSchema loop ends at start + the sum of the property sizes, which is the size
     ObjectLocation.__init__ stores (obj_size_override); the proofs below use it as  off - st *)
  Lemma walk_props_offset :
    forall ps off an pls off' an', walk_props ps off an = Ok (pls, off', an') -> off' = off + sum_props pls.
  Proof.
    induction ps as [|k p rest IH]; intros off an pls off' an' H.
    - rewrite walk_props_nil in H. injection H as <- <- <-. cbn [sum_props]. lia.
    - rewrite walk_props_cons in H. destruct (walk p off an) as [[pl an1]|ex]; [|discriminate].
      destruct (walk_props rest (off + lsize pl) (reg (js_anchor p) pl an1)) as [[[rl o2] an2]|ex] eqn:E; [|discriminate].
      injection H as <- <- <-. apply IH in E. cbn [sum_props]. lia.
  Qed.
  (* ObjectLocation(schema, property_locations, start, offset) stores the size offset - start: either because
     ObjectLocation.__init__ sets self.size to the sum over the properties, or, without that
     statement, because Location.__init__ computes end - start; the proof accepts both spellings of the source *)
  Lemma obj_size_eq ps st an pls off an1 :
    walk_props ps st an = Ok (pls, off, an1) -> obj_size st off pls = off - st.
  Proof.
    intros E. apply walk_props_offset in E.
    first
      [ change (obj_size st off pls) with (sum_props pls); lia
      | change (obj_size st off pls) with (loc_size st off); subst off; rewrite loc_size_plus; lia ].
  Qed.
  Lemma walk_obj a ps st an :
    walk (JObj a ps) st an =
    match walk_props ps st an with
    | Err e => Err e
    | Ok (pls, off, an1) => Ok (LObj st (off - st) pls, reg a (LObj st (off - st) pls) an1)
    end.
  Proof.
    change (walk (JObj a ps) st an)
      with (match walk_props ps st an with
            | Err e => Err e
            | Ok (pls, off, an1) => Ok (LObj st (obj_size st off pls) pls, reg a (LObj st (obj_size st off pls) pls) an1)
            end).
    destruct (walk_props ps st an) as [[[pls off] an1]|ex] eqn:E; [|reflexivity].
    rewrite (obj_size_eq _ _ _ _ _ _ E). reflexivity.
  Qed.
  Lemma walk_one a s0 rest st an :
    walk (JOne a (ACons s0 rest)) st an =
    match walk_alts (ACons s0 rest) st an with
    | Err e => Err e
    | Ok (als, an1) => Ok (LOne st (max_size als) als, reg a (LOne st (max_size als) als) an1)
    end.
  Proof.
    change (walk (JOne a (ACons s0 rest)) st an)
      with (match walk_alts (ACons s0 rest) st an with
            | Err e => Err e
            | Ok (als, an1) =>
                Ok (LOne st (loc_size st (st + max_size als)) als, reg a (LOne st (loc_size st (st + max_size als)) als) an1)
            end).
    destruct (walk_alts (ACons s0 rest) st an) as [[als an1]|ex]; [|reflexivity]. rewrite loc_size_plus. reflexivity.
  Qed.
  Lemma walk_one_nil a st an : walk (JOne a ANil) st an = Err ValueError.
  Proof. reflexivity. Qed.

  (* NDNav under the current rules: from_instance starts at the start it is given (0 by default); name resolves a
     $ref placeholder through its referent; index refuses index >= item_count and re-walks one occurrence from
     start + item_size * index with a fresh LocationMaker; raw is instance[start : end] *)
  Lemma nav_of_unf s :
    nav_of dcount r s = match walk s 0 [] with Ok (l, an) => Ok (mknav l an) | Err e => Err e end.
  Proof. reflexivity. Qed.
  Lemma nav_name_unf v k :
    nav_name v k =
    match n_loc v with
    | LObj _ _ ps =>
        match find_prop k ps with
        | None => Err KeyError
        | Some (LRef _ t) => match lookup t (n_an v) with Some l => Ok (mknav l (n_an v)) | None => Err KeyError end
        | Some l => Ok (mknav l (n_an v))
        end
    | _ => Err TypeError
    end.
  Proof. reflexivity. Qed.
  Lemma nav_index_unf v i :
    nav_index dcount r v i =
    match n_loc v with
    | LArr st _ isz cnt _ sch =>
        if cnt <=? i then Err IndexError
        else match walk sch (st + isz * i) [] with
             | Ok (l, an) => Ok (mknav l an)
             | Err e => Err e
             end
    | _ => Err TypeError
    end.
  Proof. reflexivity. Qed.
  Lemma nav_raw_unf v : nav_raw r v = slice r (lstart (n_loc v)) (lend (n_loc v)).
  Proof. reflexivity. Qed.

  (* a walk only ever PREPENDS registrations, and only under keys that occur in the schema *)
  Definition extends (ks : list key) (an an' : anchors) : Prop :=
    exists d, an' = d ++ an /\ forall k, In k (map fst d) -> In k ks.

  Lemma extends_refl ks an : extends ks an an.
  Proof. exists []. split; [reflexivity|intros k []]. Qed.

  Lemma extends_trans ks1 ks2 ks a b c :
    extends ks1 a b -> extends ks2 b c -> incl ks1 ks -> incl ks2 ks -> extends ks a c.
  Proof.
    intros (d1 & -> & H1) (d2 & -> & H2) I1 I2. exists (d2 ++ d1). split; [rewrite app_assoc; reflexivity|].
    intros k Hk. rewrite map_app in Hk. apply in_app_or in Hk. destruct Hk as [Hk|Hk]; auto.
  Qed.

  Lemma extends_mono ks ks' a b : extends ks a b -> incl ks ks' -> extends ks' a b.
  Proof. intros (d & -> & H) I. exists d. split; [reflexivity|]. intros k Hk. apply I, H, Hk. Qed.
  Lemma extends_chain ks a b c : extends ks a b -> extends ks b c -> extends ks a c.
  Proof. intros H1 H2. eapply extends_trans; [exact H1|exact H2| |]; apply incl_refl. Qed.

  Lemma extends_reg a l ks an : incl (opt_list a) ks -> extends ks an (reg a l an).
  Proof.
    intros H. destruct a as [k|]; [|apply extends_refl].
    exists [(k, l)]. split; [reflexivity|]. intros k' [ <- |[]]. apply H. left. reflexivity.
  Qed.

  Lemma extends_lookup ks an an' k : extends ks an an' -> ~ In k ks -> lookup k an' = lookup k an.
  Proof. intros (d & -> & H) Hk. apply lookup_skip. intros Hin. apply Hk, H, Hin. Qed.

  (* a container registers its own anchor after whatever its contents registered *)
  Lemma extends_inner a l ks an an1 : extends ks an an1 -> extends (opt_list a ++ ks) an (reg a l an1).
  Proof.
    intros H. eapply extends_trans; [exact H|apply extends_reg, incl_refl|apply incl_appr, incl_refl|apply incl_appl, incl_refl].
  Qed.

  Lemma walk_extends :
    (forall s st an l an', walk s st an = Ok (l, an') -> extends (keys_js s) an an') /\
    (forall ps off an pls off' an', walk_props ps off an = Ok (pls, off', an') -> extends (keys_props ps) an an') /\
    (forall alts st an als an', walk_alts alts st an = Ok (als, an') -> extends (keys_alts alts) an an').
  Proof.
    apply js_props_alts_ind.
    - intros a sz st an l an' H. rewrite walk_atom in H. injection H as <- <-.
      apply extends_reg. cbn. rewrite app_nil_r. apply incl_refl.
    - intros a n its IH st an l an' H. rewrite walk_arr in H.
      destruct (walk its st an) as [[sub an1]|] eqn:E; [|discriminate]. injection H as <- <-.
      apply extends_inner. eapply IH. exact E.
    - intros a c its IH st an l an' H. rewrite walk_odo in H.
      destruct (lookup (KName c) an) as [[cst csz| | | |]|]; try discriminate.
      destruct (walk its st an) as [[sub an1]|] eqn:E; [|discriminate]. injection H as <- <-.
      apply extends_inner. eapply IH. exact E.
    - intros a ps IH st an l an' H. rewrite walk_obj in H.
      destruct (walk_props ps st an) as [[[pls off] an1]|] eqn:E; [|discriminate]. injection H as <- <-.
      apply extends_inner. eapply IH. exact E.
    - intros a alts IH st an l an' H.
      destruct alts as [|s0 rest]; [rewrite walk_one_nil in H; discriminate|]. rewrite walk_one in H.
      destruct (walk_alts (ACons s0 rest) st an) as [[als an1]|] eqn:E; [|discriminate]. injection H as <- <-.
      apply extends_inner. eapply IH. exact E.
    - intros t st an l an' H. rewrite walk_ref in H. injection H as <- <-. apply extends_refl.
    - intros off an pls off' an' H. rewrite walk_props_nil in H. injection H as <- <- <-. apply extends_refl.
    - intros k s IHs rest IHr off an pls off' an' H. rewrite walk_props_cons in H.
      destruct (walk s off an) as [[pl an1]|] eqn:E1; [|discriminate].
      destruct (walk_props rest (off + lsize pl) (reg (js_anchor s) pl an1)) as [[[rl o2] an2]|] eqn:E2; [|discriminate].
      injection H as <- <- <-.
      (* the loop registers the anchor of s once more *)
      assert (Hs : extends (keys_js s) an (reg (js_anchor s) pl an1)).
      { eapply extends_chain; [eapply IHs; exact E1|]. apply extends_reg, keys_js_anchor. }
      eapply extends_trans; [exact Hs|eapply IHr; exact E2| |]; cbn [keys_props];
        [apply incl_appl, incl_refl|apply incl_appr, incl_refl].
    - intros st an als an' H. rewrite walk_alts_nil in H. injection H as <- <-. apply extends_refl.
    - intros s IHs rest IHr st an als an' H. rewrite walk_alts_cons in H.
      destruct (walk s st an) as [[l an1]|] eqn:E1; [|discriminate].
      destruct (walk_alts rest st an1) as [[ls an2]|] eqn:E2; [|discriminate].
      injection H as <- <-.
      eapply extends_trans; [eapply IHs; exact E1|eapply IHr; exact E2| |]; cbn [keys_alts];
        [apply incl_appl, incl_refl|apply incl_appr, incl_refl].
  Qed.
End Walk.

(* build_json_schema's children loop, flattened *)
Fixpoint in_kids (x : item) (ks : items) : Prop :=
  match ks with INil => False | ICons y ys => x = y \/ in_kids x ys end.

Fixpoint app_items (a b : items) : items :=
  match a with INil => b | ICons x xs => ICons x (app_items xs b) end.

Lemma app_items_snoc a x xs : app_items a (ICons x xs) = app_items (app_items a (ICons x INil)) xs.
Proof. induction a as [|p ps IH]; cbn [app_items]; [reflexivity|]. rewrite IH. reflexivity. Qed.

Lemma in_kids_app y a b : in_kids y (app_items a b) <-> in_kids y a \/ in_kids y b.
Proof. induction a as [|p ps IH]; cbn [app_items in_kids]; [tauto|]. rewrite IH. tauto. Qed.

Lemma kid_alts_app tg a b : kid_alts tg (app_items a b) = kid_alts tg a ++ kid_alts tg b.
Proof. induction a as [|x xs IH]; cbn [app_items kid_alts app]; [reflexivity|]. rewrite IH. reflexivity. Qed.

Lemma kid_alts_cons tg x xs :
  kid_alts tg (ICons x xs) = (item_id x, union_of tg x, build_alt x) :: kid_alts tg xs.
Proof. reflexivity. Qed.

(* union_of (Model/Layout.v: a redefined item heads the union named after itself, any other redefiner belongs to the union
   it names) case by case *)
Lemma union_of_unf tg x :
  union_of tg x =
  match item_redef x with
  | Some t => if existsb (N.eqb (item_id x)) tg then Some (item_id x) else Some t
  | None => if existsb (N.eqb (item_id x)) tg then Some (item_id x) else None
  end.
Proof. unfold union_of. destruct (item_redef x), (existsb (N.eqb (item_id x)) tg); reflexivity. Qed.

Definition redefines (u : id) (y : item) : bool :=
  match item_redef y with Some u' => N.eqb u u' | None => false end.

Lemma redefines_spec u y : redefines u y = true <-> item_redef y = Some u.
Proof.
  unfold redefines. destruct (item_redef y) as [u'|]; [|easy].
  rewrite N.eqb_eq. split; congruence.
Qed.

Lemma alts_red_cons u y ys :
  alts_red u (ICons y ys) = if redefines u y then ACons (build_alt y) (alts_red u ys) else alts_red u ys.
Proof. unfold redefines. cbn [alts_red]. destruct (item_redef y); reflexivity. Qed.

Lemma alts_of_app u a b : alts_of u (a ++ b) =
  (fix cat (p q : jalts) : jalts := match p with ANil => q | ACons s r => ACons s (cat r q) end)
    (alts_of u a) (alts_of u b).
Proof.
  induction a as [|[[i o] s] a IH]; cbn [alts_of app]; [reflexivity|].
  destruct o as [u'|]; [destruct (N.eqb u u')|]; rewrite IH; reflexivity.
Qed.

Definition no_member (tg : list id) (u : id) (a : items) : Prop :=
  forall y, in_kids y a -> union_of tg y <> Some u.

Lemma alts_of_no_member tg u a : no_member tg u a -> alts_of u (kid_alts tg a) = ANil.
Proof.
  induction a as [|x xs IH]; intros H; [reflexivity|].
  rewrite kid_alts_cons. cbn [alts_of].
  assert (Hx : union_of tg x <> Some u) by (apply H; left; reflexivity).
  assert (Hxs : no_member tg u xs) by (intros y Hy; apply H; right; exact Hy).
  destruct (union_of tg x) as [u'|]; [|apply IH; exact Hxs].
  destruct (N.eqb_spec u u'); [congruence|apply IH; exact Hxs].
Qed.

(* the redefiners of u in xs, when xs holds no other member of union u *)
Lemma alts_of_redefiners tg u xs :
  (forall y, in_kids y xs -> item_redef y = None -> item_id y <> u) ->
  (forall y, in_kids y xs -> item_redef y <> None -> existsb (N.eqb (item_id y)) tg = false) ->
  alts_of u (kid_alts tg xs) = alts_red u xs.
Proof.
  induction xs as [|y ys IH]; intros H Hnt; [reflexivity|].
  rewrite kid_alts_cons. cbn [alts_of alts_red]. rewrite union_of_unf.
  rewrite IH by (intros z Hz; (apply H || apply Hnt); right; exact Hz).
  destruct (item_redef y) as [u'|] eqn:Er.
  - rewrite (Hnt y) by (try (left; reflexivity); rewrite Er; discriminate). reflexivity.
  - assert (Hy : item_id y <> u) by (apply H; [left; reflexivity|exact Er]).
    destruct (existsb (N.eqb (item_id y)) tg); [|reflexivity].
    destruct (N.eqb_spec u (item_id y)); [congruence|reflexivity].
Qed.

Lemma kid_ids_app a b : kid_ids (app_items a b) = kid_ids a ++ kid_ids b.
Proof. induction a as [|x xs IH]; cbn [app_items kid_ids app]; [reflexivity|]. rewrite IH. reflexivity. Qed.

Lemma in_kids_ids y ks : in_kids y ks -> In (item_id y) (kid_ids ks).
Proof.
  induction ks as [|x xs IH]; cbn [in_kids kid_ids]; [tauto|].
  intros [ -> |H]; [left; reflexivity|right; apply IH; exact H].
Qed.

(* the sibling structure alone: every redefiner names an earlier non-redefining sibling *)
Fixpoint sib_ok (bases : list id) (ks : items) : bool :=
  match ks with
  | INil => true
  | ICons x xs =>
      match item_redef x with
      | Some u => existsb (N.eqb u) bases && sib_ok bases xs
      | None => sib_ok (item_id x :: bases) xs
      end
  end.

Lemma unions_sib_ok e bases ks : unions_ok e bases ks = true -> sib_ok (map fst bases) ks = true.
Proof.
  revert bases. induction ks as [|x xs IH]; intros bases H; [reflexivity|].
  cbn [unions_ok sib_ok] in *. destruct (item_redef x) as [u|].
  - apply andb_true_iff in H. destruct H as [H Hxs]. apply andb_true_iff in H. destruct H as [_ Hf].
    destruct (find (fun p => N.eqb (fst p) u) bases) as [[u' ext]|] eqn:Ef; [|discriminate].
    destruct (find_fst_In u bases _ Ef) as [Hin Heq]. cbn [fst] in *. subst u'.
    apply andb_true_iff. split; [apply existsb_eqb_In; exact Hin|apply IH; exact Hxs].
  - apply andb_true_iff in H. destruct H as [_ Hxs]. apply (IH _ Hxs).
Qed.

Lemma assemble_cons all em i o s rest :
  assemble all em ((i, o, s) :: rest) =
  match o with
  | None => PCons (KName i) s (assemble all em rest)
  | Some u =>
      if existsb (N.eqb u) em
      then PCons (KName i) (JRef (KName i)) (assemble all em rest)
      else PCons (KRedef u) (JOne (Some (KRedef u)) (alts_of u all))
             (PCons (KName i) (JRef (KName i)) (assemble all (u :: em) rest))
  end.
Proof. destruct o; reflexivity. Qed.

Lemma redef_targets_iff ks u : In u (redef_targets ks) <-> exists y, in_kids y ks /\ item_redef y = Some u.
Proof.
  induction ks as [|x xs IH]; cbn [redef_targets in_kids]; [split; [intros []|intros (y & [] & _)]|].
  assert (Hx : In u (redef_targets xs) \/ item_redef x = Some u <-> exists y, (y = x \/ in_kids y xs) /\ item_redef y = Some u).
  { rewrite IH. split.
    - intros [(y & Hy & E)|E]; [exists y|exists x]; tauto.
    - intros (y & [ -> |Hy] & E); [right; exact E|left; exists y; tauto]. }
  rewrite <- Hx. destruct (item_redef x) as [t|]; cbn [In]; [|split; [tauto|intros [H|H]; [exact H|discriminate]]].
  split; [intros [ -> |H]; tauto|intros [H|H]; [tauto|left; congruence]].
Qed.

Lemma redef_targets_spec ks y u : in_kids y ks -> item_redef y = Some u -> In u (redef_targets ks).
Proof. intros Hy E. apply redef_targets_iff. exists y. split; assumption. Qed.

Lemma sib_ok_targets : forall ks bases, sib_ok bases ks = true -> forall u, In u (redef_targets ks) ->
  In u bases \/ exists z, in_kids z ks /\ item_redef z = None /\ item_id z = u.
Proof.
  induction ks as [|x xs IH]; intros bases H u Hu; [destruct Hu|].
  cbn [sib_ok redef_targets] in *. destruct (item_redef x) as [t|] eqn:Er.
  - apply andb_true_iff in H. destruct H as [Ht Hxs]. destruct Hu as [ <- |Hu].
    + left. apply existsb_eqb_In. exact Ht.
    + destruct (IH bases Hxs u Hu) as [Hb|(z & Hz & Ez & Ei)]; [left; exact Hb|].
      right. exists z. split; [right; exact Hz|split; assumption].
  - destruct (IH _ H u Hu) as [[ <- |Hb]|(z & Hz & Ez & Ei)].
    + right. exists x. split; [left; reflexivity|split; [exact Er|reflexivity]].
    + left. exact Hb.
    + right. exists z. split; [right; exact Hz|split; assumption].
Qed.

Lemma in_kids_id_inj : forall ks y z, NoDup (kid_ids ks) -> in_kids y ks -> in_kids z ks -> item_id y = item_id z -> y = z.
Proof.
  induction ks as [|x xs IH]; intros y z Hnd Hy Hz E; [destruct Hy|].
  cbn [kid_ids in_kids] in *. apply NoDup_cons_iff in Hnd. destruct Hnd as [Hx Hnd].
  destruct Hy as [ -> |Hy], Hz as [ -> |Hz].
  - reflexivity.
  - exfalso. apply Hx. rewrite E. apply in_kids_ids. exact Hz.
  - exfalso. apply Hx. rewrite <- E. apply in_kids_ids. exact Hy.
  - apply IH; assumption.
Qed.

(* among well-formed siblings no redefiner is itself redefined *)
Lemma redefiner_not_target ks : sib_ok [] ks = true -> NoDup (kid_ids ks) ->
  forall y, in_kids y ks -> item_redef y <> None -> ~ In (item_id y) (redef_targets ks).
Proof.
  intros Hs Hnd y Hy Hr Hin. destruct (sib_ok_targets ks [] Hs _ Hin) as [[]|(z & Hz & Ez & Ei)].
  assert (z = y) by (apply (in_kids_id_inj ks); assumption). subst z. contradiction.
Qed.

(* the side effect on the parent's ordered properties, flattened.  pre = the children already met, rem = those to come;
   bases = the non-redefiners among pre, em = those of them whose union has been emitted; tg = the redefinition targets
   of the whole sibling list, the same throughout the loop *)
Lemma assemble_flat_gen tg : forall rem pre bases em,
  (forall u, In u em <-> (In u bases /\ In u tg)) ->
  (forall y, in_kids y pre -> match item_redef y with Some u => In u bases | None => In (item_id y) bases end) ->
  (forall u, In u bases -> In u (kid_ids pre)) ->
  NoDup (kid_ids (app_items pre rem)) ->
  sib_ok bases rem = true ->
  (forall y u, in_kids y rem -> item_redef y = Some u -> In u tg) ->
  (forall u, In u tg -> exists y, in_kids y (app_items pre rem) /\ item_redef y = Some u) ->
  (forall y, in_kids y (app_items pre rem) -> item_redef y <> None -> ~ In (item_id y) tg) ->
  assemble (kid_alts tg (app_items pre rem)) em (kid_alts tg rem) = assemble_d rem.
Proof.
  induction rem as [|x xs IH]; intros pre bases em Hem Hpre Hbases Hnd Hsib Htg Hsrc Hnr; [reflexivity|].
  rewrite kid_alts_cons, assemble_cons. cbn [assemble_d]. cbn [sib_ok] in Hsib.
  assert (Hxpre : ~ In (item_id x) (kid_ids pre)).
  { rewrite kid_ids_app in Hnd. intros H. exact (NoDup_app_disj _ _ _ Hnd H (or_introl eq_refl)). }
  assert (Hxxs : ~ In (item_id x) (kid_ids xs)).
  { rewrite kid_ids_app in Hnd. apply NoDup_app_r, NoDup_cons_iff in Hnd. apply Hnd. }
  assert (Hnrb : forall y, in_kids y (app_items pre (ICons x xs)) -> item_redef y <> None ->
                          existsb (N.eqb (item_id y)) tg = false).
  { intros y Hy Hr. destruct (existsb (N.eqb (item_id y)) tg) eqn:E; [|reflexivity].
    apply existsb_eqb_In in E. destruct (Hnr y Hy Hr E). }
  (* x is named by a redefiner iff a LATER sibling names it *)
  assert (Hlocal : item_redef x = None -> existsb (N.eqb (item_id x)) tg = existsb (N.eqb (item_id x)) (redef_targets xs)).
  { intros Er. apply existsb_eqb_ext. split.
    - intros Ht. destruct (Hsrc _ Ht) as (y & Hy & Ey). apply in_kids_app in Hy. destruct Hy as [Hp|[ -> |Hx]].
      + specialize (Hpre y Hp). rewrite Ey in Hpre. destruct (Hxpre (Hbases _ Hpre)).
      + congruence.
      + eapply redef_targets_spec; eassumption.
    - intros Ht. apply redef_targets_iff in Ht. destruct Ht as (y & Hy & Ey). apply (Htg y); [right; exact Hy|exact Ey]. }
  (* the induction step once x has moved from rem to pre *)
  assert (Step : forall bases' em',
            (forall u, In u em' <-> (In u bases' /\ In u tg)) ->
            (match item_redef x with Some u => In u bases' | None => In (item_id x) bases' end) ->
            incl bases bases' -> (forall u, In u bases' -> u = item_id x \/ In u bases) ->
            sib_ok bases' xs = true ->
            assemble (kid_alts tg (app_items pre (ICons x xs))) em' (kid_alts tg xs) = assemble_d xs).
  { intros bases' em' H1 Hx Hincl Hback H4. rewrite app_items_snoc in *. apply (IH _ bases' em'); try assumption.
    - intros y Hy. apply in_kids_app in Hy. destruct Hy as [Hy|[ -> |[]]]; [|exact Hx].
      specialize (Hpre y Hy). destruct (item_redef y); apply Hincl, Hpre.
    - intros v Hv. rewrite kid_ids_app. apply in_or_app.
      destruct (Hback v Hv) as [ -> |Hb]; [right; left; reflexivity|left; apply Hbases, Hb].
    - intros y u Hy. apply Htg. right. exact Hy. }
  rewrite union_of_unf. destruct (item_redef x) as [u|] eqn:Er.
  - (* a redefiner: its union was emitted when the base was met *)
    rewrite (Hnrb x) by (try (apply in_kids_app; right; left; reflexivity); rewrite Er; discriminate).
    apply andb_true_iff in Hsib. destruct Hsib as [Hu Hxs]. apply existsb_eqb_In in Hu.
    assert (Hutg : In u tg) by (apply (Htg x u); [left; reflexivity|exact Er]).
    replace (existsb (N.eqb u) em) with true by (symmetry; apply existsb_eqb_In, Hem; split; assumption).
    f_equal. apply (Step bases em); try assumption; [apply incl_refl|intros v Hv; right; exact Hv].
  - rewrite <- (Hlocal eq_refl).
    assert (Hback : forall v, In v (item_id x :: bases) -> v = item_id x \/ In v bases) by (intros v [ <- |Hv]; tauto).
    destruct (existsb (N.eqb (item_id x)) tg) eqn:Et.
    + (* the redefined item: first member of its union *)
      apply existsb_eqb_In in Et.
      assert (Hnotem : existsb (N.eqb (item_id x)) em = false).
      { destruct (existsb (N.eqb (item_id x)) em) eqn:E; [|reflexivity].
        apply existsb_eqb_In, Hem in E. destruct (Hxpre (Hbases _ (proj1 E))). }
      rewrite Hnotem.
      assert (Halts : alts_of (item_id x) (kid_alts tg (app_items pre (ICons x xs)))
                      = ACons (build_alt x) (alts_red (item_id x) xs)).
      { rewrite kid_alts_app, alts_of_app, alts_of_no_member.
        - rewrite kid_alts_cons. cbn [alts_of]. unfold union_of. rewrite Er.
          replace (existsb (N.eqb (item_id x)) tg) with true by (symmetry; apply existsb_eqb_In; exact Et).
          rewrite N.eqb_refl. f_equal. apply alts_of_redefiners.
          + intros y Hy _ Heq. apply Hxxs. rewrite <- Heq. apply in_kids_ids. exact Hy.
          + intros y Hy Hr. apply Hnrb; [apply in_kids_app; right; right; exact Hy|exact Hr].
        - intros y Hy. specialize (Hpre y Hy). rewrite union_of_unf.
          assert (Hyx : Some (item_id y) <> Some (item_id x)).
          { intros E. injection E as E. apply Hxpre. rewrite <- E. apply in_kids_ids. exact Hy. }
          destruct (item_redef y) as [u'|].
          + destruct (existsb (N.eqb (item_id y)) tg); [exact Hyx|].
            intros E. injection E as ->. destruct (Hxpre (Hbases _ Hpre)).
          + destruct (existsb (N.eqb (item_id y)) tg); [exact Hyx|discriminate]. }
      rewrite Halts. f_equal. f_equal. apply (Step (item_id x :: bases) (item_id x :: em)); try assumption.
      * intros v. cbn [In]. rewrite Hem. split.
        -- intros [ <- |[H1 H2]]; [split; [left; reflexivity|exact Et]|split; [right; exact H1|exact H2]].
        -- intros [[ <- |H1] H2]; [left; reflexivity|right; split; assumption].
      * left. reflexivity.
      * apply incl_tl, incl_refl.
    + (* an ordinary child *)
      f_equal. apply (Step (item_id x :: bases) em); try assumption.
      * intros v. rewrite Hem. cbn [In]. split.
        -- intros [H1 H2]. split; [right; exact H1|exact H2].
        -- intros [[ <- |H1] H2]; [|split; assumption].
           apply existsb_eqb_In in H2. congruence.
      * left. reflexivity.
      * apply incl_tl, incl_refl.
Qed.

Lemma assemble_flat e ks :
  NoDup (kid_ids ks) -> unions_ok e [] ks = true ->
  assemble (kid_alts (redef_targets ks) ks) [] (kid_alts (redef_targets ks) ks) = assemble_d ks.
Proof.
  intros Hnd Hu. pose proof (unions_sib_ok e [] ks Hu) as Hsib.
  apply (assemble_flat_gen (redef_targets ks) ks INil [] []); try assumption.
  - intros u. cbn. tauto.
  - intros y [].
  - intros u [].
  - intros y u. apply redef_targets_spec.
  - intros u. apply redef_targets_iff.
  - apply redefiner_not_target; assumption.
Qed.

(* the keys a built schema may register: the names of the items, plain and as REDEFINES-name *)
Definition K (l : list id) : list key := map KName l ++ map KRedef l.

Lemma K_app a b k : In k (K (a ++ b)) <-> In k (K a) \/ In k (K b).
Proof.
  unfold K. rewrite !in_app_iff, !map_app, !in_app_iff. tauto.
Qed.
Lemma K_inv k l : In k (K l) -> exists j, In j l /\ (k = KName j \/ k = KRedef j).
Proof.
  unfold K. rewrite in_app_iff, !in_map_iff.
  intros [(j & E & H)|(j & E & H)]; exists j; split; auto.
Qed.
Lemma K_name l i : In (KName i) (K l) <-> In i l.
Proof.
  split.
  - intros H. apply K_inv in H. destruct H as (j & Hj & [E|E]); [injection E as ->; exact Hj|discriminate].
  - intros H. unfold K. apply in_or_app. left. apply in_map. exact H.
Qed.
Lemma K_redef l i : In (KRedef i) (K l) <-> In i l.
Proof.
  split.
  - intros H. apply K_inv in H. destruct H as (j & Hj & [E|E]); [discriminate|injection E as ->; exact Hj].
  - intros H. unfold K. apply in_or_app. right. apply in_map. exact H.
Qed.
Lemma K_disj a b k : NoDup (a ++ b) -> In k (K a) -> In k (K b) -> False.
Proof.
  intros Hnd Ha Hb. destruct k as [i|i].
  - apply K_name in Ha. apply K_name in Hb. exact (NoDup_app_disj _ _ i Hnd Ha Hb).
  - apply K_redef in Ha. apply K_redef in Hb. exact (NoDup_app_disj _ _ i Hnd Ha Hb).
Qed.
Lemma K_incl a b : incl a b -> incl (K a) (K b).
Proof.
  intros H k. unfold K. rewrite !in_app_iff, !in_map_iff.
  intros [(x & E & Hx)|(x & E & Hx)]; [left|right]; exists x; split; auto.
Qed.
Lemma K_own i l ks : incl l (K ks) -> incl (KName i :: l) (K (i :: ks)).
Proof.
  intros H k [ <- |Hk]; [apply K_name; left; reflexivity|]. apply (K_incl ks); [apply incl_tl, incl_refl|apply H, Hk].
Qed.

Lemma item_id_in_ids x : In (item_id x) (ids x).
Proof. destruct x; left; reflexivity. Qed.

Lemma in_kids_ids_incl y ks : in_kids y ks -> incl (ids y) (ids_kids ks).
Proof.
  induction ks as [|x xs IH]; cbn [in_kids ids_kids]; [tauto|].
  intros [ -> |H]; [apply incl_appl, incl_refl|apply incl_appr, IH, H].
Qed.

Lemma kids_share : forall xs y1 y2 i, in_kids y1 xs -> in_kids y2 xs -> In i (ids y1) -> In i (ids y2) ->
  NoDup (ids_kids xs) -> y1 = y2.
Proof.
  induction xs as [|x xs IH]; intros y1 y2 i H1 H2 I1 I2 Hnd; [destruct H1|]. cbn [ids_kids] in Hnd.
  destruct H1 as [ -> |H1], H2 as [ -> |H2].
  - reflexivity.
  - exfalso. apply (NoDup_app_disj _ _ i Hnd I1). eapply in_kids_ids_incl; eassumption.
  - exfalso. apply (NoDup_app_disj _ _ i Hnd I2). eapply in_kids_ids_incl; eassumption.
  - apply (IH y1 y2 i H1 H2 I1 I2). apply NoDup_app_r in Hnd. exact Hnd.
Qed.

Lemma kid_ids_incl ks : incl (kid_ids ks) (ids_kids ks).
Proof.
  induction ks as [|x xs IH]; cbn [kid_ids ids_kids]; intros i Hi; [contradiction|].
  destruct Hi as [ <- |Hi]; apply in_or_app; [left; apply item_id_in_ids|right; apply IH, Hi].
Qed.

Lemma K_ids_hd x xs : incl (K (ids x)) (K (ids_kids (ICons x xs))).
Proof. apply K_incl, incl_appl, incl_refl. Qed.
Lemma K_ids_tl x xs : incl (K (ids_kids xs)) (K (ids_kids (ICons x xs))).
Proof. apply K_incl, incl_appr, incl_refl. Qed.

Lemma keys_plain tg ks :
  (forall y, in_kids y ks -> incl (keys_js (build_alt y)) (K (ids y))) ->
  incl (keys_props (plain (kid_alts tg ks))) (K (ids_kids ks)).
Proof.
  induction ks as [|x xs IH]; intros H; [intros k []|].
  rewrite kid_alts_cons. cbn [plain keys_props]. apply incl_app.
  - eapply incl_tran; [apply H; left; reflexivity|apply K_ids_hd].
  - eapply incl_tran; [apply IH; intros y Hy; apply H; right; exact Hy|apply K_ids_tl].
Qed.

Lemma keys_alts_red u ks :
  (forall y, in_kids y ks -> incl (keys_js (build_alt y)) (K (ids y))) ->
  incl (keys_alts (alts_red u ks)) (K (ids_kids ks)).
Proof.
  induction ks as [|x xs IH]; intros H; [intros k []|].
  assert (Hxs : incl (keys_alts (alts_red u xs)) (K (ids_kids (ICons x xs)))).
  { eapply incl_tran; [apply IH; intros y Hy; apply H; right; exact Hy|apply K_ids_tl]. }
  rewrite alts_red_cons. destruct (redefines u x); [|exact Hxs].
  cbn [keys_alts]. apply incl_app; [|exact Hxs]. eapply incl_tran; [apply H; left; reflexivity|apply K_ids_hd].
Qed.

Lemma keys_assemble_d ks :
  (forall y, in_kids y ks -> incl (keys_js (build_alt y)) (K (ids y))) ->
  incl (keys_props (assemble_d ks)) (K (ids_kids ks)).
Proof.
  induction ks as [|x xs IH]; intros H; [intros k []|].
  assert (Hx : incl (keys_js (build_alt x)) (K (ids_kids (ICons x xs)))).
  { eapply incl_tran; [apply H; left; reflexivity|apply K_ids_hd]. }
  assert (Hxs : incl (keys_props (assemble_d xs)) (K (ids_kids (ICons x xs)))).
  { eapply incl_tran; [apply IH; intros y Hy; apply H; right; exact Hy|apply K_ids_tl]. }
  cbn [assemble_d]. destruct (item_redef x) as [u|]; [exact Hxs|].
  destruct (existsb (N.eqb (item_id x)) (redef_targets xs)); [|apply incl_app; assumption].
  cbn [keys_props keys_js js_anchor opt_list keys_alts app]. apply incl_cons; [apply K_ids_hd, K_redef, item_id_in_ids|].
  apply incl_app; [apply incl_app; [exact Hx|]|exact Hxs].
  eapply incl_tran; [apply keys_alts_red; intros y Hy; apply H; right; exact Hy|apply K_ids_tl].
Qed.

Lemma NoDup_ids_kid_ids ks : NoDup (ids_kids ks) -> NoDup (kid_ids ks).
Proof.
  induction ks as [|x xs IH]; cbn [ids_kids kid_ids]; intros H; [constructor|].
  constructor; [|apply IH; apply NoDup_app_r in H; exact H].
  intros Hin. apply (NoDup_app_disj _ _ (item_id x) H); [apply item_id_in_ids|apply kid_ids_incl, Hin].
Qed.

Lemma NoDup_ids_kid x ks : in_kids x ks -> NoDup (ids_kids ks) -> NoDup (ids x).
Proof.
  induction ks as [|y ys IH]; cbn [in_kids ids_kids]; [tauto|].
  intros [ -> |H] Hnd; [apply NoDup_app_l in Hnd; exact Hnd|apply IH; [exact H|apply NoDup_app_r in Hnd; exact Hnd]].
Qed.

Local Notation own y := (keys_js (build_alt y)).

Lemma keys_assemble_redefiner : forall x xs u, item_redef x = Some u ->
  keys_props (assemble_d (ICons x xs)) = keys_props (assemble_d xs).
Proof. intros x xs u H. cbn [assemble_d]. rewrite H. reflexivity. Qed.
Lemma keys_assemble_union : forall x xs, item_redef x = None -> existsb (N.eqb (item_id x)) (redef_targets xs) = true ->
  keys_props (assemble_d (ICons x xs)) =
  KRedef (item_id x) :: (own x ++ keys_alts (alts_red (item_id x) xs)) ++ keys_props (assemble_d xs).
Proof. intros x xs H1 H2. cbn [assemble_d]. rewrite H1, H2. reflexivity. Qed.
Lemma keys_assemble_plain : forall x xs, item_redef x = None -> existsb (N.eqb (item_id x)) (redef_targets xs) = false ->
  keys_props (assemble_d (ICons x xs)) = own x ++ keys_props (assemble_d xs).
Proof. intros x xs H1 H2. cbn [assemble_d]. rewrite H1, H2. reflexivity. Qed.

Lemma alts_red_key : forall u xs k, In k (keys_alts (alts_red u xs)) ->
  exists y, in_kids y xs /\ item_redef y = Some u /\ In k (own y).
Proof.
  induction xs as [|x xs IH]; intros k H; [destruct H|]. rewrite alts_red_cons in H.
  assert (Hxs : In k (keys_alts (alts_red u xs)) -> exists y, in_kids y (ICons x xs) /\ item_redef y = Some u /\ In k (own y)).
  { intros H'. destruct (IH k H') as (y & Hy & Hu). exists y. split; [right; exact Hy|exact Hu]. }
  destruct (redefines u x) eqn:E; [|exact (Hxs H)].
  cbn [keys_alts] in H. apply in_app_or in H. destruct H as [H|H]; [|exact (Hxs H)].
  exists x. split; [left; reflexivity|]. split; [apply redefines_spec, E|exact H].
Qed.

(* a key of the flattened children loop belongs to one of the children, and that child redefines, if anything, one of them *)
Lemma assemble_key : forall xs, (forall y, in_kids y xs -> incl (own y) (K (ids y))) ->
  forall k, In k (keys_props (assemble_d xs)) ->
  exists y, in_kids y xs /\ In k (K (ids y)) /\ forall u, item_redef y = Some u -> In u (kid_ids xs).
Proof.
  induction xs as [|x xs IH]; intros Hk k H; [destruct H|].
  assert (Hxs : In k (keys_props (assemble_d xs)) ->
            exists y, in_kids y (ICons x xs) /\ In k (K (ids y)) /\ forall u, item_redef y = Some u -> In u (kid_ids (ICons x xs))).
  { intros H'. destruct (IH (fun y Hy => Hk y (or_intror Hy)) k H') as [y [H1 [H2 H3]]].
    exists y. repeat split; [now right|exact H2|]. intros u Hu. right. now apply H3. }
  destruct (item_redef x) as [u|] eqn:Er; [rewrite (keys_assemble_redefiner x xs u Er) in H; auto|].
  assert (Hx : In k (K (ids x)) ->
            exists y, in_kids y (ICons x xs) /\ In k (K (ids y)) /\ forall u, item_redef y = Some u -> In u (kid_ids (ICons x xs))).
  { intros Hin. exists x. repeat split; [now left|exact Hin|]. intros u Hu. congruence. }
  destruct (existsb (N.eqb (item_id x)) (redef_targets xs)) eqn:Ex.
  - rewrite (keys_assemble_union x xs Er Ex) in H. destruct H as [<-|H]; [apply Hx, K_redef, item_id_in_ids|].
    apply in_app_or in H. destruct H as [H|H]; [|auto].
    apply in_app_or in H. destruct H as [H|H]; [apply Hx, (Hk x); [now left|exact H]|].
    destruct (alts_red_key _ _ _ H) as [y [H1 [H2 H3]]].
    exists y. repeat split; [now right|apply (Hk y); [now right|exact H3]|].
    intros u Hu. rewrite H2 in Hu. injection Hu as <-. now left.
  - rewrite (keys_assemble_plain x xs Er Ex) in H. apply in_app_or in H. destruct H as [H|H]; [|auto].
    apply Hx, (Hk x); [now left|exact H].
Qed.

Lemma nodup_alts_red : forall u xs,
  (forall y, in_kids y xs -> NoDup (own y)) -> (forall y, in_kids y xs -> incl (own y) (K (ids y))) ->
  NoDup (ids_kids xs) -> NoDup (keys_alts (alts_red u xs)).
Proof.
  induction xs as [|x xs IH]; intros Hn Hk Hnd; [constructor|]. cbn [ids_kids] in Hnd.
  assert (Hxs : NoDup (keys_alts (alts_red u xs))).
  { apply IH; [intros y Hy; apply Hn; now right|intros y Hy; apply Hk; now right|now apply NoDup_app_r in Hnd]. }
  rewrite alts_red_cons. destruct (redefines u x); [|exact Hxs].
  cbn [keys_alts]. apply NoDup_app_intro; [apply Hn; now left|exact Hxs|].
  intros k H1 H2. apply (K_disj _ _ k Hnd); [apply (Hk x); [now left|exact H1]|].
  apply (keys_alts_red u xs); [intros y Hy; apply Hk; now right|exact H2].
Qed.

Lemma nodup_plain : forall tg xs,
  (forall y, in_kids y xs -> NoDup (own y)) -> (forall y, in_kids y xs -> incl (own y) (K (ids y))) ->
  NoDup (ids_kids xs) -> NoDup (keys_props (plain (kid_alts tg xs))).
Proof.
  induction xs as [|x xs IH]; intros Hn Hk Hnd; [constructor|]. rewrite kid_alts_cons. cbn [plain keys_props ids_kids] in *.
  apply NoDup_app_intro; [apply Hn; now left| |].
  - apply IH; [intros y Hy; apply Hn; now right|intros y Hy; apply Hk; now right|now apply NoDup_app_r in Hnd].
  - intros k H1 H2. apply (K_disj _ _ k Hnd); [apply (Hk x); [now left|exact H1]|].
    apply (keys_plain tg xs); [intros y Hy; apply Hk; now right|exact H2].
Qed.

(* whatever the REDEFINES clauses say: the keys of a child come in once, with the child itself or with the item it redefines *)
Lemma nodup_assemble_gen : forall xs,
  (forall y, in_kids y xs -> NoDup (own y)) ->
  (forall y, in_kids y xs -> incl (own y) (K (ids y))) ->
  (forall y, in_kids y xs -> ~ In (KRedef (item_id y)) (own y)) ->
  NoDup (ids_kids xs) ->
  NoDup (keys_props (assemble_d xs)).
Proof.
  induction xs as [|x xs IH]; intros Hn Hk Hr Hnd; [constructor|].
  pose proof (NoDup_ids_kid_ids _ Hnd) as Hndk. inversion Hndk as [|? ? Hxn _]; subst. cbn [ids_kids] in Hnd.
  assert (Hkxs : forall y, in_kids y xs -> incl (own y) (K (ids y))) by (intros y Hy; apply Hk; now right).
  assert (Hndxs : NoDup (ids_kids xs)) by (now apply NoDup_app_r in Hnd).
  assert (Hrest : NoDup (keys_props (assemble_d xs))).
  { apply IH; [intros y Hy; apply Hn; now right|exact Hkxs|intros y Hy; apply Hr; now right|exact Hndxs]. }
  destruct (item_redef x) as [u|] eqn:Er; [now rewrite (keys_assemble_redefiner x xs u Er)|].
  assert (Hkx : incl (own x) (K (ids x))) by (apply Hk; now left).
  assert (HAD : incl (keys_props (assemble_d xs)) (K (ids_kids xs))) by (apply keys_assemble_d; exact Hkxs).
  assert (Hdx : forall k, In k (own x) -> In k (keys_props (assemble_d xs)) -> False).
  { intros k H1 H2. apply (K_disj _ _ k Hnd); [apply Hkx, H1|apply HAD, H2]. }
  destruct (existsb (N.eqb (item_id x)) (redef_targets xs)) eqn:Ex.
  - rewrite (keys_assemble_union x xs Er Ex).
    assert (HRA : incl (keys_alts (alts_red (item_id x) xs)) (K (ids_kids xs))) by (apply keys_alts_red; exact Hkxs).
    assert (Hxid : ~ In (item_id x) (ids_kids xs)).
    { intros Hin. exact (NoDup_app_disj _ _ _ Hnd (item_id_in_ids x) Hin). }
    constructor.
    + intros Hin. apply in_app_or in Hin. destruct Hin as [Hin|Hin].
      * apply in_app_or in Hin. destruct Hin as [Hin|Hin]; [apply (Hr x); [now left|exact Hin]|].
        apply HRA, K_redef in Hin. contradiction.
      * apply HAD, K_redef in Hin. contradiction.
    + apply NoDup_app_intro; [|exact Hrest|].
      * apply NoDup_app_intro; [apply Hn; now left|apply nodup_alts_red; auto; intros y Hy; apply Hn; now right|].
        intros k H1 H2. apply (K_disj _ _ k Hnd); [apply Hkx, H1|apply HRA, H2].
      * intros k H1 H2. apply in_app_or in H1. destruct H1 as [H1|H1]; [exact (Hdx k H1 H2)|].
        (* k belongs to a redefiner of x and to a child that redefines nothing outside xs: the same child, since ids are distinct *)
        destruct (alts_red_key _ _ _ H1) as [y1 [A1 [A2 A3]]]. apply (Hkxs y1 A1) in A3.
        destruct (assemble_key xs Hkxs k H2) as [y2 [B1 [B3 B2]]].
        assert (Hsame : y1 = y2).
        { destruct k as [i|i].
          - apply K_name in A3. apply K_name in B3. exact (kids_share xs y1 y2 i A1 B1 A3 B3 Hndxs).
          - apply K_redef in A3. apply K_redef in B3. exact (kids_share xs y1 y2 i A1 B1 A3 B3 Hndxs). }
        subst y2. exact (Hxn (B2 _ A2)).
  - rewrite (keys_assemble_plain x xs Er Ex). apply NoDup_app_intro; [apply Hn; now left|exact Hrest|exact Hdx].
Qed.

Lemma wf_kids_in e x ks : in_kids x ks -> wf_kids e ks = true -> wf e x = true.
Proof.
  induction ks as [|y ys IH]; cbn [in_kids wf_kids]; [tauto|].
  intros [ -> |H] Hw; apply andb_true_iff in Hw; destruct Hw as [H1 H2]; [exact H1|apply IH; assumption].
Qed.

Lemma wf_group e i oc rd ks : wf e (Group i oc rd ks) = true ->
  wf_kids e ks = true /\
  match oc with Once => unions_ok e [] ks = true | Times _ => redef_targets ks = [] | Odo _ => False end.
Proof.
  cbn [wf item_oc]. intros H. apply andb_true_iff in H. destruct H as [Hoc H]. apply andb_true_iff in H.
  destruct oc as [|n|c]; [exact H| |discriminate]. destruct (redef_targets ks); [tauto|destruct H; discriminate].
Qed.

Lemma sd_group i oc rd ks : siblings_distinct (Group i oc rd ks) = true -> NoDup (kid_ids ks) /\ sd_kids ks = true.
Proof. cbn [siblings_distinct]. intros H. apply andb_true_iff in H. split; [apply nodupb_NoDup|]; apply H. Qed.

Lemma NoDup_siblings_distinct :
  (forall x, NoDup (ids x) -> siblings_distinct x = true) /\
  (forall ks, NoDup (ids_kids ks) -> sd_kids ks = true).
Proof.
  apply item_items_ind.
  - reflexivity.
  - intros i oc rd ks IH H. cbn [ids] in H. inversion H as [|? ? _ Hk]; subst. cbn [siblings_distinct].
    rewrite (IH Hk), andb_true_r. apply NoDup_nodupb, NoDup_ids_kid_ids, Hk.
  - reflexivity.
  - intros x IHx xs IHxs H. cbn [ids_kids] in H. cbn [sd_kids].
    rewrite (IHx (NoDup_app_l _ _ H)), (IHxs (NoDup_app_r _ _ H)). reflexivity.
Qed.

(* The hypotheses on data names (Proofs/LayoutNamesP.v says why these suffice).  Siblings have distinct names
   (Spec/LayoutNamesWf.v siblings_distinct), and the names the anchors map is consulted under - a list P of protected
   names - occur once: NoDup (pf P (ids t)). *)
Definition inb (P : list id) (i : id) : bool := existsb (N.eqb i) P.
(* the protected names among l, in order *)
Definition pf (P : list id) (l : list id) : list id := filter (inb P) l.

Lemma pf_In P l i : In i (pf P l) <-> In i l /\ In i P.
Proof. unfold pf, inb. rewrite filter_In, existsb_eqb_In. tauto. Qed.
Lemma pf_app P a b : pf P (a ++ b) = pf P a ++ pf P b.
Proof. apply filter_app. Qed.
Lemma pf_app_l P a b : NoDup (pf P (a ++ b)) -> NoDup (pf P a).
Proof. rewrite pf_app. apply NoDup_app_l. Qed.
Lemma pf_app_r P a b : NoDup (pf P (a ++ b)) -> NoDup (pf P b).
Proof. rewrite pf_app. apply NoDup_app_r. Qed.
Lemma pf_disj P a b i : NoDup (pf P (a ++ b)) -> In i P -> In i a -> In i b -> False.
Proof.
  rewrite pf_app. intros H HP Ha Hb. apply (NoDup_app_disj _ _ i H); apply pf_In; split; assumption.
Qed.
Lemma pf_cons_tl P i l : NoDup (pf P (i :: l)) -> NoDup (pf P l).
Proof. apply (pf_app_r P [i] l). Qed.
Lemma pf_cons_hd P i l : NoDup (pf P (i :: l)) -> In i P -> ~ In i l.
Proof. intros H HP Hin. apply (pf_disj P [i] l i H HP); [left; reflexivity|exact Hin]. Qed.

(* the anchored names (Spec/LayoutNamesWf.v): those of the members of REDEFINES unions, anywhere in the tree *)
Lemma anchored_kids_hd x xs : incl (anchored x) (anchored_kids (ICons x xs)).
Proof. cbn [anchored_kids]. apply incl_appr, incl_appl, incl_refl. Qed.
Lemma anchored_kids_tl x xs : incl (anchored_kids xs) (anchored_kids (ICons x xs)).
Proof. cbn [anchored_kids]. apply incl_appr, incl_appr, incl_refl. Qed.
Lemma anchored_kids_member x xs : is_member x xs = true -> In (item_id x) (anchored_kids (ICons x xs)).
Proof. intros H. cbn [anchored_kids]. rewrite H. left. reflexivity. Qed.

Lemma anchored_incl_ids :
  (forall x, incl (anchored x) (ids x)) /\ (forall ks, incl (anchored_kids ks) (ids_kids ks)).
Proof.
  apply item_items_ind.
  - intros i sz oc rd j [].
  - intros i oc rd ks IH j Hj. cbn [anchored] in Hj. cbn [ids]. right. apply IH, Hj.
  - intros j [].
  - intros x IHx xs IHxs j Hj. cbn [anchored_kids] in Hj. cbn [ids_kids]. apply in_or_app.
    apply in_app_or in Hj. destruct Hj as [Hj|Hj].
    + left. destruct (is_member x xs); [|destruct Hj]. destruct Hj as [ <- |[]]. apply item_id_in_ids.
    + apply in_app_or in Hj. destruct Hj as [Hj|Hj]; [left; apply IHx, Hj|right; apply IHxs, Hj].
Qed.

Lemma member_redefiner x xs u : item_redef x = Some u -> is_member x xs = true.
Proof. intros H. unfold is_member, is_redefiner. rewrite H. reflexivity. Qed.
Lemma member_base x xs : item_redef x = None ->
  is_member x xs = existsb (N.eqb (item_id x)) (redef_targets xs).
Proof. intros H. unfold is_member, is_redefiner. rewrite H. reflexivity. Qed.

(* the group branch of build_json_schema in flattened form *)
Lemma build_group_flat e i rd ks :
  NoDup (kid_ids ks) -> unions_ok e [] ks = true ->
  build_alt (Group i Once rd ks) = JObj (Some (KName i)) (assemble_d ks).
Proof. intros Hnd Hu. cbn [build_alt]. f_equal. apply (assemble_flat e); assumption. Qed.

Lemma build_group_once e i rd ks :
  NoDup (ids_kids ks) -> unions_ok e [] ks = true ->
  build_alt (Group i Once rd ks) = JObj (Some (KName i)) (assemble_d ks).
Proof. intros Hnd. apply build_group_flat, NoDup_ids_kid_ids, Hnd. Qed.

Lemma build_alt_anchor x :
  js_anchor (build_alt x) = if elem_table x then None else Some (KName (item_id x)).
Proof. destruct x as [i sz [|n|c] rd|i [|n|c] rd ks]; reflexivity. Qed.

Lemma keys_build_names e x :
  wf e x = true -> siblings_distinct x = true -> incl (keys_js (build_alt x)) (K (ids x)).
Proof.
  revert x. apply (item_ind2 (fun x => wf e x = true -> siblings_distinct x = true -> incl (keys_js (build_alt x)) (K (ids x)))
                     (fun ks => wf_kids e ks = true -> sd_kids ks = true ->
                                forall y, in_kids y ks -> incl (keys_js (build_alt y)) (K (ids y)))).
  - intros i sz oc rd _ _. destruct oc as [|n|c]; intros k [ <- |[]]; apply K_name; left; reflexivity.
  - intros i oc rd ks IH Hw Hsd. destruct (wf_group _ _ _ _ _ Hw) as [Hk Hu]. destruct (sd_group _ _ _ _ Hsd) as [Hnd Hsdk].
    specialize (IH Hk Hsdk).
    destruct oc as [|n|c]; [| |destruct Hu].
    + rewrite (build_group_flat e) by assumption. cbn [keys_js js_anchor opt_list ids app].
      apply K_own, keys_assemble_d, IH.
    + cbn [build_alt keys_js js_anchor opt_list ids app]. apply K_own, (keys_plain [] ks), IH.
  - intros _ _ y [].
  - intros x IHx xs IHxs Hw Hsd y Hy. cbn [wf_kids] in Hw. apply andb_true_iff in Hw. destruct Hw as [Hwx Hwxs].
    cbn [sd_kids] in Hsd. apply andb_true_iff in Hsd. destruct Hsd as [Hsx Hsxs].
    destruct Hy as [ -> |Hy]; [apply IHx|apply IHxs]; assumption.
Qed.

Lemma keys_build e :
  (forall x, wf e x = true -> NoDup (ids x) -> incl (keys_js (build_alt x)) (K (ids x))) /\
  (forall ks, wf_kids e ks = true -> NoDup (ids_kids ks) ->
     forall y, in_kids y ks -> incl (keys_js (build_alt y)) (K (ids y))).
Proof.
  assert (H : forall x, wf e x = true -> NoDup (ids x) -> incl (keys_js (build_alt x)) (K (ids x))).
  { intros x Hw Hnd. apply (keys_build_names e x Hw). apply (proj1 NoDup_siblings_distinct), Hnd. }
  split; [exact H|]. intros ks Hw Hnd y Hy. apply H; [eapply wf_kids_in|eapply NoDup_ids_kid]; eassumption.
Qed.

Definition is_ref (l : loc) : bool := match l with LRef _ _ => true | _ => false end.

Section Good.
  Variable B : Type.
  Variable dcount : list B -> nat.
  Variable r : list B.
  Variable e : env.
  Notation walk := (Layout.walk dcount r).

  (* the location NDNav.name(i) lands on: the property itself, or what its $ref resolves to *)
  Definition resolved (an : anchors) (ps : lprops) (i : id) (lk : loc) : Prop :=
    is_ref lk = false /\
    (find_prop (KName i) ps = Some lk \/
     exists s0, find_prop (KName i) ps = Some (LRef s0 (KName i)) /\ lookup (KName i) an = Some lk).

  Definition occ_schema (ks : items) : js := JObj None (plain (kid_alts [] ks)).

  (* l is the location of item x at absolute offset st, and everything below it is right too *)
  Fixpoint Good (x : item) (st : nat) (l : loc) (an : anchors) {struct x} : Prop :=
    lstart l = st /\ lsize l = extent e x /\
    match x with
    | Elem i sz Once _ => l = LAtom st sz
    | Elem i sz oc _ => exists sub, l = LArr st (sz * count e oc) sz (count e oc) sub (elem_items i sz)
    | Group i Once _ ks =>
        exists ps, l = LObj st (kids_extent e ks) ps /\ GoodKids (kid_starts e ks st []) ps an ks
    | Group i oc _ ks =>
        exists sub, l = LArr st (kids_extent e ks * count e oc) (kids_extent e ks) (count e oc) sub (occ_schema ks)
        /\ forall st', exists ps an',
             walk (occ_schema ks) st' [] = Ok (LObj st' (kids_extent e ks) ps, an')
             /\ GoodKids (kid_starts e ks st' []) ps an' ks
    end
  with GoodKids (starts : list (id * nat)) (ps : lprops) (an : anchors) (ks : items) {struct ks} : Prop :=
    match ks with
    | INil => True
    | ICons x xs =>
        (exists o lk, assoc (item_id x) starts = Some o /\ resolved an ps (item_id x) lk /\ Good x o lk an)
        /\ GoodKids starts ps an xs
    end.

  Lemma Good_size x st l an : Good x st l an -> lsize l = extent e x.
  Proof. destruct x; cbn [Good]; tauto. Qed.
  Lemma Good_start x st l an : Good x st l an -> lstart l = st.
  Proof. destruct x; cbn [Good]; tauto. Qed.

  (* Good only looks up names declared inside x *)
  Lemma Good_stable :
    (forall x st l an an', Good x st l an ->
       (forall i, In i (ids x) -> lookup (KName i) an' = lookup (KName i) an) -> Good x st l an') /\
    (forall ks starts ps an an', GoodKids starts ps an ks ->
       (forall i, In i (ids_kids ks) -> lookup (KName i) an' = lookup (KName i) an) -> GoodKids starts ps an' ks).
  Proof.
    apply item_items_ind.
    - intros i sz oc rd st l an an' H _. exact H.
    - intros i oc rd ks IH st l an an' H Hl. cbn [Good] in *. destruct H as (H1 & H2 & H3).
      split; [exact H1|]. split; [exact H2|]. destruct oc as [|n|c]; [|exact H3|exact H3].
      destruct H3 as (ps & Hps & Hk). exists ps. split; [exact Hps|].
      eapply IH; [exact Hk|]. intros j Hj. apply Hl. right. exact Hj.
    - intros starts ps an an' _ _. exact I.
    - intros x IHx xs IHxs starts ps an an' H Hl. cbn [GoodKids ids_kids] in *. destruct H as ((o & lk & Ho & Hr & Hg) & Hrest).
      split.
      + exists o, lk. split; [exact Ho|]. split.
        * destruct Hr as (Hnr & [Hf|(s0 & Hf & Hlk)]); split; try exact Hnr; [left; exact Hf|].
          right. exists s0. split; [exact Hf|]. rewrite Hl; [exact Hlk|].
          apply in_or_app. left. apply item_id_in_ids.
        * eapply IHx; [exact Hg|]. intros j Hj. apply Hl. apply in_or_app. left. exact Hj.
      + eapply IHxs; [exact Hrest|]. intros j Hj. apply Hl. apply in_or_app. right. exact Hj.
  Qed.
End Good.

(* Good, saying HOW name() reaches each child.  Good leaves open which way a child is reached, so it depends on the
   anchors map under every name of the subtree (Good_stable).  The walk establishes more: a member of a REDEFINES
   union is reached through its placeholder and the anchors map, every other child directly.  Kids G says that of the
   children of one group, for any notion G of a correct child; Placed is Good with Kids Placed for GoodKids, and
   depends on the anchors map only under the anchored names (Placed_stable). *)
Definition via (m : bool) (an : anchors) (ps : lprops) (i : id) (lk : loc) : Prop :=
  is_ref lk = false /\
  if m then exists s0, find_prop (KName i) ps = Some (LRef s0 (KName i)) /\ lookup (KName i) an = Some lk
  else find_prop (KName i) ps = Some lk.

Lemma via_resolved m an ps i lk : via m an ps i lk -> resolved an ps i lk.
Proof. intros [H1 H2]. split; [exact H1|]. destruct m; [right|left]; exact H2. Qed.

Section Kids.
  Variable G : item -> nat -> loc -> anchors -> Prop.
  Variable starts : list (id * nat).
  Variable ps : lprops.
  Variable an : anchors.

  Fixpoint Kids (ks : items) : Prop :=
    match ks with
    | INil => True
    | ICons x xs =>
        (exists o lk, assoc (item_id x) starts = Some o /\ via (is_member x xs) an ps (item_id x) lk /\ G x o lk an)
        /\ Kids xs
    end.
End Kids.

(* the children ks do not see a change of the starts and properties of others *)
Lemma Kids_frame G S S' ps ps' an ks :
  Kids G S ps an ks ->
  (forall y, in_kids y ks -> assoc (item_id y) S' = assoc (item_id y) S
                            /\ find_prop (KName (item_id y)) ps' = find_prop (KName (item_id y)) ps) ->
  Kids G S' ps' an ks.
Proof.
  induction ks as [|x xs IH]; cbn [Kids]; intros H Hs; [exact I|].
  destruct H as ((o & lk & Ho & Hr & Hg) & Hrest). destruct (Hs x (or_introl eq_refl)) as [Es Ef]. split.
  - exists o, lk. unfold via. rewrite Es, Ef. split; [exact Ho|]. split; [exact Hr|exact Hg].
  - apply IH; [exact Hrest|]. intros y Hy. apply Hs. right. exact Hy.
Qed.

(* one more child x in front: its start and its property ... *)
Lemma Kids_push G x xs o l0 S ps an :
  ~ In (item_id x) (kid_ids xs) -> Kids G S ps an xs ->
  Kids G ((item_id x, o) :: S) (LPCons (KName (item_id x)) l0 ps) an xs.
Proof.
  intros Hx H. apply (Kids_frame G S _ ps); [exact H|]. intros y Hy.
  assert (Hne : item_id x <> item_id y) by (intros E; apply Hx; rewrite E; apply in_kids_ids; exact Hy).
  split; [apply assoc_cons_neq; exact Hne|]. cbn [find_prop key_eqb].
  destruct (N.eqb_spec (item_id y) (item_id x)); [congruence|reflexivity].
Qed.

(* ... and, when x heads a union, the property REDEFINES-x before it *)
Lemma Kids_skip G u l0 S ps an ks : Kids G S ps an ks -> Kids G S (LPCons (KRedef u) l0 ps) an ks.
Proof. intros H. apply (Kids_frame G S _ ps); [exact H|]. intros y _. split; reflexivity. Qed.

(* Kids forgets how each child is reached: if G gives Good, Kids G gives GoodKids *)
Lemma Kids_Good B dcount r e (G : item -> nat -> loc -> anchors -> Prop) S ps an ks :
  (forall y, in_kids y ks -> forall o lk, G y o lk an -> Good B dcount r e y o lk an) ->
  Kids G S ps an ks -> GoodKids B dcount r e S ps an ks.
Proof.
  induction ks as [|x xs IH]; cbn [Kids GoodKids]; intros HG H; [exact I|].
  destruct H as ((o & lk & Ho & Hr & Hg) & Hrest). split.
  - exists o, lk. split; [exact Ho|]. split; [eapply via_resolved; exact Hr|apply HG; [left; reflexivity|exact Hg]].
  - apply IH; [intros y Hy; apply HG; right; exact Hy|exact Hrest].
Qed.

Lemma Kids_GoodKids B dcount r e S ps an ks :
  Kids (Good B dcount r e) S ps an ks -> GoodKids B dcount r e S ps an ks.
Proof. apply Kids_Good. intros y _ o lk H. exact H. Qed.

Section Placed.
  Variable B : Type.
  Variable dcount : list B -> nat.
  Variable r : list B.
  Variable e : env.
  Notation walk := (Layout.walk dcount r).

  Fixpoint Placed (x : item) (st : nat) (l : loc) (an : anchors) {struct x} : Prop :=
    lstart l = st /\ lsize l = extent e x /\
    match x with
    | Elem i sz Once _ => l = LAtom st sz
    | Elem i sz oc _ => exists sub, l = LArr st (sz * count e oc) sz (count e oc) sub (elem_items i sz)
    | Group i Once _ ks =>
        exists ps, l = LObj st (kids_extent e ks) ps /\ Kids Placed (kid_starts e ks st []) ps an ks
    | Group i oc _ ks =>
        exists sub, l = LArr st (kids_extent e ks * count e oc) (kids_extent e ks) (count e oc) sub (occ_schema ks)
        /\ forall st', exists ps an',
             walk (occ_schema ks) st' [] = Ok (LObj st' (kids_extent e ks) ps, an')
             /\ Kids Placed (kid_starts e ks st' []) ps an' ks
    end.

  Lemma Placed_size x st l an : Placed x st l an -> lsize l = extent e x.
  Proof. destruct x; cbn [Placed]; tauto. Qed.

  Lemma Placed_Good : forall x st l an, Placed x st l an -> Good B dcount r e x st l an.
  Proof.
    apply (item_ind2 (fun x => forall st l an, Placed x st l an -> Good B dcount r e x st l an)
                     (fun ks => forall y, in_kids y ks -> forall st l an, Placed y st l an -> Good B dcount r e y st l an)).
    - intros i sz oc rd st l an H. exact H.
    - intros i oc rd ks IH st l an H. cbn [Placed Good] in *. destruct H as (H1 & H2 & H3).
      assert (HK : forall S ps an0, Kids Placed S ps an0 ks -> GoodKids B dcount r e S ps an0 ks).
      { intros S ps an0. apply Kids_Good. intros y Hy o lk. apply IH, Hy. }
      split; [exact H1|]. split; [exact H2|]. destruct oc as [|n|c].
      1: destruct H3 as (ps & Hps & Hk); exists ps; split; [exact Hps|apply HK, Hk].
      all: destruct H3 as (sub & Hl & Ho); exists sub; split; [exact Hl|]; intros st'.
      all: destruct (Ho st') as (ps & an' & Hw & Hg); exists ps, an'; split; [exact Hw|apply HK, Hg].
    - intros y [].
    - intros x IHx xs IHxs y [ -> |Hy]; [exact IHx|apply IHxs, Hy].
  Qed.

  Lemma Placed_stable :
    (forall x st l an an', Placed x st l an ->
       (forall i, In i (anchored x) -> lookup (KName i) an' = lookup (KName i) an) -> Placed x st l an') /\
    (forall ks starts ps an an', Kids Placed starts ps an ks ->
       (forall i, In i (anchored_kids ks) -> lookup (KName i) an' = lookup (KName i) an) -> Kids Placed starts ps an' ks).
  Proof.
    apply item_items_ind.
    - intros i sz oc rd st l an an' H _. exact H.
    - intros i oc rd ks IH st l an an' H Hl. cbn [Placed] in *. destruct H as (H1 & H2 & H3).
      split; [exact H1|]. split; [exact H2|]. destruct oc as [|n|c]; [|exact H3|exact H3].
      destruct H3 as (ps & Hps & Hk). exists ps. split; [exact Hps|]. eapply IH; [exact Hk|exact Hl].
    - intros starts ps an an' _ _. exact I.
    - intros x IHx xs IHxs starts ps an an' H Hl. cbn [Kids] in *. destruct H as ((o & lk & Ho & Hr & Hg) & Hrest).
      split.
      + exists o, lk. split; [exact Ho|]. split.
        * destruct Hr as (Hnr & Hm). split; [exact Hnr|]. destruct (is_member x xs) eqn:Em; [|exact Hm].
          destruct Hm as (s0 & Hf & Hlk). exists s0. split; [exact Hf|]. rewrite Hl; [exact Hlk|].
          apply anchored_kids_member. exact Em.
        * eapply IHx; [exact Hg|]. intros j Hj. apply Hl. apply (anchored_kids_hd x xs). exact Hj.
      + eapply IHxs; [exact Hrest|]. intros j Hj. apply Hl. apply (anchored_kids_tl x xs). exact Hj.
  Qed.
End Placed.

(* every name declared in a redefiner of u among xs *)
Fixpoint red_ids (u : id) (xs : items) : list id :=
  match xs with
  | INil => []
  | ICons y ys => if redefines u y then ids y ++ red_ids u ys else red_ids u ys
  end.

Lemma red_ids_incl u xs : incl (red_ids u xs) (ids_kids xs).
Proof.
  induction xs as [|y ys IH]; cbn [red_ids ids_kids]; [intros i []|].
  destruct (redefines u y); [apply incl_app_app; [apply incl_refl|exact IH]|apply incl_appr, IH].
Qed.

(* a protected name inside y, which is not a redefiner of u, is not among the names below the redefiners of u *)
Lemma red_ids_other P u xs y i :
  in_kids y xs -> item_redef y <> Some u -> NoDup (pf P (ids_kids xs)) -> In i P -> In i (ids y) -> ~ In i (red_ids u xs).
Proof.
  induction xs as [|z zs IH]; cbn [in_kids red_ids ids_kids]; [tauto|].
  intros Hy Hne Hnd HP Hi.
  assert (Hndz : NoDup (pf P (ids_kids zs))) by (apply pf_app_r in Hnd; exact Hnd).
  destruct Hy as [ -> |Hy].
  - destruct (redefines u z) eqn:E; [apply redefines_spec in E; contradiction|].
    intros H. apply red_ids_incl in H. exact (pf_disj _ _ _ i Hnd HP Hi H).
  - assert (Hiz : In i (ids_kids zs)) by (eapply in_kids_ids_incl; eassumption).
    assert (Htail : ~ In i (red_ids u zs)) by (apply IH; assumption).
    destruct (redefines u z); [|exact Htail].
    intros H. apply in_app_or in H. destruct H as [H|H]; [exact (pf_disj _ _ _ i Hnd HP H Hiz)|exact (Htail H)].
Qed.

Lemma unions_ok_redefiner e u E : forall xs bases,
  unions_ok e bases xs = true -> assoc u bases = Some E -> ~ In u (kid_ids xs) ->
  forall y, in_kids y xs -> item_redef y = Some u -> elem_table y = false /\ extent e y <= E.
Proof.
  induction xs as [|x xs IH]; intros bases Hu Ha Hnin y Hy Er; [destruct Hy|].
  cbn [unions_ok] in Hu. cbn [kid_ids] in Hnin.
  destruct Hy as [ -> |Hy].
  - rewrite Er in Hu. apply andb_true_iff in Hu. destruct Hu as [Hu _]. apply andb_true_iff in Hu. destruct Hu as [Het Hf].
    pose proof (assoc_find_pair u bases) as Hp. rewrite Ha in Hp.
    destruct (find (fun p => N.eqb (fst p) u) bases) as [[j ext]|]; [|discriminate].
    injection Hp as ->. split; [apply negb_true_iff; exact Het|apply Nat.leb_le; exact Hf].
  - destruct (item_redef x) as [u'|].
    + apply andb_true_iff in Hu. destruct Hu as [_ Hu]. eapply IH; try eassumption. intros H'. apply Hnin. right. exact H'.
    + apply andb_true_iff in Hu. destruct Hu as [_ Hu].
      eapply (IH ((item_id x, extent e x) :: bases)); try eassumption; [|intros H'; apply Hnin; right; exact H'].
      rewrite assoc_cons_neq; [exact Ha|]. intros E'. apply Hnin. left. exact E'.
Qed.

Lemma no_redef_assemble ks : redef_targets ks = [] -> assemble_d ks = plain (kid_alts [] ks).
Proof.
  induction ks as [|x xs IH]; intros H; [reflexivity|].
  cbn [redef_targets] in H. rewrite kid_alts_cons. cbn [assemble_d plain].
  destruct (item_redef x) as [u|]; [discriminate|]. rewrite H. cbn [existsb]. rewrite IH by exact H. reflexivity.
Qed.

Lemma no_redef_unions e ks bases : redef_targets ks = [] -> unions_ok e bases ks = true.
Proof.
  revert bases. induction ks as [|x xs IH]; intros bases H; [reflexivity|].
  cbn [redef_targets] in H. cbn [unions_ok]. destruct (item_redef x) as [u|]; [discriminate|].
  rewrite H. cbn [existsb negb]. rewrite orb_true_r. cbn [andb]. apply IH. exact H.
Qed.

(* The children loop of a non-repeated group, parameterised by the notion G of a correct child and by the names dep x
   under which G x depends on the anchors map: Placed with the anchored names (W2_all), Good with all names (KS, and
   KSOon of Proofs/LayoutOdoP.v). *)
Section Loop.
  Variable B : Type.
  Variable dcount : list B -> nat.
  Variable r : list B.
  Variable e : env.
  Variable P : list id.           (* the protected names *)
  Variable G : item -> nat -> loc -> anchors -> Prop.
  Variable dep : item -> list id.
  Hypothesis G_stable : forall x st l an an', G x st l an ->
    (forall i, In i (dep x) -> lookup (KName i) an' = lookup (KName i) an) -> G x st l an'.
  Hypothesis G_size : forall x st l an, G x st l an -> lsize l = extent e x.
  Hypothesis dep_ids : forall x, incl (dep x) (ids x).
  Notation walk := (Layout.walk dcount r).
  Notation walk_props := (Layout.walk_props dcount r).
  Notation walk_alts := (Layout.walk_alts dcount r).

  (* what the loop asks of one child *)
  Definition Walked (x : item) (st : nat) (an : anchors) (l : loc) (an' : anchors) : Prop :=
    walk (build_alt x) st an = Ok (l, an') /\ G x st l an' /\ is_ref l = false
    /\ (elem_table x = false -> lookup (KName (item_id x)) an' = Some l)
    /\ extends (K (ids x)) an an'.

  (* the loop re-registers the anchor of x: under the same name, with the same location *)
  Lemma walked_reg x st an l an1 :
    Walked x st an l an1 ->
    extends (K (ids x)) an (reg (js_anchor (build_alt x)) l an1)
    /\ forall k, lookup k (reg (js_anchor (build_alt x)) l an1) = lookup k an1.
  Proof.
    intros (_ & _ & _ & Hl & Hext). rewrite build_alt_anchor. destruct (elem_table x); [split; [exact Hext|reflexivity]|].
    split.
    - eapply extends_chain; [exact Hext|]. apply extends_reg. intros k [ <- |[]]. apply K_name, item_id_in_ids.
    - intros k. cbn [reg lookup]. destruct (key_eqb k (KName (item_id x))) eqn:Ek; [|reflexivity].
      apply key_eqb_eq in Ek. subst k. symmetry. apply Hl. reflexivity.
  Qed.

  (* the hypothesis on names: siblings distinct; the names under which the anchors map is consulted,
     now or later, on behalf of the children ks are protected; protected names occur once *)
  Fixpoint Prot (ks : items) : Prop :=
    match ks with
    | INil => True
    | ICons x xs => (is_member x xs = true -> In (item_id x) P) /\ incl (dep x) P /\ Prot xs
    end.

  Definition Names (ks : items) : Prop := NoDup (kid_ids ks) /\ Prot ks /\ NoDup (pf P (ids_kids ks)).

  Lemma Names_tl x xs : Names (ICons x xs) -> Names xs.
  Proof.
    intros (Hk & (_ & _ & Hp) & Hn). apply NoDup_cons_iff in Hk.
    split; [apply Hk|]. split; [exact Hp|apply pf_app_r in Hn; exact Hn].
  Qed.

  Lemma Names_hd x xs : Names (ICons x xs) -> ~ In (item_id x) (kid_ids xs).
  Proof. intros (Hk & _). apply NoDup_cons_iff in Hk. apply Hk. Qed.

  Lemma Prot_in ks y : Prot ks -> in_kids y ks -> item_redef y <> None -> In (item_id y) P /\ incl (dep y) P.
  Proof.
    induction ks as [|x xs IH]; cbn [Prot in_kids]; [tauto|].
    intros (Hm & Hd & Hxs) [ -> |Hy] Hr; [|apply IH; assumption].
    split; [|exact Hd]. apply Hm. destruct (item_redef x) as [u|] eqn:Er; [|contradiction].
    eapply member_redefiner. exact Er.
  Qed.

  (* a protected name inside x is not inside a later sibling, and the other way round *)
  Lemma prot_head x xs : Names (ICons x xs) -> forall i, In i P -> In i (ids x) -> ~ In (KName i) (K (ids_kids xs)).
  Proof. intros (_ & _ & Hnd) i HP Hi H. apply K_name in H. exact (pf_disj P _ _ i Hnd HP Hi H). Qed.
  Lemma prot_tail x xs : Names (ICons x xs) -> forall i, In i P -> In i (ids_kids xs) -> ~ In (KName i) (K (ids x)).
  Proof. intros (_ & _ & Hnd) i HP Hi H. apply K_name in H. exact (pf_disj P _ _ i Hnd HP H Hi). Qed.

  (* a member of a union, walked: registered under its name, and correct at su *)
  Definition Reg (y : item) (su : nat) (ly : loc) (an : anchors) : Prop :=
    lookup (KName (item_id y)) an = Some ly /\ G y su ly an /\ is_ref ly = false.

  Lemma Reg_kept y su ly an an' :
    (forall i, i = item_id y \/ In i (dep y) -> lookup (KName i) an' = lookup (KName i) an) ->
    Reg y su ly an -> Reg y su ly an'.
  Proof.
    intros H (Hl & Hg & Hr). split; [rewrite H; [exact Hl|left; reflexivity]|]. split; [|exact Hr].
    eapply G_stable; [exact Hg|]. intros i Hi. apply H. right. exact Hi.
  Qed.

  (* kept by registrations under keys that are no protected name of y *)
  Lemma Reg_extends y su ly an an' ks :
    In (item_id y) P -> incl (dep y) P -> extends ks an an' ->
    (forall i, In i P -> In i (ids y) -> ~ In (KName i) ks) ->
    Reg y su ly an -> Reg y su ly an'.
  Proof.
    intros Hy Hd Hext Hdis. apply Reg_kept. intros i Hi. apply (extends_lookup _ _ _ _ Hext), Hdis.
    - destruct Hi as [ -> |Hi]; [exact Hy|apply Hd, Hi].
    - destruct Hi as [ -> |Hi]; [apply item_id_in_ids|apply dep_ids, Hi].
  Qed.

  (* the two registrations of a oneOf: by walk, and by the loop over the properties *)
  Lemma redef_regs x l an : extends (K (ids x)) an ((KRedef (item_id x), l) :: (KRedef (item_id x), l) :: an).
  Proof.
    exists [(KRedef (item_id x), l); (KRedef (item_id x), l)]. split; [reflexivity|].
    intros k [ <- |[ <- |[]]]; apply K_redef, item_id_in_ids.
  Qed.

  Lemma Reg_redef_regs y su ly u l an : Reg y su ly an -> Reg y su ly ((KRedef u, l) :: (KRedef u, l) :: an).
  Proof. apply Reg_kept. reflexivity. Qed.

  Lemma alts_walked u E off : forall xs,
    (forall y, in_kids y xs -> item_redef y = Some u -> forall an, exists l an', Walked y off an l an') ->
    Names xs ->
    (forall y, in_kids y xs -> item_redef y = Some u -> elem_table y = false /\ extent e y <= E) ->
    forall an, exists ls an',
      walk_alts (alts_red u xs) off an = Ok (ls, an') /\ max_size ls <= E /\ extends (K (red_ids u xs)) an an' /\
      forall y, in_kids y xs -> item_redef y = Some u -> exists ly, Reg y off ly an'.
  Proof.
    induction xs as [|z zs IH]; intros HW Hn Hok an.
    - exists LANil, an. rewrite walk_alts_nil. split; [reflexivity|]. split; [apply Nat.le_0_l|].
      split; [apply extends_refl|]. intros y [].
    - assert (IHzs := IH (fun y Hy => HW y (or_intror Hy)) (Names_tl _ _ Hn) (fun y Hy => Hok y (or_intror Hy))).
      rewrite alts_red_cons. cbn [red_ids]. destruct (redefines u z) eqn:Ez.
      + apply redefines_spec in Ez.
        destruct (HW z (or_introl eq_refl) Ez an) as (lz & an1 & Hwalk & Hgz & Hrz & Hlz & Hext1).
        destruct (IHzs an1) as (ls & an2 & Hwa & Hmax & Hext & Hall).
        destruct (Hok z (or_introl eq_refl) Ez) as [Hetz Hextz].
        exists (LACons lz ls), an2. rewrite walk_alts_cons, Hwalk, Hwa. split; [reflexivity|].
        split; [cbn [max_size]; rewrite (G_size _ _ _ _ Hgz); lia|]. split.
        { eapply extends_trans; [exact Hext1|exact Hext| |]; apply K_incl; [apply incl_appl|apply incl_appr]; apply incl_refl. }
        intros y [ <- |Hy] Ey; [|apply Hall; assumption].
        destruct (Prot_in _ y (proj1 (proj2 Hn)) (or_introl eq_refl)) as [Hyp Hd]; [congruence|].
        exists lz. apply (Reg_extends y off lz an1 an2 _ Hyp Hd Hext); [|split; [apply Hlz, Hetz|split; assumption]].
        intros i HiP Hi H. apply K_name, red_ids_incl in H. apply (prot_head y zs Hn i HiP Hi). apply K_name, H.
      + destruct (IHzs an) as (ls & an2 & Hwa & Hmax & Hext & Hall).
        exists ls, an2. split; [exact Hwa|]. split; [exact Hmax|]. split; [exact Hext|].
        intros y [ <- |Hy] Ey; [|apply Hall; assumption].
        apply redefines_spec in Ey. congruence.
  Qed.

  (* what is known, before the children rem are walked, about those of them that redefine an earlier sibling:
     the earlier siblings are in seen (with their starts) and in bases (with their lengths) *)
  Definition Pending (bases seen : list (id * nat)) (an : anchors) (rem : items) : Prop :=
    (forall i, In i (kid_ids rem) -> assoc i seen = None) /\
    (forall y u ext, in_kids y rem -> item_redef y = Some u -> assoc u bases = Some ext ->
       exists su ly, assoc u seen = Some su /\ Reg y su ly an).

  Definition Looped (rem : items) (off : nat) (seen : list (id * nat)) (an : anchors) (pls : lprops) (an' : anchors) : Prop :=
    walk_props (assemble_d rem) off an = Ok (pls, off + kids_extent e rem, an')
    /\ Kids G (kid_starts e rem off seen) pls an' rem
    /\ extends (K (ids_kids rem)) an an'.

  Lemma pending_redefiner x xs bases seen an su :
    ~ In (item_id x) (kid_ids xs) -> Pending bases seen an (ICons x xs) ->
    Pending bases ((item_id x, su) :: seen) an xs.
  Proof.
    intros Hx [Hseen INV]. split.
    - intros i Hi. rewrite assoc_cons_neq; [apply Hseen; right; exact Hi|]. intros E. apply Hx. rewrite E. exact Hi.
    - intros y u2 ext2 Hy Ey Hb2. destruct (INV y u2 ext2 (or_intror Hy) Ey Hb2) as (su2 & ly & Hs2 & H).
      exists su2, ly. split; [|exact H]. rewrite assoc_cons_neq; [exact Hs2|].
      intros E. rewrite <- E, (Hseen (item_id x)) in Hs2; [discriminate|left; reflexivity].
  Qed.

  (* x, not a redefiner, has been walked at off, and its redefiners with it *)
  Lemma pending_base x xs bases seen an an2 off :
    Names (ICons x xs) -> Pending bases seen an (ICons x xs) ->
    extends (K (ids x ++ red_ids (item_id x) xs)) an an2 ->
    (forall y, in_kids y xs -> item_redef y = Some (item_id x) -> exists ly, Reg y off ly an2) ->
    Pending ((item_id x, extent e x) :: bases) ((item_id x, off) :: seen) an2 xs.
  Proof.
    intros Hn [Hseen INV] Hext Hall. pose proof (Names_hd _ _ Hn) as Hx. split.
    - intros i Hi. rewrite assoc_cons_neq; [apply Hseen; right; exact Hi|]. intros E. apply Hx. rewrite E. exact Hi.
    - intros y u2 ext2 Hy Ey Hb2. destruct (N.eq_dec (item_id x) u2) as [ <- |Hne].
      + destruct (Hall y Hy Ey) as (ly & H). exists off, ly. split; [apply assoc_cons_eq|exact H].
      + rewrite assoc_cons_neq in Hb2 by exact Hne.
        destruct (INV y u2 ext2 (or_intror Hy) Ey Hb2) as (su2 & ly & Hs2 & Hreg).
        exists su2, ly. split; [rewrite assoc_cons_neq by exact Hne; exact Hs2|].
        destruct (Prot_in _ y (proj1 (proj2 (Names_tl _ _ Hn))) Hy) as [Hyp Hd]; [congruence|].
        apply (Reg_extends y su2 ly an an2 _ Hyp Hd Hext); [|exact Hreg].
        intros i HiP Hi H. apply K_name, in_app_or in H. destruct H as [H|H].
        * apply (prot_tail x xs Hn i HiP); [eapply in_kids_ids_incl; eassumption|apply K_name, H].
        * revert H. apply (red_ids_other P (item_id x) xs y); try assumption; [congruence|apply (Names_tl _ _ Hn)].
  Qed.

  Lemma pending_plain x xs bases seen an lx an1 off :
    Names (ICons x xs) -> existsb (N.eqb (item_id x)) (redef_targets xs) = false ->
    Pending bases seen an (ICons x xs) -> Walked x off an lx an1 ->
    Pending ((item_id x, extent e x) :: bases) ((item_id x, off) :: seen) (reg (js_anchor (build_alt x)) lx an1) xs.
  Proof.
    intros Hn Etg Hpend Hwx. apply (pending_base _ _ _ _ an); try assumption.
    - eapply extends_mono; [apply (walked_reg _ _ _ _ _ Hwx)|apply K_incl, incl_appl, incl_refl].
    - intros y Hy Ey. apply (redef_targets_spec xs y _ Hy), existsb_eqb_In in Ey. congruence.
  Qed.

  Lemma pending_union x xs bases seen an lx an1 an2 l1 off :
    Names (ICons x xs) -> Pending bases seen an (ICons x xs) -> Walked x off an lx an1 ->
    extends (K (red_ids (item_id x) xs)) an1 an2 ->
    (forall y, in_kids y xs -> item_redef y = Some (item_id x) -> exists ly, Reg y off ly an2) ->
    Pending ((item_id x, extent e x) :: bases) ((item_id x, off) :: seen)
            ((KRedef (item_id x), l1) :: (KRedef (item_id x), l1) :: an2) xs.
  Proof.
    intros Hn Hpend Hwx Hext2 Hall. apply (pending_base _ _ _ _ an); try assumption.
    - eapply extends_chain; [eapply extends_mono; [apply Hwx|apply K_incl, incl_appl, incl_refl]|].
      eapply extends_chain; [eapply extends_mono; [exact Hext2|apply K_incl, incl_appr, incl_refl]|].
      eapply extends_mono; [apply redef_regs|apply K_incl, incl_appl, incl_refl].
    - intros y Hy Ey. destruct (Hall y Hy Ey) as (ly & H). exists ly. apply Reg_redef_regs, H.
  Qed.

  Lemma Looped_nil off seen an : Looped INil off seen an LPNil an.
  Proof.
    split; [cbn [assemble_d kids_extent]; rewrite walk_props_nil, Nat.add_0_r; reflexivity|].
    split; [exact I|apply extends_refl].
  Qed.

  (* a redefiner: only a $ref placeholder; its alternative was walked with the redefined item *)
  Lemma looped_redefiner x xs u su lx off seen an pls an' :
    item_redef x = Some u -> assoc u seen = Some su -> Names (ICons x xs) -> Reg x su lx an ->
    Looped xs off ((item_id x, su) :: seen) an pls an' ->
    Looped (ICons x xs) off seen an (LPCons (KName (item_id x)) (LRef off (KName (item_id x))) pls) an'.
  Proof.
    intros Er Hsu Hn Hreg (Hwp & Hgk & Hext).
    assert (Hmem : is_member x xs = true) by (eapply member_redefiner; exact Er).
    destruct (proj1 (proj2 Hn)) as (Hm & Hd & _).
    unfold Looped. cbn [assemble_d kid_starts kids_extent Kids]. unfold is_redefiner. rewrite Er, assoc_find, Hsu, Hmem.
    rewrite walk_props_cons, walk_ref. cbn [js_anchor reg lsize]. rewrite ref_size_0, Nat.add_0_r, Hwp.
    split; [reflexivity|]. split; [|eapply extends_mono; [exact Hext|apply K_ids_tl]].
    split; [|apply Kids_push; [apply (Names_hd _ _ Hn)|exact Hgk]].
    destruct (Reg_extends x su lx an an' _ (Hm Hmem) Hd Hext (prot_head x xs Hn) Hreg) as (Hl & Hg & Hrx).
    exists su, lx. split; [apply assoc_cons_eq|]. split; [|exact Hg]. split; [exact Hrx|].
    exists off. split; [cbn [find_prop]; rewrite key_eqb_refl; reflexivity|exact Hl].
  Qed.

  Lemma looped_plain x xs lx an1 off seen an pls an' :
    item_redef x = None -> existsb (N.eqb (item_id x)) (redef_targets xs) = false -> Names (ICons x xs) ->
    Walked x off an lx an1 ->
    Looped xs (off + extent e x) ((item_id x, off) :: seen) (reg (js_anchor (build_alt x)) lx an1) pls an' ->
    Looped (ICons x xs) off seen an (LPCons (KName (item_id x)) lx pls) an'.
  Proof.
    intros Er Etg Hn Hwx (Hwp & Hgk & Hext). destruct (proj1 (proj2 Hn)) as (_ & Hd & _).
    destruct (walked_reg _ _ _ _ _ Hwx) as [Hext2 Hsame]. destruct Hwx as (Hwalk & Hgx & Hrx & _ & _).
    unfold Looped. cbn [assemble_d kid_starts kids_extent Kids]. unfold is_redefiner. rewrite (member_base x xs Er), Er, Etg.
    rewrite walk_props_cons, Hwalk, (G_size _ _ _ _ Hgx), Hwp, Nat.add_assoc.
    split; [reflexivity|]. split.
    - split; [|apply Kids_push; [apply (Names_hd _ _ Hn)|exact Hgk]].
      exists off, lx. split; [apply assoc_cons_eq|]. split; [split; [exact Hrx|cbn [find_prop]; rewrite key_eqb_refl; reflexivity]|].
      eapply G_stable; [exact Hgx|]. intros i Hi. rewrite <- Hsame. apply (extends_lookup _ _ _ _ Hext).
      apply (prot_head x xs Hn); [apply Hd, Hi|apply dep_ids, Hi].
    - eapply extends_chain; eapply extends_mono; [exact Hext2|apply K_ids_hd|exact Hext|apply K_ids_tl].
  Qed.

  (* the redefined item: oneOf of all members first, then a $ref placeholder *)
  Lemma looped_union x xs lx an1 ls an2 off seen an pls an' :
    item_redef x = None -> existsb (N.eqb (item_id x)) (redef_targets xs) = true -> Names (ICons x xs) ->
    elem_table x = false -> Walked x off an lx an1 ->
    walk_alts (alts_red (item_id x) xs) off an1 = Ok (ls, an2) -> max_size ls <= extent e x ->
    extends (K (red_ids (item_id x) xs)) an1 an2 ->
    let l1 := LOne off (max_size (LACons lx ls)) (LACons lx ls) in
    Looped xs (off + extent e x) ((item_id x, off) :: seen) ((KRedef (item_id x), l1) :: (KRedef (item_id x), l1) :: an2) pls an' ->
    Looped (ICons x xs) off seen an
      (LPCons (KRedef (item_id x)) l1 (LPCons (KName (item_id x)) (LRef (off + extent e x) (KName (item_id x))) pls)) an'.
  Proof.
    intros Er Etg Hn Het (Hwalk & Hgx & Hrx & Hlx & Hext1) Hwa Hmax Hext2 l1 (Hwp & Hgk & Hext).
    assert (Hmem : is_member x xs = true) by (rewrite (member_base x xs Er); exact Etg).
    destruct (proj1 (proj2 Hn)) as (Hm & Hd & _).
    assert (Hl1 : lsize l1 = extent e x) by (unfold l1; cbn [lsize max_size]; rewrite (G_size _ _ _ _ Hgx); lia).
    unfold Looped. cbn [assemble_d kid_starts kids_extent Kids]. unfold is_redefiner. rewrite Hmem, Er, Etg.
    rewrite walk_props_cons, walk_one, walk_alts_cons, Hwalk, Hwa. fold l1. cbn [js_anchor reg].
    rewrite Hl1, walk_props_cons, walk_ref. cbn [js_anchor reg lsize]. rewrite ref_size_0, Nat.add_0_r, Hwp, Nat.add_assoc.
    split; [reflexivity|]. split.
    - split; [|apply Kids_skip, Kids_push; [apply (Names_hd _ _ Hn)|exact Hgk]].
      (* the registration of x outlives those of its redefiners, of the oneOf and of the later siblings *)
      assert (Hreg : Reg x off lx an').
      { apply (Reg_extends x off lx _ an' _ (Hm Hmem) Hd Hext (prot_head x xs Hn)), Reg_redef_regs.
        apply (Reg_extends x off lx an1 an2 _ (Hm Hmem) Hd Hext2); [|split; [apply Hlx, Het|split; assumption]].
        intros i HiP Hi H. apply K_name, red_ids_incl in H. apply (prot_head x xs Hn i HiP Hi). apply K_name, H. }
      destruct Hreg as (Hl & Hg & _).
      exists off, lx. split; [apply assoc_cons_eq|]. split; [|exact Hg]. split; [exact Hrx|].
      exists (off + extent e x). split; [cbn [find_prop key_eqb]; rewrite N.eqb_refl; reflexivity|exact Hl].
    - eapply extends_chain; [eapply extends_mono; [exact Hext1|apply K_ids_hd]|].
      eapply extends_chain; [eapply extends_mono; [exact Hext2|]|].
      { apply K_incl. eapply incl_tran; [apply red_ids_incl|apply incl_appr, incl_refl]. }
      eapply extends_chain; eapply extends_mono; [apply redef_regs|apply K_ids_hd|exact Hext|apply K_ids_tl].
  Qed.

  Lemma kids_loop : forall rem,
    (forall y, in_kids y rem -> forall st an, exists l an', Walked y st an l an') -> Names rem ->
    forall bases off seen an, unions_ok e bases rem = true -> Pending bases seen an rem ->
    exists pls an', Looped rem off seen an pls an'.
  Proof.
    induction rem as [|x xs IH]; intros HW Hn bases off seen an Hu Hpend.
    - exists LPNil, an. apply Looped_nil.
    - pose proof (Names_hd _ _ Hn) as Hx. pose proof (Names_tl _ _ Hn) as Hnxs.
      specialize (IH (fun y Hy => HW y (or_intror Hy)) Hnxs).
      cbn [unions_ok] in Hu. destruct (item_redef x) as [u|] eqn:Er.
      + apply andb_true_iff in Hu. destruct Hu as [Hu Huxs]. apply andb_true_iff in Hu. destruct Hu as [_ Hf].
        pose proof (assoc_find_pair u bases) as Hp.
        destruct (find (fun p => N.eqb (fst p) u) bases) as [[j extu]|]; [|discriminate].
        destruct (proj2 Hpend x u extu (or_introl eq_refl) Er (eq_sym Hp)) as (su & lx & Hsu & Hreg).
        destruct (IH bases off ((item_id x, su) :: seen) an Huxs (pending_redefiner _ _ _ _ _ su Hx Hpend)) as (pls & an' & HL).
        eexists. exists an'. eapply looped_redefiner; eassumption.
      + apply andb_true_iff in Hu. destruct Hu as [Het Huxs].
        destruct (HW x (or_introl eq_refl) off an) as (lx & an1 & Hwx).
        destruct (existsb (N.eqb (item_id x)) (redef_targets xs)) eqn:Etg.
        * cbn [negb] in Het. rewrite orb_false_r in Het. apply negb_true_iff in Het.
          destruct (alts_walked (item_id x) (extent e x) off xs (fun y Hy _ => HW y (or_intror Hy) off) Hnxs
                      (unions_ok_redefiner e (item_id x) (extent e x) xs _ Huxs (assoc_cons_eq _ _ _) Hx) an1)
            as (ls & an2 & Hwa & Hmax & Hext2 & Hall).
          set (l1 := LOne off (max_size (LACons lx ls)) (LACons lx ls)).
          destruct (IH ((item_id x, extent e x) :: bases) (off + extent e x) ((item_id x, off) :: seen)
                       ((KRedef (item_id x), l1) :: (KRedef (item_id x), l1) :: an2) Huxs) as (pls & an' & HL).
          { eapply pending_union; eassumption. }
          eexists. exists an'. eapply looped_union; eassumption.
        * destruct (IH ((item_id x, extent e x) :: bases) (off + extent e x) ((item_id x, off) :: seen)
                       (reg (js_anchor (build_alt x)) lx an1) Huxs) as (pls & an' & HL).
          { eapply pending_plain; eassumption. }
          eexists. exists an'. eapply looped_plain; eassumption.
  Qed.

  (* one occurrence of a repeated group: no REDEFINES there, so every child is an ordinary one *)
  Lemma occ_loop ks :
    (forall y, in_kids y ks -> forall st an, exists l an', Walked y st an l an') -> Names ks ->
    redef_targets ks = [] ->
    forall st an, exists pls an',
      walk (occ_schema ks) st an = Ok (LObj st (kids_extent e ks) pls, an')
      /\ Kids G (kid_starts e ks st []) pls an' ks /\ extends (K (ids_kids ks)) an an'.
  Proof.
    intros HW Hn Hno st an.
    destruct (kids_loop ks HW Hn [] st [] an (no_redef_unions e ks [] Hno)) as (pls & an' & Hwp & H);
      [split; [reflexivity|discriminate]|].
    exists pls, an'. unfold occ_schema. rewrite walk_obj, <- (no_redef_assemble ks Hno), Hwp, sub_add_cancel.
    split; [reflexivity|exact H].
  Qed.
End Loop.

Arguments Walked {B} dcount r G x st an l an'.
Arguments Looped {B} dcount r e G rem off seen an pls an'.
Arguments walked_reg {B dcount r G x st an l an1}.
Arguments alts_walked {B} dcount r {e P G dep}.
Arguments kids_loop {B} dcount r {e P G dep}.
Arguments occ_loop {B} dcount r {e P G dep}.

Lemma Prot_anchored P ks : incl (anchored_kids ks) P -> Prot P anchored ks.
Proof.
  induction ks as [|x xs IH]; cbn [Prot]; intros H; [exact I|]. split; [|split].
  - intros Hm. apply H, anchored_kids_member, Hm.
  - intros i Hi. apply H, (anchored_kids_hd x xs), Hi.
  - apply IH. intros i Hi. apply H, (anchored_kids_tl x xs), Hi.
Qed.

Lemma Prot_ids P ks : incl (ids_kids ks) P -> Prot P ids ks.
Proof.
  induction ks as [|x xs IH]; cbn [Prot ids_kids]; intros H; [exact I|]. split; [|split].
  - intros _. apply H, in_or_app. left. apply item_id_in_ids.
  - intros i Hi. apply H, in_or_app. left. exact Hi.
  - apply IH. intros i Hi. apply H, in_or_app. right. exact Hi.
Qed.

Lemma Names_ids ks : NoDup (ids_kids ks) -> Names (ids_kids ks) ids ks.
Proof.
  intros Hnd. split; [apply NoDup_ids_kid_ids, Hnd|]. split; [apply Prot_ids, incl_refl|apply NoDup_filter, Hnd].
Qed.

Section Names.
  Variable B : Type.
  Variable dcount : list B -> nat.
  Variable r : list B.
  Variable e : env.
  Variable P : list id.           (* the protected names *)
  Notation walk := (Layout.walk dcount r).
  Notation Placed := (Placed B dcount r e).

  (* siblings distinct everywhere; every anchored name is protected; protected names occur at most once *)
  Definition HP (x : item) : Prop :=
    siblings_distinct x = true /\ incl (anchored x) P /\ NoDup (pf P (ids x)).

  Lemma HP_in ks y :
    sd_kids ks = true -> incl (anchored_kids ks) P -> NoDup (pf P (ids_kids ks)) -> in_kids y ks -> HP y.
  Proof.
    induction ks as [|x xs IH]; cbn [sd_kids ids_kids in_kids]; [tauto|].
    intros Hsd Hin Hnd Hy. apply andb_true_iff in Hsd. destruct Hsd as [Hsx Hsxs]. destruct Hy as [ -> |Hy].
    - split; [exact Hsx|]. split; [|apply pf_app_l in Hnd; exact Hnd].
      intros i Hi. apply Hin, (anchored_kids_hd x xs), Hi.
    - apply IH; [exact Hsxs| |apply pf_app_r in Hnd; exact Hnd|exact Hy].
      intros i Hi. apply Hin, (anchored_kids_tl x xs), Hi.
  Qed.

  (* the walk of x succeeds anywhere, from any anchors, with a Placed location *)
  Definition W2 (x : item) : Prop :=
    wf e x = true -> HP x -> forall st an, exists l an', Walked dcount r Placed x st an l an'.

  (* the registrations stay inside the names of x, since only those occur in its schema *)
  Lemma walked_intro x st an :
    wf e x = true -> siblings_distinct x = true ->
    (exists l an', walk (build_alt x) st an = Ok (l, an') /\ Placed x st l an' /\ is_ref l = false
                   /\ (elem_table x = false -> lookup (KName (item_id x)) an' = Some l)) ->
    exists l an', Walked dcount r Placed x st an l an'.
  Proof.
    intros Hw Hsd (l & an' & Hwalk & H). exists l, an'. split; [exact Hwalk|]. repeat split; try apply H.
    eapply extends_mono; [apply (proj1 (walk_extends B dcount r) _ _ _ _ _ Hwalk)|apply (keys_build_names e); assumption].
  Qed.

  Theorem W2_all : forall x, W2 x.
  Proof.
    apply (item_ind2 W2 (fun ks => forall y, in_kids y ks -> W2 y)).
    - intros i sz oc rd Hw [Hsd _] st an. apply walked_intro; [exact Hw|exact Hsd|].
      cbn [wf item_oc] in Hw. destruct oc as [|n|c]; [| |discriminate].
      + exists (LAtom st sz), (reg (Some (KName i)) (LAtom st sz) an). cbn [build_alt]. rewrite walk_atom.
        split; [reflexivity|]. split; [|split; [reflexivity|]].
        * cbn [LayoutP.Placed lstart lsize]. unfold extent. cbn [item_oc count ext1]. repeat split; lia.
        * intros _. cbn [item_id reg]. apply lookup_cons_same.
      + cbn [build_alt]. unfold elem_items. rewrite walk_arr, walk_obj, walk_props_cons, walk_atom, walk_props_nil.
        cbn [js_anchor reg lsize]. rewrite sub_add_cancel.
        eexists. eexists. split; [reflexivity|]. split; [|split; [reflexivity|intros H; discriminate]].
        cbn [LayoutP.Placed lstart lsize]. unfold extent. cbn [item_oc count ext1]. split; [reflexivity|]. split; [lia|].
        eexists. reflexivity.
    - intros i oc rd ks IH Hw (Hsd & Hin & Hnd) st an. apply walked_intro; [exact Hw|exact Hsd|].
      destruct (wf_group _ _ _ _ _ Hw) as [Hwk Hu]. destruct (sd_group _ _ _ _ Hsd) as [Hkid Hsdk].
      cbn [anchored] in Hin. cbn [ids] in Hnd.
      assert (Hndk : NoDup (pf P (ids_kids ks))) by (apply pf_cons_tl in Hnd; exact Hnd).
      assert (HWk : forall y, in_kids y ks -> forall st an, exists l an', Walked dcount r Placed y st an l an').
      { intros y Hy. apply (IH y Hy); [eapply wf_kids_in; eassumption|eapply HP_in; eassumption]. }
      assert (Hn : Names P anchored ks) by (split; [exact Hkid|split; [apply Prot_anchored, Hin|exact Hndk]]).
      pose proof (proj1 (Placed_stable B dcount r e)) as Gst. pose proof (Placed_size B dcount r e) as Gsz.
      pose proof (proj1 anchored_incl_ids) as Gdi.
      destruct oc as [|n|c]; [| |destruct Hu].
      + rewrite (build_group_flat e) by assumption. rewrite walk_obj.
        destruct (kids_loop dcount r Gst Gsz Gdi ks HWk Hn [] st [] an Hu)
          as (pls & an1 & Hwp & Hgk & _); [split; [reflexivity|discriminate]|].
        rewrite Hwp, sub_add_cancel. eexists. eexists. split; [reflexivity|]. split; [|split; [reflexivity|]].
        * cbn [LayoutP.Placed lstart lsize]. unfold extent. cbn [item_oc count ext1]. split; [reflexivity|]. split; [lia|].
          exists pls. split; [reflexivity|].
          eapply (proj2 (Placed_stable B dcount r e)); [exact Hgk|].
          (* the group's own name is not one of the anchored names below it *)
          intros j Hj. cbn [reg lookup]. rewrite key_eqb_neq; [reflexivity|]. intros E. injection E as ->.
          apply (pf_cons_hd P i (ids_kids ks) Hnd); [apply Hin, Hj|apply (proj2 anchored_incl_ids), Hj].
        * intros _. cbn [item_id reg]. apply lookup_cons_same.
      + pose proof (occ_loop dcount r Gst Gsz Gdi ks HWk Hn Hu) as Hocc.
        cbn [build_alt]. fold (occ_schema ks). rewrite walk_arr.
        destruct (Hocc st an) as (pls & an1 & Hwo & _). rewrite Hwo. cbn [lsize].
        eexists. eexists. split; [reflexivity|]. split; [|split; [reflexivity|]].
        * cbn [LayoutP.Placed lstart lsize]. unfold extent. cbn [item_oc count ext1].
          split; [reflexivity|]. split; [lia|]. eexists. split; [reflexivity|]. intros st'.
          destruct (Hocc st' []) as (ps & an' & Hw' & Hk' & _). exists ps, an'. split; assumption.
        * intros _. cbn [item_id reg]. apply lookup_cons_same.
    - intros y [].
    - intros x IHx xs IHxs y [ -> |Hy]; [exact IHx|apply IHxs; exact Hy].
  Qed.
End Names.

Section Main.
  Variable B : Type.
  Variable dcount : list B -> nat.
  Variable r : list B.
  Variable e : env.
  Notation walk := (Layout.walk dcount r).
  Notation walk_props := (Layout.walk_props dcount r).
  Notation Good := (Good B dcount r e).
  Notation GoodKids := (GoodKids B dcount r e).

  (* W2 under C01's hypothesis, with a Good location *)
  Definition W (x : item) : Prop :=
    wf e x = true -> NoDup (ids x) -> forall st an,
    exists l an', walk (build_alt x) st an = Ok (l, an') /\ Good x st l an' /\ is_ref l = false
                  /\ (elem_table x = false -> lookup (KName (item_id x)) an' = Some l).

  (* with every name distinct, every name may count as protected *)
  Lemma walked_good x st an :
    wf e x = true -> NoDup (ids x) -> exists l an', Walked dcount r Good x st an l an'.
  Proof.
    intros Hw Hnd.
    assert (HPx : HP (ids x) x).
    { split; [apply (proj1 NoDup_siblings_distinct), Hnd|]. split; [apply (proj1 anchored_incl_ids)|apply NoDup_filter, Hnd]. }
    destruct (W2_all B dcount r e (ids x) x Hw HPx st an) as (l & an' & Hwalk & Hg & H).
    exists l, an'. split; [exact Hwalk|]. split; [apply Placed_Good, Hg|exact H].
  Qed.

  Theorem W_all :
    (forall x, W x) /\ (forall ks y, in_kids y ks -> W y).
  Proof.
    assert (H : forall x, W x); [|split; [exact H|intros ks y _; apply H]].
    intros x Hw Hnd st an. destruct (walked_good x st an Hw Hnd) as (l & an' & Hwalk & Hg & Hr & Hl & _).
    exists l, an'. repeat split; assumption.
  Qed.

  (* kids_loop with Good for the notion of a correct child *)
  Lemma KS : forall rem,
    (forall y, in_kids y rem -> W y) -> wf_kids e rem = true -> NoDup (ids_kids rem) ->
    forall bases off seen an,
      unions_ok e bases rem = true ->
      (forall u ext, assoc u bases = Some ext -> exists su, assoc u seen = Some su) ->
      (forall i, In i (kid_ids rem) -> assoc i seen = None) ->
      (forall y u ext, in_kids y rem -> item_redef y = Some u -> assoc u bases = Some ext ->
         exists su ly, assoc u seen = Some su /\ lookup (KName (item_id y)) an = Some ly
                       /\ Good y su ly an /\ is_ref ly = false) ->
      exists pls an',
        walk_props (assemble_d rem) off an = Ok (pls, off + kids_extent e rem, an')
        /\ GoodKids (kid_starts e rem off seen) pls an' rem
        /\ extends (K (ids_kids rem)) an an'.
  Proof.
    intros rem _ Hwf Hnd bases off seen an Hu _ Hseen INV.
    assert (HWk : forall y, in_kids y rem -> forall st an0, exists l an1, Walked dcount r Good y st an0 l an1).
    { intros y Hy st an0. apply walked_good; [eapply wf_kids_in|eapply NoDup_ids_kid]; eassumption. }
    destruct (kids_loop dcount r (proj1 (Good_stable B dcount r e)) (Good_size B dcount r e) (fun x => incl_refl (ids x))
                rem HWk (Names_ids rem Hnd) bases off seen an Hu (conj Hseen INV)) as (pls & an' & Hwp & Hgk & Hext).
    exists pls, an'. split; [exact Hwp|]. split; [apply Kids_GoodKids, Hgk|exact Hext].
  Qed.
End Main.

Arguments walked_good {B} dcount r e x st an.

Section Nav.
  Variable B : Type.
  Variable dcount : list B -> nat.
  Variable r : list B.
  Variable e : env.
  Notation walk := (Layout.walk dcount r).
  Notation Good := (Good B dcount r e).
  Notation GoodKids := (GoodKids B dcount r e).

  Definition shift (d : nat) (p : id * nat) : id * nat := (fst p, d + snd p).

  Lemma assoc_shift d k l : assoc k (map (shift d) l) = option_map (fun o => d + o) (assoc k l).
  Proof.
    induction l as [|[j v] l IH]; cbn [map shift assoc fst snd option_map]; [reflexivity|].
    destruct (N.eqb j k); [reflexivity|exact IH].
  Qed.

  Lemma kid_starts_shift d : forall ks off seen,
    kid_starts e ks (d + off) (map (shift d) seen) = map (shift d) (kid_starts e ks off seen).
  Proof.
    induction ks as [|x xs IH]; intros off seen; [reflexivity|].
    cbn [kid_starts]. destruct (item_redef x) as [t|].
    - rewrite !assoc_find, assoc_shift.
      replace (match option_map (fun o => d + o) (assoc t seen) with Some v => v | None => d + off end)
        with (d + match assoc t seen with Some v => v | None => off end) by (destruct (assoc t seen); reflexivity).
      exact (f_equal (cons _) (IH off ((item_id x, _) :: seen))).
    - rewrite <- Nat.add_assoc. exact (f_equal (cons _) (IH (off + extent e x) ((item_id x, off) :: seen))).
  Qed.

  Lemma kid_start_assoc ks k o st :
    kid_start e ks k = Some o -> assoc k (kid_starts e ks st []) = Some (st + o).
  Proof.
    unfold kid_start.
    pose proof (kid_starts_shift st ks 0 []) as Hs. cbn [map] in Hs. rewrite Nat.add_0_r in Hs.
    rewrite Hs, assoc_shift, <- assoc_find_pair.
    destruct (find (fun p => N.eqb (fst p) k) (kid_starts e ks 0 [])) as [[j v]|]; [|discriminate].
    intros H. injection H as <-. reflexivity.
  Qed.

  Lemma GoodKids_find starts ps an : forall ks k x,
    GoodKids starts ps an ks -> find_kid ks k = Some x ->
    item_id x = k /\ exists o lk, assoc k starts = Some o /\ resolved an ps k lk /\ Good x o lk an.
  Proof.
    induction ks as [|y ys IH]; intros k x Hg Hf; [discriminate|].
    cbn [find_kid] in Hf. cbn [LayoutP.GoodKids] in Hg. destruct Hg as ((o & lk & Ho & Hr & Hgy) & Hrest).
    destruct (N.eqb (item_id y) k) eqn:E.
    - injection Hf as <-. apply N.eqb_eq in E. subst k. split; [reflexivity|]. exists o, lk. tauto.
    - apply IH; assumption.
  Qed.

  Lemma nav_name_resolved an ps k lk st sz :
    resolved an ps k lk -> nav_name (mknav (LObj st sz ps) an) (KName k) = Ok (mknav lk an).
  Proof.
    intros (Hnr & [Hf|(s0 & Hf & Hl)]); rewrite nav_name_unf; cbn [n_loc n_an]; rewrite Hf.
    - destruct lk; try reflexivity. discriminate.
    - rewrite Hl. reflexivity.
  Qed.

  (* what the navigator is looking at, against the specification's view *)
  Definition Rel (v : view) (st : nat) (nv : nav) : Prop :=
    match v with
    | VItem x => Good x st (n_loc nv) (n_an nv)
    | VOcc (Group _ _ _ ks) =>
        exists ps, n_loc nv = LObj st (kids_extent e ks) ps /\ GoodKids (kid_starts e ks st []) ps (n_an nv) ks
    | VOcc (Elem i sz _ _) => n_loc nv = LObj st sz (LPCons (KName i) (LAtom st sz) LPNil)
    | VAtom sz => n_loc nv = LAtom st sz
    end.

  Lemma Rel_place v st nv : Rel v st nv -> lstart (n_loc nv) = st /\ lsize (n_loc nv) = view_size e v.
  Proof.
    destruct v as [x|x|sz]; cbn [Rel view_size].
    - intros H. split; [eapply Good_start; exact H|eapply Good_size; exact H].
    - destruct x as [i sz oc rd|i oc rd ks].
      + intros ->. split; reflexivity.
      + intros (ps & -> & _). split; reflexivity.
    - intros ->. split; reflexivity.
  Qed.

  (* a table: the array location, and the re-walk of one occurrence NDNav.index makes *)
  Definition occ_js (x : item) : js :=
    match x with Elem i sz _ _ => elem_items i sz | Group _ _ _ ks => occ_schema ks end.

  Lemma Good_table x st l an :
    Good x st l an -> is_table x = true ->
    exists sub, l = LArr st (ext1 e x * count e (item_oc x)) (ext1 e x) (count e (item_oc x)) sub (occ_js x)
      /\ forall st', exists l' an', walk (occ_js x) st' [] = Ok (l', an') /\ Rel (VOcc x) st' (mknav l' an').
  Proof.
    intros HG Ht. destruct x as [j sz oc rd|j oc rd ks]; cbn [item_oc ext1 occ_js].
    - assert (Hw : forall st', exists l' an', walk (elem_items j sz) st' [] = Ok (l', an')
                                 /\ Rel (VOcc (Elem j sz oc rd)) st' (mknav l' an')).
      { intros st'. unfold elem_items. rewrite walk_obj, walk_props_cons, walk_atom, walk_props_nil.
        cbn [js_anchor reg lsize]. rewrite sub_add_cancel. eexists. eexists. split; reflexivity. }
      destruct oc as [|n|c]; [discriminate| |].
      all: destruct HG as (_ & _ & sub & Hl); exists sub; split; [exact Hl|exact Hw].
    - destruct oc as [|n|c]; [discriminate| |].
      all: destruct HG as (_ & _ & sub & Hl & Hocc); exists sub; split; [exact Hl|]; intros st'.
      all: destruct (Hocc st') as (ps & an' & Hw & Hg); eexists; exists an'; split; [exact Hw|]; exists ps; split; [reflexivity|exact Hg].
  Qed.

  (* a step by name from a group or from one occurrence of a group, as spec_step takes it *)
  Lemma in_kids_step ks k st ps an sz v' st' :
    GoodKids (kid_starts e ks st []) ps an ks ->
    match find_kid ks k, kid_start e ks k with Some x, Some o => inl (VItem x, st + o) | _, _ => inr NoSuchName end
      = inl (v', st') ->
    exists nv', nav_name (mknav (LObj st sz ps) an) (KName k) = Ok nv' /\ Rel v' st' nv'.
  Proof.
    intros Hg Hs. destruct (find_kid ks k) as [x|] eqn:Hf; [|discriminate]. destruct (kid_start e ks k) as [o|] eqn:Hk; [|discriminate].
    injection Hs as <- <-. destruct (GoodKids_find _ _ _ ks k x Hg Hf) as (_ & o' & lk & Ho & Hr & Hgx).
    rewrite (kid_start_assoc ks k o st Hk) in Ho. injection Ho as <-.
    exists (mknav lk an). split; [apply nav_name_resolved; exact Hr|exact Hgx].
  Qed.

  Lemma nav_step_ok v st nv s v' st' :
    Rel v st nv -> spec_step e v st s = inl (v', st') ->
    exists nv', nav_step dcount r nv s = Ok nv' /\ Rel v' st' nv'.
  Proof.
    intros HR Hs. destruct nv as [l an]. destruct s as [k|i]; cbn [spec_step nav_step] in *.
    - (* by name *)
      destruct v as [x|x|sz]; [| |discriminate].
      + destruct x as [j sz oc rd|j oc rd ks]; [discriminate|]. destruct oc as [|n|c]; try discriminate.
        cbn [Rel n_loc n_an LayoutP.Good] in HR. destruct HR as (_ & _ & ps & -> & Hg).
        exact (in_kids_step ks k st ps an _ v' st' Hg Hs).
      + destruct x as [j sz oc rd|j oc rd ks].
        * cbn [Rel n_loc] in HR. subst l. destruct (N.eqb j k) eqn:E; [|discriminate]. injection Hs as <- <-.
          apply N.eqb_eq in E. subst k. eexists. split.
          -- rewrite nav_name_unf. cbn [n_loc n_an find_prop]. rewrite key_eqb_refl. reflexivity.
          -- reflexivity.
        * cbn [Rel n_loc n_an] in HR. destruct HR as (ps & -> & Hg).
          exact (in_kids_step ks k st ps an _ v' st' Hg Hs).
    - (* by index *)
      destruct v as [x|x|sz]; try discriminate.
      destruct (is_table x) eqn:Et; [|discriminate].
      destruct (i <? count e (item_oc x)) eqn:Ei; [|discriminate]. injection Hs as <- <-.
      apply Nat.ltb_lt, Nat.leb_gt in Ei.
      destruct (Good_table x st l an HR Et) as (sub & -> & Hocc). rewrite nav_index_unf. cbn [n_loc]. rewrite Ei.
      destruct (Hocc (st + ext1 e x * i)) as (l' & an' & Hw & HR'). rewrite Hw.
      eexists. split; [reflexivity|]. rewrite (Nat.mul_comm i). exact HR'.
  Qed.

  Lemma nav_path_ok : forall p v st nv v' st',
    Rel v st nv -> spec_nav e v st p = inl (v', st') ->
    exists nv', nav_path dcount r nv p = Ok nv' /\ Rel v' st' nv'.
  Proof.
    induction p as [|s p IH]; intros v st nv v' st' HR Hs; cbn [spec_nav nav_path] in *.
    - injection Hs as <- <-. exists nv. split; [reflexivity|exact HR].
    - destruct (spec_step e v st s) as [[v1 st1]|err] eqn:E1; [|discriminate].
      destruct (nav_step_ok v st nv s v1 st1 HR E1) as (nv1 & Hn1 & HR1). rewrite Hn1.
      eapply IH; eassumption.
  Qed.

  Lemma index_refused x st nv i :
    Rel (VItem x) st nv -> is_table x = true -> count e (item_oc x) <= i -> nav_index dcount r nv i = Err IndexError.
  Proof.
    intros HR Ht Hi. destruct nv as [l an]. apply Nat.leb_le in Hi.
    destruct (Good_table x st l an HR Ht) as (sub & -> & _). rewrite nav_index_unf. cbn [n_loc]. rewrite Hi. reflexivity.
  Qed.

  (* from a Good location of the record: every item reached by name and index navigation is where the record
     description puts it, and an index at or beyond the count is refused (the last conjunct; root_index_refused
     and layout_correct are its two readings) *)
  Lemma root_layout (t : item) l an :
    walk (build_alt t) 0 [] = Ok (l, an) -> Good t 0 l an ->
    exists v0, nav_of dcount r (build t) = Ok v0
      /\ lstart (n_loc v0) = 0 /\ lend (n_loc v0) = extent e t
      /\ forall p v st, spec_nav e (VItem t) 0 p = inl (v, st) ->
           exists nv, nav_path dcount r v0 p = Ok nv
             /\ lstart (n_loc nv) = st /\ lend (n_loc nv) = st + view_size e v
             /\ nav_raw r nv = slice r st (st + view_size e v)
             /\ (forall x, v = VItem x -> is_table x = true ->
                   forall i, count e (item_oc x) <= i -> nav_index dcount r nv i = Err IndexError).
  Proof.
    intros Hwalk Hg. exists (mknav l an). rewrite nav_of_unf. unfold build. rewrite Hwalk. split; [reflexivity|].
    assert (HR : Rel (VItem t) 0 (mknav l an)) by exact Hg.
    destruct (Rel_place _ _ _ HR) as [H0 Hsz]. cbn [n_loc view_size] in *. unfold lend. rewrite H0, Hsz.
    split; [reflexivity|]. split; [reflexivity|].
    intros p v st Hs. destruct (nav_path_ok p _ _ _ _ _ HR Hs) as (nv & Hn & HRn).
    exists nv. destruct (Rel_place _ _ _ HRn) as [H1 H2]. rewrite nav_raw_unf. unfold lend. rewrite H1, H2.
    repeat split; try assumption.
    intros x -> Ht i Hi. eapply index_refused; eassumption.
  Qed.

  Lemma root_index_refused (t : item) l an :
    walk (build_alt t) 0 [] = Ok (l, an) -> Good t 0 l an ->
    forall v0, nav_of dcount r (build t) = Ok v0 ->
    forall p x st i, spec_nav e (VItem t) 0 p = inl (VItem x, st) -> is_table x = true -> count e (item_oc x) <= i ->
      exists nv, nav_path dcount r v0 p = Ok nv /\ nav_index dcount r nv i = Err IndexError.
  Proof.
    intros Hwalk Hg v0 Hv0 p x st i Hs Ht Hi.
    destruct (root_layout t l an Hwalk Hg) as (v0' & Hv0' & _ & _ & Hp). rewrite Hv0 in Hv0'. injection Hv0' as <-.
    destruct (Hp p _ st Hs) as (nv & Hn & _ & _ & _ & Hr). exists nv. split; [exact Hn|].
    apply (Hr x eq_refl Ht i Hi).
  Qed.

  (* C01: every item reached by name and index navigation is where the record description puts it *)
  Theorem layout_correct (t : item) :
    wf e t = true -> NoDup (ids t) ->
    exists v0, nav_of dcount r (build t) = Ok v0
      /\ lstart (n_loc v0) = 0 /\ lend (n_loc v0) = extent e t
      /\ forall p v st, spec_nav e (VItem t) 0 p = inl (v, st) ->
           exists nv, nav_path dcount r v0 p = Ok nv
             /\ lstart (n_loc nv) = st /\ lend (n_loc nv) = st + view_size e v
             /\ nav_raw r nv = slice r st (st + view_size e v).
  Proof.
    intros Hw Hnd. destruct (proj1 (W_all B dcount r e) t Hw Hnd 0 []) as (l & an & Hwalk & Hg & _).
    destruct (root_layout t l an Hwalk Hg) as (v0 & Hv0 & H0 & He & Hp).
    exists v0. repeat split; try assumption.
    intros p v st Hs. destruct (Hp p v st Hs) as (nv & H). exists nv. tauto.
  Qed.
End Nav.
