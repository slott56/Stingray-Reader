(* Proofs for C01c: the layout theorem of C01 under a weaker hypothesis on data names.

   C01_layout (Proofs/LayoutP.v, layout_correct) asks for NoDup (ids t): every data name of the record distinct.
   Real copybooks repeat names in different groups (ZIP OF BILL-TO / ZIP OF SHIP-TO).  LocationMaker.anchors is one
   flat namespace in which the last registration of a name wins, but a walk CONSULTS that map only for the $ref
   placeholders build_json_schema puts where the members of a REDEFINES union stand (the redefined item and its
   redefiners) and for OCCURS DEPENDING ON counters (not in C01's family).  So it is enough that
     - the children of every group have distinct names  (name() must be unambiguous; the ordered properties of
       the parent are a dict), and
     - every name that stands for a member of a REDEFINES union occurs once in the whole record.
   Every other name may repeat freely in different groups.

   The induction is that of LayoutP.v (W2_all), run with the anchored names as the protected ones (root_good,
   layout_correct_names); anchored_names_unique_NoDup brings the decidable hypothesis of Spec/LayoutNamesWf.v to the
   form W2_all takes, and all_ids_ids, union_ids_anchored, forallb_one_negb_two relate it to the judge's trigger. *)
From Coq Require Import List Arith NArith Bool Lia.
Import ListNotations.
Require Import SR.Base.Res SR.Spec.Layout SR.Model.Layout SR.Proofs.LayoutP.
(* The definitions that theorem statements (Props/) mention are in Spec/LayoutNamesWf.v.  The parsing-only abbreviation
   lets other files write LayoutNamesP.nodupb. *)
Require Export SR.Spec.LayoutNamesWf.
Notation nodupb := SR.Spec.LayoutNamesWf.nodupb (only parsing).

Lemma count_id_cons i a l : count_id i (a :: l) = (if N.eqb i a then 1 else 0) + count_id i l.
Proof. unfold count_id. cbn [filter]. destruct (N.eqb i a); reflexivity. Qed.
Lemma count_id_In i l : In i l -> 1 <= count_id i l.
Proof.
  induction l as [|a l IH]; [intros []|]. rewrite count_id_cons. intros [ -> |H].
  - rewrite N.eqb_refl. lia.
  - specialize (IH H). lia.
Qed.

Lemma count_le1_NoDup P l : (forall i, In i P -> count_id i l <= 1) -> NoDup (pf P l).
Proof.
  induction l as [|a l IH]; intros H; [constructor|].
  assert (Hl : forall i, In i P -> count_id i l <= 1).
  { intros i Hi. specialize (H i Hi). rewrite count_id_cons in H. lia. }
  unfold pf. cbn [filter]. fold (pf P l). destruct (inb P a) eqn:Ea; [|apply IH; exact Hl].
  constructor; [|apply IH; exact Hl].
  intros Hin. apply pf_In in Hin. destruct Hin as [Hin HaP].
  specialize (H a HaP). rewrite count_id_cons, N.eqb_refl in H. apply count_id_In in Hin. lia.
Qed.

Lemma anchored_names_unique_NoDup t : anchored_names_unique t = true -> NoDup (pf (anchored t) (ids t)).
Proof.
  unfold anchored_names_unique. rewrite forallb_forall. intros H. apply count_le1_NoDup.
  intros i Hi. specialize (H i Hi). apply Nat.eqb_eq in H. lia.
Qed.

Lemma no_redefines_anchored :
  (forall x, no_redefines x = true -> anchored x = []) /\
  (forall ks, nr_kids ks = true -> redef_targets ks = [] -> anchored_kids ks = []).
Proof.
  apply item_items_ind.
  - reflexivity.
  - intros i oc rd ks IH H. cbn [no_redefines] in H. apply andb_true_iff in H. destruct H as [H1 H2].
    cbn [anchored]. apply IH; [exact H2|]. destruct (redef_targets ks); [reflexivity|discriminate].
  - reflexivity.
  - intros x IHx xs IHxs H Ht. cbn [nr_kids] in H. apply andb_true_iff in H. destruct H as [H1 H2].
    cbn [redef_targets] in Ht. destruct (item_redef x) as [u|] eqn:Er; [discriminate|].
    cbn [anchored_kids]. rewrite (member_base x xs Er), Ht. cbn [existsb]. rewrite (IHx H1), (IHxs H2 Ht). reflexivity.
Qed.

Lemma sd_kids_in x ks : in_kids x ks -> sd_kids ks = true -> siblings_distinct x = true.
Proof.
  induction ks as [|y ys IH]; cbn [in_kids sd_kids]; [tauto|].
  intros [ -> |H] Hw; apply andb_true_iff in Hw; destruct Hw as [H1 H2]; [exact H1|apply IH; assumption].
Qed.

Section Names.
  Variable B : Type.
  Variable dcount : list B -> nat.
  Variable r : list B.
  Variable e : env.
  Notation walk := (Layout.walk dcount r).

  (* W2_all with P := anchored t: the walk of the record from 0 gives a Good root, which is what root_layout takes *)
  Lemma root_good (t : item) :
    wf e t = true -> siblings_distinct t = true -> anchored_names_unique t = true ->
    exists l an, walk (build_alt t) 0 [] = Ok (l, an) /\ Good B dcount r e t 0 l an.
  Proof.
    intros Hw Hsd Hu.
    assert (HPt : HP (anchored t) t).
    { split; [exact Hsd|]. split; [apply incl_refl|apply anchored_names_unique_NoDup; exact Hu]. }
    destruct (W2_all B dcount r e (anchored t) t Hw HPt 0 []) as (l & an & Hwalk & Hg & _).
    exists l, an. split; [exact Hwalk|apply Placed_Good, Hg].
  Qed.

  (* C01c: C01 under the weaker hypothesis on names *)
  Theorem layout_correct_names (t : item) :
    wf e t = true -> siblings_distinct t = true -> anchored_names_unique t = true ->
    exists v0, nav_of dcount r (build t) = Ok v0
      /\ lstart (n_loc v0) = 0 /\ lend (n_loc v0) = extent e t
      /\ forall p v st, spec_nav e (VItem t) 0 p = inl (v, st) ->
           exists nv, nav_path dcount r v0 p = Ok nv
             /\ lstart (n_loc nv) = st /\ lend (n_loc nv) = st + view_size e v
             /\ nav_raw r nv = slice r st (st + view_size e v).
  Proof.
    intros Hw Hsd Hu. destruct (root_good t Hw Hsd Hu) as (l & an & Hwalk & Hg).
    destruct (root_layout B dcount r e t l an Hwalk Hg) as (v0 & Hv0 & H0 & He & Hp).
    exists v0. repeat split; try assumption.
    intros p v st Hs. destruct (Hp p v st Hs) as (nv & H). exists nv. tauto.
  Qed.

  (* without REDEFINES no name is looked up through the anchors map: siblings distinct is all that is needed *)
  Lemma no_redefines_unique (t : item) : no_redefines t = true -> anchored_names_unique t = true.
  Proof.
    intros H. unfold anchored_names_unique. rewrite (proj1 no_redefines_anchored t H). reflexivity.
  Qed.
End Names.

Lemma count_id_notin i l : ~ In i l -> count_id i l = 0.
Proof.
  induction l as [|a l IH]; intros H; [reflexivity|]. rewrite count_id_cons.
  destruct (N.eqb_spec i a) as [ -> |Hne]; [destruct H; left; reflexivity|]. apply IH. intros Hi. apply H. right. exact Hi.
Qed.

Lemma count_id_NoDup i l : NoDup l -> In i l -> count_id i l = 1.
Proof.
  induction l as [|a l IH]; intros Hnd Hin; [destruct Hin|]. inversion Hnd as [|? ? Ha Hl]; subst.
  rewrite count_id_cons. destruct (N.eqb_spec i a) as [ -> |Hne].
  - rewrite (count_id_notin a l Ha). reflexivity.
  - destruct Hin as [ -> |Hin]; [contradiction|]. apply IH; assumption.
Qed.

(* every name distinct: a special case of the two hypotheses *)
Lemma NoDup_anchored_names_unique t : NoDup (ids t) -> anchored_names_unique t = true.
Proof.
  intros H. unfold anchored_names_unique. apply forallb_forall. intros i Hi. apply Nat.eqb_eq.
  apply count_id_NoDup; [exact H|apply (proj1 anchored_incl_ids), Hi].
Qed.

(* The boundary is the judge's trigger.  JC01 reports K-duplicate-name-union on the trees for which
   Judge/JLayoutCommon.v dup_union_name holds.  On the well-formed trees with distinct siblings that is exactly the
   complement of anchored_names_unique (Props/C01c.v, C01c_boundary_is_known_finding, from the three lemmas below). *)
Require SR.Judge.JLayoutCommon.

Lemma all_ids_ids :
  (forall x, JLayoutCommon.all_ids x = ids x) /\ (forall ks, JLayoutCommon.all_ids_kids ks = ids_kids ks).
Proof.
  apply item_items_ind.
  - reflexivity.
  - intros i oc rd ks IH. cbn [JLayoutCommon.all_ids ids]. rewrite IH. reflexivity.
  - reflexivity.
  - intros x IHx xs IHxs. cbn [JLayoutCommon.all_ids_kids ids_kids]. rewrite IHx, IHxs. reflexivity.
Qed.

Lemma union_ids_anchored e :
  (forall x, wf e x = true -> siblings_distinct x = true -> JLayoutCommon.union_member_ids x = anchored x) /\
  (forall ks, wf_kids e ks = true -> sd_kids ks = true ->
     forall bases tg0, sib_ok bases ks = true -> NoDup (kid_ids ks) ->
       (forall j, In j (kid_ids ks) -> ~ In j bases /\ ~ In j tg0) ->
       JLayoutCommon.kids_union_ids (tg0 ++ redef_targets ks) ks = anchored_kids ks).
Proof.
  apply item_items_ind.
  - reflexivity.
  - intros i oc rd ks IH Hw Hsd. destruct (wf_group _ _ _ _ _ Hw) as [Hk Hu]. destruct (sd_group _ _ _ _ Hsd) as [Hnd Hsdk].
    cbn [JLayoutCommon.union_member_ids anchored].
    assert (Hsib : sib_ok [] ks = true).
    { apply (unions_sib_ok e [] ks). destruct oc as [|n|c]; [exact Hu|apply no_redef_unions, Hu|destruct Hu]. }
    apply (IH Hk Hsdk [] [] Hsib Hnd). intros j _. split; intros [].
  - reflexivity.
  - intros x IHx xs IHxs Hw Hsd bases tg0 Hsib Hnd Hfresh.
    cbn [wf_kids] in Hw. apply andb_true_iff in Hw. destruct Hw as [Hwx Hwxs].
    cbn [sd_kids] in Hsd. apply andb_true_iff in Hsd. destruct Hsd as [Hsx Hsxs].
    cbn [kid_ids] in Hnd, Hfresh. inversion Hnd as [|? ? Hxnot Hndxs]; subst.
    cbn [JLayoutCommon.kids_union_ids anchored_kids redef_targets sib_ok] in *. rewrite (IHx Hwx Hsx).
    rewrite union_of_unf. unfold is_member, is_redefiner. destruct (item_redef x) as [u|] eqn:Er.
    + assert (Hb : forall (b : bool) (p q : list id),
                match (if b then Some (item_id x) else Some u) with Some _ => p | None => q end = p)
        by (intros []; reflexivity).
      rewrite Hb. clear Hb.
      apply andb_true_iff in Hsib. destruct Hsib as [Hub Hsib]. apply existsb_eqb_In in Hub.
      cbn [orb]. f_equal. f_equal.
      change (tg0 ++ u :: redef_targets xs) with (tg0 ++ [u] ++ redef_targets xs). rewrite app_assoc.
      apply (IHxs Hwxs Hsxs bases (tg0 ++ [u]) Hsib Hndxs).
      intros j Hj. destruct (Hfresh j (or_intror Hj)) as [H1 H2]. split; [exact H1|].
      intros H. apply in_app_or in H. destruct H as [H|[ <- |[]]]; [exact (H2 H)|exact (H1 Hub)].
    + cbn [orb]. rewrite existsb_app. change (@existsb id) with (@existsb N).
      rewrite (proj2 (existsb_eqb_notin (item_id x) tg0)) by (apply (Hfresh (item_id x)); left; reflexivity). cbn [orb].
      rewrite (IHxs Hwxs Hsxs (item_id x :: bases) tg0 Hsib Hndxs);
        [destruct (existsb (N.eqb (item_id x)) (redef_targets xs)); reflexivity|].
      intros j Hj. destruct (Hfresh j (or_intror Hj)) as [H1 H2]. split; [|exact H2].
      intros [ <- |H]; [exact (Hxnot Hj)|exact (H1 H)].
Qed.

Lemma forallb_one_negb_two (L l : list id) :
  incl l L -> forallb (fun i => count_id i L =? 1) l = negb (existsb (fun i => 2 <=? count_id i L) l).
Proof.
  induction l as [|a l IH]; intros H; [reflexivity|]. cbn [forallb existsb].
  rewrite IH by (intros i Hi; apply H; right; exact Hi). rewrite negb_orb. f_equal.
  assert (Ha : 1 <= count_id a L) by (apply count_id_In, H; left; reflexivity).
  destruct (count_id a L =? 1) eqn:E1; destruct (2 <=? count_id a L) eqn:E2; try reflexivity.
  - apply Nat.eqb_eq in E1. apply Nat.leb_le in E2. lia.
  - apply Nat.eqb_neq in E1. apply Nat.leb_gt in E2. lia.
Qed.
