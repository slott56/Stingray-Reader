(* Lemmas for C02, C18 and C04 on numeric items: the packed, zoned and binary images of Spec/Encode.v through
   estruct.unpack (Model/Estruct.v) and back; any buffer of a field's width decodes to an error or to a number that
   fits the picture; the codec is code page 037; the enumeration [cfgs] of C04 is complete, and how to count in it.
   Main lemmas: C02_packed, C02_zoned, C02_binary, C02_text (round trips), C18_packed_lemma, C18_zoned_lemma,
   cp037_injective, cfgs_complete, cfgs_count, count_rows. *)
From Coq Require Import ZArith NArith List Bool Lia Arith ZifyBool ZifyN ZifyNat.
Import ListNotations.
Require Import SR.Base.Res SR.Base.Dec SR.Gen.EstructParams SR.Gen.Cp037 SR.Gen.TextCodec SR.Spec.Encode SR.Model.Estruct.
(* The definitions that theorem statements (Props/) mention are in Spec/EstructWf.v. *)
Require Export SR.Spec.EstructWf.
Open Scope N_scope.
(* ZifyBool installs a hook that searches every [lia] goal for boolean constraints; no goal of this file needs it *)
Ltac Zify.zify_post_hook ::= idtac.

Lemma val_app ds d : val (ds ++ [d]) = 10 * val ds + d.
Proof. unfold val. rewrite fold_left_app. reflexivity. Qed.

Lemma fold_val_shift ds : forall a, fold_left (fun a d => 10 * a + d) ds a = a * 10 ^ N.of_nat (length ds) + val ds.
Proof.
  unfold val. induction ds as [|d t IH]; intros a; cbn [fold_left length].
  - change (N.of_nat 0) with 0. rewrite N.pow_0_r. lia.
  - rewrite IH. rewrite (IH (10 * 0 + d)). rewrite Nat2N.inj_succ, N.pow_succ_r'. lia.
Qed.

Lemma val_cons d ds : val (d :: ds) = d * 10 ^ N.of_nat (length ds) + val ds.
Proof. unfold val at 1. cbn [fold_left]. rewrite fold_val_shift. lia. Qed.

Lemma val_zero_cons ds : val (0 :: ds) = val ds.
Proof. rewrite val_cons. lia. Qed.

Lemma val_bound ds : forallb is_digit ds = true -> val ds < 10 ^ N.of_nat (length ds).
Proof.
  induction ds as [|d t IH] using rev_ind; intros H.
  - vm_compute. reflexivity.
  - rewrite forallb_app in H. apply andb_true_iff in H. destruct H as [Ht Hd].
    cbn [forallb] in Hd. unfold is_digit in Hd.
    rewrite val_app, app_length. cbn [length]. rewrite Nat.add_1_r, Nat2N.inj_succ, N.pow_succ_r'.
    specialize (IH Ht). lia.
Qed.

Lemma val_lt_limit ds : forallb is_digit ds = true -> (length ds <= 28)%nat -> val ds < limit.
Proof.
  intros Hd Hl. eapply N.lt_le_trans; [apply val_bound, Hd|].
  apply N.pow_le_mono_r; unfold prec; lia.
Qed.

Lemma text_of_digits ds : forallb is_digit ds = true -> text_of ds = ds.
Proof.
  induction ds as [|d t IH]; intros H; [reflexivity|].
  cbn [forallb] in H. apply andb_true_iff in H. destruct H as [Hd Ht].
  unfold text_of in *. cbn [flat_map]. rewrite (IH Ht). unfold str_nibble, is_digit in *. rewrite Hd. reflexivity.
Qed.

Lemma round_ctx_small d : coef d < limit -> round_ctx d = d.
Proof. intros H. unfold round_ctx. apply N.ltb_lt in H. rewrite H. reflexivity. Qed.

Lemma dec_mul_one_r a b : coef b = 1 -> coef a < limit ->
  dec_mul a b = mkdec (xorb (neg a) (neg b)) (coef a) (dexp a + dexp b).
Proof.
  intros Hb Ha. unfold dec_mul. rewrite Hb, N.mul_1_r. apply round_ctx_small. exact Ha.
Qed.

Lemma number_exact negative text n :
  val text < limit -> number negative text n = mkdec negative (val text) (- Z.of_nat n).
Proof.
  intros H. unfold number.
  rewrite (dec_mul_one_r (mkdec false (val text) 0) (dec_scale n)) by (try reflexivity; exact H).
  rewrite dec_mul_one_r by (try reflexivity; exact H).
  cbn [neg coef dexp dec_scale dec_sign]. f_equal; [destruct negative; reflexivity|lia].
Qed.

Lemma number_zero_cons negative text n : number negative (0 :: text) n = number negative text n.
Proof. unfold number. now rewrite val_zero_cons. Qed.

(* sign nibbles: the source's negative sets are the specification's *)
Lemma packed_neg_spec s : mem s packed_neg = is_neg_sign s.
Proof. unfold mem, packed_neg, is_neg_sign, neg_signs. cbn [existsb]. lia. Qed.

Lemma zoned_neg_spec s : mem s zoned_neg = is_neg_sign s.
Proof. unfold mem, zoned_neg, is_neg_sign, neg_signs. cbn [existsb]. lia. Qed.

Lemma valid_sign_lt s : valid_sign s = true -> s < 16.
Proof. unfold valid_sign, is_neg_sign, pos_signs, neg_signs. cbn [existsb]. lia. Qed.

Lemma hi_pack a b : a < 16 -> b < 16 -> hi (16 * a + b) = a.
Proof. intros Ha Hb. unfold hi. lia. Qed.
Lemma lo_pack a b : a < 16 -> b < 16 -> lo (16 * a + b) = b.
Proof. intros Ha Hb. unfold lo. lia. Qed.

(* induction two elements at a time, as [pack_pairs] recurses *)
Lemma list_pair_ind {A} (P : list A -> Prop) :
  P [] -> (forall a, P [a]) -> (forall a b l, P l -> P (a :: b :: l)) -> forall l, P l.
Proof.
  intros H0 H1 H2 l. enough (H : P l /\ forall a, P (a :: l)) by apply H.
  induction l as [|b l [IH1 IH2]]; split; auto.
Qed.

Lemma split_pack l : Nat.even (length l) = true -> forallb (fun x => x <? 16) l = true ->
  split_nibbles (pack_pairs l) = l.
Proof.
  induction l as [|a|a b t IH] using list_pair_ind; intros He Hl; [reflexivity|discriminate|].
  cbn [forallb] in Hl. apply andb_true_iff in Hl. destruct Hl as [Ha Hl]. apply andb_true_iff in Hl. destruct Hl as [Hb Hl].
  cbn [pack_pairs split_nibbles]. rewrite hi_pack, lo_pack, (IH He Hl) by lia. reflexivity.
Qed.

Lemma digits_lt16 ds : forallb is_digit ds = true -> forallb (fun x => x <? 16) ds = true.
Proof.
  intros H. rewrite forallb_forall in *. intros x Hx. specialize (H x Hx). unfold is_digit in H. lia.
Qed.

Lemma no_bad_digit ds : forallb is_digit ds = true -> existsb (fun d => 9 <? d) ds = false.
Proof.
  induction ds as [|d t IH]; intros H; [reflexivity|].
  cbn [forallb] in H. apply andb_true_iff in H. destruct H as [Hd Ht].
  cbn [existsb]. rewrite (IH Ht). unfold is_digit in Hd. lia.
Qed.

Lemma unpack_packed_roundtrip p ds s :
  forallb is_digit ds = true -> valid_sign s = true -> val ds < limit ->
  unpack_packed_dec p (enc_packed ds s) = Ok (VDec (mkdec (is_neg_sign s) (val ds) (- Z.of_nat (p_frac p)))).
Proof.
  intros Hd Hs Hv. pose proof (valid_sign_lt s Hs) as Hs16.
  (* the nibbles packed are ds' ++ [s], ds' being ds with the pad nibble when there is one *)
  set (ds' := if Nat.even (length (ds ++ [s])) then ds else 0 :: ds).
  assert (He : Nat.even (length (ds' ++ [s])) = true).
  { unfold ds'. destruct (Nat.even (length (ds ++ [s]))) eqn:E; [exact E|].
    cbn [app length]. rewrite Nat.even_succ, <- Nat.negb_even, E. reflexivity. }
  assert (Hd' : forallb is_digit ds' = true) by (unfold ds'; destruct (Nat.even _); [exact Hd|exact Hd]).
  assert (Hv' : val ds' = val ds) by (unfold ds'; destruct (Nat.even _); [reflexivity|apply val_zero_cons]).
  unfold unpack_packed_dec, enc_packed. cbv zeta.
  replace (if Nat.even (length (ds ++ [s])) then ds ++ [s] else 0 :: ds ++ [s]) with (ds' ++ [s])
    by (unfold ds'; destruct (Nat.even _); reflexivity).
  rewrite split_pack; [|exact He|rewrite forallb_app, (digits_lt16 ds' Hd'); cbn [forallb]; lia].
  rewrite rev_app_distr. cbn [rev app]. rewrite rev_involutive.
  replace packed_check_digits with true by reflexivity. rewrite (no_bad_digit ds' Hd'). cbn [andb].
  destruct ds' as [|d t]; [discriminate He|].
  rewrite text_of_digits by exact Hd'. rewrite packed_neg_spec, number_exact, Hv' by (rewrite Hv'; exact Hv). reflexivity.
Qed.

Lemma enc_zoned_cons2 d e t z : enc_zoned (d :: e :: t) z = (240 + d) :: enc_zoned (e :: t) z.
Proof. reflexivity. Qed.

Lemma zoned_lo ds z : forallb is_digit ds = true -> z < 16 -> map lo (enc_zoned ds z) = ds.
Proof.
  intros Hd Hz. induction ds as [|d t IH]; [reflexivity|].
  cbn [forallb] in Hd. apply andb_true_iff in Hd. destruct Hd as [Hd Ht]. unfold is_digit in Hd.
  destruct t as [|e t'].
  - cbn [enc_zoned map]. rewrite lo_pack by lia. reflexivity.
  - rewrite enc_zoned_cons2. cbn [map]. rewrite (IH Ht).
    replace (240 + d) with (16 * 15 + d) by lia. rewrite lo_pack by lia. reflexivity.
Qed.

Lemma zoned_last ds z : ds <> [] -> forallb is_digit ds = true -> z < 16 ->
  exists l r, rev (enc_zoned ds z) = l :: r /\ hi l = z.
Proof.
  intros Hne Hd Hz. induction ds as [|d t IH]; [contradiction|].
  cbn [forallb] in Hd. apply andb_true_iff in Hd. destruct Hd as [Hd Ht]. unfold is_digit in Hd.
  destruct t as [|e t'].
  - eexists _, _. split; [reflexivity|]. apply hi_pack; lia.
  - destruct (IH ltac:(discriminate) Ht) as (l & r & Hrev & Hhi).
    rewrite enc_zoned_cons2. cbn [rev]. rewrite Hrev. eexists _, _. split; [reflexivity|exact Hhi].
Qed.

Lemma no_bad_zoned bs : forallb is_digit (map lo bs) = true -> existsb (fun b => 9 <? lo b) bs = false.
Proof.
  induction bs as [|b t IH]; intros H; [reflexivity|].
  cbn [map forallb] in H. apply andb_true_iff in H. destruct H as [Hd Ht].
  cbn [existsb]. rewrite (IH Ht). unfold is_digit in Hd. lia.
Qed.

(* the zoned decoder on any buffer whose low nibbles are digits: they are the digits, the zone of the last byte is the sign *)
Lemma unpack_zoned_digits p buffer last rest :
  forallb is_digit (map lo buffer) = true -> rev buffer = last :: rest ->
  unpack_zoned p buffer = Ok (VDec (number (mem (hi last) zoned_neg) (map lo buffer) (p_frac p))).
Proof.
  intros Hd Hr. unfold unpack_zoned. replace zoned_check_digits with true by reflexivity.
  rewrite no_bad_zoned, Hr, text_of_digits by exact Hd. reflexivity.
Qed.

Lemma unpack_zoned_roundtrip p ds z :
  ds <> [] -> forallb is_digit ds = true -> valid_sign z = true -> val ds < limit ->
  unpack_zoned p (enc_zoned ds z) = Ok (VDec (mkdec (is_neg_sign z) (val ds) (- Z.of_nat (p_frac p)))).
Proof.
  intros Hne Hd Hs Hv. pose proof (valid_sign_lt z Hs) as Hz.
  destruct (zoned_last ds z Hne Hd Hz) as (l & r & Hrev & Hhi).
  rewrite (unpack_zoned_digits p _ l r) by (rewrite ?zoned_lo; assumption).
  rewrite zoned_lo, Hhi, zoned_neg_spec, number_exact by assumption. reflexivity.
Qed.

Lemma from_be_app l b : from_be (l ++ [b]) = 256 * from_be l + b.
Proof. unfold from_be. rewrite fold_left_app. reflexivity. Qed.

Lemma length_to_be w : forall u, length (to_be w u) = w.
Proof. induction w as [|w IH]; intros u; cbn [to_be]; [reflexivity|]. rewrite app_length, IH. cbn. lia. Qed.

Lemma from_to_be w : forall u, from_be (to_be w u) = u mod 256 ^ N.of_nat w.
Proof.
  induction w as [|w IH]; intros u.
  - cbn [to_be]. change (N.of_nat 0) with 0. rewrite N.pow_0_r, N.mod_1_r. reflexivity.
  - cbn [to_be]. rewrite from_be_app, IH, Nat2N.inj_succ, N.pow_succ_r'.
    rewrite N.mod_mul_r by (try apply N.pow_nonzero; lia). lia.
Qed.

(* a field of w bytes: 256^w = 2 * 2^(8w-1), in N as the decoder computes it and in Z as the statements say it *)
Lemma half_width w : (1 <= w)%nat ->
  256 ^ N.of_nat w = 2 * 2 ^ (8 * N.of_nat w - 1)
  /\ Z.of_N (2 ^ (8 * N.of_nat w - 1)) = (2 ^ (8 * Z.of_nat w - 1))%Z.
Proof.
  intros Hw. split.
  - change 256 with (2 ^ 8). rewrite <- N.pow_mul_r, <- N.pow_succ_r'. f_equal. lia.
  - rewrite N2Z.inj_pow. f_equal. lia.
Qed.

(* two's complement: a number of -h .. h-1, reduced modulo 2h and read back with h as the sign bit, is itself *)
Lemma wrap_signed h v : (- h <= v < h)%Z ->
  (if v mod (2 * h) <? h then v mod (2 * h) else v mod (2 * h) - 2 * h)%Z = v.
Proof.
  intros Hv.
  assert (Hm : (v mod (2 * h) = if v <? 0 then v + 2 * h else v)%Z).
  { destruct (v <? 0)%Z eqn:E; [|apply Z.mod_small; lia].
    rewrite <- (Z.mod_add v 1), Z.mod_small by lia. lia. }
  rewrite Hm. clear Hm. destruct (v <? 0)%Z eqn:E; destruct (_ <? h)%Z eqn:F; lia.
Qed.

Lemma signed_roundtrip w v :
  (- 2 ^ (8 * Z.of_nat w - 1) <= v < 2 ^ (8 * Z.of_nat w - 1))%Z -> signed_be w (enc_be w v) = v.
Proof.
  intros Hv. destruct w as [|w']; [cbn in Hv; lia|]. set (w := S w') in *.
  destruct (half_width w) as [H256 Hhalf]; [lia|].
  assert (H2 : (2 ^ (8 * Z.of_nat w) = 2 * 2 ^ (8 * Z.of_nat w - 1))%Z).
  { rewrite <- Z.pow_succ_r by lia. f_equal. lia. }
  unfold signed_be, enc_be. cbv zeta. rewrite from_to_be, H256, H2.
  set (h := (2 ^ (8 * Z.of_nat w - 1))%Z) in *.
  assert (Hm : (0 <= v mod (2 * h) < 2 * h)%Z) by (apply Z.mod_pos_bound; lia).
  (* the decoder computes in N what [wrap_signed] says in Z *)
  assert (Hu : Z.of_N (Z.to_N (v mod (2 * h)) mod (2 * 2 ^ (8 * N.of_nat w - 1))) = (v mod (2 * h))%Z).
  { rewrite N2Z.inj_mod, Z2N.id, N2Z.inj_mul, Hhalf by apply Hm. apply Z.mod_small, Hm. }
  rewrite N.ltb_compare, <- N2Z.inj_compare, <- Z.ltb_compare, N2Z.inj_mul, Hu, Hhalf. apply wrap_signed, Hv.
Qed.

(* the widths the property lists, read backwards *)
Lemma spec_binary_width_iff d w : spec_binary_width d = Some w <->
  (w = 2 /\ 1 <= d <= 4 \/ w = 4 /\ 5 <= d <= 9 \/ w = 8 /\ 10 <= d <= 18)%nat.
Proof.
  unfold spec_binary_width.
  destruct (Nat.ltb_spec d 1); [split; [discriminate|lia]|].
  destruct (Nat.leb_spec d 4); [split; [intros E; injection E as <-|intros D; f_equal]; lia|].
  destruct (Nat.leb_spec d 9); [split; [intros E; injection E as <-|intros D; f_equal]; lia|].
  destruct (Nat.leb_spec d 18); [split; [intros E; injection E as <-|intros D; f_equal]; lia|].
  split; [discriminate|lia].
Qed.

Lemma spec_binary_width_cases d w : spec_binary_width d = Some w -> (w = 2 \/ w = 4 \/ w = 8)%nat.
Proof. rewrite spec_binary_width_iff. tauto. Qed.

(* the decoder's width is the width the property lists, for every picture with 1..18 digits *)
Lemma bin_width_spec p w : spec_binary_width (p_int p + p_frac p) = Some w ->
  bin_width bin_t1 bin_t2 bin_t3 bin_t3_inclusive bin_counts_fraction p = Some w.
Proof.
  rewrite spec_binary_width_iff.
  unfold bin_width, bin_t1, bin_t2, bin_t3, bin_t3_inclusive, bin_counts_fraction. cbv zeta.
  set (d := N.of_nat (p_int p) + N.of_nat (p_frac p)).
  intros [[-> H]|[[-> H]|[-> H]]]; destruct (d <? 5) eqn:E1; try lia; try reflexivity.
  all: destruct ((5 <=? d) && (d <? 10)) eqn:E2; try lia; try reflexivity.
  destruct ((10 <=? d) && (d <=? 18)) eqn:E3; [reflexivity|lia].
Qed.

Lemma unpack_binary_roundtrip p w v :
  spec_binary_width (p_int p + p_frac p) = Some w ->
  (- 2 ^ (8 * Z.of_nat w - 1) <= v < 2 ^ (8 * Z.of_nat w - 1))%Z ->
  unpack_binary_int p (enc_be w v) = Ok (VInt v).
Proof.
  intros Hw Hv. unfold unpack_binary_int. rewrite (bin_width_spec p w Hw).
  unfold enc_be. rewrite length_to_be, Nat.eqb_refl. fold (enc_be w v).
  rewrite signed_roundtrip by exact Hv. reflexivity.
Qed.

(* the usage spellings of the property reach the right decoder *)
Lemma usage_packed u : In u packed_spellings -> mem u unpack_display = false /\ mem u unpack_packed = true.
Proof. unfold packed_spellings. cbn [In]. intros [<-|[<-|[<-|[]]]]; split; reflexivity. Qed.

Lemma usage_binary u : In u binary_spellings ->
  mem u unpack_display = false /\ mem u unpack_packed = false /\ mem u unpack_binary = true.
Proof. unfold binary_spellings. cbn [In]. intros [<-|[<-|[<-|[<-|[<-|[]]]]]]; repeat split; reflexivity. Qed.

Lemma usage_display : mem display_spelling unpack_display = true.
Proof. reflexivity. Qed.

Lemma C02_packed u p ds s :
  In u packed_spellings -> forallb is_digit ds = true -> valid_sign s = true -> (length ds <= 28)%nat ->
  unpack u p (enc_packed ds s) = Ok (VDec (mkdec (is_neg_sign s) (val ds) (- Z.of_nat (p_frac p)))).
Proof.
  intros Hu Hd Hs Hl. destruct (usage_packed u Hu) as [H1 H2]. unfold unpack. rewrite H1, H2.
  apply unpack_packed_roundtrip; [assumption|assumption|apply val_lt_limit; assumption].
Qed.

Lemma C02_zoned p ds z :
  ds <> [] -> forallb is_digit ds = true -> valid_sign z = true -> (length ds <= 28)%nat ->
  unpack display_spelling p (enc_zoned ds z) = Ok (VDec (mkdec (is_neg_sign z) (val ds) (- Z.of_nat (p_frac p)))).
Proof.
  intros Hne Hd Hs Hl. unfold unpack. rewrite usage_display.
  apply unpack_zoned_roundtrip; [assumption|assumption|assumption|apply val_lt_limit; assumption].
Qed.

Lemma C02_binary u p w v :
  In u binary_spellings -> spec_binary_width (p_int p + p_frac p) = Some w ->
  (- 2 ^ (8 * Z.of_nat w - 1) <= v < 2 ^ (8 * Z.of_nat w - 1))%Z ->
  unpack u p (enc_be w v) = Ok (VInt v).
Proof.
  intros Hu Hw Hv. destruct (usage_binary u Hu) as (H1 & H2 & H3). unfold unpack. rewrite H1, H2, H3.
  apply unpack_binary_roundtrip; assumption.
Qed.

(* the codec the source names IS code page 037 *)
Lemma codec_is_cp037 : text_table = cp037_table.
Proof. vm_compute. reflexivity. Qed.

Lemma text_decode_cp037 b : text_decode b = cp037 b.
Proof. unfold text_decode, cp037. rewrite codec_is_cp037. reflexivity. Qed.

Lemma C02_text k buffer : length buffer = k ->
  unpack_x display_spelling k buffer = Ok (VStr (map cp037 buffer)).
Proof.
  intros <-. unfold unpack_x. rewrite usage_display. unfold unpack_text.
  rewrite (map_ext _ _ text_decode_cp037).
  rewrite map_length, Nat.leb_refl. replace text_dotall with true by reflexivity. reflexivity.
Qed.

Fixpoint nodupb (l : list N) : bool :=
  match l with [] => true | x :: t => negb (existsb (N.eqb x) t) && nodupb t end.

Lemma nodupb_NoDup l : nodupb l = true -> NoDup l.
Proof.
  induction l as [|x t IH]; intros H; [constructor|].
  cbn [nodupb] in H. apply andb_true_iff in H. destruct H as [Hx Ht].
  constructor; [|apply IH; exact Ht].
  intros Hin. apply negb_true_iff in Hx.
  assert (existsb (N.eqb x) t = true) by (apply existsb_exists; exists x; split; [exact Hin|apply N.eqb_refl]).
  congruence.
Qed.

Lemma cp037_table_nodup : NoDup cp037_table /\ length cp037_table = 256%nat.
Proof. split; [apply nodupb_NoDup; vm_compute; reflexivity|reflexivity]. Qed.

Lemma cp037_injective a b : a < 256 -> b < 256 -> cp037 a = cp037 b -> a = b.
Proof.
  intros Ha Hb H. unfold cp037 in H. destruct cp037_table_nodup as [Hnd Hlen].
  rewrite (NoDup_nth cp037_table 65533) in Hnd. apply N2Nat.inj. apply Hnd; [lia|lia|exact H].
Qed.

(* C18: any bytes of the field's width: an error or a number that fits *)
Require Import SR.Spec.Fits.

Lemma split_nibbles_length bs : length (split_nibbles bs) = (2 * length bs)%nat.
Proof. induction bs as [|b t IH]; cbn [split_nibbles length]; [reflexivity|]. rewrite IH. lia. Qed.

Lemma all_digits_or_bad ds : existsb (fun d => 9 <? d) ds = false -> forallb is_digit ds = true.
Proof.
  induction ds as [|d t IH]; intros H; [reflexivity|].
  cbn [existsb] in H. apply orb_false_iff in H. destruct H as [Hd Ht].
  cbn [forallb]. rewrite (IH Ht). unfold is_digit. lia.
Qed.

Lemma existsb_map_lo bs : existsb (fun d => 9 <? d) (map lo bs) = existsb (fun b => 9 <? lo b) bs.
Proof. induction bs as [|b t IH]; [reflexivity|]. cbn [map existsb]. rewrite IH. reflexivity. Qed.

Lemma fits_number negative ds m n :
  forallb is_digit ds = true -> (length ds <= m + n)%nat -> (m + n <= 28)%nat ->
  fits m n (number negative ds n) = true.
Proof.
  intros Hd Hl Hb. pose proof (val_bound ds Hd) as Hv.
  assert (Hle : 10 ^ N.of_nat (length ds) <= 10 ^ N.of_nat (m + n)) by (apply N.pow_le_mono_r; lia).
  rewrite number_exact by (apply val_lt_limit; [exact Hd|lia]).
  unfold fits. cbn [coef dexp]. rewrite Z.eqb_refl. cbn [andb]. lia.
Qed.

Lemma C18_packed_lemma u p buffer :
  In u packed_spellings -> (1 <= p_int p + p_frac p <= 28)%nat ->
  length buffer = spec_packed_width (p_int p + p_frac p) ->
  pad_nibble_set p buffer = false ->
  (exists e, unpack u p buffer = Err e) \/
  (exists d, unpack u p buffer = Ok (VDec d) /\ fits (p_int p) (p_frac p) d = true).
Proof.
  intros Hu Hmn Hlen Hpad. destruct (usage_packed u Hu) as [H1 H2]. unfold unpack. rewrite H1, H2.
  unfold unpack_packed_dec.
  destruct (rev (split_nibbles buffer)) as [|sign_half rdigits] eqn:Hrev; [left; eexists; reflexivity|].
  assert (Hnib : split_nibbles buffer = rev rdigits ++ [sign_half]).
  { rewrite <- (rev_involutive (split_nibbles buffer)), Hrev. reflexivity. }
  assert (Hdl : S (length (rev rdigits)) = (2 * length buffer)%nat).
  { rewrite <- split_nibbles_length, Hnib, app_length. cbn [length]. lia. }
  replace packed_check_digits with true by reflexivity. cbn [andb].
  destruct (existsb (fun d => 9 <? d) (rev rdigits)) eqn:Hbad; [left; eexists; reflexivity|].
  pose proof (all_digits_or_bad _ Hbad) as Hd.
  destruct (rev rdigits) as [|d0 dt] eqn:Hds; [left; eexists; reflexivity|].
  right. eexists. split; [reflexivity|].
  rewrite text_of_digits by exact Hd.
  unfold spec_packed_width in Hlen.
  destruct (Nat.even (p_int p + p_frac p)) eqn:Heven.
  - (* even digit count: the first nibble is the pad nibble and is zero outside the known family *)
    destruct buffer as [|b bt]; [cbn in Hlen; lia|].
    unfold pad_nibble_set in Hpad. rewrite Heven in Hpad. cbn [andb] in Hpad.
    apply negb_false_iff, N.eqb_eq in Hpad.
    cbn [split_nibbles app] in Hnib. injection Hnib as Hd0 _. subst d0. rewrite Hpad.
    rewrite number_zero_cons.
    cbn [forallb] in Hd. apply andb_true_iff in Hd. destruct Hd as [_ Hdt].
    apply fits_number; [exact Hdt| |lia].
    apply Nat.even_spec in Heven. destruct Heven as [k Hk]. cbn [length] in Hdl, Hlen. lia.
  - apply fits_number; [exact Hd| |lia].
    assert (Hodd : Nat.odd (p_int p + p_frac p) = true) by (rewrite <- Nat.negb_even, Heven; reflexivity).
    apply Nat.odd_spec in Hodd. destruct Hodd as [k Hk]. lia.
Qed.

Lemma C18_zoned_lemma p buffer :
  (1 <= p_int p + p_frac p <= 27)%nat ->
  length buffer = spec_display_width (p_signed p) (p_int p + p_frac p) ->
  sign_position_set p buffer = false ->
  (exists e, unpack display_spelling p buffer = Err e) \/
  (exists d, unpack display_spelling p buffer = Ok (VDec d) /\ fits (p_int p) (p_frac p) d = true).
Proof.
  intros Hmn Hlen Hsp. unfold unpack. rewrite usage_display.
  unfold unpack_zoned. replace zoned_check_digits with true by reflexivity. cbn [andb].
  destruct (existsb (fun b => 9 <? lo b) buffer) eqn:Hbad; [left; eexists; reflexivity|].
  destruct (rev buffer) as [|last rest] eqn:Hrev; [left; eexists; reflexivity|].
  right. eexists. split; [reflexivity|].
  assert (Hd : forallb is_digit (map lo buffer) = true).
  { apply all_digits_or_bad. rewrite existsb_map_lo. exact Hbad. }
  rewrite text_of_digits by exact Hd. unfold spec_display_width in Hlen.
  destruct (p_signed p) eqn:Hs.
  - destruct buffer as [|b bt]; [cbn in Hlen; lia|].
    unfold sign_position_set in Hsp. rewrite Hs in Hsp. cbn [andb] in Hsp.
    apply negb_false_iff, N.eqb_eq in Hsp. cbn [map]. rewrite Hsp.
    rewrite number_zero_cons.
    cbn [map forallb] in Hd. apply andb_true_iff in Hd. destruct Hd as [_ Hdt].
    apply fits_number; [exact Hdt| |lia]. rewrite map_length. cbn [length] in Hlen. lia.
  - apply fits_number; [exact Hd| |lia]. rewrite map_length. lia.
Qed.

(* C04: complete enumeration of the finite configuration space *)
Require Import SR.Spec.SizeCfg.

(* counting in the enumeration, row by row: a row is one spelling and one sign with the 189 digit pairs *)
Lemma length_flat_map {A B} (f : A -> list B) l : length (flat_map f l) = list_sum (map (fun x => length (f x)) l).
Proof. induction l as [|x l IH]; [reflexivity|]. cbn [flat_map map list_sum]. now rewrite app_length, IH. Qed.

Lemma filter_flat_map {A B} (q : B -> bool) (f : A -> list B) l :
  filter q (flat_map f l) = flat_map (fun x => filter q (f x)) l.
Proof. induction l as [|x l IH]; [reflexivity|]. cbn [flat_map]. now rewrite filter_app, IH. Qed.

Lemma filter_map {A B} (q : B -> bool) (g : A -> B) l : filter q (map g l) = map g (filter (fun x => q (g x)) l).
Proof. induction l as [|x l IH]; [reflexivity|]. cbn [map filter]. rewrite IH. now destruct (q (g x)). Qed.

Lemma cfgs_count : length cfgs = 4914%nat.
Proof. vm_compute. reflexivity. Qed.

(* a set that takes of each row everything, or the pairs that total 4 or 9, or nothing *)
Lemma count_rows (q : cfg -> bool) (all : N -> bool) (some : N -> bool -> bool) :
  (forall u s m n, q (u, s, m, n) = all u || some u s && ((m + n =? 4) || (m + n =? 9))%nat) ->
  length (filter q cfgs) =
  list_sum (map (fun u => list_sum (map (fun s => if all (N.of_nat u) then 189 else if some (N.of_nat u) s then 15 else 0)%nat
                                        [false; true])) (seq 0 13)).
Proof.
  intros Hq. unfold cfgs. rewrite filter_flat_map, length_flat_map. f_equal. apply map_ext. intros u.
  rewrite filter_flat_map, length_flat_map. f_equal. apply map_ext. intros s.
  rewrite filter_map, map_length.
  rewrite (filter_ext _ (fun mn => all (N.of_nat u) || some (N.of_nat u) s
                                   && ((fst mn + snd mn =? 4) || (fst mn + snd mn =? 9))%nat)) by (intros mn; apply Hq).
  destruct (all (N.of_nat u)); [reflexivity|]. destruct (some (N.of_nat u) s); reflexivity.
Qed.

Lemma cfgs_complete u s m n : (u < 13)%N -> (1 <= m + n <= 18)%nat -> In (u, s, m, n) cfgs.
Proof.
  intros Hu Hmn. unfold cfgs. apply in_flat_map. exists (N.to_nat u). split; [apply in_seq; lia|].
  apply in_flat_map. exists s. split; [destruct s; cbn; auto|].
  apply in_map_iff. exists (m, n). split; [cbn [fst snd]; rewrite N2Nat.id; reflexivity|].
  unfold digit_pairs. apply in_flat_map. exists m. split; [apply in_seq; lia|].
  apply in_map_iff. exists n. split; [reflexivity|]. apply in_seq.
  destruct (m =? 0)%nat eqn:E; [apply Nat.eqb_eq in E|apply Nat.eqb_neq in E]; lia.
Qed.
