(* C05: the RECFM readers of Model/Recfm.v read back what the writers of Spec/Recfm.v wrote.  Each reader is a loop
   over the image; a `_turn` lemma gives one turn on `record ++ rest`, induction on the records does the rest:
   F_record_iter_ok, V_record_iter_ok, VB_iters_any, VB_bdw_iter_ok.  RECFM_N refills a buffer: Section N keeps the
   invariant [Inv] (step_inv, N_roundtrip).  The images are byte strings (write_V_bytes, write_VB_bytes).  A reader
   called several times in a row delivers the records in order (passes_ok for F and V, VB_passes_any). *)
From Coq Require Import ZArith NArith List Bool Lia.
Import ListNotations.
Require Import SR.Base.Res SR.Gen.RecfmParams SR.Spec.Recfm SR.Model.Recfm.
Require Export SR.Proofs.ListFactsP.
Require Export SR.Spec.RecfmWf.   (* items_of, calm: the definitions the statements of Props/C05.v use *)
Open Scope nat_scope.

(* What the parameters read from the source (Gen/RecfmParams.v) must be for the proofs below: a source edit that changes
   one stops the build here. *)
Lemma refill_is_top_up : refill_mode = 0%N.
Proof. reflexivity. Qed.

Lemma hdr_is_big_endian : hdr_fmt = 0%N.
Proof. reflexivity. Qed.

Lemma buffer_positive : 0 < N.to_nat buffer_size.
Proof. unfold buffer_size. lia. Qed.

(* the corruption check of RECFM_VB accepts a descriptor word that ends exactly at the end of the block
   (offset + 4 <= len(block), fix eee0fb2); with the strict comparison this file stops compiling here.  The lemmas
   below that take the comparison as a parameter [strict] do so for Props/C05.v alone, which also states what the
   strict rule accepted (C05_VB_old_rule) and the file it refused (C05_VB_empty_last_old_refuted). *)
Lemma rdw_fits_is_le : vb_rdw_fits_strict = false.
Proof. reflexivity. Qed.

Lemma rule_rdw_fits off L : rdw_fits vb_rdw_fits_strict off L = (off + 4 <=? L)%N.
Proof. rewrite rdw_fits_is_le. reflexivity. Qed.

Lemma length_concat_ge {A} (rs : list (list A)) :
  forallb (fun r => 1 <=? length r) rs = true -> length rs <= length (concat rs).
Proof.
  induction rs as [|r rs IH]; intros H; cbn [concat length]; [lia|].
  cbn [forallb] in H. apply andb_prop in H as [Hr Hrs]. apply Nat.leb_le in Hr.
  rewrite app_length. specialize (IH Hrs). lia.
Qed.

Lemma read_nonneg {A} kind n (s : list A) : read kind (Z.of_nat n) s = Ok (firstn n s, skipn n s).
Proof. unfold read. rewrite (proj2 (Z.leb_le _ _) (Nat2Z.is_nonneg n)), Nat2Z.id. reflexivity. Qed.

Lemma read_exact {A} kind (r t : list A) : read kind (Z.of_nat (length r)) (r ++ t) = Ok (r, t).
Proof. rewrite read_nonneg, firstn_exact, skipn_exact. reflexivity. Qed.

Lemma read_eof {A} kind n : read kind (Z.of_nat n) (@nil A) = Ok ([], []).
Proof. rewrite read_nonneg, firstn_nil, skipn_nil. reflexivity. Qed.

(* how a reader asked for k of n items stops: suspended after the k-th if there are that many, else at the end of the file *)
Definition ended (k n : nat) : fin := if k <=? n then More else Done.

Lemma ended_le k n : k <= n -> ended k n = More.
Proof. intros H. unfold ended. rewrite (proj2 (Nat.leb_le _ _) H). reflexivity. Qed.

Lemma ended_gt k n : n < k -> ended k n = Done.
Proof. intros H. unfold ended. rewrite (proj2 (Nat.leb_gt _ _) H). reflexivity. Qed.

Lemma ended_app {X} (a b : list X) : ended (length a) (length (a ++ b)) = More.
Proof. apply ended_le. rewrite app_length. apply Nat.le_add_r. Qed.

Lemma unpack_rdw n : unpack_H2x (rdw n) = Ok n.
Proof.
  unfold unpack_H2x, rdw. rewrite hdr_is_big_endian. cbn [N.eqb].
  rewrite N.mul_comm, <- N.div_mod'. reflexivity.
Qed.

Lemma pack_rdw n : (n <= max_hdr)%N -> pack_H2x n = Ok (rdw n).
Proof.
  intros H. unfold pack_H2x, rdw. rewrite hdr_is_big_endian, (proj2 (N.leb_le n 65535) H). reflexivity.
Qed.

Lemma rdw_rec_length r : length (rdw_rec r) = 4 + length r.
Proof. reflexivity. Qed.

Lemma length_rdw_app r t : N.of_nat (length (rdw_rec r ++ t)) = (len4 r + N.of_nat (length t))%N.
Proof. rewrite app_length, rdw_rec_length. unfold len4. lia. Qed.

(* read(size - 4) after the header of a record *)
Lemma read_payload kind (r t : list N) :
  read kind (Z.of_N (len4 r) - 4) (r ++ t) = Ok (r, t).
Proof.
  replace (Z.of_N (len4 r) - 4)%Z with (Z.of_nat (length r)) by (unfold len4; lia). apply read_exact.
Qed.

Definition hdr_pair (r : list N) : list N * list N := (rdw (len4 r), r).

Lemma map_snd_hdr rs : map snd (map hdr_pair rs) = rs.
Proof. rewrite map_map. apply map_id. Qed.

Lemma map_cat_hdr rs : map (fun p : list N * list N => fst p ++ snd p) (map hdr_pair rs) = map rdw_rec rs.
Proof. apply map_map. Qed.

Lemma legal_F_pos {A} lrecl (rs : list (list A)) :
  legal_F lrecl rs = true -> 0 < lrecl /\ forallb (fun r => length r =? lrecl) rs = true.
Proof. unfold legal_F. intros H. apply andb_prop in H as [H1 H2]. apply Nat.leb_le in H1. split; [lia|exact H2]. Qed.

Lemma legal_F_len {A} lrecl (rs : list (list A)) :
  0 < lrecl -> forallb (fun r => length r =? lrecl) rs = true -> length rs <= length (concat rs).
Proof.
  intros Hl H. apply length_concat_ge, forallb_forall. intros r Hr.
  apply (proj1 (forallb_forall _ _) H), Nat.eqb_eq in Hr. apply Nat.leb_le. lia.
Qed.

Lemma F_turn {A} kind lrecl (r t : list A) f k : 0 < lrecl -> (length r =? lrecl) = true ->
  F_loop (S f) kind (Z.of_nat lrecl) (r ++ t) = emit r (F_loop f kind (Z.of_nat lrecl) t)
  /\ F_take (S f) (S k) kind (Z.of_nat lrecl) (r ++ t) = emit r (F_take f k kind (Z.of_nat lrecl) t).
Proof.
  intros Hl Hr. apply Nat.eqb_eq in Hr. subst lrecl.
  cbn [F_loop F_take]. rewrite read_exact. destruct r; [inversion Hl|split; reflexivity].
Qed.

Lemma F_loop_ok {A} kind lrecl : 0 < lrecl -> forall (rs : list (list A)) fuel,
  forallb (fun r => length r =? lrecl) rs = true -> length rs < fuel ->
  F_loop fuel kind (Z.of_nat lrecl) (concat rs) = (rs, Done, []).
Proof.
  intros Hl. induction rs as [|r rs IH]; intros [|f] H Hf; try (now apply Nat.nlt_0_r in Hf).
  - cbn [concat F_loop]. rewrite read_eof. reflexivity.
  - cbn [forallb] in H. apply andb_prop in H as [Hr Hrs]. cbn [length] in Hf.
    cbn [concat]. rewrite (proj1 (F_turn kind lrecl r _ f 0 Hl Hr)), IH by (assumption || lia). reflexivity.
Qed.

Lemma F_take_ok {A} kind lrecl : 0 < lrecl -> forall (rs : list (list A)) fuel k,
  forallb (fun r => length r =? lrecl) rs = true -> length rs < fuel ->
  F_take fuel k kind (Z.of_nat lrecl) (concat rs) = (firstn k rs, ended k (length rs), concat (skipn k rs)).
Proof.
  intros Hl. induction rs as [|r rs IH]; intros [|f] [|k] H Hf; try (now apply Nat.nlt_0_r in Hf); try reflexivity.
  - cbn [concat F_take]. rewrite read_eof. reflexivity.
  - cbn [forallb] in H. apply andb_prop in H as [Hr Hrs]. cbn [length] in Hf.
    cbn [concat]. rewrite (proj2 (F_turn kind lrecl r _ f k Hl Hr)), IH by (assumption || lia). reflexivity.
Qed.

Lemma F_record_iter_ok {A} kind lrecl (rs : list (list A)) :
  legal_F lrecl rs = true -> F_record_iter kind (Z.of_nat lrecl) (write_F rs) = (rs, Done, []).
Proof.
  intros H. apply legal_F_pos in H as [Hl H]. pose proof (legal_F_len lrecl rs Hl H).
  unfold F_record_iter, write_F. rewrite (proj2 (Z.eqb_neq _ _)) by lia.
  apply F_loop_ok; (assumption || lia).
Qed.

(* rdw_iter is record_iter with the length word put in front of every row, on any file: what is read is at most
   lrecl long, so the word can be packed *)
Definition with_len (o : out N (list N)) : out N (list N) := let '(l, f, r) := o in (map rdw_rec l, f, r).

Lemma pack_row lrecl (s : list N) : (N.of_nat lrecl + 4 <= max_hdr)%N ->
  pack_H2x (N.of_nat (length (firstn lrecl s) + 4)) = Ok (rdw (len4 (firstn lrecl s))).
Proof. intros Hh. apply pack_rdw. pose proof (firstn_le_length lrecl s). unfold len4. lia. Qed.

Lemma F_rdw_loop_eq kind lrecl : (N.of_nat lrecl + 4 <= max_hdr)%N -> forall fuel s,
  F_rdw_loop fuel kind (Z.of_nat lrecl) s = with_len (F_loop fuel kind (Z.of_nat lrecl) s).
Proof.
  intros Hh. induction fuel as [|f IH]; intros s; [reflexivity|].
  cbn [F_rdw_loop F_loop]. rewrite read_nonneg, IH.
  destruct (firstn lrecl s) as [|x d] eqn:E; [reflexivity|]. rewrite <- E, pack_row by exact Hh.
  destruct (F_loop f kind (Z.of_nat lrecl) (skipn lrecl s)) as [[l fi] r]. reflexivity.
Qed.

Lemma F_rdw_iter_ok kind lrecl (rs : list (list N)) :
  legal_F lrecl rs = true -> (N.of_nat lrecl + 4 <= max_hdr)%N ->
  F_rdw_iter kind (Z.of_nat lrecl) (write_F rs) = (map rdw_rec rs, Done, []).
Proof.
  intros H Hh. pose proof (F_record_iter_ok kind lrecl rs H) as E. unfold F_rdw_iter, F_record_iter in *.
  destruct (Z.of_nat lrecl =? 0)%Z; [discriminate|]. rewrite F_rdw_loop_eq, E by exact Hh. reflexivity.
Qed.

Lemma F_rdw_take_eq kind lrecl : (N.of_nat lrecl + 4 <= max_hdr)%N -> forall fuel k s,
  F_rdw_take fuel k kind (Z.of_nat lrecl) s = with_len (F_take fuel k kind (Z.of_nat lrecl) s).
Proof.
  intros Hh. induction fuel as [|f IH]; intros [|k] s; try reflexivity.
  cbn [F_rdw_take F_take]. rewrite read_nonneg, IH.
  destruct (firstn lrecl s) as [|x d] eqn:E; [reflexivity|]. rewrite <- E, pack_row by exact Hh.
  destruct (F_take f k kind (Z.of_nat lrecl) (skipn lrecl s)) as [[l fi] r]. reflexivity.
Qed.

Lemma write_V_cons r rs : write_V (r :: rs) = rdw_rec r ++ write_V rs.
Proof. reflexivity. Qed.

(* every record takes at least its length word, so the fuel of the iterators (one more than the length of the file)
   does not run out *)
Lemma write_V_length rs : length rs < S (length (write_V rs)).
Proof.
  induction rs as [|r rs IH]; [apply Nat.lt_0_succ|]. rewrite write_V_cons, app_length, rdw_rec_length. cbn [length]. lia.
Qed.

Lemma V_turn kind r t f k :
  V_loop (S f) kind (rdw_rec r ++ t) = emit (hdr_pair r) (V_loop f kind t)
  /\ V_take (S f) (S k) kind (rdw_rec r ++ t) = emit (hdr_pair r) (V_take f k kind t).
Proof.
  cbn [rdw_rec rdw app V_loop V_take firstn skipn]. fold (rdw (len4 r)).
  rewrite unpack_rdw, read_payload. split; reflexivity.
Qed.

Lemma V_loop_ok kind : forall rs fuel, length rs < fuel ->
  V_loop fuel kind (write_V rs) = (map hdr_pair rs, Done, []).
Proof.
  induction rs as [|r rs IH]; intros [|f] Hf; try (now apply Nat.nlt_0_r in Hf); [reflexivity|].
  cbn [length] in Hf. rewrite write_V_cons, (proj1 (V_turn kind r _ f 0)), IH by lia. reflexivity.
Qed.

Lemma V_data_iter_ok kind rs : V_data_iter kind (write_V rs) = (map hdr_pair rs, Done, []).
Proof. apply V_loop_ok, write_V_length. Qed.

Lemma V_record_iter_ok kind rs : V_record_iter kind (write_V rs) = (rs, Done, []).
Proof. unfold V_record_iter. rewrite V_data_iter_ok. unfold payloads. rewrite map_snd_hdr. reflexivity. Qed.

Lemma V_rdw_iter_ok kind rs : V_rdw_iter kind (write_V rs) = (map rdw_rec rs, Done, []).
Proof. unfold V_rdw_iter. rewrite V_data_iter_ok. unfold with_rdw. rewrite map_cat_hdr. reflexivity. Qed.

Lemma V_take_ok kind : forall rs fuel k, length rs < fuel ->
  V_take fuel k kind (write_V rs) = (map hdr_pair (firstn k rs), ended k (length rs), write_V (skipn k rs)).
Proof.
  induction rs as [|r rs IH]; intros [|f] [|k] Hf; try (now apply Nat.nlt_0_r in Hf); try reflexivity.
  cbn [length] in Hf. rewrite write_V_cons, (proj2 (V_turn kind r _ f k)), IH by lia. reflexivity.
Qed.

Lemma block_body_cons r b : block_body (r :: b) = rdw_rec r ++ block_body b.
Proof. reflexivity. Qed.

Lemma block_body_length b : length (block_body b) = list_sum (map (fun r => length r + 4) b).
Proof.
  induction b as [|r b IH]; [reflexivity|]. rewrite block_body_cons, app_length, rdw_rec_length, IH.
  unfold list_sum. cbn [map fold_right]. lia.
Qed.

Lemma block_len_cons r b : block_len (r :: b) = length r + 4 + block_len b.
Proof. unfold block_len, list_sum. cbn [map fold_right]. lia. Qed.

(* a block is the V record whose payload is the V image of the block's records *)
Lemma write_block_rec b : write_block b = rdw_rec (block_body b).
Proof.
  unfold write_block, rdw_rec, len4, block_len. rewrite block_body_length, Nat.add_comm. reflexivity.
Qed.

Lemma write_VB_cons b bs : write_VB (b :: bs) = write_block b ++ write_VB bs.
Proof. reflexivity. Qed.

Lemma write_VB_length bs : length bs < S (length (write_VB bs)).
Proof.
  induction bs as [|b bs IH]; [apply Nat.lt_0_succ|].
  rewrite write_VB_cons, write_block_rec, app_length, rdw_rec_length. cbn [length]. lia.
Qed.

(* One proof for both comparisons of the corruption check.  Under the comparison of the current tree
   ([strict] = false) there is no condition on the records: a record without data bytes (length word 4) is walked
   like any other, also when its descriptor word ends the block (off + 4 = L).  Under the strict comparison of the
   tree before eee0fb2 every record must be non-empty. *)
Definition nonempty_recs (b : list (list N)) : bool := forallb (fun r => 1 <=? length r) b.
Definition walkable (strict : bool) (b : list (list N)) : bool := negb strict || nonempty_recs b.

Lemma walkable_cons strict r b : walkable strict (r :: b) = true ->
  (strict = true -> 1 <= length r) /\ walkable strict b = true.
Proof.
  unfold walkable, nonempty_recs. destruct strict; cbn [negb orb forallb]; intros H.
  - apply andb_prop in H as [Hr Hb]. apply Nat.leb_le in Hr. split; [intros _; exact Hr|exact Hb].
  - split; [discriminate|reflexivity].
Qed.

Lemma walkable_false bs : forallb (walkable false) bs = true.
Proof. apply forallb_forall. reflexivity. Qed.

(* one turn of the walk at a record the comparison admits, the block ending at L: both tests pass, the length word is
   not 0, the payload and the next record are where the word says *)
Lemma walk_turn strict r t f k off : (strict = true -> 1 <= length r) ->
  let L := (off + len4 r + N.of_nat (length t))%N in
  walk_with strict (S f) L off (rdw_rec r ++ t)
  = (let '(l, fi) := walk_with strict f L (off + len4 r) t in (hdr_pair r :: l, fi))
  /\ walk_take_with strict (S f) (S k) L off (rdw_rec r ++ t)
     = (let '(l, fi, want) := walk_take_with strict f k L (off + len4 r) t in (hdr_pair r :: l, fi, want)).
Proof.
  intros Hr L.
  assert (T1 : (off =? L)%N = false) by (apply N.eqb_neq; unfold L, len4; lia).
  assert (T2 : rdw_fits strict off L = true).
  { unfold L, len4. destruct strict; [apply N.ltb_lt; specialize (Hr eq_refl)|apply N.leb_le]; lia. }
  assert (T3 : (len4 r =? 0)%N = false) by (apply N.eqb_neq; unfold len4; lia).
  assert (HN : N.to_nat (len4 r) = length r + 4) by apply Nat2N.id.
  cbn [walk_with walk_take_with]. change (firstn 4 (rdw_rec r ++ t)) with (rdw (len4 r)).
  rewrite T1, T2, unpack_rdw, T3, HN, Nat.add_sub, (Nat.add_comm (length r)).
  change (skipn 4 (rdw_rec r ++ t)) with (r ++ t).
  change (skipn (4 + length r) (rdw_rec r ++ t)) with (skipn (length r) (r ++ t)).
  rewrite firstn_exact, skipn_exact. split; reflexivity.
Qed.

Lemma walk_gen_ok strict : forall b fuel off, walkable strict b = true -> length b < fuel ->
  walk_with strict fuel (off + N.of_nat (length (block_body b)))%N off (block_body b) = (map hdr_pair b, Done).
Proof.
  induction b as [|r b IH]; intros [|f] off H Hf; try (now apply Nat.nlt_0_r in Hf).
  - cbn [block_body map concat length walk_with]. rewrite N.add_0_r, N.eqb_refl. reflexivity.
  - apply walkable_cons in H as [Hr Hb]. cbn [length] in Hf.
    destruct (walk_turn strict r (block_body b) f 0 off Hr) as [E _].
    rewrite block_body_cons, length_rdw_app, N.add_assoc, E, IH by (assumption || lia). reflexivity.
Qed.

Lemma walk_block_gen_ok strict b : walkable strict b = true ->
  walk_block_with strict (block_body b) = (map hdr_pair b, Done).
Proof. intros H. apply (walk_gen_ok strict b _ 0%N H), (write_V_length b). Qed.

Lemma walk_block_ok b : walk_block_with false (block_body b) = (map hdr_pair b, Done).
Proof. apply walk_block_gen_ok. reflexivity. Qed.

Lemma VB_loop_gen_ok strict kind : forall bs fuel, forallb (walkable strict) bs = true -> length bs < fuel ->
  VB_loop_with strict fuel kind (write_VB bs) = (concat (map (map hdr_pair) bs), Done, []).
Proof.
  induction bs as [|b bs IH]; intros [|f] H Hf; try (now apply Nat.nlt_0_r in Hf); [reflexivity|].
  cbn [forallb] in H. apply andb_prop in H as [Hb Hbs]. cbn [length] in Hf.
  rewrite write_VB_cons, write_block_rec.
  cbn [rdw_rec rdw app VB_loop_with firstn skipn]. fold (rdw (len4 (block_body b))).
  rewrite unpack_rdw, read_payload, walk_block_gen_ok, IH by (assumption || lia). reflexivity.
Qed.

Lemma VB_data_iter_gen_ok strict kind bs : forallb (walkable strict) bs = true ->
  VB_data_iter_with strict kind (write_VB bs) = (map hdr_pair (concat bs), Done, []).
Proof.
  intros H. rewrite concat_map. apply VB_loop_gen_ok; [exact H|apply write_VB_length].
Qed.

Lemma VB_iters_gen_ok strict kind bs : forallb (walkable strict) bs = true ->
  VB_record_iter_with strict kind (write_VB bs) = (concat bs, Done, [])
  /\ VB_rdw_iter_with strict kind (write_VB bs) = (map rdw_rec (concat bs), Done, []).
Proof.
  intros H. unfold VB_record_iter_with, VB_rdw_iter_with. rewrite VB_data_iter_gen_ok by exact H.
  unfold payloads, with_rdw. rewrite map_snd_hdr, map_cat_hdr. split; reflexivity.
Qed.

(* the round trip of the record-level iterators holds for EVERY list of blocks (as for V); [legal_VB] is what makes
   the image a file (write_VB_bytes) and is kept as the hypothesis of the property theorems *)
Lemma VB_data_iter_any kind bs :
  VB_data_iter kind (write_VB bs) = (map hdr_pair (concat bs), Done, []).
Proof. unfold VB_data_iter. rewrite rdw_fits_is_le. apply VB_data_iter_gen_ok, walkable_false. Qed.

Lemma VB_iters_any kind bs :
  VB_record_iter kind (write_VB bs) = (concat bs, Done, [])
  /\ VB_rdw_iter kind (write_VB bs) = (map rdw_rec (concat bs), Done, []).
Proof. unfold VB_record_iter, VB_rdw_iter. rewrite rdw_fits_is_le. apply VB_iters_gen_ok, walkable_false. Qed.

Lemma VB_data_iter_ok kind bs : legal_VB bs = true ->
  VB_data_iter kind (write_VB bs) = (map hdr_pair (concat bs), Done, []).
Proof. intros _. apply VB_data_iter_any. Qed.

Lemma VB_rdw_iter_ok kind bs : legal_VB bs = true ->
  VB_rdw_iter kind (write_VB bs) = (map rdw_rec (concat bs), Done, []).
Proof. intros _. apply VB_iters_any. Qed.

Lemma B_turn kind b t f k :
  B_loop (S f) kind (write_block b ++ t) = emit (write_block b) (B_loop f kind t)
  /\ B_take (S f) (S k) kind (write_block b ++ t) = emit (write_block b) (B_take f k kind t).
Proof.
  rewrite write_block_rec. cbn [rdw_rec rdw app B_loop B_take firstn skipn]. fold (rdw (len4 (block_body b))).
  rewrite unpack_rdw, read_payload. split; reflexivity.
Qed.

Lemma B_loop_ok kind : forall bs fuel, length bs < fuel ->
  B_loop fuel kind (write_VB bs) = (map write_block bs, Done, []).
Proof.
  induction bs as [|b bs IH]; intros [|f] Hf; try (now apply Nat.nlt_0_r in Hf); [reflexivity|].
  cbn [length] in Hf. rewrite write_VB_cons, (proj1 (B_turn kind b _ f 0)), IH by lia. reflexivity.
Qed.

Lemma VB_bdw_iter_ok kind bs : VB_bdw_iter kind (write_VB bs) = (map write_block bs, Done, []).
Proof. apply B_loop_ok, write_VB_length. Qed.

Lemma B_take_ok kind : forall bs fuel k, length bs < fuel ->
  B_take fuel k kind (write_VB bs) = (map write_block (firstn k bs), ended k (length bs), write_VB (skipn k bs)).
Proof.
  induction bs as [|b bs IH]; intros [|f] [|k] Hf; try (now apply Nat.nlt_0_r in Hf); try reflexivity.
  cbn [length] in Hf. rewrite write_VB_cons, (proj2 (B_turn kind b _ f k)), IH by lia. reflexivity.
Qed.

Lemma walk_take_ok : forall b fuel k off, length b < fuel ->
  walk_take_with false fuel k (off + N.of_nat (length (block_body b)))%N off (block_body b)
  = (map hdr_pair (firstn k b), ended k (length b), k - length b).
Proof.
  induction b as [|r b IH]; intros [|f] [|k] off Hf; try (now apply Nat.nlt_0_r in Hf); try reflexivity.
  - cbn [block_body map concat length walk_take_with]. rewrite N.add_0_r, N.eqb_refl. reflexivity.
  - cbn [length] in Hf. destruct (walk_turn false r (block_body b) f k off) as [_ E]; [discriminate|].
    rewrite block_body_cons, length_rdw_app, N.add_assoc, E, IH by lia. reflexivity.
Qed.

Lemma walk_take_block b k :
  walk_take_with false (S (length (block_body b))) k (N.of_nat (length (block_body b))) 0%N (block_body b)
  = (map hdr_pair (firstn k b), ended k (length b), k - length b).
Proof. apply (walk_take_ok b _ k 0%N), (write_V_length b). Qed.

Lemma split_blocks_0 bs : split_blocks 0 bs = Some ([], bs).
Proof. destruct bs; reflexivity. Qed.

Lemma ended_sub a k n : a < k -> ended (k - a) n = ended k (a + n).
Proof.
  intros H. unfold ended. destruct (Nat.leb_spec (k - a) n), (Nat.leb_spec k (a + n)); (reflexivity || lia).
Qed.

(* record-level pass over VB stopped at a block boundary: split_blocks says which blocks it covers *)
Lemma VB_take_with_ok kind : forall bs fuel k now later,
  length bs < fuel -> split_blocks k bs = Some (now, later) ->
  VB_take_with false fuel k kind (write_VB bs)
  = (map hdr_pair (concat now), ended k (length (concat bs)), write_VB later).
Proof.
  induction bs as [|b bs IH]; intros [|f] [|k] now later Hf Hs; try (now apply Nat.nlt_0_r in Hf);
    try (rewrite split_blocks_0 in Hs; injection Hs as <- <-; reflexivity).
  - cbn in Hs. injection Hs as <- <-. reflexivity.
  - cbn [split_blocks Nat.eqb] in Hs. cbn [length] in Hf.
    destruct (length b <=? S k) eqn:Ek; [apply Nat.leb_le in Ek|discriminate].
    destruct (split_blocks (S k - length b) bs) as [[x y]|] eqn:Es; [|discriminate].
    cbn in Hs. injection Hs as <- <-.
    rewrite write_VB_cons, write_block_rec.
    cbn [rdw_rec rdw app VB_take_with firstn skipn]. fold (rdw (len4 (block_body b))).
    rewrite unpack_rdw, read_payload, walk_take_block, firstn_all2 by exact Ek.
    cbn [concat]. rewrite app_length, map_app.
    destruct (Nat.eq_dec (S k) (length b)) as [E|E].
    + (* the k-th record ends this block: the pass is suspended with the source behind the block *)
      rewrite E, Nat.sub_diag, split_blocks_0 in Es. injection Es as <- <-.
      rewrite E, !ended_le, app_nil_r by lia. reflexivity.
    + rewrite ended_gt, (IH f _ x y), ended_sub by (assumption || lia). reflexivity.
Qed.

Lemma VB_take_ok kind bs fuel k now later :
  length bs < fuel -> split_blocks k bs = Some (now, later) ->
  VB_take fuel k kind (write_VB bs)
  = (map hdr_pair (concat now), ended k (length (concat bs)), write_VB later).
Proof. unfold VB_take. rewrite rdw_fits_is_le. apply VB_take_with_ok. Qed.

Lemma legal_N_cons {A} B (r : list A) rs :
  legal_N B (r :: rs) = true -> (1 <= length r <= B) /\ legal_N B rs = true.
Proof.
  unfold legal_N. cbn [forallb]. intros H. apply andb_prop in H as [Hr H]. apply andb_prop in Hr as [H1 H2].
  apply Nat.leb_le in H1, H2. repeat split; assumption.
Qed.

Lemma legal_N_len {A} B (rs : list (list A)) : legal_N B rs = true -> length rs < S (length (write_N rs)).
Proof.
  intros H. apply Nat.lt_succ_r, length_concat_ge, forallb_forall. intros r Hr.
  apply (proj1 (forallb_forall _ _) H), andb_prop in Hr. apply Hr.
Qed.

(* one turn of the loop of N: the buffer is offered, the consumer announces n *)
Lemma N_run_cons {A} mode kind B (s s1 : st A) n ls : buf s <> [] -> n <> 0 -> N_step mode kind B s n = Ok s1 ->
  N_run mode kind B s (n :: ls) = let '(l, f, s2) := N_run mode kind B s1 ls in (buf s :: l, f, s2).
Proof.
  intros Hb Hn Hs. cbn [N_run]. rewrite Hs, (proj2 (Nat.eqb_neq n 0) Hn).
  destruct (buf s); [contradiction|reflexivity].
Qed.

Section N.
Context {A : Type}.
Variable B : nat.
Hypothesis Bpos : 0 < B.
Variable kind : N.

Notation st := (st A).

Definition stream (s : st) : list A := buf s ++ rest s.
Definition Inv (s : st) : Prop := buf s = firstn B (stream s).

(* the refill of mode 0 without the detour through Python integers *)
Definition step (s : st) (used : nat) : st :=
  let remaining := skipn used (buf s) in
  let want := B - length remaining in
  {| buf := remaining ++ firstn want (rest s); rest := skipn want (rest s) |}.

Lemma inv_init file : Inv (N_init B file) /\ stream (N_init B file) = file.
Proof. unfold Inv, stream, N_init; cbn. rewrite firstn_skipn. split; reflexivity. Qed.

Lemma inv_len s : Inv s -> length (buf s) = Nat.min B (length (stream s)).
Proof. unfold Inv. intros H. rewrite H at 1. apply firstn_length. Qed.

Lemma step_eq s n : Inv s -> N_step 0 kind B s n = Ok (step s n).
Proof.
  intros HI. unfold N_step, step. cbn [N.eqb].
  pose proof (inv_len s HI) as HL. pose proof (skipn_length n (buf s)) as Hrem.
  rewrite <- Nat2Z.inj_sub, read_nonneg by lia. reflexivity.
Qed.

Lemma step_stream s n : n <= length (buf s) -> stream (step s n) = skipn n (stream s).
Proof.
  intros Hn. unfold stream, step; cbn [buf rest].
  rewrite <- app_assoc, firstn_skipn, skipn_app_le by exact Hn. reflexivity.
Qed.

(* what is left of the buffer was within the window, and the refill tops it up to the window *)
Lemma step_inv s n : Inv s -> n <= length (buf s) -> Inv (step s n).
Proof using Bpos.
  intros HI Hn. pose proof (inv_len s HI) as HL. pose proof (skipn_length n (buf s)) as Hrem.
  unfold Inv. rewrite step_stream by exact Hn. unfold stream, step; cbn [buf].
  rewrite skipn_app_le, firstn_app, (firstn_all2 (skipn n (buf s))) by lia. reflexivity.
Qed.

(* a state whose stream begins with a record that fits the window shows that record and moves on behind it *)
Lemma consume s (r t : list A) : Inv s -> stream s = r ++ t -> 1 <= length r <= B ->
  buf s = r ++ firstn (B - length r) t /\ buf s <> []
  /\ N_step 0 kind B s (length r) = Ok (step s (length r))
  /\ Inv (step s (length r)) /\ stream (step s (length r)) = t.
Proof.
  intros HI HS Hr.
  assert (Hb : buf s = r ++ firstn (B - length r) t).
  { rewrite HI, HS, firstn_app, (firstn_all2 r) by lia. reflexivity. }
  assert (Hn : length r <= length (buf s)) by (rewrite Hb, app_length; lia).
  split; [exact Hb|]. split; [destruct (buf s); [cbn in Hn; lia|discriminate]|].
  split; [apply step_eq, HI|]. split; [apply step_inv; assumption|].
  rewrite step_stream, HS by exact Hn. apply skipn_exact.
Qed.

Lemma run_ok : forall (recs : list (list A)) (s : st),
  Inv s -> stream s = concat recs -> legal_N B recs = true ->
  exists bufs s', N_run 0 kind B s (map (@length A) recs) = (bufs, Done, s')
    /\ length bufs = length recs
    /\ heads (map (@length A) recs) bufs = recs
    /\ buf s' = [] /\ rest s' = [].
Proof.
  induction recs as [|r recs IH]; intros s HI HS HL.
  - apply app_eq_nil in HS as [Hb Hr]. exists [], s. cbn [map N_run]. rewrite Hb. repeat split; assumption.
  - apply legal_N_cons in HL as [Hr HL].
    destruct (consume s r (concat recs) HI HS Hr) as (Hb & Hne & Hstep & HI' & HS').
    destruct (IH _ HI' HS' HL) as (bufs & s' & Hrun & Hlen & Hheads & Hend).
    exists (buf s :: bufs), s'. cbn [map]. rewrite (N_run_cons _ _ _ _ _ _ _ Hne) by (exact Hstep || lia).
    rewrite Hrun. unfold heads in *. cbn [length combine map fst snd]. rewrite Hlen, Hheads, Hb, firstn_exact.
    repeat split; (reflexivity || apply Hend).
Qed.

Lemma N_roundtrip (recs : list (list A)) :
  legal_N B recs = true ->
  exists bufs s', N_run 0 kind B (N_init B (write_N recs)) (map (@length A) recs) = (bufs, Done, s')
    /\ length bufs = length recs
    /\ heads (map (@length A) recs) bufs = recs
    /\ buf s' = [] /\ rest s' = [].
Proof.
  intros H. destruct (inv_init (write_N recs)) as [HI HS]. apply run_ok; assumption.
Qed.

End N.

(* instantiated at the buffer size and refill expression of the source *)
Lemma N_read_roundtrip {A} kind (recs : list (list A)) :
  legal_N (N.to_nat buffer_size) recs = true ->
  exists bufs s', N_read kind (write_N recs) (map (@length A) recs) = (bufs, Done, s')
    /\ length bufs = length recs
    /\ heads (map (@length A) recs) bufs = recs
    /\ buf s' = [] /\ rest s' = [].
Proof. intros H. unfold N_read. rewrite refill_is_top_up. apply N_roundtrip; [apply buffer_positive|exact H]. Qed.

Lemma rdw_bytes n : (n <= max_hdr)%N -> bytes_ok (rdw n) = true.
Proof.
  unfold max_hdr, bytes_ok, rdw. intros H. cbn [forallb].
  rewrite (proj2 (N.ltb_lt _ _) (N.div_lt_upper_bound n 256 256 ltac:(lia) ltac:(lia))).
  rewrite (proj2 (N.ltb_lt _ _) (N.mod_lt n 256 ltac:(lia))). reflexivity.
Qed.

Lemma bytes_ok_app a b : bytes_ok (a ++ b) = bytes_ok a && bytes_ok b.
Proof. apply forallb_app. Qed.

Lemma write_V_bytes rs :
  legal_V rs = true -> forallb bytes_ok rs = true -> bytes_ok (write_V rs) = true.
Proof.
  induction rs as [|r rs IH]; intros HL HB; [reflexivity|].
  unfold legal_V in HL. cbn [forallb] in HL, HB. apply andb_prop in HL as [Hr HL]. apply andb_prop in HB as [Br HB].
  unfold fits_hdr in Hr. apply N.leb_le in Hr. rewrite write_V_cons. unfold rdw_rec.
  rewrite !bytes_ok_app, (rdw_bytes _ Hr), Br. apply IH; assumption.
Qed.

Lemma block_body_bytes b :
  (N.of_nat (block_len b) <= max_hdr)%N -> forallb bytes_ok b = true -> bytes_ok (block_body b) = true.
Proof.
  induction b as [|r b IH]; intros HL HB; [reflexivity|].
  cbn [forallb] in HB. apply andb_prop in HB as [Br HB]. rewrite block_len_cons in HL.
  rewrite block_body_cons. unfold rdw_rec.
  rewrite !bytes_ok_app, rdw_bytes, Br by (unfold len4; lia). apply IH; [lia|exact HB].
Qed.

(* both stated as implications and proved by unfolding the goal: converting the hypothesis instead makes the kernel
   evaluate the comparison with 65535 before it unfolds [legal_block] *)
Lemma legal_block_le b : legal_block b = true -> (N.of_nat (block_len b) <= max_hdr)%N.
Proof. unfold legal_block. apply N.leb_le. Qed.

Lemma legal_VB_cons b bs : legal_VB (b :: bs) = true -> legal_block b = true /\ legal_VB bs = true.
Proof. apply andb_prop. Qed.

Lemma write_VB_bytes bs :
  legal_VB bs = true -> forallb (forallb bytes_ok) bs = true -> bytes_ok (write_VB bs) = true.
Proof.
  induction bs as [|b bs IH]; intros HL HB; [reflexivity|].
  apply legal_VB_cons in HL as [Hb HL]. apply legal_block_le in Hb.
  cbn [forallb] in HB. apply andb_prop in HB as [Bb HB]. rewrite write_VB_cons. unfold write_block.
  rewrite !bytes_ok_app, (rdw_bytes _ Hb), (block_body_bytes b Hb Bb). apply IH; assumption.
Qed.

(* Resumed reading: an iterator that delivered k items leaves the source at the start of item k+1 (the X_take_ok lemmas),
   so any sequence of passes on one reader delivers the records, pass by pass. *)

Lemma render0 l : map (render 0) l = l.
Proof. apply map_id. Qed.

Lemma render1 l : map (render 1) l = map rdw_rec l.
Proof. reflexivity. Qed.

Lemma w01 w : (w <=? 1)%N = true -> w = 0%N \/ w = 1%N.
Proof. intros H. apply N.leb_le in H. lia. Qed.

Definition wanted {X} (k : option nat) (l : list X) : nat := match k with Some n => n | None => length l end.

(* the pass delivers [items], leaves the source at [s'] and neither raises nor hangs *)
Definition gives (o : out N (list N)) (items : list (list N)) (s' : list N) : Prop :=
  items_of o = items /\ snd o = s' /\ calm o = true.

Lemma gives_done items s' : gives (items, Done, s') items s'.
Proof. repeat split. Qed.

Lemma gives_ended items k n s' : gives (items, ended k n, s') items s'.
Proof. repeat split. unfold calm, ended. cbn [fst snd]. destruct (k <=? n); reflexivity. Qed.

Lemma run_passes_cons one p ps s items s' e :
  gives (one p s) items s' ->
  map items_of (run_passes one ps s') = e /\ forallb calm (run_passes one ps s') = true ->
  map items_of (run_passes one (p :: ps) s) = items :: e /\ forallb calm (run_passes one (p :: ps) s) = true.
Proof.
  intros (Hi & Hs & Hc) [H1 H2]. cbn [run_passes map forallb]. rewrite Hi, Hs, Hc, H1, H2. split; reflexivity.
Qed.

(* F and V: a reader whose every pass delivers the next records, on a domain of record lists closed under skipn *)
Section Passes.
  Variable one : pass -> list N -> out N (list N).
  Variable image : list (list N) -> list N.
  Variable dom : list (list N) -> Prop.
  Hypothesis dom_skipn : forall n rs, dom rs -> dom (skipn n rs).
  Hypothesis one_ok : forall w k rs, dom rs -> (w <=? 1)%N = true ->
    gives (one (w, k) (image rs)) (map (render w) (firstn (wanted k rs) rs)) (image (skipn (wanted k rs) rs)).

  Lemma passes_ok : forall ps rs e, dom rs -> expect_passes ps rs = Some e ->
    map items_of (run_passes one ps (image rs)) = e /\ forallb calm (run_passes one ps (image rs)) = true.
  Proof.
    induction ps as [|[w k] ps IH]; intros rs e Hd He.
    - injection He as <-. split; reflexivity.
    - cbn [expect_passes] in He. fold (wanted k rs) in He. destruct (w <=? 1)%N eqn:Hw; [|discriminate].
      destruct (expect_passes ps (skipn (wanted k rs) rs)) as [e'|] eqn:He'; [|discriminate].
      injection He as <-. exact (run_passes_cons _ _ _ _ _ _ _ (one_ok w k rs Hd Hw) (IH _ _ (dom_skipn _ _ Hd) He')).
  Qed.
End Passes.

Lemma V_pass_ok kind w k rs : (w <=? 1)%N = true ->
  gives (V_pass kind (w, k) (write_V rs))
        (map (render w) (firstn (wanted k rs) rs)) (write_V (skipn (wanted k rs) rs)).
Proof.
  intros Hw. pose proof (write_V_length rs) as HL.
  destruct (w01 w Hw) as [-> | ->]; destruct k as [n|]; unfold V_pass, wanted; cbn [N.eqb Pos.eqb].
  - rewrite V_take_ok by lia. unfold payloads. rewrite map_snd_hdr, render0. apply gives_ended.
  - rewrite V_record_iter_ok, firstn_all, skipn_all, render0. apply gives_done.
  - rewrite V_take_ok by lia. unfold with_rdw. rewrite map_cat_hdr. apply gives_ended.
  - rewrite V_rdw_iter_ok, firstn_all, skipn_all. apply gives_done.
Qed.

Lemma F_pass_ok kind lrecl w k (rs : list (list N)) :
  legal_F lrecl rs = true -> (N.of_nat lrecl + 4 <= max_hdr)%N -> (w <=? 1)%N = true ->
  gives (F_pass kind (Z.of_nat lrecl) (w, k) (write_F rs))
        (map (render w) (firstn (wanted k rs) rs)) (write_F (skipn (wanted k rs) rs)).
Proof.
  intros HL Hh Hw. pose proof (legal_F_pos _ _ HL) as [Hl Hrs]. pose proof (legal_F_len lrecl rs Hl Hrs) as Hlen.
  assert (E : (Z.of_nat lrecl =? 0)%Z = false) by (apply Z.eqb_neq; lia).
  destruct (w01 w Hw) as [-> | ->]; destruct k as [[|n]|]; unfold F_pass, wanted; cbn [N.eqb Pos.eqb]; try rewrite E.
  - repeat split.
  - unfold write_F. rewrite F_take_ok, render0 by (assumption || lia). apply gives_ended.
  - rewrite (F_record_iter_ok kind lrecl rs HL), firstn_all, skipn_all, render0.
    apply gives_done.
  - repeat split.
  - unfold write_F. rewrite F_rdw_take_eq, F_take_ok by (assumption || lia).
    apply gives_ended.
  - rewrite (F_rdw_iter_ok kind lrecl rs HL Hh), firstn_all, skipn_all.
    apply gives_done.
Qed.

Lemma legal_F_skipn lrecl n (rs : list (list N)) : legal_F lrecl rs = true -> legal_F lrecl (skipn n rs) = true.
Proof.
  unfold legal_F. intros H. apply andb_prop in H as [H1 H2]. rewrite H1. cbn [andb].
  rewrite <- (firstn_skipn n rs), forallb_app in H2. apply andb_prop in H2 as [_ H2]. exact H2.
Qed.

Lemma split_blocks_app : forall bs k now later, split_blocks k bs = Some (now, later) -> bs = now ++ later.
Proof.
  induction bs as [|b bs IH]; intros k now later H.
  - cbn in H. injection H as <- <-. reflexivity.
  - cbn [split_blocks] in H. destruct (k =? 0); [injection H as <- <-; reflexivity|].
    destruct (length b <=? k); [|discriminate].
    destruct (split_blocks (k - length b) bs) as [[x y]|] eqn:E; [|discriminate].
    cbn in H. injection H as <- <-. cbn [app]. f_equal. eapply IH; eassumption.
Qed.

Lemma legal_VB_app_r a b : legal_VB (a ++ b) = true -> legal_VB b = true.
Proof. unfold legal_VB. rewrite forallb_app. intros H. apply andb_prop in H as [_ H]. exact H. Qed.

(* a record-level pass (record_iter, rdw_iter) over the blocks [now], which it must end with *)
Lemma VB_pass_records kind w k bs now later : (w <=? 1)%N = true ->
  match k with Some n => split_blocks n bs | None => Some (bs, []) end = Some (now, later) ->
  gives (VB_pass kind (w, k) (write_VB bs))
        (map (render w) (concat now)) (write_VB later).
Proof.
  intros Hw Hs. pose proof (write_VB_length bs) as Hlen. destruct (VB_iters_any kind bs) as [I0 I1].
  destruct (w01 w Hw) as [-> | ->]; destruct k as [n|]; unfold VB_pass; cbn [N.eqb Pos.eqb].
  - rewrite (VB_take_ok kind bs _ n now later) by (assumption || lia).
    unfold payloads. rewrite map_snd_hdr, render0. apply gives_ended.
  - injection Hs as <- <-. rewrite I0, render0. apply gives_done.
  - rewrite (VB_take_ok kind bs _ n now later) by (assumption || lia).
    unfold with_rdw. rewrite map_cat_hdr. apply gives_ended.
  - injection Hs as <- <-. rewrite I1. apply gives_done.
Qed.

(* a block-level pass (bdw_iter) stops anywhere *)
Lemma VB_pass_blocks kind w k bs : (w <=? 1)%N = false ->
  gives (VB_pass kind (w, k) (write_VB bs))
        (map write_block (firstn (wanted k bs) bs)) (write_VB (skipn (wanted k bs) bs)).
Proof.
  intros Hw. pose proof (write_VB_length bs) as Hlen. apply N.leb_gt in Hw.
  unfold VB_pass, wanted. rewrite !(proj2 (N.eqb_neq w _)) by lia. destruct k as [n|].
  - rewrite B_take_ok by lia. apply gives_ended.
  - rewrite VB_bdw_iter_ok, firstn_all, skipn_all. apply gives_done.
Qed.

(* Not an instance of [passes_ok]: a VB pass is of one of two kinds (records or whole blocks), and what a record-level
   pass leaves is given by [split_blocks], which may fail, not by skipn. *)
Lemma VB_passes_any kind : forall ps bs e, expect_passes_VB ps bs = Some e ->
  map items_of (run_passes (VB_pass kind) ps (write_VB bs)) = e
  /\ forallb calm (run_passes (VB_pass kind) ps (write_VB bs)) = true.
Proof.
  induction ps as [|[w k] ps IH]; intros bs e He.
  - cbn in He. injection He as <-. split; reflexivity.
  - cbn [expect_passes_VB] in He. destruct (w <=? 1)%N eqn:Hw.
    + pose proof (VB_pass_records kind w k bs) as HP. destruct k as [n|].
      * destruct (split_blocks n bs) as [[now later]|] eqn:Es; [|discriminate].
        destruct (expect_passes_VB ps later) as [e'|] eqn:He'; [|discriminate].
        cbn in He. injection He as <-. exact (run_passes_cons _ _ _ _ _ _ _ (HP now later Hw eq_refl) (IH _ _ He')).
      * destruct (expect_passes_VB ps []) as [e'|] eqn:He'; [|discriminate].
        cbn in He. injection He as <-. exact (run_passes_cons _ _ _ _ _ _ _ (HP bs [] Hw eq_refl) (IH _ _ He')).
    + fold (wanted k bs) in He.
      destruct (expect_passes_VB ps (skipn (wanted k bs) bs)) as [e'|] eqn:He'; [|discriminate].
      cbn in He. injection He as <-. exact (run_passes_cons _ _ _ _ _ _ _ (VB_pass_blocks kind w k bs Hw) (IH _ _ He')).
Qed.
