(* Lemmas for Props/C06c.v and Props/C06e.v: OCCURS DEPENDING ON counters as records store them.
   The decoders of Model/ZonedCounter.v and Model/Counters.v return what the specification's encoders stored (C02's round
   trips), negative values included: four decoder / encoder pairs round-trip ([decodes_stored], Spec/Counters.v).
   Flat family of Props/C06.v: under such a pair a record that STORES the count vector at its counters is a record on
   which the counters HOLD, so every theorem of Props/C06.v applies with a hypothesis that mentions the encoder only.
   General family: a record that stores the count vector at its counters (Spec/Counters.Stored) carries it at those
   names (LayoutOdoP.HoldsOn), and Proofs/LayoutOdoP.layout_correct_odo_on asks for no more.
   The walk over Python's integers is in Proofs/CountersZP.v. *)
From Coq Require Import ZArith NArith List Bool Lia.
Import ListNotations.
Require Import SR.Base.Res SR.Base.Dec.
Require Import SR.Spec.Encode SR.Model.Estruct SR.Model.ZonedCounter SR.Spec.ZonedCounter SR.Proofs.EstructP SR.Proofs.EstructWidthP.
Require Import SR.Spec.Layout SR.Spec.OdoStream.
Require Import SR.Proofs.OdoStreamP SR.Proofs.LayoutP SR.Proofs.LayoutOdoP.
Require Import SR.Spec.Counters SR.Model.Counters SR.Model.LayoutPartial.

Lemma int_of_decimal_int ng c :
  int_of_decimal (mkdec ng c (- Z.of_nat 0)) = if ng then (- Z.of_N c)%Z else Z.of_N c.
Proof.
  unfold int_of_decimal. cbn [neg coef dexp Z.of_nat Z.opp Z.leb Z.compare]. rewrite Z.pow_0_r, Z.mul_1_r. reflexivity.
Qed.

(* C02's zoned round trip at a counter: the Decimal whose int() the walk takes *)
Lemma zoned_stored_unpack bs z : stores_zoned_z bs z ->
  exists d, unpack 11%N (counter_pic bs) bs = Ok (VDec d) /\ int_of_decimal d = z.
Proof.
  intros (ds & s & Hne & Hd & Hl & Hs & -> & ->). eexists. split.
  - change 11%N with display_spelling. exact (C02_zoned _ ds s Hne Hd Hs Hl).
  - unfold counter_pic. cbn [p_frac]. apply int_of_decimal_int.
Qed.

Lemma zcount_packed_stored bs z : stores_packed_z bs z -> zcount_packed bs = Ok z.
Proof.
  intros (ds & s & Hd & Hl & Hs & -> & ->). unfold zcount_packed.
  assert (Hu : In 8%N packed_spellings) by (cbn; auto).
  rewrite (C02_packed 8%N (packed_pic (enc_packed ds s)) ds s Hu Hd Hs Hl).
  unfold zcount_of_pyval, packed_pic. cbn [p_frac]. rewrite int_of_decimal_int. reflexivity.
Qed.

Lemma zcount_binary_stored d bs z : stores_binary_z d bs z -> zcount_binary d bs = Ok z.
Proof.
  intros (w & Hw & Hz & ->). unfold zcount_binary.
  assert (Hu : In 10%N binary_spellings) by (cbn; do 4 right; left; reflexivity).
  rewrite (C02_binary 10%N (binary_pic d) w z Hu); [reflexivity| |exact Hz].
  unfold binary_pic. cbn [p_int p_frac]. rewrite Nat.add_0_r. exact Hw.
Qed.

(* the decoders do not look at the S of the picture *)
Lemma packed_sign_irrelevant sg m n bs : unpack 8%N (mkpic sg m n) bs = unpack 8%N (mkpic true m n) bs.
Proof. reflexivity. Qed.

Lemma binary_sign_irrelevant sg m n bs : unpack 10%N (mkpic sg m n) bs = unpack 10%N (mkpic true m n) bs.
Proof. reflexivity. Qed.

(* the count: a natural number (decodes_stored: Spec/Counters.v) *)
Lemma nat_pair (zc : list N -> res Z) (stores_z : list N -> Z -> Prop) :
  (forall bs z, stores_z bs z -> zc bs = Ok z) ->
  decodes_stored (fun bs => nat_of_zres (zc bs)) (fun bs k => stores_z bs (Z.of_nat k)).
Proof. intros H bs k Hs. rewrite (H bs _ Hs). apply Nat2Z.id. Qed.

Lemma packed_pair : decodes_stored dcount_packed stores_packed_count.
Proof. exact (nat_pair zcount_packed stores_packed_z zcount_packed_stored). Qed.

Lemma binary_pair d : decodes_stored (dcount_binary d) (stores_binary_count d).
Proof. exact (nat_pair (zcount_binary d) (stores_binary_z d) (zcount_binary_stored d)). Qed.

Lemma zoned_pair : decodes_stored dcount_zoned stores_zoned_count.
Proof.
  intros bs k H. destruct (zoned_stored_unpack bs _ H) as (d & E & Hd).
  unfold dcount_zoned. rewrite E, Hd. apply Nat2Z.id.
Qed.

(* the unsigned zoned images of Spec/ZonedCounter.v *)
Lemma stores_count_decodes : decodes_stored dcount_zoned stores_count.
Proof. intros bs k (ds & z & Hne & Hd & Hl & Hz & -> & <-). apply dcount_zoned_enc; assumption. Qed.

(* for Props/C06e.v: the partial decoders of Model/LayoutPartial.v are these decoders followed by what the walk makes
   of the value; no decoder returns a string *)
Lemma unpack_zoned_not_str p bs s : unpack_zoned p bs <> Ok (VStr s).
Proof.
  unfold unpack_zoned. destruct (_ && _); [discriminate|]. destruct (rev bs); discriminate.
Qed.

Lemma unpack_packed_not_str p bs s : unpack_packed_dec p bs <> Ok (VStr s).
Proof.
  unfold unpack_packed_dec. destruct (rev (split_nibbles bs)) as [|sh rd]; [discriminate|].
  destruct (_ && _); [discriminate|]. destruct (rev rd); discriminate.
Qed.

(* int() of a Decimal or of an int, then the sign test: the two orders of taking the value apart agree *)
Lemma count_of_pyval_zcount v : (forall s, v <> Ok (VStr s)) ->
  count_of_pyval v = match zcount_of_pyval v with Ok z => count_of_int z | Err e => Err e end.
Proof. intros H. destruct v as [[d|z|s]|ex]; try reflexivity. destruct (H s eq_refl). Qed.

Open Scope nat_scope.

Section Pair.
  Variable dc : list N -> nat.
  Variable stores : list N -> nat -> Prop.
  Hypothesis Hpair : decodes_stored dc stores.

  Lemma stored_by_hold e t r : counters_stored_by stores e t r -> counters_hold dc e t r.
  Proof.
    destruct t as [i sz oc rd|i oc rd kids]; cbn [counters_stored_by counters_hold]; [trivial|].
    intros H c sz o Hin Hf Hk. apply Hpair. exact (H c sz o Hin Hf Hk).
  Qed.

  Lemma recs_stored_by_ok t es rs :
    Forall2 (fun e r => length r = extent e t /\ counters_stored_by stores e t r) es rs -> Forall2 (rec_ok dc t) es rs.
  Proof. apply Forall2_weaken. intros e r [Hl Hc]. split; [exact Hl|apply stored_by_hold; exact Hc]. Qed.

  Lemma blocks_stored_by_ok t ess blocks :
    Forall2 (Forall2 (fun e r => length r = extent e t /\ counters_stored_by stores e t r)) ess blocks ->
    Forall2 (Forall2 (rec_ok dc t)) ess blocks.
  Proof. apply Forall2_weaken. intros es rs. apply recs_stored_by_ok. Qed.
End Pair.

(* non-vacuity: the two records of Spec/OdoStream.v store their count vectors (Props/C06c.v) *)

Lemma ex_stored e r :
  stores_count (slice r 0 2) (e 2%N) ->
  (forall o, kid_start e (item_kids ex_tree) 6%N = Some o -> stores_count (slice r o (o + 1)) (e 6%N)) ->
  counters_stored e ex_tree r.
Proof.
  intros H2 H6. cbn [counters_stored ex_tree]. intros c sz o Hin Hf Hs.
  cbn in Hin. destruct Hin as [<-|[<-|[]]].
  - vm_compute in Hf. inversion Hf; subst. cbv in Hs. inversion Hs; subst. exact H2.
  - vm_compute in Hf. inversion Hf; subst. apply H6. exact Hs.
Qed.

Lemma stores_intro ds z bs k :
  ds <> [] -> forallb is_digit ds = true -> length ds <= 28 -> In z pos_signs ->
  bs = enc_zoned ds z -> N.to_nat (val ds) = k -> stores_count bs k.
Proof. intros. exists ds, z. repeat split; assumption. Qed.

Lemma ex_records_stored :
  counters_stored ex_e1 ex_tree ex_r1 /\ length ex_r1 = extent ex_e1 ex_tree
  /\ counters_stored ex_e2 ex_tree ex_r2 /\ length ex_r2 = extent ex_e2 ex_tree
  /\ length ex_r1 <> length ex_r2.
Proof.
  assert (HF : In 15%N pos_signs) by (cbn; auto).
  split; [|split; [reflexivity|split; [|split; [reflexivity|vm_compute; discriminate]]]].
  - apply ex_stored.
    + apply (stores_intro [0; 2]%N 15%N); try reflexivity; try exact HF; [discriminate|cbn; lia].
    + intros o Hs. vm_compute in Hs. inversion Hs; subst.
      apply (stores_intro [1]%N 15%N); try reflexivity; try exact HF; [discriminate|cbn; lia].
  - apply ex_stored.
    + apply (stores_intro [0; 0]%N 15%N); try reflexivity; try exact HF; [discriminate|cbn; lia].
    + intros o Hs. vm_compute in Hs. inversion Hs; subst.
      apply (stores_intro [0]%N 15%N); try reflexivity; try exact HF; [discriminate|cbn; lia].
Qed.

Definition agree (cs : list id) (e e' : env) : Prop := forall c, In c cs -> e c = e' c.

Lemma agree_sym cs e e' : agree cs e e' -> agree cs e' e.
Proof. intros H c Hc. symmetry. apply H, Hc. Qed.

(* the equations of the specification's [wfo] (Spec/OdoWf.v), by cases of the group's OCCURS clause *)
Lemma wfo_group_once e av i rd ks : wfo e av (Group i Once rd ks) = wfo_kids e av ks && unions_ok e [] ks.
Proof. reflexivity. Qed.
Lemma wfo_group_times e av i n rd ks : wfo e av (Group i (Times n) rd ks) = wf_kids e ks && no_targets ks.
Proof. reflexivity. Qed.
Lemma wfo_group_odo e av i c ks : wfo e av (Group i (Odo c) None ks) = existsb (N.eqb c) av && wf_kids e ks && no_targets ks.
Proof. reflexivity. Qed.
Lemma wfo_kids_cons e av x xs :
  wfo_kids e av (ICons x xs) = if member x xs then wf e x && wfo_kids e av xs else wfo e av x && wfo_kids e (av ++ new_counters x) xs.
Proof. reflexivity. Qed.

(* Stored and HoldsOn traverse the description alike; at a counter the encoder's image decodes to the count *)
Lemma stored_holds_on dc stores cs r e : decodes_stored dc stores ->
  (forall x st, Stored stores cs r e x st -> HoldsOn N dc r e (fun i => existsb (N.eqb i) cs) x st)
  /\ (forall ks starts, StoredKids stores cs r e starts ks -> HoldsKidsOn N dc r e (fun i => existsb (N.eqb i) cs) starts ks).
Proof.
  intros Hpair. apply item_items_ind.
  - intros i sz [|n|c] rd st; cbn [Stored HoldsOn]; try tauto. intros H Hi. apply Hpair, H, existsb_eqb_In, Hi.
  - intros i [|n|c] rd ks IH st; cbn [Stored HoldsOn]; [apply IH|tauto|tauto].
  - intros starts _. exact I.
  - intros x IHx xs IHxs starts. cbn [StoredKids HoldsKidsOn]. intros [Hx Hr]. split; [|apply IHxs, Hr].
    destruct (member x xs); [exact I|]. destruct Hx as (o & Ho & H). exists o. split; [exact Ho|apply IHx, H].
Qed.
