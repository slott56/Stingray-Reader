(* C16 on an argument of any class (Props/C16b.v).  int() of a str: the scanner of Model/ConversionArg.v accepts
   exactly the documented text, read through to_ascii (int_of_str_text, int_of_str_ok, int_of_str_refuses).  The
   helpers on a pyval are the converters of Proofs/ConversionP.v after int() / Decimal() of the argument
   (digit_string_v_shape, decimal_places_v_shape).  What CONVERSION[key] raises and returns, key by key:
   conversion_raises_iff, conversion_returns_named, conversion_plain_returns. *)
From Coq Require Import ZArith NArith List Bool Lia ZifyBool.
Import ListNotations.
Require Import SR.Base.Res SR.Spec.Conversion SR.Spec.ConversionArg SR.Gen.ConversionParams SR.Gen.ConversionBodyParams
  SR.Gen.UnicodeParams SR.Model.Conversion SR.Model.ConversionArg SR.Proofs.ConversionP.
Require Export SR.Spec.ConversionArgWf.
Open Scope Z_scope.

(* What _PyUnicode_TransformDecimalAndSpaceToASCII ([to_ascii]) makes of a character, in terms of the two
   classes the documented grammar is stated over ([py_digit_value], [py_int_space]).  Nothing here depends on
   which code points the tables of Gen/UnicodeParams.v hold. *)

Lemma unicode_decimal_lt c d : unicode_decimal c = Some d -> (d < 10)%N.
Proof.
  unfold unicode_decimal.
  destruct (find (fun z => (z <=? c) && (c <? z + 10))%N unicode_digit_zeros) as [z|] eqn:F; [|discriminate].
  apply find_some in F. destruct F as [_ F]. intros H. injection H as <-. lia.
Qed.

Lemma digit_value_ascii c :
  py_digit_value c = if is_digit (to_ascii c) then Some (Z.of_N (to_ascii c) - 48) else None.
Proof.
  unfold py_digit_value, to_ascii. destruct (c <? 127)%N; [reflexivity|].
  destruct (unicode_space c); [reflexivity|].
  destruct (unicode_decimal c) as [d|] eqn:D; [|reflexivity].
  apply unicode_decimal_lt in D. replace (is_digit (48 + d)) with true by (unfold is_digit; lia). f_equal. lia.
Qed.

Lemma digit_char c d : py_digit_value c = Some d ->
  is_digit (to_ascii c) = true /\ Z.of_N (to_ascii c) - 48 = d.
Proof.
  rewrite digit_value_ascii. destruct (is_digit (to_ascii c)); [|discriminate].
  intros [= <-]. split; reflexivity.
Qed.

Lemma space_char c : ascii_space (to_ascii c) = py_int_space c.
Proof.
  unfold py_int_space, to_ascii. destruct (c <? 127)%N; [reflexivity|].
  destruct (unicode_space c); [reflexivity|].
  destruct (unicode_decimal c) as [d|] eqn:D; [|reflexivity].
  apply unicode_decimal_lt in D. unfold ascii_space. lia.
Qed.

(* the sign characters and the underscore are themselves and nothing else becomes one *)
Lemma to_ascii_mark c k : (k = 43 \/ k = 45 \/ k = 95)%N -> (to_ascii c =? k)%N = true -> c = k.
Proof.
  intros Hk H. apply N.eqb_eq in H. unfold to_ascii in H. destruct (c <? 127)%N; [exact H|].
  destruct (unicode_space c); [lia|].
  destruct (unicode_decimal c) as [d|] eqn:D; [apply unicode_decimal_lt in D|]; lia.
Qed.

Lemma digit_not_mark c : is_digit c = true ->
  ascii_space c = false /\ (c =? 43)%N = false /\ (c =? 45)%N = false /\ (c =? 95)%N = false.
Proof. unfold is_digit, ascii_space. intros H. repeat split; lia. Qed.

Lemma space_not_mark c : ascii_space c = true -> is_digit c = false /\ (c =? 95)%N = false.
Proof. unfold is_digit, ascii_space. intros H. repeat split; lia. Qed.

Notation dtail := (digit_tail py_digit_value).
Notation dpart := (digit_part py_digit_value).
Notation itext := (int_text py_digit_value py_int_space).

Definition zfold (acc : Z) (ds : list Z) : Z := fold_left (fun a d => 10 * a + d) ds acc.

(* where the digit loop of [scan_digits] stops *)
Definition stops (rest : list N) : Prop :=
  match rest with
  | [] => True
  | c :: _ => is_digit c = false /\ (c =? 95)%N = false
  end.

Lemma scan_digits_cons c t prev acc nd :
  scan_digits (c :: t) prev acc nd =
    if is_digit c then scan_digits t c (10 * acc + (Z.of_N c - 48)) (nd + 1)
    else if (c =? 95)%N then (if (prev =? 95)%N then None else scan_digits t c acc nd)
    else if (prev =? 95)%N then None else Some (acc, nd, c :: t).
Proof. reflexivity. Qed.

Lemma scan_stop rest prev acc nd : stops rest -> (prev =? 95)%N = false ->
  scan_digits rest prev acc nd = Some (acc, nd, rest).
Proof.
  intros Hs Hp. destruct rest as [|c t].
  - cbn [scan_digits]. rewrite Hp. reflexivity.
  - destruct Hs as [H1 H2]. rewrite scan_digits_cons, H1, H2, Hp. reflexivity.
Qed.

Lemma scan_digit c d t prev acc nd : py_digit_value c = Some d ->
  scan_digits (to_ascii c :: t) prev acc nd = scan_digits t (to_ascii c) (10 * acc + d) (nd + 1) /\
  (to_ascii c =? 95)%N = false.
Proof.
  intros Hc. destruct (digit_char c d Hc) as [Hd <-].
  rewrite scan_digits_cons, Hd. split; [reflexivity|apply (digit_not_mark _ Hd)].
Qed.

Lemma scan_tail s ds : dtail s ds -> forall rest prev acc nd, stops rest -> (prev =? 95)%N = false ->
  scan_digits (map to_ascii s ++ rest) prev acc nd = Some (zfold acc ds, nd + Z.of_nat (length ds), rest).
Proof.
  induction 1 as [|c d s ds Hc _ IH|c d s ds Hc _ IH]; intros rest prev acc nd Hs Hp; cbn [map app].
  - rewrite Z.add_0_r. apply scan_stop; assumption.
  - destruct (scan_digit c d (map to_ascii s ++ rest) prev acc nd Hc) as [-> Hu].
    rewrite (IH rest _ _ _ Hs Hu).
    replace (nd + Z.of_nat (length (d :: ds))) with (nd + 1 + Z.of_nat (length ds)) by (cbn [length]; lia). reflexivity.
  - change (to_ascii 95) with 95%N. rewrite scan_digits_cons.
    change (is_digit 95) with false. change (95 =? 95)%N with true. cbv iota. rewrite Hp.
    destruct (scan_digit c d (map to_ascii s ++ rest) 95 acc nd Hc) as [-> Hu].
    rewrite (IH rest _ _ _ Hs Hu).
    replace (nd + Z.of_nat (length (d :: ds))) with (nd + 1 + Z.of_nat (length ds)) by (cbn [length]; lia). reflexivity.
Qed.

Lemma scan_inv s : forall prev acc nd v nd' r,
  scan_digits (map to_ascii s) prev acc nd = Some (v, nd', r) ->
  exists s1 s2 ds, s = s1 ++ s2 /\ r = map to_ascii s2 /\ v = zfold acc ds /\ nd' = nd + Z.of_nat (length ds) /\
    (if (prev =? 95)%N then dpart s1 ds else dtail s1 ds).
Proof.
  induction s as [|c t IH]; intros prev acc nd v nd' r H.
  - cbn [map scan_digits] in H. destruct (prev =? 95)%N eqn:Hp; [discriminate|].
    injection H as <- <- <-. exists [], [], []. rewrite Z.add_0_r. repeat split. constructor.
  - cbn [map] in H. rewrite scan_digits_cons in H.
    destruct (is_digit (to_ascii c)) eqn:Hd.
    + assert (Hdv : py_digit_value c = Some (Z.of_N (to_ascii c) - 48)) by (rewrite digit_value_ascii, Hd; reflexivity).
      apply IH in H. destruct H as (s1 & s2 & ds & -> & E2 & E3 & E4 & G).
      rewrite (proj2 (proj2 (proj2 (digit_not_mark _ Hd)))) in G.
      exists (c :: s1), s2, (Z.of_N (to_ascii c) - 48 :: ds). cbn [length]. repeat split; [exact E2|exact E3|lia|].
      destruct (prev =? 95)%N; constructor; assumption.
    + destruct (to_ascii c =? 95)%N eqn:Hu.
      * destruct (prev =? 95)%N eqn:Hp; [discriminate|].
        apply (to_ascii_mark c 95) in Hu; [subst c|lia].
        apply IH in H. destruct H as (s1 & s2 & ds & -> & E2 & E3 & E4 & G).
        change (to_ascii 95 =? 95)%N with true in G. destruct G as [c2 d s1' ds' Hc2 Ht].
        exists (95%N :: c2 :: s1'), s2, (d :: ds'). repeat split; try assumption.
        constructor; assumption.
      * destruct (prev =? 95)%N eqn:Hp; [discriminate|].
        injection H as <- <- <-. exists [], (c :: t), []. rewrite Z.add_0_r. repeat split. constructor.
Qed.

Lemma drop_spaces_cons c t : drop_spaces (c :: t) = if ascii_space c then drop_spaces t else c :: t.
Proof. reflexivity. Qed.

Lemma drop_spaces_app ws x : forallb py_int_space ws = true ->
  drop_spaces (map to_ascii (ws ++ x)) = drop_spaces (map to_ascii x).
Proof.
  induction ws as [|c t IH]; intros H; [reflexivity|].
  cbn [forallb] in H. apply andb_prop in H. destruct H as [Hc Ht].
  cbn [app map]. rewrite drop_spaces_cons, space_char, Hc. apply IH. exact Ht.
Qed.

Lemma drop_spaces_all ws : forallb py_int_space ws = true -> drop_spaces (map to_ascii ws) = [].
Proof.
  intros H. rewrite <- (app_nil_r ws), drop_spaces_app by exact H. reflexivity.
Qed.

Lemma drop_spaces_split s : exists ws s2, s = ws ++ s2 /\ forallb py_int_space ws = true /\
  drop_spaces (map to_ascii s) = map to_ascii s2.
Proof.
  induction s as [|c t IH].
  - exists [], []. repeat split.
  - cbn [map]. rewrite drop_spaces_cons. destruct (ascii_space (to_ascii c)) eqn:E.
    + destruct IH as (ws & s2 & -> & E2 & E3). exists (c :: ws), s2.
      cbn [app forallb]. rewrite <- space_char, E. repeat split; [exact E2|exact E3].
    + exists [], (c :: t). repeat split.
Qed.

Lemma drop_spaces_nil s : drop_spaces (map to_ascii s) = [] -> forallb py_int_space s = true.
Proof.
  induction s as [|c t IH]; [reflexivity|].
  cbn [map forallb]. rewrite drop_spaces_cons, <- space_char.
  destruct (ascii_space (to_ascii c)); [intros H; apply IH; exact H|discriminate].
Qed.

(* int_of_ascii after the white space and the sign *)
Definition int_body (negative : bool) (b : list N) : res Z :=
  if starts_with_underscore b then Err ValueError
  else
    match scan_digits b 0 0 0 with
    | None => Err ValueError
    | Some (v, nd, rest) =>
        if nd =? 0 then Err ValueError
        else if int_max_str_digits <? nd then Err ValueError
        else match drop_spaces rest with
             | [] => Ok (if negative then - v else v)
             | _ :: _ => Err ValueError
             end
    end.

Lemma int_of_str_body s :
  int_of_str s = let (negative, b) := split_sign (drop_spaces (map to_ascii s)) in int_body negative b.
Proof. reflexivity. Qed.

(* grammar -> scanner: text of the documented form is read as its value, up to the 4300 digit limit *)
Lemma int_body_text negative body ds ws : dpart body ds -> forallb py_int_space ws = true ->
  int_body negative (map to_ascii (body ++ ws)) =
  if int_max_str_digits <? Z.of_nat (length ds) then Err ValueError else Ok (signed negative (zval ds)).
Proof.
  intros [c d s ds' Hc Ht] Hw. unfold int_body. cbn [app map starts_with_underscore].
  assert (Hstop : stops (map to_ascii ws)).
  { destruct ws as [|w t]; [exact I|]. cbn [forallb] in Hw. apply andb_prop in Hw. destruct Hw as [Hw _].
    rewrite <- space_char in Hw. apply space_not_mark. exact Hw. }
  destruct (scan_digit c d (map to_ascii (s ++ ws)) 0 0 0 Hc) as [-> Hu].
  rewrite Hu, map_app, (scan_tail s ds' Ht _ _ _ _ Hstop Hu).
  change (0 + 1) with 1. cbn [length]. rewrite Nat2Z.inj_succ, <- Z.add_1_l.
  destruct (1 + Z.of_nat (length ds') =? 0) eqn:E0; [lia|].
  rewrite drop_spaces_all by exact Hw. reflexivity.
Qed.

Lemma int_of_str_text s negative ds : itext s negative ds ->
  int_of_str s = if int_max_str_digits <? Z.of_nat (length ds) then Err ValueError
                 else Ok (signed negative (zval ds)).
Proof.
  intros [ws1 sg body ws2 negative' ds' Hw1 Hw2 Hsg Hb].
  rewrite int_of_str_body, drop_spaces_app, <- (int_body_text negative' body ds' ws2 Hb Hw2) by exact Hw1.
  destruct Hsg; cbn [app map].
  - (* no sign: the first digit is neither white space nor a sign *)
    destruct Hb as [c d s0 ds0 Hc Ht]. destruct (digit_char c d Hc) as [Hd _].
    destruct (digit_not_mark _ Hd) as (N1 & N2 & N3 & _).
    cbn [app map]. rewrite drop_spaces_cons, N1. cbn [split_sign]. rewrite N2, N3. reflexivity.
  - reflexivity.
  - reflexivity.
Qed.

(* scanner -> grammar: whatever int() returns was text of the documented form, of at most 4300 digits *)
Lemma int_body_ok negative b v : int_body negative (map to_ascii b) = Ok v ->
  exists body ws ds, b = body ++ ws /\ dpart body ds /\ forallb py_int_space ws = true /\
    Z.of_nat (length ds) <= int_max_str_digits /\ v = signed negative (zval ds).
Proof.
  unfold int_body. intros H.
  destruct (starts_with_underscore (map to_ascii b)) eqn:Hu; [discriminate|].
  destruct (scan_digits (map to_ascii b) 0 0 0) as [[[v0 nd] rest]|] eqn:Hs; [|discriminate].
  destruct (nd =? 0) eqn:E0; [discriminate|].
  destruct (int_max_str_digits <? nd) eqn:El; [discriminate|].
  destruct (drop_spaces rest) eqn:Er; [|discriminate].
  injection H as <-.
  apply scan_inv in Hs. destruct Hs as (s1 & s3 & ds & -> & -> & -> & -> & G).
  apply drop_spaces_nil in Er. cbv iota in G.
  destruct G as [|c d s1' ds' Hc Ht|c d s1' ds' Hc Ht].
  - cbn [length] in E0. lia.
  - exists (c :: s1'), s3, (d :: ds').
    split; [reflexivity|]. split; [constructor; assumption|]. split; [exact Er|]. split; [lia|reflexivity].
  - discriminate Hu.
Qed.

Lemma split_sign_inv s : exists negative sg b, s = sg ++ b /\ sign_text sg negative /\
  split_sign (map to_ascii s) = (negative, map to_ascii b).
Proof.
  destruct s as [|c t]; [exists false, [], []; repeat split; constructor|].
  cbn [map split_sign].
  destruct (to_ascii c =? 43)%N eqn:E43; [apply (to_ascii_mark c 43) in E43; [subst c|lia]|].
  { exists false, [43%N], t. repeat split. constructor. }
  destruct (to_ascii c =? 45)%N eqn:E45; [apply (to_ascii_mark c 45) in E45; [subst c|lia]|].
  { exists true, [45%N], t. repeat split. constructor. }
  exists false, [], (c :: t). repeat split. constructor.
Qed.

Lemma int_of_str_ok s v : int_of_str s = Ok v ->
  exists negative ds, itext s negative ds /\ Z.of_nat (length ds) <= int_max_str_digits /\ v = signed negative (zval ds).
Proof.
  rewrite int_of_str_body.
  destruct (drop_spaces_split s) as (ws & s2 & -> & Hws & ->).
  destruct (split_sign_inv s2) as (negative & sg & b & -> & Hsg & ->). intros H.
  apply int_body_ok in H. destruct H as (body & ws2 & ds & -> & Hb & Hw2 & Hl & Hv).
  exists negative, ds. split; [constructor; assumption|]. split; [exact Hl|exact Hv].
Qed.

Lemma int_of_str_err s e : int_of_str s = Err e -> e = ValueError.
Proof.
  rewrite int_of_str_body. destruct (split_sign _) as [negative b]. unfold int_body.
  destruct (starts_with_underscore b); [intros [= <-]; reflexivity|].
  destruct (scan_digits b 0 0 0) as [[[v0 nd] rest]|]; [|intros [= <-]; reflexivity].
  destruct (nd =? 0); [intros [= <-]; reflexivity|].
  destruct (int_max_str_digits <? nd); [intros [= <-]; reflexivity|].
  destruct (drop_spaces rest); [discriminate|intros [= <-]; reflexivity].
Qed.

(* [int_ok s]: the str is the text of an integer of at most 4300 digits (Spec/ConversionArgWf.v) *)
Lemma int_of_str_refuses s : int_of_str s = Err ValueError <-> ~ int_ok s.
Proof.
  split.
  - intros H (negative & ds & Ht & Hl). rewrite (int_of_str_text s negative ds Ht) in H.
    destruct (int_max_str_digits <? Z.of_nat (length ds)) eqn:E; [lia|discriminate].
  - intros Hn. destruct (int_of_str s) as [v|e] eqn:E.
    + exfalso. apply Hn. apply int_of_str_ok in E. destruct E as (negative & ds & Ht & Hl & _).
      exists negative, ds. split; assumption.
    + f_equal. apply (int_of_str_err s e E).
Qed.

Lemma represents_dec_of_int z : represents (dec_of_int z) z.
Proof.
  unfold represents, dec_of_int, sgn. cbn [neg coef dexp]. change (0 <=? 0) with true. cbv iota.
  change (10 ^ 0) with 1. rewrite Z.mul_1_r, N2Z.inj_abs_N.
  destruct (z <? 0) eqn:E; lia.
Qed.

Lemma int_of_dec_of_int z : int_of_dec (dec_of_int z) = z.
Proof. apply represents_int, represents_dec_of_int. Qed.

(* int(value) of the finite numeric classes is the truncation Model/Conversion.v works with *)
Lemma int_of_val_dec a x : dec_of_val a = Some x -> int_of_val a = Ok (int_of_dec x).
Proof.
  destruct a; cbn [dec_of_val int_of_val]; try discriminate; intros [= <-]; try reflexivity.
  - destruct b; reflexivity.
  - rewrite int_of_dec_of_int. reflexivity.
Qed.

(* digit_string(size, value) = (size * "0" + str(int(value)))[-size:], whatever value is *)
Lemma digit_string_v_shape n a : digit_string_v n a = bind (int_of_val a) (digit_text n).
Proof.
  unfold digit_string_v, digit_text. change (pre_text_v ds_pre a) with (bind (int_of_val a) str_int).
  destruct (int_of_val a) as [z|e]; cbn [bind]; [|reflexivity].
  destruct (str_int z); cbn [bind]; [rewrite padded_slice|]; reflexivity.
Qed.

Lemma digit_string_v_int n a z : int_of_val a = Ok z -> digit_string_v n a = digit_string n (dec_of_int z).
Proof.
  intros H. rewrite digit_string_v_shape, digit_string_shape, H, int_of_dec_of_int. reflexivity.
Qed.

Lemma decimal_places_v_shape d a :
  decimal_places_v d a =
  bind (quantum_exp d) (fun e =>
  bind (decimal_of_val a) (fun v =>
    match v with
    | PDec x => bind (quantize x e) (fun r => Ok (PDec r))
    | PDecNan false => Ok (PDecNan false)
    | _ => Err DecimalInvalid
    end)).
Proof. reflexivity. Qed.

Lemma decimal_of_val_dec a x : dec_of_val a = Some x -> decimal_of_val a = Ok (PDec x).
Proof.
  destruct a; cbn [dec_of_val decimal_of_val]; try discriminate; intros H; injection H as <-; reflexivity.
Qed.

Lemma decimal_of_ascii_err s e : decimal_of_ascii s = Err e -> e = DecimalInvalid.
Proof.
  unfold decimal_of_ascii.
  destruct (starts_with t_nan (map lower (unsigned s))) as [p|].
  { destruct (forallb is_digit p); [discriminate|intros [= <-]; reflexivity]. }
  destruct (starts_with t_snan (map lower (unsigned s))) as [p|].
  { destruct (forallb is_digit p); [discriminate|intros [= <-]; reflexivity]. }
  destruct (text_eqb (map lower (unsigned s)) t_inf || text_eqb (map lower (unsigned s)) t_infinity); [discriminate|].
  destruct (number_shape (unsigned s)) as [[[i f] ex]|]; [|intros [= <-]; reflexivity].
  destruct (_ || _); [intros [= <-]; reflexivity|discriminate].
Qed.

Lemma decimal_of_str_err s e : decimal_of_str s = Err e -> e = DecimalInvalid.
Proof.
  unfold decimal_of_str. destruct (dec_ascii _) as [a|]; [apply decimal_of_ascii_err|].
  intros [= <-]. reflexivity.
Qed.

Lemma conversion_entry key a : In key vocabulary -> conversion_full key a = entry_result key a.
Proof.
  unfold vocabulary. cbn [In]. intros H.
  repeat (destruct H as [<-|H]; [reflexivity|]). contradiction.
Qed.

Notation raises := (conversion_raises int_ok float_str_ok decimal_str_ok).

Lemma err_iff {T} (x e : exn) : @Err T x = Err e <-> e = x.
Proof. split; [intros [= <-]|intros ->]; reflexivity. Qed.

Lemma ok_err_iff {T} (v : T) e : Ok v = Err e <-> False.
Proof. split; [discriminate|contradiction]. Qed.

Lemma bind_ok_err {T U} (r : res T) (g : T -> U) e P :
  (r = Err e <-> P) -> (bind r (fun x => Ok (g x)) = Err e <-> P).
Proof. intros <-. destruct r; cbn [bind]; split; try discriminate; intros [= <-]; reflexivity. Qed.

Lemma str_int_err z e : str_int z = Err e <-> e = ValueError /\ 10 ^ int_max_str_digits <= Z.abs z.
Proof.
  unfold str_int. rewrite too_long_exact. change max_str_digits with int_max_str_digits.
  destruct (Z.leb_spec (10 ^ int_max_str_digits) (Z.abs z)) as [H|H].
  - rewrite err_iff. tauto.
  - rewrite ok_err_iff. lia.
Qed.

(* when int(), float(), str() and Decimal() raise, and what *)
Lemma int_raises a e : int_of_val a = Err e <-> raises 3 a e.
Proof.
  destruct a; cbn [int_of_val conversion_raises]; try apply err_iff; try apply ok_err_iff.
  split.
  - intros H. pose proof (int_of_str_err s e H) as ->. split; [reflexivity|]. apply int_of_str_refuses. exact H.
  - intros [-> H]. apply int_of_str_refuses. exact H.
Qed.

(* nothing depends on where the float range ends: the bound is abstracted before the classes are told apart *)
Lemma float_raises a e : float_of_val_ok a = Err e <-> raises 4 a e.
Proof.
  unfold float_of_val_ok. cbn [conversion_raises]. generalize float_overflow. intros bound.
  destruct a; try apply err_iff; try apply ok_err_iff.
  - destruct (Z.leb_spec bound (Z.abs z)); [rewrite err_iff; tauto|rewrite ok_err_iff; lia].
  - destruct (float_str_ok s); [rewrite ok_err_iff|rewrite err_iff]; intuition discriminate.
  - destruct signalling; [apply err_iff|apply ok_err_iff].
  - destruct (Z.leb_spec (bound * Z.pos den) (Z.abs num)); [rewrite err_iff; tauto|rewrite ok_err_iff; lia].
Qed.

Lemma str_raises a e : str_of_val a = Err e <-> raises 5 a e.
Proof.
  destruct a; cbn [str_of_val conversion_raises]; try apply ok_err_iff.
  - apply bind_ok_err, str_int_err.
  - (* a Fraction prints its numerator, then its denominator *)
    destruct (str_int num) as [s1|e1] eqn:E1; cbn [bind].
    + apply bind_ok_err. rewrite str_int_err.
      assert (~ 10 ^ int_max_str_digits <= Z.abs num) by (intros H; apply str_int_too_long in H; congruence).
      change (Z.abs (Z.pos den)) with (Z.pos den).
      (* tauto takes atoms apart: it must not see the power *)
      set (limit := 10 ^ int_max_str_digits) in *. clearbody limit. tauto.
    + apply str_int_err in E1. destruct E1 as [-> H]. rewrite err_iff. tauto.
Qed.

Lemma decimal_raises a e : decimal_of_val a = Err e <-> raises 6 a e.
Proof.
  destruct a; cbn [decimal_of_val conversion_raises]; try apply err_iff; try apply ok_err_iff.
  unfold decimal_str_ok. destruct (decimal_of_str s) as [v|e0] eqn:E; cbn [is_ok].
  - rewrite ok_err_iff. intuition discriminate.
  - pose proof (decimal_of_str_err s e0 E) as ->. rewrite err_iff. tauto.
Qed.

Lemma conversion_raises_iff key a e : In key vocabulary -> (conversion_result key a = Err e <-> raises key a e).
Proof.
  intros Hk. unfold conversion_result. rewrite (conversion_entry key a Hk).
  unfold vocabulary in Hk. cbn [In] in Hk.
  destruct Hk as [<-|[<-|[<-|[<-|[<-|[<-|[<-|[]]]]]]]]; cbn [entry_result conversion_raises bind fst];
    try apply ok_err_iff.
  - apply bind_ok_err, bind_ok_err, int_raises.
  - apply bind_ok_err, bind_ok_err, float_raises.
  - apply bind_ok_err, bind_ok_err, str_raises.
  - apply bind_ok_err, bind_ok_err, decimal_raises.
Qed.

(* the reading on type codes ([conversion_type], Model/Conversion.v) is this one on an argument of that type on which the
   conversion returns *)
Lemma conversion_type_of key a t : conversion_result key a = Ok t -> conversion_type key (type_of a) = Ok t.
Proof.
  unfold conversion_result, conversion_full, conversion_type.
  destruct (lookup key conversion_table) as [en|]; [|discriminate].
  unfold entry_result, entry_type.
  destruct en as [|p|p]; [intros H; injection H as <-; reflexivity| |discriminate].
  do 4 (destruct p as [p|p|]; try discriminate;
        try (intros H; injection H as <-; reflexivity);
        try (match goal with |- bind (bind ?r _) _ = _ -> _ => destruct r; cbn [bind fst]; [intros H; injection H as <-; reflexivity|discriminate] end)).
Qed.

Lemma conversion_returns_named key a t : In key vocabulary -> conversion_result key a = Ok t -> t = named_type key (type_of a).
Proof.
  intros Hk H. apply conversion_type_of in H. rewrite (conversion_named key _ Hk) in H.
  injection H as <-. reflexivity.
Qed.

Lemma float_overflow_le : float_overflow <= 2 ^ 1024.
Proof. unfold float_overflow. apply -> Z.le_sub_nonneg. apply Z.pow_nonneg. discriminate. Qed.

(* an int inside the float range has far fewer than 4300 digits: 2^1024 <= 2^14284 <= 10^4300 *)
Lemma float_overflow_short : float_overflow <= 10 ^ int_max_str_digits.
Proof.
  apply Z.le_trans with (1 := float_overflow_le), Z.le_trans with (2 := pow2_14284).
  apply Z.pow_le_mono_r; [reflexivity|discriminate].
Qed.

Lemma plain_int_small z : plain_value (PInt z) = true -> Z.abs z < float_overflow.
Proof. intros H. apply Z.ltb_lt. exact H. Qed.

(* on the values a workbook or a decoded field delivers every named conversion returns *)
Lemma conversion_plain_returns key a : In key vocabulary -> plain_value a = true ->
  conversion_result key a = Ok (named_type key (type_of a)).
Proof.
  intros Hk Hp. destruct (conversion_result key a) as [t|e] eqn:E.
  - f_equal. apply (conversion_returns_named key a t Hk E).
  - exfalso. apply (conversion_raises_iff key a e Hk) in E.
    (* of the plain values only an int can be refused, by float() or by str(); a plain int is too small for either *)
    unfold vocabulary in Hk. cbn [In] in Hk.
    destruct a; try discriminate Hp; destruct Hk as [<-|[<-|[<-|[<-|[<-|[<-|[<-|[]]]]]]]]; try exact E;
      destruct E as [_ H]; apply plain_int_small in Hp.
    + lia.
    + pose proof float_overflow_short. lia.
Qed.
