(* The composed model Model/Pipeline.v on printed copybooks (Spec/Copybook.v), engine C07b of property C07.  The layer theorems
   compose (sentences_lines, clause_dict_printer per entry, structure_no_redefines); then the emission: the schema maker's heap model
   against the pure documents.  Past the text layer nothing is said of printed copybooks in particular: the chain from the
   sentences to the documents (reading_schemas, reading_build, reading_end_to_end) is stated for every text that reads_as its
   entries (Spec/TextNoiseWf.v), and a printed copybook is one (printed_reads_as).  What build does at a node is proved once (build_node, over node_doc); its two loops over the
   children are followed without REDEFINES (docs_of, no hypothesis on the names) and with (Module Redef: docs_r, names_wf; the
   invariant is ER / PR2).
   Then the decoder's second parse: size and JSON type depend on the usage number only through jt_class / calc_class, and the
   usage words the clause layer takes for one USAGE have the same classes (calcsize_agrees, usage_same_family, usage_classes).
   Module DefsR: the entries the documents define (defs_doc_r, docs_r_defs).  Module Resp2: the documents of two spellings of the
   same clauses.  Its Section Sim2 runs structure() in lock step on two entry lists that agree on level, name and REDEFINES
   target but not on the text (structure_ddes_sim; RenumberP.structure_sim is the other lock-step run, where the levels differ);
   doc_r_sim and docs_r_respelling carry the similarity to the documents. *)
From Coq Require Import NArith List Bool Arith Lia Permutation.
Import ListNotations.
Require Import SR.Base.Res.
Require Import SR.Model.RefFormat SR.Spec.RefFormat SR.Proofs.RefFormatP.
Require SR.Model.Clauses SR.Spec.Clauses SR.Proofs.ClausesP.
Require SR.Model.Structure SR.Proofs.StructureP SR.Proofs.ListFactsP SR.Proofs.RenumberP.
Require SR.Model.JsonType SR.Model.Estruct SR.Gen.EstructParams SR.Gen.JsonTypeParams.
Require Import SR.Model.Pipeline SR.Spec.Copybook.
(* The definitions of this development that occur in theorem statements (Props/) live in Spec/PipelineWf.v.
   Other files write PipelineP.erase and PipelineP.erase_f: parsing-only aliases. *)
Require Export SR.Spec.PipelineWf.
Notation erase := SR.Spec.PipelineWf.erase (only parsing).
Notation erase_f := SR.Spec.PipelineWf.erase_f (only parsing).
Require SR.Spec.TextNoiseWf.
Local Notation reads_as := SR.Spec.TextNoiseWf.reads_as.
Open Scope N_scope.
(* ZifyBool, loaded by the imported proof files, hooks a search for boolean constraints into every lia (its
   Zify.zify_post_hook), which makes lia slow; nothing below is about booleans *)
Ltac Zify.zify_post_hook ::= idtac.

Lemma cut_go_lines_go : forall s cur, cut_go cur s = lines_go cur s.
Proof. induction s as [|c t IH]; intros cur; cbn [cut_go lines_go]; [reflexivity|]. rewrite !IH. reflexivity. Qed.

Lemma cut_lines_eq : forall s, cut_lines s = lines_of_text s.
Proof. intros s. apply cut_go_lines_go. Qed.

Lemma concat_cut_go : forall s cur, concat (cut_go cur s) = rev cur ++ s.
Proof.
  induction s as [|c t IH]; intros cur; cbn [cut_go].
  - destruct cur; cbn [concat]; [reflexivity|]. rewrite !app_nil_r. reflexivity.
  - destruct (c =? 10) eqn:E.
    + cbn [concat]. rewrite IH. cbn [rev app]. rewrite <- app_assoc. reflexivity.
    + rewrite IH. cbn [rev]. rewrite <- app_assoc. reflexivity.
Qed.

Lemma concat_cut_lines : forall s, concat (cut_lines s) = s.
Proof. intros s. apply (concat_cut_go s []). Qed.

Definition no10 (l : line) : bool := forallb (fun c => negb (c =? 10)) l.

Lemma lines_go_no10 : forall x cur rest, no10 x = true -> lines_go cur (x ++ rest) = lines_go (rev x ++ cur) rest.
Proof.
  induction x as [|c x IH]; intros cur rest H; [reflexivity|]. cbn [no10 forallb] in H. apply andb_true_iff in H as [Hc Hx].
  cbn [app lines_go]. destruct (c =? 10); [discriminate|]. rewrite (IH _ _ Hx). cbn [rev]. rewrite <- app_assoc. reflexivity.
Qed.

Lemma no10_rev : forall l, no10 (rev l) = no10 l.
Proof. intros l. unfold no10. apply forallb_rev. Qed.

Lemma no10_app : forall a b, no10 (a ++ b) = no10 a && no10 b.
Proof. intros a b. unfold no10. apply forallb_app. Qed.

Lemma seq_ok_no10 : forall s, seq_ok s = true -> no10 s = true.
Proof. intros s H. unfold seq_ok in H. apply andb_true_iff in H as [_ H]. exact H. Qed.

Lemma layout_cons : forall seqs l r, layout_lines_ok seqs (l :: r) = true ->
  seq_ok (hd blank6 seqs) = true /\ code_line_ok l = true
  /\ directive_word (strip (hd blank6 seqs ++ 32 :: l)) = false
  /\ directive_word (strip l) = false /\ layout_lines_ok (tl seqs) r = true.
Proof.
  intros seqs l r H. cbn [layout_lines_ok] in H. apply andb_true_iff in H as [H HR].
  apply andb_true_iff in H as [H Hd2]. apply andb_true_iff in H as [H Hd]. apply andb_true_iff in H as [Hs Hl].
  apply negb_true_iff in Hd. apply negb_true_iff in Hd2. repeat split; assumption.
Qed.

Lemma lines_go_line : forall body rest, no10 body = true ->
  lines_go [] (body ++ 10 :: rest) = (body ++ [10]) :: lines_go [] rest.
Proof.
  intros body rest H. rewrite (lines_go_no10 body [] _ H). cbn [lines_go N.eqb Pos.eqb rev]. rewrite app_nil_r, rev_involutive. reflexivity.
Qed.

Lemma lines_go_last : forall body, no10 body = true -> body <> [] -> lines_go [] body = [body].
Proof.
  intros body H NE. rewrite <- (app_nil_r body) at 1. rewrite (lines_go_no10 body [] [] H). cbn [lines_go]. rewrite app_nil_r.
  destruct (rev body) eqn:E; [|rewrite <- E, rev_involutive; reflexivity].
  apply (f_equal (@rev N)) in E. rewrite rev_involutive in E. contradiction.
Qed.

Lemma card_no10 : forall sq cur, seq_ok sq = true -> no10 cur = true -> no10 (sq ++ 32 :: rev cur) = true.
Proof. intros sq cur Hs Hc. rewrite no10_app, (seq_ok_no10 _ Hs). cbn [no10 forallb]. fold (no10 (rev cur)). rewrite no10_rev, Hc. reflexivity. Qed.

Lemma lines_of_cards : forall s cur seqs, no10 cur = true -> layout_lines_ok seqs (cut_go cur s) = true ->
  lines_go [] (concat (cards_of seqs (cut_go cur s))) = cards_of seqs (cut_go cur s).
Proof.
  induction s as [|c t IH]; intros cur seqs Hc HL; cbn [cut_go] in *.
  - destruct cur as [|x cur]; [reflexivity|]. cbn [cards_of concat]. rewrite app_nil_r. apply layout_cons in HL as (HL & _).
    apply lines_go_last; [apply (card_no10 _ _ HL Hc)|]. destruct (hd blank6 seqs); discriminate.
  - destruct (c =? 10) eqn:E10.
    + apply N.eqb_eq in E10. subst c. cbn [cards_of concat rev]. apply layout_cons in HL as (HL & _ & _ & _ & HR).
      rewrite app_comm_cons, (app_assoc (hd blank6 seqs)), <- (app_assoc _ [10]). cbn [app].
      rewrite (lines_go_line _ _ (card_no10 _ _ HL Hc)), (IH [] (tl seqs) eq_refl HR). reflexivity.
    + apply IH; [|exact HL]. cbn [no10 forallb]. rewrite E10. exact Hc.
Qed.

Lemma lines_of_print_cards : forall seqs code, layout_lines_ok seqs (cut_lines code) = true ->
  lines_of_text (print_cards seqs code) = cards_of seqs (cut_lines code).
Proof. intros seqs code H. unfold lines_of_text, print_cards, cut_lines. apply lines_of_cards; [reflexivity|exact H]. Qed.

Lemma rstrip_nonblank : forall l, forallb is_ws l = false -> rstrip l <> [].
Proof.
  intros l H E. unfold rstrip in E. apply (f_equal (@rev N)) in E. rewrite rev_involutive in E. cbn [rev] in E.
  apply lstrip_nil_ws in E. rewrite forallb_rev in E. congruence.
Qed.

Lemma forallb_ws_app_false : forall a b, forallb is_ws b = false -> forallb is_ws (a ++ b) = false.
Proof. intros a b H. rewrite forallb_app, H. apply andb_false_r. Qed.

Lemma card_facts : forall sq l, seq_ok sq = true -> code_line_ok l = true ->
  directive_word (strip (sq ++ 32 :: l)) = false ->
  cards ((sq ++ 32 :: l) :: nil) = [(32, l)].
Proof.
  intros sq l Hs Hl Hd. unfold seq_ok in Hs. apply andb_true_iff in Hs as [Hlen _]. apply Nat.eqb_eq in Hlen.
  unfold code_line_ok in Hl. apply andb_true_iff in Hl as [Hl Hcopy]. apply andb_true_iff in Hl as [Hlen2 Hnb].
  apply Nat.leb_le in Hlen2. apply negb_true_iff in Hnb.
  assert (NE : f_non_empty (sq ++ 32 :: l) = true).
  { rewrite non_empty_blank. unfold blank. rewrite forallb_ws_app_false; [reflexivity|]. cbn [forallb]. rewrite Hnb. apply andb_false_r. }
  assert (LG : f_long (sq ++ 32 :: l) = true).
  { unfold f_long. apply Nat.leb_le. rewrite app_length. cbn [length]. lia. }
  assert (TC : to_card (sq ++ 32 :: l) = (32, l)).
  { destruct sq as [|a1 [|a2 [|a3 [|a4 [|a5 [|a6 [|a7 sq]]]]]]]; try discriminate Hlen.
    unfold to_card, indicator, area. cbn [app nth skipn]. f_equal. apply firstn_all2. exact Hlen2. }
  rewrite cards_fmap. cbn [fmap]. unfold pre, f_non_directive. rewrite NE, directive_word_eq, Hd, LG, TC. reflexivity.
Qed.

Lemma cards_cons_one : forall c r, cards (c :: r) = cards [c] ++ cards r.
Proof.
  intros c r. rewrite !cards_fmap. cbn [fmap]. destruct (pre c); reflexivity.
Qed.

Lemma cards_of_layout : forall ls seqs, layout_lines_ok seqs ls = true ->
  cards (cards_of seqs ls) = map (fun l => (32, l)) ls.
Proof.
  induction ls as [|l r IH]; intros seqs H; [reflexivity|].
  apply layout_cons in H as (Hs & Hl & Hd & _ & HR).
  cbn [cards_of]. rewrite cards_cons_one.
  etransitivity; [apply f_equal2; [exact (card_facts _ _ Hs Hl Hd)|apply (IH _ HR)]|reflexivity].
Qed.

Lemma replace_cards_nil : forall cs, replace_cards [] cs = cs.
Proof. intros cs. unfold replace_cards. rewrite <- (map_id cs) at 2. apply map_ext. intros [i t]. reflexivity. Qed.

Lemma join_plain : forall r cur, forallb (fun l => negb (starts_copy l)) (cur :: r) = true ->
  join cur (map (fun l => (32, l)) r) = Ok (cur :: r).
Proof.
  induction r as [|l r IH]; intros cur H; [reflexivity|].
  cbn [map]. rewrite join_eq. cbn [N.eqb Pos.eqb]. cbn [forallb] in H. apply andb_true_iff in H as [Hc H].
  apply negb_true_iff in Hc. rewrite Hc. rewrite (IH l H). reflexivity.
Qed.

Lemma layout_no_copy : forall ls seqs, layout_lines_ok seqs ls = true -> forallb (fun l => negb (starts_copy l)) ls = true.
Proof.
  induction ls as [|l r IH]; intros seqs H; [reflexivity|].
  apply layout_cons in H as (_ & Hl & _ & _ & HR).
  unfold code_line_ok in Hl. apply andb_true_iff in Hl as [_ Hc].
  cbn [forallb]. rewrite Hc. apply (IH _ HR).
Qed.

Lemma reference_format_cards : forall ls seqs, ls <> [] -> layout_lines_ok seqs ls = true ->
  reference_format (cards_of seqs ls) [] = Ok ls.
Proof.
  intros ls seqs NE H. rewrite rf_eq. rewrite replace_cards_nil, (cards_of_layout ls seqs H).
  destruct ls as [|l r]; [congruence|]. cbn [map join_all]. apply join_plain. apply (layout_no_copy _ _ H).
Qed.

Lemma cut_go_nonempty : forall s cur, s <> [] -> cut_go cur s <> [].
Proof.
  induction s as [|c t IH]; intros cur NE; [congruence|]. cbn [cut_go].
  destruct (c =? 10); [discriminate|]. destruct t as [|c2 t2]; [cbn [cut_go]; discriminate|]. apply IH. discriminate.
Qed.

Theorem sentences_of_printed : forall es tail seqs,
  forallb ce_wf es = true -> forallb is_ws tail = true -> layout_ok seqs (code_text es tail) = true ->
  sentences_of_text (print_copybook es tail seqs) = Ok (spec_sentences (map ce_print es)).
Proof.
  intros es tail seqs Hwf Ht HL. unfold layout_ok in HL. apply andb_true_iff in HL as [Hnb HL].
  unfold sentences_of_text, print_copybook. rewrite (lines_of_print_cards _ _ HL).
  assert (NE : cut_lines (code_text es tail) <> []).
  { apply cut_go_nonempty. intros E. rewrite E in Hnb. discriminate. }
  rewrite (reference_format_cards _ _ NE HL). f_equal.
  apply (sentences_lines _ (map ce_print es) tail).
  - rewrite forallb_forall in *. intros x Hx. apply in_map_iff in Hx as (e & <- & He). apply (Hwf e He).
  - exact Ht.
  - rewrite concat_cut_lines. unfold code_text. rewrite map_map. reflexivity.
Qed.

Import SR.Spec.Clauses.

Lemma get_expected : forall k cs sps,
  SR.Model.Clauses.get k (SR.Proofs.ClausesP.gmap (expected cs sps)) = lookup (SR.Model.Clauses.key_code k) (expected cs sps).
Proof. intros k cs sps. apply SR.Proofs.ClausesP.get_gmap. apply SR.Proofs.ClausesP.sorted_codes. Qed.

Lemma is_some_has : forall k d, is_some (lookup k d) = has k d.
Proof. intros k d. unfold is_some, has. destruct (lookup k d); reflexivity. Qed.

Lemma info_of_expected : forall e parsed,
  info_of [ce_d1 e; ce_d2 e] (ce_body e) (SR.Proofs.ClausesP.record_of (expected (ce_cs e) (ce_sps e)) parsed) = spec_info e.
Proof.
  intros e parsed. unfold info_of, spec_info, spec_entry, ce_dict, SR.Proofs.ClausesP.record_of.
  cbn [SR.Model.Clauses.cr_dict lvl_of]. rewrite !get_expected. cbn [SR.Model.Clauses.key_code]. rewrite !is_some_has. reflexivity.
Qed.

Lemma clause_dict_entry : forall e, printable (ce_cs e) (ce_sps e) = true -> pic_accepted e = true ->
  exists parsed, SR.Model.Clauses.clause_dict (ce_body e)
                 = Some (Ok (SR.Proofs.ClausesP.record_of (expected (ce_cs e) (ce_sps e)) parsed)).
Proof.
  intros e P A. unfold ce_body. rewrite (SR.Proofs.ClausesP.clause_dict_printer _ _ P).
  unfold SR.Proofs.ClausesP.result_for. unfold pic_accepted, ce_dict in A.
  destruct (lookup 7 (expected (ce_cs e) (ce_sps e))) as [p|]; [|eexists; reflexivity].
  destruct (SR.Model.Picture.gen_normalize p) as [[es|x]|]; try discriminate. eexists. reflexivity.
Qed.

Theorem infos_of_printed : forall es, forallb ce_ok es = true ->
  infos (spec_sentences (map ce_print es)) = (map spec_info es, SDone).
Proof.
  induction es as [|e es IH]; intros H; [reflexivity|].
  cbn [forallb] in H. apply andb_true_iff in H as [He H]. unfold ce_ok in He.
  apply andb_true_iff in He as [He _]. apply andb_true_iff in He as [P A].
  cbn [map spec_sentences]. unfold spec_sentences. cbn [map infos].
  cbn [ce_print e_d1 e_d2 e_body].
  destruct (clause_dict_entry e P A) as [parsed E]. rewrite E.
  fold (spec_sentences (map ce_print es)). rewrite (IH H). rewrite info_of_expected. reflexivity.
Qed.

Lemma copybook_entries_ok : forall es tail seqs, copybook_ok es tail seqs = true -> forallb ce_ok es = true.
Proof.
  intros es tail seqs H. unfold copybook_ok in H. apply andb_true_iff in H as [H _]. apply andb_true_iff in H as [H _]. exact H.
Qed.

Lemma ce_ok_wf : forall es, forallb ce_ok es = true -> forallb ce_wf es = true.
Proof.
  intros es H. rewrite forallb_forall in *. intros e He. specialize (H e He). unfold ce_ok in H.
  apply andb_true_iff in H as [_ H]. exact H.
Qed.

Theorem printed_reads_as : forall es tail seqs, copybook_ok es tail seqs = true -> reads_as (print_copybook es tail seqs) es.
Proof.
  intros es tail seqs H. unfold copybook_ok in H. apply andb_true_iff in H as [H HL]. apply andb_true_iff in H as [Hes Ht].
  split; [exact Hes|]. apply sentences_of_printed; [apply ce_ok_wf; exact Hes|exact Ht|exact HL].
Qed.

Theorem reading_schemas : forall T es, reads_as T es -> schemas_of_text T = to_outcome (docs_of_infos (map spec_info es)).
Proof.
  intros T es [Hes S]. unfold schemas_of_text, docs_of_sentences, forest_of, docs_of_infos. rewrite S, (infos_of_printed es Hes).
  destruct (SR.Model.Structure.structure (map i_entry (map spec_info es))) as [f|e]; reflexivity.
Qed.

Lemma to_outcome_ok : forall r docs, to_outcome r = Done (Ok docs) -> r = ROk docs.
Proof. intros [l|e|w] docs H; try discriminate. injection H as <-. reflexivity. Qed.

Import SR.Model.Structure.
Local Notation dict := SR.Model.Pipeline.dict.
Local Notation str := SR.Model.Pipeline.str.
Local Notation mst := SR.Model.Pipeline.mst.
Local Notation names := SR.Model.Pipeline.names.
Local Notation heap := SR.Model.Pipeline.heap.
Local Notation hget := SR.Model.Pipeline.hget.
Local Notation hupd := SR.Model.Pipeline.hupd.
Local Notation alloc := SR.Model.Pipeline.alloc.
Local Notation reg := SR.Model.Pipeline.reg.
Local Notation reify := SR.Model.Pipeline.reify.
Local Notation build := SR.Model.Pipeline.build.
Local Notation redef_pre := SR.Model.Pipeline.redef_pre.
Local Notation redef_post := SR.Model.Pipeline.redef_post.
Local Notation build_tree := SR.Model.Pipeline.build_tree.
Local Notation build_all := SR.Model.Pipeline.build_all.

Lemma str_eqb_neq : forall a b, a <> b -> str_eqb a b = false.
Proof. intros a b N. destruct (str_eqb a b) eqn:E; [|reflexivity]. apply StructureP.str_eqb_eq in E. contradiction. Qed.

Lemma notin_keys_cons : forall (V : Type) key k (v : V) l, ~ In key (map fst ((k, v) :: l)) ->
  str_eqb k key = false /\ ~ In key (map fst l).
Proof.
  intros V key k v l N. split; [apply str_eqb_neq; intros ->; apply N; left; reflexivity|]. intros I. apply N. right. exact I.
Qed.

Lemma NoDup_snoc : forall (T : Type) (l : list T) k, NoDup l -> ~ In k l -> NoDup (l ++ [k]).
Proof. intros T l k ND N. apply (Permutation_NoDup (Permutation_cons_append l k)). constructor; assumption. Qed.

Lemma ROk_inj : forall (T : Type) (a b : T), ROk a = ROk b -> a = b.
Proof. intros T a b H. injection H as H. exact H. Qed.

Lemma rbind_ok : forall (T U : Type) (r : R T) (f : T -> R U) y, rbind r f = ROk y -> exists x, r = ROk x /\ f x = ROk y.
Proof. intros T U [x|e|w] f y H; try discriminate. exists x. split; [reflexivity|exact H]. Qed.

(* two results: the same exception or unmodelled case, or values related by P.  With a run of the model on the left and
   the specification on the right: the run follows the specification *)
Definition rrel {A B : Type} (P : A -> B -> Prop) (r : R A) (r' : R B) : Prop :=
  match r, r' with
  | ROk a, ROk a' => P a a'
  | RErr e, RErr e' => e = e'
  | RUn w, RUn w' => w = w'
  | _, _ => False
  end.

Lemma rrel_bind : forall (A A' B B' : Type) (P : A -> A' -> Prop) (Q : B -> B' -> Prop) r r' f f',
  rrel P r r' -> (forall a a', P a a' -> rrel Q (f a) (f' a')) -> rrel Q (rbind r f) (rbind r' f').
Proof.
  intros A A' B B' P Q [a|e|w] [a'|e'|w'] f f' H K; cbn [rrel rbind] in *; try contradiction; [apply K, H|exact H|exact H].
Qed.

Lemma rrel_bind_same : forall (A B B' : Type) (Q : B -> B' -> Prop) (r : R A) f f',
  (forall a, rrel Q (f a) (f' a)) -> rrel Q (rbind r f) (rbind r f').
Proof. intros A B B' Q [a|e|w] f f' K; [apply K|reflexivity|reflexivity]. Qed.

Lemma rrel_impl : forall (A B : Type) (P Q : A -> B -> Prop) r r', (forall a b, P a b -> Q a b) -> rrel P r r' -> rrel Q r r'.
Proof. intros A B P Q [a|e|w] [a'|e'|w'] K H; cbn [rrel] in *; try exact H. apply K, H. Qed.

Definition rv (f : nat) (h : list dict) (kv : str * val) : option (str * jdoc) :=
  match snd kv with
  | VStr x => Some (fst kv, JStr x)
  | VInt n => Some (fst kv, JInt n)
  | VObj i => option_map (fun v => (fst kv, v)) (reify f h i)
  | VArr ids => option_map (fun l => (fst kv, JArr l)) (map_opt (reify f h) ids)
  end.

Lemma reify_S : forall f h id,
  reify (S f) h id = match nth_error h id with
                     | None => None
                     | Some d => option_map JObj (map_opt (rv f h) d)
                     end.
Proof. reflexivity. Qed.

Lemma rv_key : forall f h kv y, rv f h kv = Some y -> fst y = fst kv.
Proof.
  intros f h [k v] y H. unfold rv in H. cbn [fst snd] in H.
  destruct v as [x|n|i|ids]; [| |destruct (reify f h i)|destruct (map_opt (reify f h) ids)]; cbn [option_map] in H; try discriminate;
    injection H as <-; reflexivity.
Qed.

Lemma map_opt_app : forall (X Y : Type) (g : X -> option Y) a b x y,
  map_opt g a = Some x -> map_opt g b = Some y -> map_opt g (a ++ b) = Some (x ++ y).
Proof.
  intros X Y g. induction a as [|c a IH]; intros b x y Ha Hb; cbn [map_opt app] in *.
  - injection Ha as <-. exact Hb.
  - destruct (g c) as [c'|]; [|discriminate]. destruct (map_opt g a) as [a'|] eqn:E; [|discriminate].
    injection Ha as <-. rewrite (IH b a' y eq_refl Hb). reflexivity.
Qed.

Lemma map_opt_strs : forall f h l, map_opt (rv f h) (strs l) = Some (jstrs l).
Proof.
  intros f h. induction l as [|[k v] l IH]; [reflexivity|]. cbn [strs jstrs map map_opt rv snd fst] in *.
  unfold strs, jstrs in IH. rewrite IH. reflexivity.
Qed.

Lemma map_opt_F2 : forall (X Y : Type) (g : X -> option Y) (P : X -> Y -> Prop) a b,
  (forall x y, P x y -> g x = Some y) -> Forall2 P a b -> map_opt g a = Some b.
Proof.
  intros X Y g P a b HP F. induction F as [|x y a b Hxy F IH]; [reflexivity|]. cbn [map_opt].
  rewrite (HP x y Hxy), IH. reflexivity.
Qed.

(* d[key] = v on the dict, key: doc on its document *)
Lemma map_opt_dset : forall f h k v doc pc pa, map_opt (rv f h) pc = Some pa -> rv f h (k, v) = Some (k, doc) ->
  map_opt (rv f h) (dset k v pc) = Some (jset k doc pa).
Proof.
  intros f h k v doc. induction pc as [|[k1 v1] pc IH]; intros pa M V; cbn [map_opt dset] in *.
  - injection M as <-. rewrite V. reflexivity.
  - destruct (rv f h (k1, v1)) as [y|] eqn:E; [|discriminate]. destruct (map_opt (rv f h) pc) as [pa1|] eqn:M1; [|discriminate].
    injection M as <-. pose proof (rv_key _ _ _ _ E) as K. destruct y as [k2 d2]. cbn [fst] in K. subst k2. cbn [jset].
    destruct (str_eqb k1 k) eqn:Q; cbn [map_opt].
    + apply StructureP.str_eqb_eq in Q. subst k1. rewrite V, M1. reflexivity.
    + rewrite E, (IH pa1 eq_refl V). reflexivity.
Qed.

Definition agree (b e : nat) (H H' : list dict) : Prop := forall i, (b <= i < e)%nat -> nth_error H' i = nth_error H i.

(* the dict id stands for the document doc, and that depends only on the cells b .. e-1 *)
Definition window (H : list dict) (id : nat) (doc : jdoc) (b e : nat) : Prop :=
  (b <= id < e)%nat /\ (e <= length H)%nat /\
  forall H' fuel, agree b e H H' -> (e - b <= fuel)%nat -> reify fuel H' id = Some doc.

Lemma window_mono : forall H H1 id doc b e, window H id doc b e -> agree b e H H1 -> (length H <= length H1)%nat ->
  window H1 id doc b e.
Proof.
  intros H H1 id doc b e (Hb & He & W) A Len. split; [exact Hb|]. split; [lia|].
  intros H' fuel A' F. apply W; [|exact F]. intros i Hi. rewrite (A' i Hi). apply (A i Hi).
Qed.

(* a properties dict under construction: it stands for the properties pa whatever becomes of the heap outside L .. *)
Definition reifies (H : list dict) (L : nat) (pc : dict) (pa : list (str * jdoc)) : Prop :=
  forall H' f, agree L (length H) H H' -> (length H - L <= f)%nat -> map_opt (rv f H') pc = Some pa.

Lemma reifies_nil : forall H L, reifies H L [] [].
Proof. intros H L H' f _ _. reflexivity. Qed.

(* the heap grows and changes below L only; the document of a new child (a window above L) is entered *)
Lemma reifies_dset : forall H H1 L pc pa k cid doc b e, reifies H L pc pa -> window H1 cid doc b e -> (L <= b)%nat ->
  agree L (length H) H H1 -> (length H <= length H1)%nat ->
  reifies H1 L (dset k (VObj cid) pc) (jset k doc pa).
Proof.
  intros H H1 L pc pa k cid doc b e P (Hb & He & W) Lb A Len H' f A' F. apply map_opt_dset.
  - apply P; [|lia]. intros i Hi. rewrite A' by lia. apply A. exact Hi.
  - unfold rv. cbn [snd fst]. rewrite (W H' f); [reflexivity| |lia]. intros i Hi. apply A'. lia.
Qed.

Lemma nth_app_at : forall (T : Type) (H l : list T) k, nth_error (H ++ l) (length H + k) = nth_error l k.
Proof. intros T H l k. rewrite nth_error_app2 by lia. f_equal. lia. Qed.

Lemma nth_app_at0 : forall (T : Type) (H0 l : list T) x, nth_error (H0 ++ x :: l) (length H0) = Some x.
Proof. intros. rewrite <- (Nat.add_0_r (length H0)). rewrite nth_app_at. reflexivity. Qed.

Lemma list_upd_length : forall (T : Type) i (f : T -> T) l, length (list_upd i f l) = length l.
Proof. intros T i f l. revert i. induction l as [|x l IH]; intros [|i]; cbn [list_upd length]; try reflexivity. rewrite IH. reflexivity. Qed.

Lemma nth_list_upd_same : forall (T : Type) i (f : T -> T) l, nth_error (list_upd i f l) i = option_map f (nth_error l i).
Proof. intros T i f l. revert i. induction l as [|x l IH]; intros [|i]; cbn [list_upd nth_error option_map]; try reflexivity. apply IH. Qed.

Lemma nth_list_upd_other : forall (T : Type) i j (f : T -> T) l, i <> j -> nth_error (list_upd i f l) j = nth_error l j.
Proof.
  intros T i j f l. revert i j. induction l as [|x l IH]; intros [|i] [|j] N; cbn [list_upd nth_error]; try reflexivity; try congruence.
  apply IH. congruence.
Qed.

Lemma list_upd_app : forall (T : Type) (H0 l : list T) k f, list_upd (length H0 + k) f (H0 ++ l) = H0 ++ list_upd k f l.
Proof. intros T H0 l k f. induction H0 as [|x H0 IH]; [reflexivity|]. cbn [length Nat.add app list_upd]. rewrite IH. reflexivity. Qed.

Lemma list_upd_app0 : forall (T : Type) (H0 l : list T) x f, list_upd (length H0) f (H0 ++ x :: l) = H0 ++ f x :: l.
Proof. intros. rewrite <- (Nat.add_0_r (length H0)). rewrite list_upd_app. reflexivity. Qed.

(* the names the maker registers while it builds a tree *)

Fixpoint unames (t : xtree) : list str :=
  match t with XNode d _ _ kids => du d :: unames_f kids end
with unames_f (ks : xforest) : list str :=
  match ks with XNil => [] | XCons k r => unames k ++ unames_f r end.

Definition names_ext (s s' : mst) (allowed : list str) : Prop :=
  exists regs, names s' = regs ++ names s /\ forall k, In k (map fst regs) -> In k allowed.

Lemma names_ext_refl : forall s l, names_ext s s l.
Proof. intros s l. exists []. split; [reflexivity|intros k []]. Qed.

Lemma names_ext_trans : forall s1 s2 s3 l1 l2 l, names_ext s1 s2 l1 -> names_ext s2 s3 l2 -> incl l1 l -> incl l2 l -> names_ext s1 s3 l.
Proof.
  intros s1 s2 s3 l1 l2 l (r1 & E1 & A1) (r2 & E2 & A2) I1 I2. exists (r2 ++ r1). split; [rewrite E2, E1, app_assoc; reflexivity|].
  intros k I. rewrite map_app in I. apply in_app_or in I as [I|I]; [apply I2, A2, I|apply I1, A1, I].
Qed.

(* the node is entered under its name before its children are built and once more afterwards *)
Lemma names_ext_node : forall s s3 s4 s' un id id' l, names s3 = (un, id) :: names s -> names_ext s3 s4 l ->
  names s' = (un, id') :: names s4 -> names_ext s s' (un :: l).
Proof.
  intros s s3 s4 s' un id id' l E3 (regs & E & Al) E'. exists ((un, id') :: regs ++ [(un, id)]).
  split; [rewrite E', E, E3; cbn [app]; rewrite <- app_assoc; reflexivity|].
  intros k I. cbn [map fst] in I. destruct I as [<-|I]; [left; reflexivity|]. rewrite map_app in I.
  apply in_app_or in I as [I|[<-|[]]]; [right; apply (Al k I)|left; reflexivity].
Qed.

Definition built (s : mst) (t : xtree) (r : nat * mst) (doc : jdoc) : Prop :=
  agree 0 (length (heap s)) (heap s) (heap (snd r))
  /\ window (heap (snd r)) (fst r) doc (length (heap s)) (length (heap (snd r)))
  /\ names_ext s (snd r) (unames t).

Lemma built_intro : forall s t id H1 nm doc, agree 0 (length (heap s)) (heap s) H1 ->
  window H1 id doc (length (heap s)) (length H1) -> names_ext s {| Pipeline.heap := H1; Pipeline.names := nm |} (unames t) ->
  built s t (id, {| Pipeline.heap := H1; Pipeline.names := nm |}) doc.
Proof. intros s t id H1 nm doc A W NE. exact (conj A (conj W NE)). Qed.

(* I: how the properties dict pid stands for the properties at the end *)
Definition grp_done (I : list dict -> dict -> list (str * jdoc) -> Prop) (L pid : nat) (s : mst) (ks : xforest)
    (s' : mst) (props : list (str * jdoc)) : Prop :=
  exists pc', nth_error (heap s') pid = Some pc' /\ I (heap s') pc' props
    /\ (forall i, (i < L)%nat -> i <> pid -> nth_error (heap s') i = nth_error (heap s) i)
    /\ (length (heap s) <= length (heap s'))%nat /\ names_ext s s' (unames_f ks).

Definition occ_done (I : list dict -> dict -> list (str * jdoc) -> Prop) (s : mst) (ks : xforest)
    (r : dict * mst) (props : list (str * jdoc)) : Prop :=
  I (heap (snd r)) (fst r) props /\ agree 0 (length (heap s)) (heap s) (heap (snd r))
  /\ (length (heap s) <= length (heap (snd r)))%nat /\ names_ext s (snd r) (unames_f ks).

(* what a node asks of its loops: from a state s0 in which the node's dict id is registered under its name (with an empty
   properties dict pid, or without properties), the loop follows kg, resp. ko *)
Definition grp_loop (d : dde) (kids : xforest) (kg : R (list (str * jdoc))) : Prop :=
  forall id pid L s0 D, (pid < L)%nat -> (id < L)%nat -> id <> pid -> (L <= length (heap s0))%nat ->
    nth_error (heap s0) pid = Some [] -> nth_error (heap s0) id = Some D -> dget k_properties D = Some (VObj pid) ->
    nlookup (du d) s0 = Some id ->
    rrel (grp_done (fun H => reifies H L) L pid s0 kids) (build_grp (du d) kids pid s0) kg.

Definition occ_loop (d : dde) (kids : xforest) (ko : R (list (str * jdoc))) : Prop :=
  forall id L s0 D, (id < L)%nat -> (L <= length (heap s0))%nat -> nth_error (heap s0) id = Some D ->
    dget k_properties D = None -> nlookup (du d) s0 = Some id ->
    rrel (occ_done (fun H => reifies H L) s0 kids) (build_occ (du d) kids [] s0) ko.

(* the document of a node from the properties its children give: doc_of and doc_r differ in kg and ko only *)
Definition node_doc (d : dde) (x : info) (kids : xforest) (kg ko : R (list (str * jdoc))) : R jdoc :=
  if eocc (de d) then
    rbind (max_items_doc x) (fun mx =>
    if epic (de d) then
      rbind (json_type_kvs x) (fun jt =>
      ROk (JObj (jstrs [(k_title, dde_name (de d)); (k_cobol, cobol_of d); (k_type, v_array)]
                 ++ [(k_items, JObj [(k_type, JStr v_object);
                                     (k_properties, JObj [(du d, JObj (jstrs ([(k_anchor, du d); (k_cobol, cobol_of d)] ++ jt)))])]);
                     mx])))
    else
      rbind ko (fun props =>
      ROk (JObj (jstrs [(k_title, dde_name (de d)); (k_cobol, cobol_of d); (k_type, v_array)]
                 ++ [(k_items, JObj [(k_type, JStr v_object); (k_properties, JObj props)]); mx; (k_anchor, JStr (du d))]))))
  else
    match kids with
    | XCons _ _ =>
        rbind kg (fun props =>
        ROk (JObj (jstrs [(k_title, dde_name (de d)); (k_anchor, du d); (k_cobol, cobol_of d); (k_type, v_object)]
                   ++ [(k_properties, JObj props)])))
    | XNil =>
        rbind (json_type_kvs x) (fun jt =>
        rbind (calcsize_text (cobol_of d)) (fun n =>
        ROk (JObj (jstrs ([(k_title, dde_name (de d)); (k_anchor, du d); (k_cobol, cobol_of d)] ++ jt)
                   ++ [(k_maxLength, JInt n); (k_minLength, JInt n)]))))
    end.

Lemma doc_of_node : forall d b x kids, doc_of (XNode d b x kids) = node_doc d x kids (docs_kids kids []) (docs_kids kids []).
Proof. reflexivity. Qed.

Lemma doc_r_node : forall d b x kids, doc_r (XNode d b x kids) = node_doc d x kids (docs_kids_r kids []) (docs_kids_o kids []).
Proof. reflexivity. Qed.

(* the maxItems entry: a number, or a reference dict put at the end of the heap H0 it leaves *)
Lemma max_items_ok : forall x s,
  rrel (fun (r : (str * val) * mst) (mx : str * jdoc) =>
            exists v H0, r = ((fst mx, v), {| Pipeline.heap := H0; Pipeline.names := names s |})
            /\ (length (heap s) <= length H0 <= length (heap s) + 1)%nat /\ agree 0 (length (heap s)) (heap s) H0
            /\ str_eqb (fst mx) k_anchor = false /\ str_eqb (fst mx) k_properties = false
            /\ forall H' f, agree (length (heap s)) (length H0) H0 H' -> rv (S f) H' (fst mx, v) = Some mx)
    (max_items x s) (max_items_doc x).
Proof.
  intros x s. unfold max_items_doc, max_items. destruct (i_dep x) as [dep|].
  - unfold alloc, rrel. eexists. eexists. split; [reflexivity|]. cbn [heap]. rewrite app_length. cbn [length].
    split; [lia|]. split; [intros i Hi; apply nth_error_app1; lia|]. split; [reflexivity|]. split; [reflexivity|].
    intros H' f A. unfold rv. cbn [snd fst]. rewrite reify_S. rewrite (A (length (heap s))) by lia.
    rewrite nth_app_at0. reflexivity.
  - destruct (i_occ x) as [ds|]; [|reflexivity].
    unfold rrel. eexists. exists (heap s). split; [destruct s; reflexivity|].
    split; [lia|]. split; [intros i _; reflexivity|]. split; [reflexivity|]. split; [reflexivity|]. intros H' f A. reflexivity.
Qed.

Lemma dset_items_1 : forall (a b c : str) w kv v,
  dset k_items v (strs [(k_title, a); (k_cobol, b); (k_type, c)] ++ [(k_items, w); kv])
  = strs [(k_title, a); (k_cobol, b); (k_type, c)] ++ [(k_items, v); kv].
Proof. reflexivity. Qed.

Lemma dset_anchor_1 : forall (a b c : str) w (k : str) kv v, str_eqb k k_anchor = false ->
  dset k_anchor v (strs [(k_title, a); (k_cobol, b); (k_type, c)] ++ [(k_items, w); (k, kv)])
  = strs [(k_title, a); (k_cobol, b); (k_type, c)] ++ [(k_items, w); (k, kv); (k_anchor, v)].
Proof. intros. cbn [strs map app dset fst snd]. cbn. rewrite H. reflexivity. Qed.

Lemma dset_items_2 : forall (a b c : str) w kv kv2 v,
  dset k_items v (strs [(k_title, a); (k_cobol, b); (k_type, c)] ++ [(k_items, w); kv; kv2])
  = strs [(k_title, a); (k_cobol, b); (k_type, c)] ++ [(k_items, v); kv; kv2].
Proof. reflexivity. Qed.

Lemma dget_props_array : forall (a b c : str) w (k : str) kv v, str_eqb k k_properties = false ->
  dget k_properties (strs [(k_title, a); (k_cobol, b); (k_type, c)] ++ [(k_items, w); (k, kv); (k_anchor, v)]) = None.
Proof. intros. cbn [strs map app dget fst snd]. cbn. rewrite H. reflexivity. Qed.

Ltac app_len := rewrite ?app_length; cbn [length].

(* a dict without references, put at the end of the heap *)
Lemma window_leaf : forall (H : list dict) c pa, (forall f H', map_opt (rv f H') c = Some pa) ->
  window (H ++ [c]) (length H) (JObj pa) (length H) (length (H ++ [c])).
Proof.
  intros H c pa M. split; [app_len; lia|]. split; [lia|].
  intros H' fuel A F. rewrite app_length in F. cbn [length] in F. destruct fuel as [|f]; [lia|].
  rewrite reify_S, (A (length H)) by (app_len; lia). rewrite nth_app_at0, M. reflexivity.
Qed.

Lemma build_elem : forall d b x kg ko s, eocc (de d) = false ->
  rrel (built s (XNode d b x XNil)) (build (XNode d b x XNil) s) (node_doc d x XNil kg ko).
Proof.
  intros d b x kg ko s Eocc. unfold node_doc. cbn [build]. rewrite Eocc.
  apply rrel_bind_same. intros jt. apply rrel_bind_same. intros n.
  unfold alloc, reg, rrel. cbn [heap names]. apply built_intro.
  - intros i Hi. apply nth_error_app1. lia.
  - apply window_leaf. intros f H'. erewrite map_opt_app; [reflexivity|apply map_opt_strs|reflexivity].
  - exists [(du d, length (heap s))]. split; [reflexivity|]. intros k [<-|[]]. left. reflexivity.
Qed.

Lemma build_array_pic : forall d b x kids kg ko s, eocc (de d) = true -> epic (de d) = true ->
  rrel (built s (XNode d b x kids)) (build (XNode d b x kids) s) (node_doc d x kids kg ko).
Proof.
  intros d b x kids kg ko s Eocc Epic. unfold node_doc. cbn [build]. rewrite Eocc, Epic. clear Eocc Epic.
  unfold alloc at 1. cbv beta iota.
  eapply rrel_bind; [apply max_items_ok|]. intros r mx (v & H0 & -> & L0 & K & _ & _ & RV). cbn [fst snd heap names] in *.
  rewrite app_length in L0, K, RV. cbn [length] in L0, K, RV.
  assert (K0 : agree 0 (length (heap s)) (heap s) H0) by (intros i Hi; rewrite K by lia; apply nth_error_app1; lia).
  clear K.
  (* the four dicts are allocated one after the other; each id is brought to the form length H0 + k at once *)
  unfold alloc at 1. cbv beta iota. cbn [heap names].
  apply rrel_bind_same. intros jt.
  unfold alloc at 1. cbv beta iota. cbn [heap names reg]. rewrite (app_length H0). cbn [length].
  unfold alloc at 1. cbv beta iota. cbn [heap names]. rewrite (app_length (H0 ++ _)), (app_length H0). cbn [length].
  unfold alloc at 1. cbv beta iota. cbn [heap names]. rewrite (app_length ((H0 ++ _) ++ _)), (app_length (H0 ++ _)), (app_length H0). cbn [length].
  unfold hupd, reg. cbn [heap names]. rewrite <- !app_assoc. cbn [app]. rewrite list_upd_app0, dset_items_1.
  match goal with |- context [H0 ++ ?a :: ?b :: _] => set (A1 := a); set (B0 := b) end.
  unfold rrel. apply built_intro.
  - intros i Hi. rewrite nth_error_app1 by lia. apply (K0 i Hi).
  - split; [app_len; lia|]. split; [lia|].
    intros H' fuel A F. rewrite app_length in F. cbn [length] in F.
    destruct fuel as [|[|[|[|f]]]]; [lia|lia|lia|lia|].
    assert (N0 : nth_error H' (length H0) = Some A1).
    { rewrite (A (length H0)) by (app_len; lia). apply nth_app_at0. }
    assert (N1 : nth_error H' (length H0 + 1) = Some B0).
    { rewrite (A (length H0 + 1)%nat) by (app_len; lia). exact (nth_app_at _ H0 _ 1). }
    assert (N2 : nth_error H' (length H0 + 1 + 1) = Some [(du d, VObj (length H0 + 1)%nat)]).
    { rewrite (A (length H0 + 1 + 1)%nat) by (app_len; lia). rewrite <- Nat.add_assoc. exact (nth_app_at _ H0 _ 2). }
    assert (N3 : nth_error H' (length H0 + 1 + 1 + 1) = Some [(k_type, VStr v_object); (k_properties, VObj (length H0 + 1 + 1)%nat)]).
    { rewrite (A (length H0 + 1 + 1 + 1)%nat) by (app_len; lia). rewrite <- !Nat.add_assoc. exact (nth_app_at _ H0 _ 3). }
    rewrite reify_S, N0. unfold A1. erewrite map_opt_app; [reflexivity|apply map_opt_strs|].
    cbn [map_opt]. rewrite (RV H' (S (S f))) by (intros i Hi; rewrite (A i) by (app_len; lia); apply nth_error_app1; lia).
    unfold rv at 1. cbn [snd fst].
    rewrite reify_S, N3. cbn [map_opt rv snd fst option_map].
    rewrite reify_S, N2. cbn [map_opt rv snd fst option_map].
    rewrite reify_S, N1. unfold B0. rewrite map_opt_strs. reflexivity.
  - exists [(du d, length H0); (du d, length H0)]. split; [reflexivity|]. intros k [<-|[<-|[]]]; left; reflexivity.
Qed.

Lemma build_group : forall d b x k r kg ko s, eocc (de d) = false ->
  grp_loop d (XCons k r) kg ->
  rrel (built s (XNode d b x (XCons k r))) (build (XNode d b x (XCons k r)) s) (node_doc d x (XCons k r) kg ko).
Proof.
  intros d b x k r kg ko s Eocc HG. unfold node_doc. cbn [build]. rewrite Eocc. clear Eocc.
  unfold alloc, reg. cbv beta iota. cbn [heap names].
  set (D := strs [(k_title, dde_name (de d)); (k_anchor, du d); (k_cobol, cobol_of d); (k_type, v_object)]
            ++ [(k_properties, VObj (length (heap s)))]).
  assert (G3 : nth_error ((heap s ++ [[]]) ++ [D]) (length (heap s) + 1) = Some D).
  { rewrite <- app_assoc. exact (nth_app_at _ (heap s) _ 1). }
  eapply rrel_bind.
  - apply (HG (length (heap s) + 1)%nat (length (heap s)) (length (heap s) + 2)%nat _ D); cbn [heap names]; try lia.
    + app_len. lia.
    + rewrite <- app_assoc. apply nth_app_at0.
    + exact G3.
    + reflexivity.
    + unfold nlookup. cbn [names lookup]. rewrite StructureP.str_eqb_refl, app_length. reflexivity.
  - clear HG. intros s' props (pc' & N' & P' & U' & Len' & NE'). cbn [heap] in *.
    rewrite !app_length in Len'. cbn [length] in Len'.
    unfold rrel, reg. apply built_intro.
    + intros i Hi. rewrite U' by lia. rewrite <- app_assoc. apply nth_error_app1. lia.
    + split; [app_len; lia|]. split; [lia|].
      intros H' fuel A F. destruct fuel as [|[|f]]; [lia|lia|]. rewrite ?app_length. cbn [length].
      assert (N1 : nth_error H' (length (heap s) + 1)%nat = Some D).
      { rewrite (A (length (heap s) + 1)%nat) by lia. rewrite U' by lia. exact G3. }
      assert (N0 : nth_error H' (length (heap s)) = Some pc').
      { rewrite (A (length (heap s))) by lia. exact N'. }
      rewrite reify_S, N1. unfold D. erewrite map_opt_app; [reflexivity|apply map_opt_strs|].
      cbn [map_opt rv snd fst]. rewrite reify_S, N0.
      rewrite (P' H' f); [reflexivity| |lia].
      intros i Hi. apply A. lia.
    + eapply names_ext_node; [|exact NE'|]; reflexivity.
Qed.

Lemma upd_snoc2 : forall (T : Type) (l : list T) a c i g x, nth_error l i = Some x ->
  length (list_upd i g ((l ++ [a]) ++ [c])) = (length l + 2)%nat
  /\ nth_error (list_upd i g ((l ++ [a]) ++ [c])) i = Some (g x)
  /\ (forall j, j <> i -> (j < length l)%nat -> nth_error (list_upd i g ((l ++ [a]) ++ [c])) j = nth_error l j)
  /\ nth_error (list_upd i g ((l ++ [a]) ++ [c])) (length l) = Some a
  /\ nth_error (list_upd i g ((l ++ [a]) ++ [c])) (length l + 1) = Some c.
Proof.
  intros T l a c i g x N. assert (Li : (i < length l)%nat) by (apply nth_error_Some; congruence).
  rewrite <- app_assoc. cbn [app]. split; [rewrite list_upd_length, app_length; cbn [length]; lia|]. split; [|split; [|split]].
  - rewrite nth_list_upd_same, nth_error_app1, N by exact Li. reflexivity.
  - intros j Ne Hj. rewrite nth_list_upd_other by congruence. apply nth_error_app1. exact Hj.
  - rewrite nth_list_upd_other by lia. apply nth_app_at0.
  - rewrite nth_list_upd_other by lia. exact (nth_app_at _ l _ 1).
Qed.

Lemma build_array_group : forall d b x kids kg ko s, eocc (de d) = true -> epic (de d) = false ->
  occ_loop d kids ko ->
  rrel (built s (XNode d b x kids)) (build (XNode d b x kids) s) (node_doc d x kids kg ko).
Proof.
  intros d b x kids kg ko s Eocc Epic HO. unfold node_doc. cbn [build]. rewrite Eocc, Epic. clear Eocc Epic.
  unfold alloc at 1. cbv beta iota.
  eapply rrel_bind; [apply max_items_ok|]. intros r [mk mv] (v & H0 & -> & L0 & K & KA & KP & RV). cbn [fst snd heap names] in *.
  rewrite app_length in L0, K, RV. cbn [length] in L0, K, RV.
  assert (K0 : agree 0 (length (heap s)) (heap s) H0) by (intros i Hi; rewrite K by lia; apply nth_error_app1; lia).
  clear K.
  unfold alloc at 1. cbv beta iota. unfold reg, hupd. cbn [heap names]. rewrite list_upd_app0, (dset_anchor_1 _ _ _ _ _ _ _ KA). clear KA.
  match goal with |- context [H0 ++ [?a]] => set (A1 := a) end.
  eapply rrel_bind.
  - apply (HO (length H0) (length H0 + 1)%nat _ A1); cbn [heap names].
    + lia.
    + app_len. lia.
    + apply nth_app_at0.
    + apply dget_props_array. exact KP.
    + unfold nlookup. cbn [names lookup]. rewrite StructureP.str_eqb_refl. reflexivity.
  - clear HO KP. intros [acc' s5] props (P' & A' & Len' & NE'). cbn [fst snd heap] in *.
    unfold alloc, hupd, reg, rrel. cbn [heap names].
    rewrite app_length in Len', A'. cbn [length] in Len', A'.
    assert (N5 : nth_error (heap s5) (length H0) = Some A1).
    { rewrite A' by lia. apply nth_app_at0. }
    destruct (upd_snoc2 _ (heap s5) acc' [(k_type, VStr v_object); (k_properties, VObj (length (heap s5)))]
                (length H0) (dset k_items (VObj (length (heap s5 ++ [acc'])))) A1 N5) as (LF & NF0 & NFo & NFp & NFc). clear N5.
    match goal with |- built _ _ (_, {| Pipeline.heap := ?h; Pipeline.names := _ |}) _ => set (Hf := h) in * end.
    assert (K5 : agree 0 (length (heap s)) (heap s) (heap s5)).
    { intros i Hi. rewrite A', nth_error_app1 by lia. apply (K0 i Hi). }
    clear K0.
    apply built_intro.
    + intros i Hi. rewrite NFo by lia. apply (K5 i Hi).
    + clear K5 NE'. split; [lia|]. split; [lia|].
      intros H' fuel A F. rewrite LF in F. destruct fuel as [|[|[|f]]]; [lia|lia|lia|].
      rewrite LF in A.
      rewrite reify_S, (A (length H0)) by lia. rewrite NF0. unfold A1. rewrite dset_items_2.
      erewrite map_opt_app; [reflexivity|apply map_opt_strs|].
      cbn [map_opt]. rewrite (RV H' (S f)).
      2:{ intros i Hi. rewrite (A i) by lia. rewrite NFo by lia. rewrite A' by lia. apply nth_error_app1. lia. }
      unfold rv at 1. cbn [snd fst].
      rewrite app_length. cbn [length].
      rewrite reify_S, (A (length (heap s5) + 1)%nat) by lia. rewrite NFc. cbn [map_opt rv snd fst option_map].
      rewrite reify_S, (A (length (heap s5))) by lia. rewrite NFp.
      rewrite (P' H' f); [reflexivity| |lia].
      intros i Hi. rewrite (A i) by lia. apply NFo; lia.
    + eapply names_ext_node; [|exact NE'|]; reflexivity.
Qed.

(* whatever its two loops over the children give: build wraps it as the document of the node is wrapped *)
Lemma build_node : forall d b x kids kg ko s,
  grp_loop d kids kg ->
  occ_loop d kids ko ->
  rrel (built s (XNode d b x kids)) (build (XNode d b x kids) s) (node_doc d x kids kg ko).
Proof.
  intros d b x kids kg ko s HG HO.
  destruct (eocc (de d)) eqn:Eocc; [destruct (epic (de d)) eqn:Epic|destruct kids as [|k r]].
  - apply build_array_pic; assumption.
  - apply build_array_group; assumption.
  - apply build_elem. exact Eocc.
  - apply build_group; assumption.
Qed.

(* one more child in either loop: the child is built (s to s1), then entered *)

Lemma hupd_facts : forall (s s1 : mst) pid L pc f, agree 0 (length (heap s)) (heap s) (heap s1) ->
  (length (heap s) <= length (heap s1))%nat -> (pid < L)%nat -> (L <= length (heap s))%nat -> nth_error (heap s) pid = Some pc ->
  (L <= length (heap (hupd pid f s1)))%nat /\ nth_error (heap (hupd pid f s1)) pid = Some (f pc)
  /\ agree L (length (heap s1)) (heap s1) (heap (hupd pid f s1)).
Proof.
  intros s s1 pid L pc f A Len Hp HL Np. unfold hupd. cbn [heap]. split; [rewrite list_upd_length; lia|]. split.
  - rewrite nth_list_upd_same, (A pid), Np by lia. reflexivity.
  - intros i Hi. apply nth_list_upd_other. lia.
Qed.

Lemma grp_done_step : forall I L pid (s s1 : mst) f k r s' props, (pid < L)%nat -> (L <= length (heap s))%nat ->
  agree 0 (length (heap s)) (heap s) (heap s1) -> (length (heap s) <= length (heap s1))%nat -> names_ext s s1 (unames k) ->
  grp_done I L pid (hupd pid f s1) r s' props -> grp_done I L pid s (XCons k r) s' props.
Proof.
  intros I L pid s s1 f k r s' props Hp HL A Len NE1 (pc' & N' & P' & U' & Len' & NE'). exists pc'. split; [exact N'|]. split; [exact P'|].
  unfold hupd in *. cbn [heap] in *. rewrite list_upd_length in Len'. split; [|split; [lia|]].
  - intros i Hi Ne. rewrite (U' i Hi Ne), nth_list_upd_other by congruence. apply A. lia.
  - apply (names_ext_trans s s1 s' (unames k) (unames_f r)); [exact NE1|exact NE'|apply incl_appl, incl_refl|apply incl_appr, incl_refl].
Qed.

Lemma occ_done_step : forall I (s s1 : mst) k r res props, agree 0 (length (heap s)) (heap s) (heap s1) ->
  (length (heap s) <= length (heap s1))%nat -> names_ext s s1 (unames k) ->
  occ_done I s1 r res props -> occ_done I s (XCons k r) res props.
Proof.
  intros I s s1 k r [acc' s'] props A Len NE1. unfold occ_done. cbn [fst snd]. intros (P' & A' & Len' & NE').
  split; [exact P'|]. split; [|split; [lia|]].
  - intros i Hi. rewrite (A' i) by lia. apply A. lia.
  - apply (names_ext_trans s s1 s' (unames k) (unames_f r)); [exact NE1|exact NE'|apply incl_appl, incl_refl|apply incl_appr, incl_refl].
Qed.

Lemma build_tree_rrel : forall t d,
  rrel (built {| Pipeline.heap := []; Pipeline.names := [] |} t) (build t {| Pipeline.heap := []; Pipeline.names := [] |}) d ->
  build_tree t = d.
Proof.
  intros t d T. unfold build_tree. destruct (build t _) as [[id s']|e|w], d as [doc|e'|w']; try contradiction; cbn [rrel rbind] in *;
    [|subst; reflexivity|subst; reflexivity].
  destruct T as (_ & (_ & _ & W) & _). cbn [fst snd] in *.
  rewrite (W (heap s') (S (length (heap s')))); [reflexivity| |cbn [heap length]; lia].
  intros i _. reflexivity.
Qed.

(* without REDEFINES, by mutual induction over trees and forests: the documents of the children built so far are
        entered in the properties dict (group: cell pid of the heap; OCCURS group: acc) *)
Definition Pt (t : xtree) : Prop := noredef t = true -> forall s, rrel (built s t) (build t s) (doc_of t).

Definition Qgrp (ks : xforest) : Prop := noredef_f ks = true -> forall un pid L s pc pa,
  (pid < L)%nat -> (L <= length (heap s))%nat -> nth_error (heap s) pid = Some pc -> reifies (heap s) L pc pa ->
  rrel (grp_done (fun H => reifies H L) L pid s ks) (build_grp un ks pid s) (docs_kids ks pa).

Definition Qocc (ks : xforest) : Prop := noredef_f ks = true -> forall un L s acc pa,
  (L <= length (heap s))%nat -> reifies (heap s) L acc pa ->
  rrel (occ_done (fun H => reifies H L) s ks) (build_occ un ks acc s) (docs_kids ks pa).

Lemma noredef_xeff : forall k, noredef k = true -> xeff_redef k = None.
Proof.
  intros [d b x kids] H. cbn [noredef] in H. apply andb_true_iff in H as [H _]. apply andb_true_iff in H as [Hb Hr].
  unfold xeff_redef. destruct b; [discriminate|]. destruct (eredef (de d)); [discriminate|reflexivity].
Qed.

Lemma noredef_wrap : forall un k s, noredef k = true -> child_wrap un k (build k) s = build k s.
Proof. intros un k s H. unfold child_wrap. rewrite (noredef_xeff k H). reflexivity. Qed.

Lemma Qgrp_step : forall k r, Pt k -> Qgrp r -> Qgrp (XCons k r).
Proof.
  intros k r IHk IHr NR un pid L s pc pa Hpid HL Hnth HP.
  cbn [noredef_f] in NR. apply andb_true_iff in NR as [NRk NRr].
  cbn [docs_kids build_grp]. rewrite (noredef_wrap un k s NRk).
  eapply rrel_bind; [apply (IHk NRk s)|]. clear IHk NRk. intros [cid s1] dk (A & W & NE1). cbn [fst snd] in *.
  assert (Len1 : (length (heap s) <= length (heap s1))%nat) by (destruct W as (W1 & W2 & _); lia).
  destruct (hupd_facts s s1 pid L pc (dset (du (xdde k)) (VObj cid)) A Len1 Hpid HL Hnth) as (G1 & G2 & O2).
  eapply rrel_impl; [intros s' props; apply (grp_done_step _ _ _ s s1); assumption|].
  apply (IHr NRr un pid L _ _ (jset (du (xdde k)) dk pa) Hpid G1 G2).
  apply (reifies_dset (heap s) _ _ _ _ _ _ _ (length (heap s)) (length (heap s1))); [exact HP| |exact HL| |unfold hupd; cbn [heap]; rewrite list_upd_length; exact Len1].
  - apply (window_mono (heap s1)); [exact W| |unfold hupd; cbn [heap]; rewrite list_upd_length; apply Nat.le_refl]. intros i Hi. apply O2. lia.
  - intros i Hi. rewrite O2 by lia. apply A. lia.
Qed.

Lemma Qocc_step : forall k r, Pt k -> Qocc r -> Qocc (XCons k r).
Proof.
  intros k r IHk IHr NR un L s acc pa HL HP.
  cbn [noredef_f] in NR. apply andb_true_iff in NR as [NRk NRr].
  cbn [docs_kids build_occ]. rewrite (noredef_wrap un k s NRk).
  eapply rrel_bind; [apply (IHk NRk s)|]. clear IHk NRk. intros [cid s1] dk (A & W & NE1). cbn [fst snd] in *.
  assert (Len1 : (length (heap s) <= length (heap s1))%nat) by (destruct W as (W1 & W2 & _); lia).
  eapply rrel_impl; [intros res props; apply (occ_done_step _ s s1); assumption|].
  apply (IHr NRr un L s1 _ (jset (du (xdde k)) dk pa)); [lia|].
  apply (reifies_dset (heap s) _ _ _ _ _ _ _ (length (heap s)) (length (heap s1))); [exact HP|exact W|exact HL| |exact Len1].
  intros i Hi. apply A. lia.
Qed.

Lemma Q_nil : Qgrp XNil /\ Qocc XNil.
Proof.
  split.
  - intros _ un pid L s pc pa Hpid HL Hnth HP. exists pc.
    split; [exact Hnth|]. split; [exact HP|]. split; [intros i _ _; reflexivity|]. split; [lia|apply names_ext_refl].
  - intros _ un L s acc pa HL HP. unfold rrel, occ_done. cbn [docs_kids build_occ fst snd].
    split; [exact HP|]. split; [intros i _; reflexivity|]. split; [lia|apply names_ext_refl].
Qed.

Theorem build_noredef_all : (forall t, Pt t) /\ (forall ks, Qgrp ks /\ Qocc ks).
Proof.
  apply xtree_xforest_ind.
  - intros d b x kids [IHg IHo] NR s. cbn [noredef] in NR. apply andb_true_iff in NR as [_ NRk].
    rewrite doc_of_node. apply build_node.
    + intros id pid L s0 D Hp _ _ HL Np _ _ _. apply (IHg NRk (du d) pid L s0 [] [] Hp HL Np). apply reifies_nil.
    + intros id L s0 D _ HL _ _ _. apply (IHo NRk (du d) L s0 [] [] HL). apply reifies_nil.
  - apply Q_nil.
  - intros k IHk r [IHg IHo]. split; [apply Qgrp_step|apply Qocc_step]; assumption.
Qed.

Theorem build_tree_noredef : forall t, noredef t = true -> build_tree t = doc_of t.
Proof. intros t NR. apply build_tree_rrel. apply (proj1 build_noredef_all t NR). Qed.

Theorem build_all_noredef : forall f, forallb noredef f = true -> build_all f = docs_of f.
Proof.
  induction f as [|t f IH]; intros H; [reflexivity|]. cbn [forallb] in H. apply andb_true_iff in H as [Ht Hf].
  cbn [build_all docs_of]. rewrite (build_tree_noredef t Ht), (IH Hf). reflexivity.
Qed.

Module Redef.

Definition redkey (k : str) : bool := is_pre REDEFINES_dash k.

(* The invariant of the children loop with REDEFINES.  The union of a redefined item x is ONE heap dict, entered under the key
   REDEFINES-x (redkey), whose oneOf list grows in place whenever a later sibling redefines x: while the loop runs its content
   is not final.  loose lists the heap cells of these dicts.
     clear_of loose b e       no loose cell lies in b .. e-1: a window there is final
     ER H L loose (k, v) (k, d)   the entry v of the properties dict stands for the entry d of the pure properties: a child is
                              a window at or above L that is clear of loose; a union is a loose cell holding oneOf and $anchor
                              whose alternatives are such windows (alt_rel)
     PR2 H L loose pc pa      entry by entry ER, the keys of pc differ, the loose cells lie between L and the end of the heap:
                              pc stands for pa up to the oneOf dicts in loose *)
Definition clear_of (loose : list nat) (b e : nat) : Prop := Forall (fun o => (o < b \/ e <= o)%nat) loose.

Inductive ER (H : list dict) (L : nat) (loose : list nat) : str * val -> str * jdoc -> Prop :=
| er_child : forall k cid d b e, redkey k = false -> (L <= b)%nat -> window H cid d b e -> clear_of loose b e ->
    ER H L loose (k, VObj cid) (k, d)
| er_oneof : forall k oid ids docs, redkey k = true -> (L <= oid)%nat -> In oid loose ->
    nth_error H oid = Some [(k_oneOf, VArr ids); (k_anchor, VStr k)] ->
    Forall2 (fun id d => exists b e, (L <= b)%nat /\ window H id d b e /\ clear_of loose b e) ids docs ->
    ER H L loose (k, VObj oid) (k, JObj [(k_oneOf, JArr docs); (k_anchor, JStr k)]).

Definition PR2 (H : list dict) (L : nat) (loose : list nat) (pc : dict) (pa : list (str * jdoc)) : Prop :=
  Forall2 (ER H L loose) pc pa /\ NoDup (map fst pc) /\ Forall (fun o => (L <= o < length H)%nat) loose.

Lemma ER_key : forall H L loose x y, ER H L loose x y -> fst x = fst y.
Proof. intros H L loose x y E. destruct E; reflexivity. Qed.

(* the condition of er_oneof on one alternative of a union *)
Definition alt_rel (H : list dict) (L : nat) (loose : list nat) (id : nat) (d : jdoc) : Prop :=
  exists b e, (L <= b)%nat /\ window H id d b e /\ clear_of loose b e.

(* ER carries over to a heap and a loose set that keep the windows with their clearance, and the oneOf cell *)
Lemma ER_transport : forall H H1 L loose loose1 x y,
  (forall id d, alt_rel H L loose id d -> alt_rel H1 L loose1 id d) ->
  (forall oid ids, In oid loose -> nth_error H oid = Some [(k_oneOf, VArr ids); (k_anchor, VStr (fst x))] ->
     In oid loose1 /\ nth_error H1 oid = Some [(k_oneOf, VArr ids); (k_anchor, VStr (fst x))]) ->
  ER H L loose x y -> ER H1 L loose1 x y.
Proof.
  intros H H1 L loose loose1 x y T C E. destruct E as [k cid d b e K Lb W Cl|k oid ids docs K Lo I N F].
  - destruct (T cid d) as (b1 & e1 & Lb1 & W1 & C1); [exists b, e; split; [exact Lb|split; [exact W|exact Cl]]|].
    apply (er_child _ _ _ _ _ _ b1 e1); assumption.
  - destruct (C oid ids I N) as [I1 N1]. apply (er_oneof _ _ _ _ oid ids docs); try assumption. apply (ListFactsP.Forall2_weaken _ _ T _ _ F).
Qed.

(* the heap changes only outside the windows and the loose cells (or grows) *)
Lemma alt_mono : forall H H1 L loose id d, (forall i, (L <= i < length H)%nat -> nth_error H1 i = nth_error H i) ->
  (length H <= length H1)%nat -> alt_rel H L loose id d -> alt_rel H1 L loose id d.
Proof.
  intros H H1 L loose id d A Len (b & e & Lb & W & C). exists b, e. split; [exact Lb|]. split; [|exact C].
  apply (window_mono H); [exact W| |exact Len]. intros i Hi. apply A. destruct W as (_ & He & _). lia.
Qed.

Lemma ER_mono : forall H H1 L loose x y, ER H L loose x y ->
  (forall i, (L <= i < length H)%nat -> nth_error H1 i = nth_error H i) -> (length H <= length H1)%nat ->
  Forall (fun o => (L <= o < length H)%nat) loose -> ER H1 L loose x y.
Proof.
  intros H H1 L loose x y E A Len LO. apply (ER_transport H H1 L loose loose x y); [intros id d; apply alt_mono; assumption| |exact E].
  intros oid ids I N. split; [exact I|]. rewrite A; [exact N|]. rewrite Forall_forall in LO. apply (LO oid I).
Qed.

Lemma PR2_mono : forall H H1 L loose pc pa, PR2 H L loose pc pa ->
  (forall i, (L <= i < length H)%nat -> nth_error H1 i = nth_error H i) -> (length H <= length H1)%nat -> PR2 H1 L loose pc pa.
Proof.
  intros H H1 L loose pc pa (F & ND & LO) A Len. split; [|split; [exact ND|]].
  - induction F as [|x y pc pa E F IH]; constructor; [apply (ER_mono H); assumption|]. apply IH. inversion ND; assumption.
  - rewrite Forall_forall in *. intros o Ho. specialize (LO o Ho). lia.
Qed.

Lemma dset_keys_fresh : forall k v (pc : dict), ~ In k (map fst pc) -> dset k v pc = pc ++ [(k, v)].
Proof.
  intros k v. induction pc as [|[k1 v1] pc IH]; intros N; [reflexivity|]. apply notin_keys_cons in N as [E N].
  cbn [dset app]. rewrite E, (IH N). reflexivity.
Qed.

Lemma dset_keys : forall k v (pc : dict), map fst (dset k v pc) = if existsb (str_eqb k) (map fst pc) then map fst pc else map fst pc ++ [k].
Proof.
  intros k v. induction pc as [|[k1 v1] pc IH]; [reflexivity|]. cbn [dset map fst existsb].
  destruct (str_eqb k1 k) eqn:E.
  - apply StructureP.str_eqb_eq in E. subst k1. rewrite StructureP.str_eqb_refl. reflexivity.
  - cbn [map fst]. rewrite IH, (str_eqb_neq k k1) by (intros ->; rewrite StructureP.str_eqb_refl in E; discriminate).
    cbn [orb]. destruct (existsb (str_eqb k) (map fst pc)); reflexivity.
Qed.

Lemma existsb_str_In : forall k l, existsb (str_eqb k) l = true <-> In k l.
Proof.
  intros k l. rewrite existsb_exists. split.
  - intros (x & I & E). apply StructureP.str_eqb_eq in E. subst. exact I.
  - intros I. exists k. split; [exact I|apply StructureP.str_eqb_refl].
Qed.

Lemma dset_nodup : forall k v (pc : dict), NoDup (map fst pc) -> NoDup (map fst (dset k v pc)).
Proof.
  intros k v pc ND. rewrite dset_keys. destruct (existsb (str_eqb k) (map fst pc)) eqn:E; [exact ND|].
  apply NoDup_snoc; [exact ND|]. intros I. apply existsb_str_In in I. congruence.
Qed.

Lemma F2_ER_dset : forall H L loose pc pa k cid doc b e, Forall2 (ER H L loose) pc pa ->
  redkey k = false -> (L <= b)%nat -> window H cid doc b e -> clear_of loose b e ->
  Forall2 (ER H L loose) (dset k (VObj cid) pc) (jset k doc pa).
Proof.
  intros H L loose pc pa k cid doc b e F K Lb W C.
  induction F as [|[k1 v1] [k2 d2] pc pa E F IH]; cbn [dset jset].
  - constructor; [apply (er_child _ _ _ _ _ _ b e); assumption|constructor].
  - pose proof (ER_key _ _ _ _ _ E) as EK. cbn [fst] in EK. subst k2. destruct (str_eqb k1 k) eqn:Q.
    + apply StructureP.str_eqb_eq in Q. subst k1. constructor; [apply (er_child _ _ _ _ _ _ b e); assumption|exact F].
    + constructor; [exact E|exact IH].
Qed.

Lemma PR2_dset_child : forall H L loose pc pa k cid doc b e, PR2 H L loose pc pa ->
  redkey k = false -> (L <= b)%nat -> window H cid doc b e -> clear_of loose b e ->
  PR2 H L loose (dset k (VObj cid) pc) (jset k doc pa).
Proof.
  intros H L loose pc pa k cid doc b e (F & ND & LO) K Lb W C. split; [apply (F2_ER_dset _ _ _ _ _ _ _ _ b e); assumption|].
  split; [apply dset_nodup; exact ND|exact LO].
Qed.

Lemma clear_cons : forall o loose b e, (e <= o)%nat -> clear_of loose b e -> clear_of (o :: loose) b e.
Proof. intros. constructor; [right; assumption|assumption]. Qed.

Lemma alt_add_loose : forall H L loose id d cell, alt_rel H L loose id d -> alt_rel (H ++ [cell]) L (length H :: loose) id d.
Proof.
  intros H L loose id d cell (b & e & Lb & W & C). exists b, e. split; [exact Lb|]. pose proof W as (_ & He & _). split.
  - apply (window_mono H); [exact W| |rewrite app_length; lia]. intros i Hi. apply nth_error_app1. lia.
  - apply clear_cons; assumption.
Qed.

Lemma ER_add_loose : forall H L loose x y cell, ER H L loose x y -> Forall (fun o => (L <= o < length H)%nat) loose ->
  ER (H ++ [cell]) L (length H :: loose) x y.
Proof.
  intros H L loose x y cell E LO. apply (ER_transport H _ L loose _ x y); [intros id d; apply alt_add_loose| |exact E].
  intros oid ids I N. split; [right; exact I|]. rewrite nth_error_app1; [exact N|]. rewrite Forall_forall in LO. apply (LO oid I).
Qed.

Lemma PR2_new_oneof : forall H L loose pc pa key, PR2 H L loose pc pa -> ~ In key (map fst pc) -> redkey key = true -> (L <= length H)%nat ->
  PR2 (H ++ [[(k_oneOf, VArr []); (k_anchor, VStr key)]]) L (length H :: loose) (pc ++ [(key, VObj (length H))]) (pa ++ [(key, oneof_new key)]).
Proof.
  intros H L loose pc pa key (F & ND & LO) NI K LH. split; [|split].
  - apply Forall2_app.
    + clear ND NI. induction F as [|x y pc pa E F IH]; constructor; [apply ER_add_loose; assumption|exact IH].
    + constructor; [|constructor]. unfold oneof_new. apply (er_oneof _ _ _ _ (length H) [] []); try assumption.
      * left. reflexivity.
      * apply nth_app_at0.
      * constructor.
  - rewrite map_app. apply NoDup_snoc; assumption.
  - constructor; [rewrite app_length; cbn [length]; lia|]. rewrite Forall_forall in *. intros o Ho. specialize (LO o Ho). rewrite app_length. lia.
Qed.

Lemma clear_In : forall loose b e o, clear_of loose b e -> In o loose -> (o < b \/ e <= o)%nat.
Proof. intros loose b e o C I. unfold clear_of in C. rewrite Forall_forall in C. apply (C o I). Qed.

Lemma window_upd : forall H id d b e o f, window H id d b e -> (o < b \/ e <= o)%nat ->
  window (list_upd o f H) id d b e.
Proof.
  intros H id d b e o f W O. apply (window_mono H); [exact W| |rewrite list_upd_length; lia].
  intros i Hi. apply nth_list_upd_other. lia.
Qed.

Lemma alt_upd : forall H L loose id d o f, In o loose -> alt_rel H L loose id d -> alt_rel (list_upd o f H) L loose id d.
Proof.
  intros H L loose id d o f I (b & e & Lb & W & C). exists b, e. split; [exact Lb|]. split; [|exact C].
  apply window_upd; [exact W|apply (clear_In _ _ _ _ C I)].
Qed.

Lemma ER_upd : forall H L loose x y o f ids0 key, ER H L loose x y -> In o loose ->
  nth_error H o = Some [(k_oneOf, VArr ids0); (k_anchor, VStr key)] -> fst x <> key ->
  ER (list_upd o f H) L loose x y.
Proof.
  intros H L loose x y o f ids0 key E I N NE. apply (ER_transport H _ L loose loose x y); [intros id d; apply alt_upd; exact I| |exact E].
  intros oid ids Io No. split; [exact Io|]. rewrite nth_list_upd_other; [exact No|]. intros Q. subst oid. rewrite N in No. congruence.
Qed.

Lemma F2_ER_upd : forall H L loose pc pa o f ids0 key, Forall2 (ER H L loose) pc pa -> In o loose ->
  nth_error H o = Some [(k_oneOf, VArr ids0); (k_anchor, VStr key)] -> ~ In key (map fst pc) ->
  Forall2 (ER (list_upd o f H) L loose) pc pa.
Proof.
  intros H L loose pc pa o f ids0 key F I N NI. induction F as [|x y pc pa E F IH]; constructor.
  - apply (ER_upd _ _ _ _ _ _ _ ids0 key); try assumption. intros Q. apply NI. left. exact Q.
  - apply IH. intros Q. apply NI. right. exact Q.
Qed.

Lemma locate : forall H L loose key v pc pa, Forall2 (ER H L loose) pc pa -> dget key pc = Some v ->
  exists c1 c2 a1 a2 d, pc = c1 ++ (key, v) :: c2 /\ pa = a1 ++ (key, d) :: a2 /\ Forall2 (ER H L loose) c1 a1
    /\ ER H L loose (key, v) (key, d) /\ Forall2 (ER H L loose) c2 a2 /\ ~ In key (map fst a1) /\ ~ In key (map fst c1).
Proof.
  intros H L loose key v pc pa F. induction F as [|[k1 v1] [k2 d2] pc pa E F IH]; intros G; cbn [dget] in G; [discriminate|].
  pose proof (ER_key _ _ _ _ _ E) as EK. cbn [fst] in EK. subst k2. destruct (str_eqb k1 key) eqn:Q.
  - apply StructureP.str_eqb_eq in Q. subst k1. injection G as ->. exists [], pc, [], pa, d2. repeat split; try assumption; try constructor; intros [].
  - destruct (IH G) as (c1 & c2 & a1 & a2 & d & P1 & P2 & F1 & E0 & F2 & N1 & N2).
    exists ((k1, v1) :: c1), c2, ((k1, d2) :: a1), a2, d. subst pc pa. repeat split; try assumption.
    + constructor; assumption.
    + cbn [map fst]. intros [I|I]; [subst; rewrite StructureP.str_eqb_refl in Q; discriminate|exact (N1 I)].
    + cbn [map fst]. intros [I|I]; [subst; rewrite StructureP.str_eqb_refl in Q; discriminate|exact (N2 I)].
Qed.

Lemma jfind_mid : forall key d (a1 a2 : list (str * jdoc)), ~ In key (map fst a1) -> jfind key (a1 ++ (key, d) :: a2) = Some d.
Proof.
  intros key d. induction a1 as [|[k v] a1 IH]; intros a2 N; cbn [app jfind]; [rewrite StructureP.str_eqb_refl; reflexivity|].
  apply notin_keys_cons in N as [E N]. rewrite E. apply (IH _ N).
Qed.

Lemma jset_mid : forall key d d' (a1 a2 : list (str * jdoc)), ~ In key (map fst a1) ->
  jset key d' (a1 ++ (key, d) :: a2) = a1 ++ (key, d') :: a2.
Proof.
  intros key d d'. induction a1 as [|[k v] a1 IH]; intros a2 N; cbn [app jset]; [rewrite StructureP.str_eqb_refl; reflexivity|].
  apply notin_keys_cons in N as [E N]. rewrite E, (IH _ N). reflexivity.
Qed.

Lemma PR2_add_alt : forall H L loose pc pa key oid cid dk b e,
  PR2 H L loose pc pa -> dget key pc = Some (VObj oid) -> redkey key = true ->
  window H cid dk b e -> (L <= b)%nat -> clear_of loose b e ->
  exists ids pa', nth_error H oid = Some [(k_oneOf, VArr ids); (k_anchor, VStr key)] /\ oneof_add key dk pa = ROk pa'
    /\ PR2 (list_upd oid (dset k_oneOf (VArr (ids ++ [cid]))) H) L loose pc pa'.
Proof.
  intros H L loose pc pa key oid cid dk b e (F & ND & LO) G K W Lb C.
  destruct (locate _ _ _ _ _ _ _ F G) as (c1 & c2 & a1 & a2 & d & P1 & P2 & F1 & E0 & F2 & N1 & N2). subst pc pa.
  inversion E0 as [k cid0 d0 b0 e0 K0 _ _ _|k oid0 ids docs K0 Lo Io No Fa]; subst; [congruence|].
  fold (alt_rel H L loose) in Fa.
  exists ids. eexists. split; [exact No|]. split.
  - unfold oneof_add. rewrite (jfind_mid _ _ _ _ N1). cbn [jfind]. change (str_eqb k_oneOf k_oneOf) with true. cbv iota.
    rewrite (jset_mid _ _ _ _ _ N1). cbn [jset]. change (str_eqb k_oneOf k_oneOf) with true. cbv iota. reflexivity.
  - assert (NK2 : ~ In key (map fst c2)).
    { rewrite map_app in ND. cbn [map fst] in ND. apply NoDup_remove_2 in ND. intros I. apply ND. apply in_or_app. right. exact I. }
    split; [|split; [exact ND|]].
    + apply Forall2_app; [apply (F2_ER_upd _ _ _ _ _ _ _ ids key); assumption|]. constructor.
      * apply (er_oneof _ _ _ _ oid (ids ++ [cid]) (docs ++ [dk])); try assumption.
        -- rewrite nth_list_upd_same, No. cbn [option_map dset]. change (str_eqb k_oneOf k_oneOf) with true. cbv iota. reflexivity.
        -- fold (alt_rel (list_upd oid (dset k_oneOf (VArr (ids ++ [cid]))) H) L loose). apply Forall2_app; [apply (ListFactsP.Forall2_weaken _ _ (fun id d => alt_upd _ _ _ id d _ _ Io) _ _ Fa)|].
           constructor; [|constructor]. exists b, e. split; [exact Lb|]. split; [|exact C]. apply window_upd; [exact W|apply (clear_In _ _ _ _ C Io)].
      * apply (F2_ER_upd _ _ _ _ _ _ _ ids key); assumption.
    + rewrite list_upd_length. exact LO.
Qed.

Lemma PR2_reify : forall H L loose pc pa, PR2 H L loose pc pa -> reifies H L pc pa.
Proof.
  intros H L loose pc pa (F & _ & LO) H' f A Fu.
  apply (map_opt_F2 _ _ _ _ pc pa) with (2 := F).
  intros x y E. destruct E as [k cid d b e K Lb (Hb & He & W) C|k oid ids docs K Lo I N Fa].
  - unfold rv. cbn [snd fst]. rewrite (W H' f); [reflexivity| |lia]. intros i Hi. apply A. lia.
  - rewrite Forall_forall in LO. pose proof (LO oid I) as Ro. unfold rv. cbn [snd fst].
    destruct f as [|f']; [lia|]. rewrite reify_S, (A oid) by lia. rewrite N. cbn [map_opt rv snd fst].
    assert (M : map_opt (reify f' H') ids = Some docs).
    { apply (map_opt_F2 _ _ _ _ ids docs) with (2 := Fa). intros id d (b & e & Lb & (Hb & He & W) & C).
      apply W; [intros i Hi; apply A; lia|]. pose proof (clear_In _ _ _ _ C I) as O. lia. }
    rewrite M. reflexivity.
Qed.

Lemma PR2_dget_jfind : forall H L loose pc pa key, Forall2 (ER H L loose) pc pa ->
  (dget key pc = None <-> jfind key pa = None).
Proof.
  intros H L loose pc pa key F. induction F as [|[k1 v1] [k2 d2] pc pa E F IH]; cbn [dget jfind]; [tauto|].
  pose proof (ER_key _ _ _ _ _ E) as EK. cbn [fst] in EK. subst k2. destruct (str_eqb k1 key); [split; discriminate|exact IH].
Qed.

Lemma dget_None_notin : forall key (pc : dict), dget key pc = None -> ~ In key (map fst pc).
Proof.
  intros key. induction pc as [|[k v] pc IH]; intros G; cbn [dget map fst] in *; [intros []|].
  destruct (str_eqb k key) eqn:Q; [discriminate|]. intros [I|I]; [subst; rewrite StructureP.str_eqb_refl in Q; discriminate|exact (IH G I)].
Qed.

Lemma lookup_skip : forall un (regs nm : list (str * nat)), ~ In un (map fst regs) -> lookup un (regs ++ nm) = lookup un nm.
Proof.
  intros un. induction regs as [|[k v] regs IH]; intros nm N; [reflexivity|]. apply notin_keys_cons in N as [E N].
  cbn [app lookup]. rewrite E. apply (IH _ N).
Qed.

Lemma nlookup_ext : forall s s' l un, names_ext s s' l -> ~ In un l -> nlookup un s' = nlookup un s.
Proof.
  intros s s' l un (regs & E & A) N. unfold nlookup. rewrite E. apply lookup_skip. intros I. apply N, A, I.
Qed.

Lemma names_wf_notin : (forall t anc, names_wf anc t = true -> forall a, In a anc -> ~ In a (unames t))
  /\ (forall ks anc, names_wf_f anc ks = true -> forall a, In a anc -> ~ In a (unames_f ks)).
Proof.
  apply xtree_xforest_ind.
  - intros d b x kids IH anc W a Ia. cbn [names_wf] in W. apply andb_true_iff in W as [W Wk]. apply andb_true_iff in W as [Wa _].
    apply negb_true_iff in Wa. cbn [unames]. intros [I|I].
    + subst a. assert (T : existsb (str_eqb (du d)) anc = true) by (apply existsb_str_In; exact Ia). congruence.
    + apply (IH _ Wk a); [right; exact Ia|exact I].
  - intros anc _ a _ [].
  - intros k IHk r IHr anc W a Ia. cbn [names_wf_f] in W. apply andb_true_iff in W as [Wk Wr]. cbn [unames_f]. intros I.
    apply in_app_or in I as [I|I]; [exact (IHk _ Wk a Ia I)|exact (IHr _ Wr a Ia I)].
Qed.

Lemma names_wf_redkey : forall anc k, names_wf anc k = true -> redkey (du (xdde k)) = false.
Proof. intros anc [d b x kids] W. cbn [names_wf] in W. apply andb_true_iff in W as [W _]. apply andb_true_iff in W as [_ W]. apply negb_true_iff in W. exact W. Qed.

Lemma hget_nth : forall id s d, nth_error (heap s) id = Some d -> hget id s = d.
Proof. intros id s d H. unfold hget. apply nth_error_nth. exact H. Qed.

Lemma redkey_redef : forall tgt, redkey (redef_key tgt) = true.
Proof. intros tgt. unfold redkey, redef_key. induction REDEFINES_dash as [|c l IH]; [reflexivity|]. cbn [app is_pre]. rewrite N.eqb_refl. exact IH. Qed.

Lemma dget_obj : forall H L loose pc pa key v, Forall2 (ER H L loose) pc pa -> dget key pc = Some v -> exists i, v = VObj i.
Proof.
  intros H L loose pc pa key v F G. destruct (locate _ _ _ _ _ _ _ F G) as (c1 & c2 & a1 & a2 & d & _ & _ & _ & E & _).
  inversion E; subst; eexists; reflexivity.
Qed.

Lemma redef_pre_ok : forall un tgt s id pid L pc pa loose D,
  (pid < L)%nat -> (id < L)%nat -> id <> pid -> (L <= length (heap s))%nat ->
  nth_error (heap s) pid = Some pc -> nth_error (heap s) id = Some D -> dget k_properties D = Some (VObj pid) ->
  nlookup un s = Some id -> PR2 (heap s) L loose pc pa ->
  exists s1 pc1 loose1 oid,
    redef_pre un tgt s = ROk (pid, s1) /\ nth_error (heap s1) pid = Some pc1
    /\ PR2 (heap s1) L loose1 pc1 (match jfind (redef_key tgt) pa with Some _ => pa | None => pa ++ [(redef_key tgt, oneof_new (redef_key tgt))] end)
    /\ dget (redef_key tgt) pc1 = Some (VObj oid)
    /\ (forall i, (i < L)%nat -> i <> pid -> nth_error (heap s1) i = nth_error (heap s) i)
    /\ (length (heap s) <= length (heap s1))%nat /\ names s1 = names s.
Proof.
  intros un tgt s id pid L pc pa loose D Hp Hi Ne HL Np Ni Dp Nl P.
  unfold redef_pre. rewrite Nl, (hget_nth _ _ _ Ni), Dp, (hget_nth _ _ _ Np).
  destruct P as (F & ND & LO). pose proof (PR2_dget_jfind _ _ _ _ _ (redef_key tgt) F) as DJ.
  destruct (dget (redef_key tgt) pc) as [v|] eqn:G.
  - destruct (dget_obj _ _ _ _ _ _ _ F G) as [oid ->].
    assert (J : jfind (redef_key tgt) pa <> None) by (intros Q; apply DJ in Q; discriminate).
    destruct (jfind (redef_key tgt) pa); [|congruence].
    exists s, pc, loose, oid. repeat split; try assumption; try lia.
  - assert (J : jfind (redef_key tgt) pa = None) by (apply DJ; reflexivity). rewrite J.
    unfold alloc, hupd. cbn [heap names].
    eexists. exists (pc ++ [(redef_key tgt, VObj (length (heap s)))]), (length (heap s) :: loose), (length (heap s)).
    split; [reflexivity|]. cbn [heap names].
    assert (FR : dset (redef_key tgt) (VObj (length (heap s))) pc = pc ++ [(redef_key tgt, VObj (length (heap s)))]).
    { apply dset_keys_fresh. apply dget_None_notin. exact G. }
    split; [rewrite nth_list_upd_same, nth_error_app1 by lia; rewrite Np; cbn [option_map]; rewrite FR; reflexivity|].
    split.
    { apply (PR2_mono (heap s ++ [[(k_oneOf, VArr []); (k_anchor, VStr (redef_key tgt))]])).
      - apply PR2_new_oneof; [split; [exact F|split; assumption]|apply dget_None_notin; exact G|apply redkey_redef|exact HL].
      - intros i Hi2. apply nth_list_upd_other. lia.
      - rewrite list_upd_length. apply Nat.le_refl. }
    split.
    { clear - G. induction pc as [|[k v] pc IH]; cbn [app dget] in *; [rewrite StructureP.str_eqb_refl; reflexivity|].
      destruct (str_eqb k (redef_key tgt)); [discriminate|apply IH; exact G]. }
    split; [intros i Hi2 Ne2; rewrite nth_list_upd_other by congruence; apply nth_error_app1; lia|].
    split; [rewrite list_upd_length, app_length; lia|reflexivity].
Qed.

Lemma rbind_assoc : forall (A B C : Type) (a : R A) (f : A -> R B) (g : B -> R C),
  rbind (rbind a f) g = rbind a (fun x => rbind (f x) g).
Proof. intros A B C [x|e|w] f g; reflexivity. Qed.

Lemma PR2_nil : forall H L, PR2 H L [] [] [].
Proof. intros H L. split; [constructor|]. split; constructor. Qed.

Lemma clear_below : forall loose (H : list dict) L b e, Forall (fun o => (L <= o < length H)%nat) loose -> (length H <= b)%nat -> clear_of loose b e.
Proof. intros loose H L b e LO Hb. unfold clear_of. rewrite Forall_forall in *. intros o Ho. specialize (LO o Ho). lia. Qed.

Lemma names_wf_kids : forall anc d b x kids, names_wf anc (XNode d b x kids) = true -> names_wf_f (du d :: anc) kids = true.
Proof. intros anc d b x kids W. cbn [names_wf] in W. apply andb_true_iff in W as [_ W]. exact W. Qed.

Lemma kid_facts : forall anc un k r, names_wf_f (un :: anc) (XCons k r) = true ->
  names_wf (un :: anc) k = true /\ names_wf_f (un :: anc) r = true /\ ~ In un (unames k) /\ redkey (du (xdde k)) = false.
Proof.
  intros anc un k r W. cbn [names_wf_f] in W. apply andb_true_iff in W as [Wk Wr]. split; [exact Wk|]. split; [exact Wr|]. split.
  - destruct names_wf_notin as [NW _]. apply (NW k _ Wk un). left. reflexivity.
  - apply (names_wf_redkey _ _ Wk).
Qed.

(* the statement, by mutual induction.  In the loop of a group: id is the dict of the group, registered under un, and
        pid its properties dict, which stands for the properties pa up to the oneOf dicts in loose *)
Definition Pt2 (t : xtree) : Prop := forall anc, names_wf anc t = true -> forall s, rrel (built s t) (build t s) (doc_r t).

Definition Qgrp2 (ks : xforest) : Prop := forall anc un, names_wf_f (un :: anc) ks = true -> forall id pid L s pc pa loose D,
  (pid < L)%nat -> (id < L)%nat -> id <> pid -> (L <= length (heap s))%nat ->
  nth_error (heap s) pid = Some pc -> nth_error (heap s) id = Some D -> dget k_properties D = Some (VObj pid) ->
  nlookup un s = Some id -> PR2 (heap s) L loose pc pa ->
  rrel (grp_done (fun H pc' props => exists loose', PR2 H L loose' pc' props) L pid s ks) (build_grp un ks pid s) (docs_kids_r ks pa).

Definition Qocc2 (ks : xforest) : Prop := forall anc un, names_wf_f (un :: anc) ks = true -> forall id L s acc pa D,
  (id < L)%nat -> (L <= length (heap s))%nat -> nth_error (heap s) id = Some D -> dget k_properties D = None ->
  nlookup un s = Some id -> PR2 (heap s) L [] acc pa ->
  rrel (occ_done (fun H acc' props => PR2 H L [] acc' props) s ks) (build_occ un ks acc s) (docs_kids_o ks pa).

Lemma Qgrp2_step_plain : forall k r, xeff_redef k = None -> Pt2 k -> Qgrp2 r -> Qgrp2 (XCons k r).
Proof.
  intros k r X IHk IHr anc un W id pid L s pc pa loose D Hp Hi Ne HL Np Ni Dp Nl P.
  destruct (kid_facts _ _ _ _ W) as (Wk & Wr & Nun & Rk). clear W.
  cbn [docs_kids_r build_grp]. rewrite X. unfold child_wrap. rewrite X. clear X.
  eapply rrel_bind; [apply (IHk _ Wk s)|]. clear IHk Wk. intros [cid s1] dk (A & W1 & NE1). cbn [fst snd] in *.
  assert (Len1 : (length (heap s) <= length (heap s1))%nat) by (destruct W1 as (W1a & W1b & _); lia).
  destruct (hupd_facts s s1 pid L pc (dset (du (xdde k)) (VObj cid)) A Len1 Hp HL Np) as (G1 & G2 & O2).
  eapply rrel_impl; [intros s' props; apply (grp_done_step _ _ _ s s1); assumption|].
  apply (IHr _ _ Wr id pid L _ _ (jset (du (xdde k)) dk pa) loose D Hp Hi Ne G1 G2).
  - unfold hupd. cbn [heap]. rewrite nth_list_upd_other, (A id) by lia. exact Ni.
  - exact Dp.
  - unfold hupd, nlookup. cbn [names]. fold (nlookup un s1). rewrite (nlookup_ext _ _ _ _ NE1 Nun). exact Nl.
  - apply (PR2_mono (heap s1)); [|exact O2|unfold hupd; cbn [heap]; rewrite list_upd_length; apply Nat.le_refl].
    apply (PR2_dset_child _ _ _ _ _ _ _ _ (length (heap s)) (length (heap s1))); [|exact Rk|exact HL|exact W1|].
    + apply (PR2_mono (heap s)); [exact P| |exact Len1]. intros i Hi2. apply A. lia.
    + apply (clear_below _ (heap s) L); [exact (proj2 (proj2 P))|lia].
Qed.

(* the REDEFINES branch after the alternative cid is built: it is appended to the oneOf list and a placeholder rid is
   allocated; entered under the child's own name, the placeholder keeps the invariant *)
Lemma redef_post_ok : forall tgt k (s2 : mst) pid L pc1 pa1 loose1 oid cid dk b,
  (pid < L)%nat -> nth_error (heap s2) pid = Some pc1 -> PR2 (heap s2) L loose1 pc1 pa1 ->
  dget (redef_key tgt) pc1 = Some (VObj oid) -> window (heap s2) cid dk b (length (heap s2)) -> (L <= b)%nat ->
  clear_of loose1 b (length (heap s2)) -> redkey (du (xdde k)) = false ->
  exists pa2 s4 rid,
    oneof_add (redef_key tgt) dk pa1 = ROk pa2 /\ redef_post pid tgt cid (xdde k) s2 = ROk (rid, s4)
    /\ names s4 = names s2 /\ (length (heap s2) <= length (heap s4))%nat
    /\ (forall i, (i < L)%nat -> nth_error (heap s4) i = nth_error (heap s2) i)
    /\ PR2 (list_upd pid (dset (du (xdde k)) (VObj rid)) (heap s4)) L loose1
           (dset (du (xdde k)) (VObj rid) pc1) (jset (du (xdde k)) (placeholder k) pa2).
Proof.
  intros tgt k s2 pid L pc1 pa1 loose1 oid cid dk b Hp N2 P2 G1 W2 Lb C2 Rk.
  destruct (PR2_add_alt _ _ _ _ _ _ oid cid dk _ _ P2 G1 (redkey_redef tgt) W2 Lb C2) as (ids & pa2 & No & OA & P3).
  assert (Loid : (L <= oid < length (heap s2))%nat).
  { split; [|apply nth_error_Some; rewrite No; discriminate].
    destruct (locate _ _ _ _ _ _ _ (proj1 P2) G1) as (c1 & c2 & a1 & a2 & d & _ & _ & _ & E & _).
    inversion E as [? ? ? ? ? K|]; subst; [rewrite redkey_redef in K; discriminate K|assumption]. }
  pose proof (proj2 (proj2 P2)) as LO.
  exists pa2. unfold redef_post. rewrite (hget_nth _ _ _ N2), G1, (hget_nth _ _ _ No). cbn [dget].
  change (str_eqb k_oneOf k_oneOf) with true. cbv iota. unfold alloc, hupd. cbn [heap names].
  set (H3 := list_upd oid (dset k_oneOf (VArr (ids ++ [cid]))) (heap s2)) in *.
  assert (LH3 : length H3 = length (heap s2)) by apply list_upd_length.
  set (phc := [(k_title, VStr (dde_name (de (xdde k)))); (k_cobol, VStr (cobol_of (xdde k))); (k_ref, VStr (35%N :: du (xdde k)))]).
  eexists. eexists. split; [exact OA|]. split; [reflexivity|]. cbn [heap names]. split; [reflexivity|].
  split; [rewrite app_length; lia|]. split.
  { intros i Hi. rewrite nth_error_app1 by lia. apply nth_list_upd_other. lia. }
  clear OA No N2 G1 W2 C2 P2.
  apply (PR2_mono (H3 ++ [phc])); [|intros i Hi; apply nth_list_upd_other; lia|rewrite list_upd_length; apply Nat.le_refl].
  apply (PR2_dset_child _ _ _ _ _ _ _ _ (length H3) (length (H3 ++ [phc]))); [|exact Rk|lia| |].
  - apply (PR2_mono H3); [exact P3|intros i Hi; apply nth_error_app1; lia|rewrite app_length; lia].
  - apply (window_leaf H3 phc). intros f H'. apply (map_opt_strs f H' [(k_title, _); (k_cobol, _); (k_ref, _)]).
  - apply (clear_below _ (heap s2) L); [exact LO|lia].
Qed.

Lemma Qgrp2_step_redef : forall k r tgt, xeff_redef k = Some tgt -> Pt2 k -> Qgrp2 r -> Qgrp2 (XCons k r).
Proof.
  intros k r tgt X IHk IHr anc un W id pid L s pc pa loose D Hp Hi Ne HL Np Ni Dp Nl P.
  destruct (kid_facts _ _ _ _ W) as (Wk & Wr & Nun & Rk). clear W.
  cbn [docs_kids_r build_grp]. rewrite X. unfold child_wrap. rewrite X. cbv zeta. clear X.
  destruct (redef_pre_ok un tgt s id pid L pc pa loose D Hp Hi Ne HL Np Ni Dp Nl P)
    as (s1 & pc1 & loose1 & oid & RP & N1 & P1 & G1 & U1 & Len1 & Nm1).
  rewrite RP. cbn [rbind fst snd]. rewrite rbind_assoc. clear RP P Np.
  eapply rrel_bind; [apply (IHk _ Wk s1)|]. clear IHk Wk. intros [cid s2] dk (A & W2 & NE2). cbn [fst snd] in *.
  assert (Len2 : (length (heap s1) <= length (heap s2))%nat) by (destruct W2 as (Wa & Wb & _); lia).
  assert (N2 : nth_error (heap s2) pid = Some pc1) by (rewrite (A pid); [exact N1|lia]).
  assert (P2 := P1). apply (PR2_mono _ (heap s2)) in P2; [|intros i Hi2; apply A; lia|exact Len2].
  assert (C2 : clear_of loose1 (length (heap s1)) (length (heap s2))).
  { apply (clear_below _ (heap s1) L); [exact (proj2 (proj2 P1))|lia]. }
  destruct (redef_post_ok tgt k s2 pid L pc1 _ loose1 oid cid dk _ Hp N2 P2 G1 W2 (Nat.le_trans _ _ _ HL Len1) C2 Rk)
    as (pa2 & s4 & rid & OA & RPo & Nm4 & Len4 & U4 & P5).
  rewrite OA, RPo. cbn [rbind fst snd]. clear OA RPo P1 P2 C2 W2 G1 N1.
  set (s5 := hupd pid (dset (du (xdde k)) (VObj rid)) s4).
  assert (O5 : forall i, i <> pid -> (i < L)%nat -> nth_error (heap s5) i = nth_error (heap s) i).
  { intros i Ne2 Hi2. unfold s5, hupd. cbn [heap]. rewrite nth_list_upd_other by congruence.
    rewrite (U4 i Hi2), (A i) by lia. apply (U1 i Hi2 Ne2). }
  assert (Len5 : (length (heap s) <= length (heap s5))%nat) by (unfold s5, hupd; cbn [heap]; rewrite list_upd_length; lia).
  eapply rrel_impl; [|apply (IHr _ _ Wr id pid L s5 (dset (du (xdde k)) (VObj rid) pc1) (jset (du (xdde k)) (placeholder k) pa2) loose1 D Hp Hi Ne)].
  - intros s' props (pc' & N' & P' & U' & Len' & NE'). exists pc'. split; [exact N'|]. split; [exact P'|]. split; [|split; [lia|]].
    + intros i Hi2 Ne2. rewrite (U' i Hi2 Ne2). apply (O5 i Ne2 Hi2).
    + cbn [unames_f]. destruct NE2 as (r2 & E2 & A2). destruct NE' as (r3 & E3 & A3).
      exists (r3 ++ r2). split.
      * rewrite E3. change (names s5) with (names s4). rewrite Nm4, E2, Nm1, app_assoc. reflexivity.
      * intros k0 I. rewrite map_app in I. apply in_app_or in I as [I|I]; apply in_or_app; [right; apply A3, I|left; apply A2, I].
  - lia.
  - unfold s5, hupd. cbn [heap]. rewrite nth_list_upd_same, (U4 pid Hp), N2. reflexivity.
  - rewrite (O5 id Ne Hi). exact Ni.
  - exact Dp.
  - unfold nlookup. change (names s5) with (names s4). rewrite Nm4. fold (nlookup un s2). rewrite (nlookup_ext _ _ _ _ NE2 Nun).
    unfold nlookup. rewrite Nm1. exact Nl.
  - exact P5.
Qed.

Lemma Qocc2_step : forall k r, Pt2 k -> Qocc2 r -> Qocc2 (XCons k r).
Proof.
  intros k r IHk IHr anc un W id L s acc pa D Hi HL Ni Dp Nl P.
  destruct (kid_facts _ _ _ _ W) as (Wk & Wr & Nun & Rk).
  cbn [docs_kids_o build_occ]. unfold child_wrap. destruct (xeff_redef k) as [tgt|] eqn:X.
  - (* a REDEFINES below an OCCURS group: the array dict has no properties *)
    cbn [rbind]. unfold redef_pre. rewrite Nl, (hget_nth _ _ _ Ni), Dp. reflexivity.
  - eapply rrel_bind; [apply (IHk _ Wk s)|]. clear IHk Wk W. intros [cid s1] dk (A & W1 & NE1). cbn [fst snd] in *.
    assert (Len1 : (length (heap s) <= length (heap s1))%nat) by (destruct W1 as (W1a & W1b & _); lia).
    eapply rrel_impl; [intros res props; apply (occ_done_step _ s s1); assumption|].
    apply (IHr _ _ Wr id L s1 _ (jset (du (xdde k)) dk pa) D Hi).
    + lia.
    + rewrite (A id) by lia. exact Ni.
    + exact Dp.
    + rewrite (nlookup_ext _ _ _ _ NE1 Nun). exact Nl.
    + apply (PR2_dset_child _ _ _ _ _ _ _ _ (length (heap s)) (length (heap s1))); [|exact Rk|exact HL|exact W1|constructor].
      apply (PR2_mono (heap s)); [exact P| |exact Len1]. intros i Hi2. apply A. lia.
Qed.

Lemma Q2_nil : Qgrp2 XNil /\ Qocc2 XNil.
Proof.
  split.
  - intros anc un _ id pid L s pc pa loose D Hp Hi Ne HL Np Ni Dp Nl P. exists pc.
    split; [exact Np|]. split; [exists loose; exact P|]. split; [intros i _ _; reflexivity|]. split; [lia|apply names_ext_refl].
  - intros anc un _ id L s acc pa D Hi HL Ni Dp Nl P. unfold rrel, occ_done. cbn [docs_kids_o build_occ fst snd].
    split; [exact P|]. split; [intros i _; reflexivity|]. split; [lia|apply names_ext_refl].
Qed.

Theorem build_names_wf : (forall t, Pt2 t) /\ (forall ks, Qgrp2 ks /\ Qocc2 ks).
Proof.
  apply xtree_xforest_ind.
  - intros d b x kids [IHg IHo] anc W s. pose proof (names_wf_kids _ _ _ _ _ W) as Wk.
    rewrite doc_r_node. apply build_node.
    + intros id pid L s0 D Hp Hi Ne HL Np Ni Dp Nl.
      eapply rrel_impl; [|apply (IHg anc (du d) Wk id pid L s0 [] [] [] D); try assumption; apply PR2_nil].
      intros s' props (pc' & N' & (loose' & P') & F). exists pc'. split; [exact N'|]. split; [exact (PR2_reify _ _ _ _ _ P')|exact F].
    + intros id L s0 D Hi HL Ni Dp Nl.
      eapply rrel_impl; [|apply (IHo anc (du d) Wk id L s0 [] [] D); try assumption; apply PR2_nil].
      intros r props (P' & F). split; [exact (PR2_reify _ _ _ _ _ P')|exact F].
  - apply Q2_nil.
  - intros k IHk r [IHg IHo]. split; [|apply Qocc2_step; assumption].
    destruct (xeff_redef k) as [tgt|] eqn:X; [apply (Qgrp2_step_redef k r tgt)|apply Qgrp2_step_plain]; assumption.
Qed.

Theorem build_tree_names_wf : forall t, names_wf [] t = true -> build_tree t = doc_r t.
Proof. intros t W. apply build_tree_rrel. apply (proj1 build_names_wf t [] W). Qed.

Theorem build_all_names_wf : forall f, forallb (names_wf []) f = true -> build_all f = docs_r f.
Proof.
  induction f as [|t f IH]; intros H; [reflexivity|]. cbn [forallb] in H. apply andb_true_iff in H as [Ht Hf].
  cbn [build_all docs_r]. rewrite (build_tree_names_wf t Ht), (IH Hf). reflexivity.
Qed.

End Redef.

Lemma optstr_eqb_refl : forall o, optstr_eqb o o = true.
Proof. intros [s|]; [apply StructureP.str_eqb_refl|reflexivity]. Qed.

Lemma entry_eqb_refl : forall e, entry_eqb e e = true.
Proof.
  intros e. unfold entry_eqb. rewrite !optstr_eqb_refl, StructureP.str_eqb_refl, !Bool.eqb_reflx.
  unfold lvl_eqb. rewrite !N.eqb_refl. reflexivity.
Qed.

Lemma annot_ok : forall t xs1 rest, map i_entry xs1 = map de (preorder t) ->
  exists xt, annot t (xs1 ++ rest) = Some (xt, rest) /\ erase xt = t /\ xpre xt = xs1.
Proof.
  apply (StructureP.tree_forest_ind
           (fun t => forall xs1 rest, map i_entry xs1 = map de (preorder t) ->
              exists xt, annot t (xs1 ++ rest) = Some (xt, rest) /\ erase xt = t /\ xpre xt = xs1)
           (fun kids => forall xsk rest, map i_entry xsk = map de (preorder_f kids) ->
              exists xk, annot_list annot kids (xsk ++ rest) = Some (xk, rest) /\ erase_f xk = kids /\ xpre_f xk = xsk)).
  - intros d b kids G xs1 rest E.
    rewrite StructureP.preorder_node in E. destruct xs1 as [|x xs1]; [discriminate|]. cbn [map] in E. injection E as Ex E.
    cbn [app annot]. rewrite <- Ex, entry_eqb_refl.
    destruct (G xs1 rest E) as (xk & A & <- & <-). rewrite A. eexists. repeat split.
  - intros xsk rest E. destruct xsk; [|discriminate]. exists XNil. repeat split.
  - intros k ks Hk IHks xsk rest E.
    rewrite StructureP.preorder_f_cons, map_app in E. apply map_eq_app in E as (x1 & x2 & -> & E1 & E2).
    destruct (Hk _ (x2 ++ rest) E1) as (xk & A1 & <- & <-). destruct (IHks _ rest E2) as (xr & A2 & <- & <-).
    exists (XCons xk xr). rewrite <- app_assoc. cbn [annot_list]. rewrite A1. fold (annot_list annot). rewrite A2. repeat split.
Qed.

Lemma annot_forest_ok : forall f xs, map i_entry xs = map de (preorder_f f) ->
  exists xf, annot_forest f xs = Some xf /\ map erase xf = f /\ concat (map xpre xf) = xs.
Proof.
  induction f as [|t f IH]; intros xs E.
  - destruct xs; [|discriminate]. exists []. repeat split.
  - rewrite StructureP.preorder_f_cons, map_app in E. apply map_eq_app in E as (x1 & x2 & -> & E1 & E2).
    destruct (annot_ok t _ x2 E1) as (xt & A1 & <- & <-). destruct (IH _ E2) as (xr & A2 & <- & <-).
    exists (xt :: xr). cbn [annot_forest]. rewrite A1, A2. repeat split.
Qed.

Lemma kept_match : forall xs, map de (StructureP.kept_of (map i_entry xs)) = map i_entry (kept_infos xs).
Proof.
  intros xs. unfold StructureP.kept_of, kept_infos.
  pose proof (StructureP.mk_ddes_de (map i_entry xs) 0%N) as D.
  destruct (mk_ddes 0 (map i_entry xs)) as [|d r] eqn:E.
  - destruct xs as [|x xs]; [reflexivity|]. cbn [map] in D. discriminate.
  - destruct xs as [|x xs]; [cbn [map] in D; discriminate|]. cbn [map] in D. injection D as D1 D2.
    cbn [map]. rewrite D1. f_equal.
    (* the entries that become nodes, on both sides: keep and info_skipped test the level of the entry *)
    set (p := fun e : entry => negb (existsb (lvl_eqb (elv e)) SR.Gen.StructureParams.skipped_levels)).
    change (map de (filter (fun d => p (de d)) r) = map i_entry (filter (fun y => p (i_entry y)) xs)).
    rewrite <- !RenumberP.filter_map_swap, D2. reflexivity.
Qed.

(* no REDEFINES clause: no mark anywhere in the forest *)

Fixpoint clean_nr (t : tree) : bool :=
  match t with
  | TNode d b kids => negb b && negb (has_some (eredef (de d))) && forallb clean_nr kids
  end.

Lemma noredef_erase : (forall t, noredef t = clean_nr (erase t)) /\ (forall ks, noredef_f ks = forallb clean_nr (erase_f ks)).
Proof.
  apply xtree_xforest_ind.
  - intros d b x kids IH. cbn [noredef erase clean_nr]. rewrite IH. reflexivity.
  - reflexivity.
  - intros k IHk r IHr. cbn [noredef_f erase_f forallb]. rewrite IHk, IHr. reflexivity.
Qed.

Definition dde_nr (d : dde) : Prop := eredef (de d) = None.
Definition frame_clean (f : frame) : Prop := dde_nr (fd f) /\ forallb clean_nr (fkids f) = true.

Lemma close_clean : forall f, frame_clean f -> clean_nr (close f) = true.
Proof. intros f [Hd Hk]. unfold close. cbn [clean_nr]. unfold dde_nr in Hd. rewrite Hd, Hk. reflexivity. Qed.

Lemma attach_clean : forall t f, clean_nr t = true -> frame_clean f -> frame_clean (attach t f).
Proof. intros t f Ht [Hd Hk]. split; [exact Hd|]. unfold attach. cbn [fkids]. rewrite forallb_app, Hk. cbn [forallb]. rewrite Ht. reflexivity. Qed.

Lemma pop_clean : forall x rest cur, frame_clean cur -> Forall frame_clean rest ->
  match pop x cur rest with
  | inl (b, r') => frame_clean b /\ Forall frame_clean r'
  | inr t => clean_nr t = true
  end.
Proof.
  intros x rest. induction rest as [|p rest IH]; intros cur Hc Hr; cbn [pop].
  - destruct (pop_test x (dlv (fd cur))); [apply close_clean; exact Hc|split; assumption].
  - destruct (pop_test x (dlv (fd cur))); [|split; assumption].
    inversion Hr as [|? ? Hp Hrest]; subst. apply IH; [|exact Hrest]. apply attach_clean; [apply close_clean; exact Hc|exact Hp].
Qed.

Definition state_clean (s : state) : Prop :=
  forallb clean_nr (roots s) = true /\ frame_clean (cur s) /\ Forall frame_clean (rest s).

Lemma step_clean : forall s d s', dde_nr d -> state_clean s -> step s d = Ok s' -> state_clean s'.
Proof.
  intros s d s' Hd (Hroots & Hcur & Hrest) H. unfold step in H.
  destruct (skipped d); [injection H as <-; exact (conj Hroots (conj Hcur Hrest))|].
  pose proof (pop_clean (dlv d) (rest s) (cur s) Hcur Hrest) as PC.
  destruct (pop (dlv d) (cur s) (rest s)) as [[b r']|t].
  - unfold dde_nr in Hd. rewrite Hd in H. injection H as <-. destruct PC as [Hb Hr']. split; [exact Hroots|]. split.
    + split; [exact Hd|reflexivity].
    + constructor; assumption.
  - injection H as <-. split; [cbn [roots]; rewrite forallb_app, Hroots; cbn [forallb]; rewrite PC; reflexivity|]. split.
    + split; [exact Hd|reflexivity].
    + constructor.
Qed.

Lemma run_clean : forall l s s', Forall dde_nr l -> state_clean s -> run s l = Ok s' -> state_clean s'.
Proof.
  induction l as [|d l IH]; intros s s' Hl Hs H; cbn [run] in H.
  - injection H as <-. exact Hs.
  - inversion Hl as [|? ? Hd Hl']; subst. destruct (step s d) as [s1|e] eqn:E; [|discriminate].
    apply (IH s1 s' Hl' (step_clean s d s1 Hd Hs E) H).
Qed.

Lemma collapse_clean : forall rest cur, frame_clean cur -> Forall frame_clean rest -> clean_nr (collapse cur rest) = true.
Proof.
  induction rest as [|p rest IH]; intros cur Hc Hr; cbn [collapse]; [apply close_clean; exact Hc|].
  inversion Hr as [|? ? Hp Hrest]; subst. apply IH; [|exact Hrest]. apply attach_clean; [apply close_clean; exact Hc|exact Hp].
Qed.

Lemma structure_clean : forall l f, Forall (fun e => eredef e = None) l -> structure l = Ok f -> forallb clean_nr f = true.
Proof.
  intros l f Hl H. unfold structure in H.
  assert (Hd : Forall dde_nr (mk_ddes 0 l)).
  { apply Forall_forall. intros d Hin. rewrite Forall_forall in Hl. apply Hl. rewrite <- (StructureP.mk_ddes_de l 0%N). apply in_map. exact Hin. }
  destruct (mk_ddes 0 l) as [|d ds]; [discriminate|]. cbn [structure_ddes] in H.
  inversion Hd as [|? ? Hd0 Hds]; subst.
  destruct (run {| roots := []; cur := open d; rest := [] |} ds) as [s'|e] eqn:E; [|discriminate]. injection H as <-.
  assert (I0 : state_clean {| roots := []; cur := open d; rest := [] |}).
  { split; [reflexivity|]. split; [split; [exact Hd0|reflexivity]|constructor]. }
  destruct (run_clean ds _ s' Hds I0 E) as (Hr & Hc & Hrest).
  unfold finish. rewrite forallb_app, Hr. cbn [forallb]. rewrite (collapse_clean _ _ Hc Hrest). reflexivity.
Qed.

Import SR.Spec.Clauses.

Lemma structure_preorder : forall l f, structure l = Ok f -> preorder_f f = StructureP.kept_of l.
Proof.
  intros l f H. unfold structure in H. unfold StructureP.kept_of. destruct (mk_ddes 0 l) as [|d r]; [discriminate|].
  apply (StructureP.structure_ddes_shape d r f H).
Qed.

Lemma no_redefines_entries : forall es, no_redefines es = true -> Forall (fun e => eredef e = None) (map spec_entry es).
Proof.
  intros es H. apply Forall_forall. intros e He. apply in_map_iff in He as (c & <- & Hc).
  unfold no_redefines in H. rewrite forallb_forall in H. specialize (H c Hc). unfold spec_entry. cbn [eredef].
  unfold has in H. destruct (lookup 0 (ce_dict c)); [discriminate|reflexivity].
Qed.

Lemma map_entry_spec_info : forall es, map i_entry (map spec_info es) = map spec_entry es.
Proof. intros es. rewrite map_map. reflexivity. Qed.

Lemma copybook_nonempty : forall es tail seqs, copybook_ok es tail seqs = true -> es <> [].
Proof.
  intros es tail seqs H E. subst es. unfold copybook_ok in H. apply andb_true_iff in H as [H HL]. apply andb_true_iff in H as [_ Ht].
  unfold layout_ok in HL. apply andb_true_iff in HL as [HL _]. unfold code_text in HL. cbn [map concat app] in HL. rewrite Ht in HL. discriminate.
Qed.

Lemma annot_of_structure : forall es f, structure (map spec_entry es) = Ok f ->
  exists xf, annot_forest f (kept_infos (map spec_info es)) = Some xf /\ map erase xf = f
             /\ concat (map xpre xf) = kept_infos (map spec_info es).
Proof.
  intros es f Hf. apply annot_forest_ok. rewrite (structure_preorder _ _ Hf), <- map_entry_spec_info. symmetry. apply kept_match.
Qed.

Lemma reading_build : forall T es f xf, reads_as T es -> structure (map spec_entry es) = Ok f ->
  annot_forest f (kept_infos (map spec_info es)) = Some xf -> schemas_of_text T = to_outcome (build_all xf).
Proof.
  intros T es f xf RA Hf A. rewrite (reading_schemas T es RA). unfold docs_of_infos. rewrite map_entry_spec_info, Hf, A. reflexivity.
Qed.

Theorem reading_end_to_end : forall T es f, reads_as T es -> structure (map spec_entry es) = Ok f ->
  exists xf, annot_forest f (kept_infos (map spec_info es)) = Some xf /\ map erase xf = f
             /\ concat (map xpre xf) = kept_infos (map spec_info es)
             /\ (forallb (names_wf []) xf = true -> schemas_of_text T = to_outcome (docs_r xf)).
Proof.
  intros T es f RA Hf. destruct (annot_of_structure es f Hf) as (xf & A & R & Q).
  exists xf. split; [exact A|]. split; [exact R|]. split; [exact Q|]. intros NW.
  rewrite (reading_build T es f xf RA Hf A), (Redef.build_all_names_wf xf NW). reflexivity.
Qed.

(* without REDEFINES structure() accepts the entries, and nothing is asked of the names; es <> [] is what copybook_ok adds to
   reads_as here *)
Theorem end_to_end_noredef : forall es tail seqs,
  copybook_ok es tail seqs = true -> no_redefines es = true ->
  exists f xf,
    structure (map spec_entry es) = Ok f
    /\ annot_forest f (kept_infos (map spec_info es)) = Some xf
    /\ map erase xf = f
    /\ concat (map xpre xf) = kept_infos (map spec_info es)
    /\ forallb noredef xf = true
    /\ schemas_of_text (print_copybook es tail seqs) = to_outcome (docs_of xf).
Proof.
  intros es tail seqs OK NR.
  pose proof (no_redefines_entries es NR) as NRe.
  assert (NE : map spec_entry es <> []).
  { pose proof (copybook_nonempty es tail seqs OK) as N. destruct es; [congruence|discriminate]. }
  destruct (StructureP.structure_no_redefines _ NE NRe) as [f Hf].
  destruct (annot_of_structure es f Hf) as (xf & A & R & Q).
  assert (N : forallb noredef xf = true).
  { pose proof (structure_clean _ _ NRe Hf) as C. rewrite <- R in C.
    rewrite forallb_forall in *. intros t Ht. rewrite (proj1 noredef_erase). apply C. apply in_map. exact Ht. }
  exists f, xf. split; [exact Hf|]. split; [exact A|]. split; [exact R|]. split; [exact Q|]. split; [exact N|].
  rewrite (reading_build _ es f xf (printed_reads_as es tail seqs OK) Hf A), (build_all_noredef xf N). reflexivity.
Qed.


Lemma same_core_info : forall es es', Forall2 same_core es es' -> map spec_info es = map spec_info es'.
Proof.
  intros es es' F. induction F as [|e e' es es' (E1 & E2 & E3 & E4) F IH]; [reflexivity|]. cbn [map]. rewrite IH. f_equal.
  unfold spec_info, spec_entry, ce_dict, ce_body. rewrite E1, E2, E3, E4. reflexivity.
Qed.

Lemma lookup_same_normal : forall k d d', normal d = normal d' ->
  option_map (norm_value k) (lookup k d) = option_map (norm_value k) (lookup k d').
Proof. intros k d d' E. rewrite <- !SR.Proofs.ClausesP.lookup_normal, E. reflexivity. Qed.

Lemma lookup_verbatim : forall k d d', normal d = normal d' -> (forall v, norm_value k v = v) -> lookup k d = lookup k d'.
Proof.
  intros k d d' E V. pose proof (lookup_same_normal k d d' E) as B. destruct (lookup k d), (lookup k d'); cbn [option_map] in B; try discriminate; [|reflexivity].
  rewrite !V in B. exact B.
Qed.

Lemma normal_same_clauses : forall e e', same_clauses e e' -> ce_ok e = true -> ce_ok e' = true ->
  normal (ce_dict e) = normal (ce_dict e').
Proof.
  intros e e' (E1 & E2 & P) OK OK'. unfold ce_ok in OK, OK'.
  apply andb_true_iff in OK as [OK _]. apply andb_true_iff in OK as [Pr _].
  apply andb_true_iff in OK' as [OK' _]. apply andb_true_iff in OK' as [Pr' _].
  unfold printable in Pr, Pr'. apply andb_true_iff in Pr as [ND I]. apply andb_true_iff in Pr' as [ND' I'].
  unfold ce_dict. rewrite (SR.Proofs.ClausesP.expected_content _ _ I), (SR.Proofs.ClausesP.expected_content _ _ I').
  apply SR.Proofs.ClausesP.abstract_perm; assumption.
Qed.

Lemma same_clauses_content : forall e e', same_clauses e e' -> ce_ok e = true -> ce_ok e' = true ->
  content (spec_entry e) = content (spec_entry e').
Proof.
  intros e e' SC OK OK'. pose proof (normal_same_clauses e e' SC OK OK') as N. destruct SC as (E1 & E2 & _).
  unfold content, spec_entry. cbn [elv ename efill eredef epic eocc]. unfold has.
  rewrite (lookup_verbatim 14 _ _ N (fun v => eq_refl)), (lookup_verbatim 0 _ _ N (fun v => eq_refl)),
          (lookup_verbatim 7 _ _ N (fun v => eq_refl)), (lookup_verbatim 6 _ _ N (fun v => eq_refl)),
          (lookup_verbatim 4 _ _ N (fun v => eq_refl)), E1, E2.
  exact (f_equal (fun z => (_, _, z, _, _, _)) (lookup_same_normal 13 _ _ N)).
Qed.

Import SR.Model.Structure.
(* the entries of an annotated tree, in preorder *)
Fixpoint xdefs (t : xtree) : list (str * str) :=
  match t with XNode d _ _ kids => (dde_name (de d), cobol_of d) :: xdefs_f kids end
with xdefs_f (ks : xforest) : list (str * str) :=
  match ks with XNil => [] | XCons k r => xdefs k ++ xdefs_f r end.

Definition jt_key (k : str) : bool := str_eqb k k_type || str_eqb k k_contentEncoding || str_eqb k k_conversion.

Definition jt_ok (l : list (str * str)) : bool := forallb (fun kv => jt_key (fst kv)) l.
Lemma jt_ok_app : forall a b, jt_ok (a ++ b) = jt_ok a && jt_ok b.
Proof. intros. apply forallb_app. Qed.

Lemma json_type_keys : forall x jt, json_type_kvs x = ROk jt -> jt_ok jt = true.
Proof.
  intros x jt H. unfold json_type_kvs in H.
  destruct (SR.Model.JsonType.json_type (usage_number x) _) as [[[t e] c]|ex]; [|discriminate].
  (* each of the three tables answers below 16 with at most one pair, under its own key *)
  assert (T : forall n, match type_kv n with ROk l => jt_ok l = true | _ => True end
                        /\ match enc_kv n with ROk l => jt_ok l = true | _ => True end
                        /\ match conv_kv n with ROk l => jt_ok l = true | _ => True end).
  { intros [|[[[[p|p|]|[p|p|]|]|[[p|p|]|[p|p|]|]|]|[[[p|p|]|[p|p|]|]|[[p|p|]|[p|p|]|]|]|]]; repeat split. }
  apply rbind_ok in H as (a & Ha & H). apply rbind_ok in H as (b & Hb & H). apply rbind_ok in H as (d0 & Hd & H). injection H as <-.
  destruct (T t) as (A & _). destruct (T e) as (_ & B & _). destruct (T c) as (_ & _ & C). rewrite Ha in A. rewrite Hb in B. rewrite Hd in C.
  rewrite !jt_ok_app, A, B, C. reflexivity.
Qed.

Definition is_obj (d : jdoc) : bool := match d with JObj _ => true | _ => false end.
Definition head_def (kvs : list (str * jdoc)) : list (str * str) :=
  match jfind k_title kvs, jfind k_cobol kvs, jfind k_ref kvs with
  | Some (JStr t), Some (JStr c), None => [(t, c)]
  | _, _, _ => []
  end.

Definition objs (l : list (str * jdoc)) : bool := forallb (fun kv => is_obj (snd kv)) l.
Definition fdefs (l : list (str * jdoc)) : list (str * str) := flat_map (fun kv => defs (snd kv)) l.

Lemma defs_obj : forall kvs, defs (JObj kvs) = head_def kvs ++ fdefs kvs.
Proof. reflexivity. Qed.

Lemma jfind_objs : forall k kvs, objs kvs = true ->
  match jfind k kvs with Some (JStr _) => False | _ => True end.
Proof.
  intros k. induction kvs as [|[k1 v] kvs IH]; intros H; cbn [jfind]; [exact I|]. cbn [objs forallb snd] in H. apply andb_true_iff in H as [Hv H].
  destruct (str_eqb k1 k); [destruct v; try discriminate; exact I|apply IH; exact H].
Qed.

Lemma head_def_objs : forall kvs, objs kvs = true -> head_def kvs = [].
Proof.
  intros kvs H. unfold head_def. pose proof (jfind_objs k_title kvs H) as T. destruct (jfind k_title kvs) as [[ | | | ]|]; try reflexivity. destruct T.
Qed.

Lemma flat_defs_jstrs : forall l rest, fdefs (jstrs l ++ rest) = fdefs rest.
Proof. induction l as [|[k v] l IH]; intros rest; [reflexivity|]. unfold fdefs in *. cbn [jstrs map app flat_map snd defs]. apply IH. Qed.

Lemma fdefs_cons : forall k v l, fdefs ((k, v) :: l) = defs v ++ fdefs l.
Proof. reflexivity. Qed.

Lemma jt_key_cases : forall k, jt_key k = true -> k = k_type \/ k = k_contentEncoding \/ k = k_conversion.
Proof.
  intros k H. unfold jt_key in H. apply orb_true_iff in H as [H|H]; [apply orb_true_iff in H as [H|H]|];
    apply StructureP.str_eqb_eq in H; auto.
Qed.

Lemma jfind_jt : forall key jt rest, jt_ok jt = true -> jt_key key = false -> jfind key (jstrs jt ++ rest) = jfind key rest.
Proof.
  intros key. induction jt as [|[k v] jt IH]; intros rest H K; [reflexivity|]. cbn [jt_ok forallb fst] in H. apply andb_true_iff in H as [Hk H].
  cbn [jstrs map app jfind fst snd].
  rewrite (str_eqb_neq k key) by congruence. apply IH; assumption.
Qed.

Lemma jstrs_app : forall a b, jstrs (a ++ b) = jstrs a ++ jstrs b.
Proof. intros. unfold jstrs. apply map_app. Qed.

Lemma head_def_elem : forall n u c rest, jfind k_ref rest = None ->
  head_def (jstrs [(k_title, n); (k_anchor, u); (k_cobol, c)] ++ rest) = [(n, c)].
Proof. intros n u c rest F. unfold head_def. cbn. rewrite F. reflexivity. Qed.

Lemma defs_elem : forall n u c jt a b, jt_ok jt = true ->
  defs (JObj (jstrs ([(k_title, n); (k_anchor, u); (k_cobol, c)] ++ jt) ++ [(k_maxLength, JInt a); (k_minLength, JInt b)])) = [(n, c)].
Proof.
  intros n u c jt a b J. rewrite defs_obj, flat_defs_jstrs, jstrs_app, <- app_assoc, head_def_elem; [reflexivity|].
  rewrite (jfind_jt k_ref jt _ J eq_refl). reflexivity.
Qed.

Lemma defs_inner : forall u c jt, jt_ok jt = true -> defs (JObj (jstrs ([(k_anchor, u); (k_cobol, c)] ++ jt))) = [].
Proof.
  intros u c jt J. rewrite defs_obj.
  assert (FL : fdefs (jstrs ([(k_anchor, u); (k_cobol, c)] ++ jt)) = []).
  { rewrite <- (app_nil_r (jstrs _)). rewrite flat_defs_jstrs. reflexivity. }
  rewrite FL, app_nil_r. unfold head_def. rewrite jstrs_app.
  change (jfind k_title (jstrs [(k_anchor, u); (k_cobol, c)] ++ jstrs jt)) with (jfind k_title (jstrs jt)).
  rewrite <- (app_nil_r (jstrs jt)). rewrite (jfind_jt k_title jt [] J eq_refl). reflexivity.
Qed.

Lemma defs_mx : forall x mx, max_items_doc x = ROk mx -> defs (snd mx) = [] /\ str_eqb (fst mx) k_ref = false
  /\ str_eqb (fst mx) k_title = false /\ str_eqb (fst mx) k_cobol = false.
Proof.
  intros x mx H. unfold max_items_doc in H. destruct (i_dep x) as [dep|].
  - injection H as <-. repeat split; reflexivity.
  - destruct (i_occ x); [|discriminate]. injection H as <-. repeat split; reflexivity.
Qed.

Lemma jset_fresh : forall k v acc, existsb (str_eqb k) (map fst acc) = false -> jset k v acc = acc ++ [(k, v)].
Proof.
  intros k v. induction acc as [|[k1 v1] acc IH]; intros H; [reflexivity|]. cbn [map fst existsb] in H. apply orb_false_iff in H as [H1 H].
  cbn [jset app]. rewrite (str_eqb_neq k1 k), (IH H) by (intros ->; rewrite StructureP.str_eqb_refl in H1; discriminate). reflexivity.
Qed.

Lemma nodup_mid : forall p k r, nodup_str (p ++ k :: r) = true ->
  existsb (str_eqb k) p = false /\ nodup_str ((p ++ [k]) ++ r) = true.
Proof.
  intros p k r H. split.
  - induction p as [|x p IH]; [reflexivity|]. cbn [app nodup_str] in H. apply andb_true_iff in H as [Hx H]. cbn [existsb].
    rewrite (IH H), orb_false_r. apply negb_true_iff in Hx. rewrite existsb_app in Hx. apply orb_false_iff in Hx as [_ Hx].
    cbn [existsb] in Hx. apply orb_false_iff in Hx as [Hx _].
    apply str_eqb_neq. intros ->. rewrite StructureP.str_eqb_refl in Hx. discriminate.
  - rewrite <- app_assoc. exact H.
Qed.

Lemma objs_app : forall a b, objs (a ++ b) = objs a && objs b.
Proof. intros. apply forallb_app. Qed.
Lemma fdefs_app : forall a b, fdefs (a ++ b) = fdefs a ++ fdefs b.
Proof. intros. apply flat_map_app. Qed.
Lemma fdefs_snoc : forall acc k v, fdefs (acc ++ [(k, v)]) = fdefs acc ++ defs v.
Proof. intros. rewrite fdefs_app. unfold fdefs at 2. cbn [flat_map snd]. rewrite app_nil_r. reflexivity. Qed.
Lemma objs_snoc : forall acc k v, objs (acc ++ [(k, v)]) = objs acc && is_obj v.
Proof. intros. rewrite objs_app. unfold objs at 2. cbn [forallb snd]. rewrite andb_true_r. reflexivity. Qed.

Definition Dt (t : xtree) : Prop := shape_ok t = true -> forall doc, doc_of t = ROk doc -> is_obj doc = true /\ defs doc = xdefs t.
Definition Df (ks : xforest) : Prop := shape_ok_f ks = true -> forall acc props,
  nodup_str (map fst acc ++ knames ks) = true -> objs acc = true -> docs_kids ks acc = ROk props ->
  objs props = true /\ fdefs props = fdefs acc ++ xdefs_f ks.

Lemma props_defs : forall props, objs props = true -> defs (JObj props) = fdefs props.
Proof. intros props H. rewrite defs_obj, (head_def_objs props H). reflexivity. Qed.

Lemma Df_cons : forall k r, Dt k -> Df r -> Df (XCons k r).
Proof.
  intros k r IHk IHr S acc props ND O H. cbn [shape_ok_f] in S. apply andb_true_iff in S as [Sk Sr].
  cbn [docs_kids] in H. apply rbind_ok in H as (dk & Ek & H).
  destruct (IHk Sk dk Ek) as [Ok Dk]. cbn [knames] in ND. destruct (nodup_mid _ _ _ ND) as [Fr ND2].
  rewrite (jset_fresh _ _ _ Fr) in H.
  assert (M : map fst (acc ++ [(du (xdde k), dk)]) = map fst acc ++ [du (xdde k)]) by (rewrite map_app; reflexivity).
  rewrite <- M in ND2.
  assert (O2 : objs (acc ++ [(du (xdde k), dk)]) = true) by (rewrite objs_snoc, O, Ok; reflexivity).
  destruct (IHr Sr _ props ND2 O2 H) as [Op Dp]. split; [exact Op|]. rewrite Dp, fdefs_snoc, Dk, <- app_assoc. reflexivity.
Qed.

Lemma defs_str : forall s, defs (JStr s) = [].
Proof. reflexivity. Qed.
Lemma defs_int : forall n, defs (JInt n) = [].
Proof. reflexivity. Qed.
Lemma fdefs_nil : fdefs [] = [].
Proof. reflexivity. Qed.

Ltac norm_defs := rewrite ?fdefs_cons, ?fdefs_nil, ?defs_str, ?defs_int, ?app_nil_r; cbn [app].

Lemma defs_group : forall n u c props, objs props = true ->
  defs (JObj (jstrs [(k_title, n); (k_anchor, u); (k_cobol, c); (k_type, v_object)] ++ [(k_properties, JObj props)])) = (n, c) :: fdefs props.
Proof. intros n u c props O. rewrite defs_obj, flat_defs_jstrs. norm_defs. rewrite (props_defs props O). reflexivity. Qed.

Lemma head_def_array : forall n c mk (mv items : jdoc) rest, str_eqb mk k_ref = false -> jfind k_ref rest = None ->
  head_def (jstrs [(k_title, n); (k_cobol, c); (k_type, v_array)] ++ (k_items, items) :: (mk, mv) :: rest) = [(n, c)].
Proof. intros n c mk mv items rest K F. unfold head_def. cbn. rewrite K, F. reflexivity. Qed.

Lemma defs_items : forall props, defs (JObj [(k_type, JStr v_object); (k_properties, JObj props)]) = defs (JObj props).
Proof. intros props. rewrite defs_obj. norm_defs. reflexivity. Qed.

Lemma defs_array_group : forall x mx n u c props, max_items_doc x = ROk mx -> objs props = true ->
  defs (JObj (jstrs [(k_title, n); (k_cobol, c); (k_type, v_array)]
              ++ [(k_items, JObj [(k_type, JStr v_object); (k_properties, JObj props)]); mx; (k_anchor, JStr u)])) = (n, c) :: fdefs props.
Proof.
  intros x [mk mv] n u c props M O. destruct (defs_mx x _ M) as (Dm & Kr & _). cbn [fst snd] in *.
  rewrite defs_obj, (head_def_array _ _ _ _ _ [(k_anchor, JStr u)] Kr eq_refl), flat_defs_jstrs. norm_defs. rewrite Dm.
  rewrite defs_items, (props_defs props O), app_nil_r. reflexivity.
Qed.

Lemma defs_array_pic : forall x mx n u c jt, max_items_doc x = ROk mx -> jt_ok jt = true ->
  defs (JObj (jstrs [(k_title, n); (k_cobol, c); (k_type, v_array)]
              ++ [(k_items, JObj [(k_type, JStr v_object);
                                  (k_properties, JObj [(u, JObj (jstrs ([(k_anchor, u); (k_cobol, c)] ++ jt)))])]); mx])) = [(n, c)].
Proof.
  intros x [mk mv] n u c jt M J. destruct (defs_mx x _ M) as (Dm & Kr & _). cbn [fst snd] in *.
  rewrite defs_obj, (head_def_array _ _ _ _ _ [] Kr eq_refl), flat_defs_jstrs, !fdefs_cons, Dm.
  rewrite defs_items, props_defs by reflexivity. rewrite fdefs_cons, (defs_inner _ _ _ J). reflexivity.
Qed.

(* a node defines its own entry, then what its properties define: Rel is equality, or equality up to the order *)
Lemma defs_node : forall (Rel : list (str * str) -> list (str * str) -> Prop) d b x kids kg ko doc,
  Rel [] [] -> (forall a l l', Rel l l' -> Rel (a :: l) (a :: l')) ->
  (if eocc (de d) && epic (de d) then match kids with XNil => true | XCons _ _ => false end else true) = true ->
  (forall props, (if eocc (de d) then ko else kg) = ROk props -> objs props = true /\ Rel (fdefs props) (xdefs_f kids)) ->
  node_doc d x kids kg ko = ROk doc -> is_obj doc = true /\ Rel (defs doc) (xdefs (XNode d b x kids)).
Proof.
  intros Rel d b x kids kg ko doc R0 Rc Leaf IH H. unfold node_doc in H. cbn [xdefs].
  destruct (eocc (de d)).
  - apply rbind_ok in H as (mx & M & H). destruct (epic (de d)).
    + destruct kids; [|discriminate]. apply rbind_ok in H as (jt & Ejt & H). apply ROk_inj in H. subst doc.
      split; [reflexivity|]. rewrite (defs_array_pic x mx _ _ _ _ M (json_type_keys x jt Ejt)). apply Rc, R0.
    + apply rbind_ok in H as (props & Ek & H). apply ROk_inj in H. subst doc. destruct (IH props Ek) as [O D].
      split; [reflexivity|]. rewrite (defs_array_group x mx _ _ _ _ M O). apply Rc, D.
  - destruct kids as [|k r].
    + apply rbind_ok in H as (jt & Ejt & H). apply rbind_ok in H as (n & _ & H). apply ROk_inj in H. subst doc.
      split; [reflexivity|]. rewrite (defs_elem _ _ _ _ _ _ (json_type_keys x jt Ejt)). apply Rc, R0.
    + apply rbind_ok in H as (props & Ek & H). apply ROk_inj in H. subst doc. destruct (IH props Ek) as [O D].
      split; [reflexivity|]. rewrite (defs_group _ _ _ _ O). apply Rc, D.
Qed.

Lemma Dt_node : forall d b x kids, Df kids -> Dt (XNode d b x kids).
Proof.
  intros d b x kids IH S doc H. cbn [shape_ok] in S. apply andb_true_iff in S as [S Leaf]. apply andb_true_iff in S as [ND Sk].
  rewrite doc_of_node in H. apply (defs_node eq d b x kids _ _ doc eq_refl) with (4 := H); [intros a l l' E; rewrite E; reflexivity|exact Leaf|].
  intros props Ek. apply (IH Sk [] props ND eq_refl). destruct (eocc (de d)); exact Ek.
Qed.

Theorem defs_doc_of : (forall t, Dt t) /\ (forall ks, Df ks).
Proof.
  apply xtree_xforest_ind.
  - intros d b x kids IH. apply Dt_node. exact IH.
  - intros _ acc props _ O H. cbn [docs_kids] in H. injection H as <-. split; [exact O|]. cbn [xdefs_f]. rewrite app_nil_r. reflexivity.
  - intros k IHk r IHr. apply Df_cons; assumption.
Qed.

Lemma xdefs_erase : (forall t, xdefs t = map name_cobol (preorder (erase t)))
                    /\ (forall ks, xdefs_f ks = map name_cobol (preorder_f (erase_f ks))).
Proof.
  apply xtree_xforest_ind.
  - intros d b x kids IH. cbn [xdefs erase]. rewrite StructureP.preorder_node. cbn [map]. rewrite IH. reflexivity.
  - reflexivity.
  - intros k IHk r IHr. cbn [xdefs_f erase_f]. rewrite StructureP.preorder_f_cons, map_app, IHk, IHr. reflexivity.
Qed.

Lemma docs_of_defs : forall xf docs, forallb shape_ok xf = true -> docs_of xf = ROk docs ->
  flat_map defs docs = map name_cobol (preorder_f (map erase xf)).
Proof.
  induction xf as [|t xf IH]; intros docs S H; cbn [docs_of] in H.
  - injection H as <-. reflexivity.
  - cbn [forallb] in S. apply andb_true_iff in S as [St S].
    apply rbind_ok in H as (doc & Et & H). apply rbind_ok in H as (r & Er & H). injection H as <-.
    destruct defs_doc_of as [DT _]. destruct (DT t St doc Et) as [_ Dd]. destruct xdefs_erase as [XE _].
    cbn [flat_map map]. rewrite StructureP.preorder_f_cons, map_app, Dd, XE, (IH r S Er). reflexivity.
Qed.

Definition strip_kvs (l : list (str * jdoc)) : list (str * jdoc) :=
  flat_map (fun kv => if str_eqb (fst kv) k_cobol then [] else [(fst kv, strip_cobol (snd kv))]) l.

Lemma strip_obj : forall l, strip_cobol (JObj l) = JObj (strip_kvs l).
Proof. reflexivity. Qed.

Lemma strip_kvs_app : forall a b, strip_kvs (a ++ b) = strip_kvs a ++ strip_kvs b.
Proof. intros. apply flat_map_app. Qed.

(* what the document of a node depends on of its clause values *)
Definition isim (x x' : info) : Prop := max_items_doc x = max_items_doc x' /\ json_type_kvs x = json_type_kvs x'.

Definition accsim (a a' : list (str * jdoc)) : Prop :=
  Forall2 (fun p q => fst p = fst q /\ strip_cobol (snd p) = strip_cobol (snd q)) a a'.

Lemma accsim_strip : forall a a', accsim a a' -> strip_kvs a = strip_kvs a'.
Proof.
  intros a a' F. induction F as [|[k v] [k' v'] a a' [K V] F IH]; [reflexivity|]. cbn [fst snd] in *. subst k'.
  unfold strip_kvs in *. cbn [flat_map fst snd]. rewrite V, IH. reflexivity.
Qed.

Lemma accsim_jset : forall k v v' a a', accsim a a' -> strip_cobol v = strip_cobol v' -> accsim (jset k v a) (jset k v' a').
Proof.
  intros k v v' a a' F V. induction F as [|[k1 v1] [k2 v2] a a' [K W] F IH]; cbn [jset].
  - constructor; [split; [reflexivity|exact V]|constructor].
  - cbn [fst snd] in *. subst k2. destruct (str_eqb k1 k).
    + constructor; [split; [reflexivity|exact V]|exact F].
    + constructor; [split; [reflexivity|exact W]|exact IH].
Qed.

Definition strip_Rl (r : R (list (str * jdoc))) : R (list (str * jdoc)) :=
  match r with ROk l => ROk (strip_kvs l) | RErr e => RErr e | RUn w => RUn w end.

Lemma strip_jstrs_cobol : forall c l rest, strip_kvs (jstrs ((k_cobol, c) :: l) ++ rest) = strip_kvs (jstrs l ++ rest).
Proof. reflexivity. Qed.

Lemma Forall2_app_len : forall (T U : Type) (P : T -> U -> Prop) a b a' b', length a = length a' ->
  Forall2 P (a ++ b) (a' ++ b') -> Forall2 P a a' /\ Forall2 P b b'.
Proof.
  intros T U P. induction a as [|x a IH]; intros b [|x' a'] b' L F; cbn [length] in L; try discriminate.
  - split; [constructor|exact F].
  - cbn [app] in F. inversion F as [|? ? ? ? Hx F']; subst. destruct (IH b a' b' (eq_add_S _ _ L) F') as [A B]. split; [constructor; assumption|exact B].
Qed.

(* the decoder's second parse depends on its summary only *)

Lemma est_loop_nopic : forall l u p0, count_pic l = 0%nat -> est_loop l u p0 = ROk (last_usage l u, p0) /\ forall q, last_pic l q = q.
Proof.
  induction l as [|[v|p] l IH]; intros u p0 C; cbn [est_loop last_usage last_pic count_pic] in *.
  - split; [reflexivity|]. intros q. reflexivity.
  - apply IH. exact C.
  - discriminate.
Qed.

Definition est_formula (u : N) (p : option str) : R (N * list SR.Model.Picture.elt) :=
  match p with
  | None => ROk (u, [])
  | Some q => match SR.Model.Picture.dec_normalize q with
              | None => RUn 1
              | Some (Err e) => RErr e
              | Some (Ok es) => ROk (u, es)
              end
  end.

Lemma est_loop_summary : forall l u, (count_pic l <= 1)%nat -> est_loop l u [] = est_formula (last_usage l u) (last_pic l None).
Proof.
  induction l as [|[v|p] l IH]; intros u C; cbn [est_loop last_usage last_pic count_pic] in *.
  - reflexivity.
  - apply IH. exact C.
  - assert (C0 : count_pic l = 0%nat) by lia. destruct (est_loop_nopic l u [] C0) as [_ LP]. rewrite (LP (Some p)). cbn [est_formula].
    destruct (SR.Model.Picture.dec_normalize p) as [[es|e]|]; try reflexivity.
    destruct (est_loop_nopic l u es C0) as [E _]. exact E.
Qed.

Lemma optstr_eqb_eq : forall a b, optstr_eqb a b = true -> a = b.
Proof.
  intros [a|] [b|] H; cbn [optstr_eqb] in H; try discriminate; [|reflexivity]. apply StructureP.str_eqb_eq in H. subst. reflexivity.
Qed.

(* on an entry that is re-read as written the decoder's loop comes to the formula of the entry's own usage and picture *)
Lemma reparse_loop : forall e, reparse_agrees e = true ->
  est_loop (est_items ([ce_d1 e; ce_d2 e; 32%N] ++ SR.Model.RefFormat.compact (ce_body e))) usage_DISPLAY []
  = est_formula (usage_number (spec_info e)) (i_pic (spec_info e)).
Proof.
  intros e H. unfold reparse_agrees in H. apply andb_true_iff in H as [H P]. apply andb_true_iff in H as [C U].
  apply Nat.leb_le in C. apply N.eqb_eq in U. apply optstr_eqb_eq in P.
  rewrite (est_loop_summary _ _ C), U, P. reflexivity.
Qed.

Lemma calcsize_agrees : forall e, reparse_agrees e = true ->
  calcsize_text ([ce_d1 e; ce_d2 e; 32%N] ++ SR.Model.RefFormat.compact (ce_body e))
  = rbind (est_formula (usage_number (spec_info e)) (i_pic (spec_info e)))
      (fun up => let (u, es) := up in
         match SR.Model.Picture.size_loop es 0 with
         | Err ex => RErr ex
         | Ok size =>
             let sl := length (SR.Model.Picture.g_sign (SR.Model.Picture.digit_groups es)) in
             let two := (2 <=? sl)%nat in
             if two && SR.Model.Estruct.mem u SR.Gen.EstructParams.calc_packed && negb (SR.Model.Estruct.mem u SR.Gen.EstructParams.calc_display) && negb (Nat.eqb size 0) then RUn 3
             else
               let p := if two then SR.Model.Estruct.mkpic false size 0 else SR.Model.Estruct.mkpic (Nat.eqb sl 1) (size - sl) 0 in
               match SR.Model.Estruct.calcsize u p with
               | Ok n => ROk n
               | Err ex => RErr ex
               end
         end).
Proof. intros e H. unfold calcsize_text, calcsize_items. rewrite (reparse_loop e H). reflexivity. Qed.

Import SR.Spec.Clauses.

Lemma clauses_str_eqb_eq : forall a b, SR.Spec.Clauses.str_eqb a b = true -> a = b.
Proof. exact ClausesP.spec_str_eqb_eq. Qed.

Lemma filler_same : forall d d', normal d = normal d' ->
  match lookup 13 d with Some f => SR.Spec.Clauses.str_eqb f K_FILLER | None => true end = true ->
  match lookup 13 d' with Some f => SR.Spec.Clauses.str_eqb f K_FILLER | None => true end = true ->
  lookup 13 d = lookup 13 d'.
Proof.
  intros d d' N F F'. pose proof (lookup_same_normal 13 d d' N) as B.
  destruct (lookup 13 d) as [f|], (lookup 13 d') as [f'|]; cbn [option_map] in B; try discriminate; [|reflexivity].
  rewrite (clauses_str_eqb_eq _ _ F), (clauses_str_eqb_eq _ _ F'). reflexivity.
Qed.

Lemma kept_infos_sim : forall xs xs', Forall2 (fun x x' => isim x x' /\ info_skipped x = info_skipped x') xs xs' ->
  Forall2 isim (kept_infos xs) (kept_infos xs').
Proof.
  intros xs xs' F. destruct F as [|x x' xs xs' [Hx _] F]; cbn [kept_infos]; [constructor|]. constructor; [exact Hx|].
  induction F as [|y y' xs xs' [Hy Sy] F IH]; cbn [filter]; [constructor|]. rewrite <- Sy.
  destruct (negb (info_skipped y)); [constructor; assumption|exact IH].
Qed.


(* the numbering convention of Gen/EstructParams.v: the decoder's pattern lists the words in this order *)
Lemma est_words_numbering :
  map (fun w => index_of w est_usage_words 0)
      [[66; 73; 78; 65; 82; 89]; [67; 79; 77; 80; 45; 51]; [67; 79; 77; 80]; [68; 73; 83; 80; 76; 65; 89];
       [80; 65; 67; 75; 69; 68; 45; 68; 69; 67; 73; 77; 65; 76]; [67; 79; 77; 80; 45; 49]; [67; 79; 77; 80; 45; 50]]
  = [Some 0; Some 8; Some 10; Some 11; Some 12; Some 6; Some 7]%N /\ length est_usage_words = 13%nat /\ est_pic_words = [w_PIC; w_PICTURE].
Proof. repeat split; reflexivity. Qed.

(* what json_type and calcsize look at of a usage number *)
Definition jt_class (u : N) : bool * res (N * N * N) :=
  (SR.Model.Estruct.mem u SR.Gen.JsonTypeParams.jt_display, SR.Model.JsonType.chain u SR.Gen.JsonTypeParams.jt_branches).
Definition calc_class (u : N) : list bool :=
  map (SR.Model.Estruct.mem u) [SR.Gen.EstructParams.calc_display; SR.Gen.EstructParams.calc_packed; SR.Gen.EstructParams.calc_float4;
                               SR.Gen.EstructParams.calc_float8; SR.Gen.EstructParams.calc_binary].

Lemma json_type_class : forall u u' txt, jt_class u = jt_class u' -> SR.Model.JsonType.json_type u txt = SR.Model.JsonType.json_type u' txt.
Proof.
  intros u u' txt H. unfold jt_class in H. pose proof (f_equal fst H) as H1. pose proof (f_equal snd H) as H2. cbn [fst snd] in H1, H2.
  unfold SR.Model.JsonType.json_type. rewrite H1, H2. reflexivity.
Qed.

Lemma calc_class_eq : forall u u', calc_class u = calc_class u' ->
  SR.Model.Estruct.mem u SR.Gen.EstructParams.calc_display = SR.Model.Estruct.mem u' SR.Gen.EstructParams.calc_display
  /\ SR.Model.Estruct.mem u SR.Gen.EstructParams.calc_packed = SR.Model.Estruct.mem u' SR.Gen.EstructParams.calc_packed
  /\ SR.Model.Estruct.mem u SR.Gen.EstructParams.calc_float4 = SR.Model.Estruct.mem u' SR.Gen.EstructParams.calc_float4
  /\ SR.Model.Estruct.mem u SR.Gen.EstructParams.calc_float8 = SR.Model.Estruct.mem u' SR.Gen.EstructParams.calc_float8
  /\ SR.Model.Estruct.mem u SR.Gen.EstructParams.calc_binary = SR.Model.Estruct.mem u' SR.Gen.EstructParams.calc_binary.
Proof.
  intros u u' H. unfold calc_class in H. cbn [map] in H. injection H as H1 H2 H3 H4 H5. repeat split; assumption.
Qed.

Lemma calcsize_class : forall u u' p, calc_class u = calc_class u' -> SR.Model.Estruct.calcsize u p = SR.Model.Estruct.calcsize u' p.
Proof.
  intros u u' p H. destruct (calc_class_eq u u' H) as (H1 & H2 & H3 & H4 & H5).
  unfold SR.Model.Estruct.calcsize. rewrite H1, H2, H3, H4, H5. reflexivity.
Qed.

(* estruct.calcsize after the scan (Model/Pipeline.v calcsize_items), as a function of the usage and the picture that won *)
Definition size_formula (u : N) (es : list SR.Model.Picture.elt) : R N :=
  match SR.Model.Picture.size_loop es 0 with
  | Err ex => RErr ex
  | Ok size =>
      let sl := length (SR.Model.Picture.g_sign (SR.Model.Picture.digit_groups es)) in
      let two := (2 <=? sl)%nat in
      if two && SR.Model.Estruct.mem u SR.Gen.EstructParams.calc_packed && negb (SR.Model.Estruct.mem u SR.Gen.EstructParams.calc_display) && negb (Nat.eqb size 0) then RUn 3
      else
        let p := if two then SR.Model.Estruct.mkpic false size 0 else SR.Model.Estruct.mkpic (Nat.eqb sl 1) (size - sl) 0 in
        match SR.Model.Estruct.calcsize u p with
        | Ok n => ROk n
        | Err ex => RErr ex
        end
  end.

Lemma size_formula_class : forall u u' p, calc_class u = calc_class u' ->
  rbind (est_formula u p) (fun up => let (v, es) := up in size_formula v es)
  = rbind (est_formula u' p) (fun up => let (v, es) := up in size_formula v es).
Proof.
  intros u u' p CC.
  assert (K : forall es, size_formula u es = size_formula u' es).
  { intros es. unfold size_formula. destruct (calc_class_eq u u' CC) as (C0 & C1 & _). rewrite C0, C1.
    destruct (SR.Model.Picture.size_loop es 0) as [size|ex]; [|reflexivity]. cbv zeta. rewrite (calcsize_class u u' _ CC). reflexivity. }
  unfold est_formula. destruct p as [q|]; cbn [rbind]; [|apply K].
  destruct (SR.Model.Picture.dec_normalize q) as [[es|e]|]; cbn [rbind]; try reflexivity. apply K.
Qed.

Definition word_of (u : N) : str := nth (N.to_nat u) est_usage_words [].

Definition R13 : list N := [0;1;2;3;4;5;6;7;8;9;10;11;12].

(* the classes of a usage number can be read off the content of its word: those of the first word of the list with that content *)
Definition classes_of_word (w : SR.Spec.Clauses.str) : (bool * res (N * N * N)) * list bool :=
  match find (fun v => SR.Spec.Clauses.str_eqb (norm_value 11 (word_of v)) w) R13 with
  | Some v => (jt_class v, calc_class v)
  | None => (jt_class 0, calc_class 0)
  end.

Lemma classes_by_word : forall u, In u R13 -> (jt_class u, calc_class u) = classes_of_word (norm_value 11 (word_of u)).
Proof. apply map_ext_in_iff. vm_compute. reflexivity. Qed.

Lemma family_classes : forall u u', In u R13 -> In u' R13 -> norm_value 11 (word_of u) = norm_value 11 (word_of u') ->
  jt_class u = jt_class u' /\ calc_class u = calc_class u'.
Proof.
  intros u u' Hu Hu' E. pose proof (classes_by_word u Hu) as A. rewrite E, <- (classes_by_word u' Hu') in A.
  split; [exact (f_equal fst A)|exact (f_equal snd A)].
Qed.

Lemma index_of_spec : forall w l i u, index_of w l i = Some u ->
  (N.to_nat i <= N.to_nat u < N.to_nat i + length l)%nat /\ nth (N.to_nat u - N.to_nat i) l [] = w.
Proof.
  intros w. induction l as [|x l IH]; intros i u H; cbn [index_of] in H; [discriminate|].
  destruct (SR.Model.Structure.str_eqb x w) eqn:E.
  - injection H as <-. apply StructureP.str_eqb_eq in E. subst x. cbn [length]. split; [lia|]. rewrite Nat.sub_diag. reflexivity.
  - destruct (IH _ _ H) as [R Nn]. cbn [length]. split; [lia|].
    replace (N.to_nat u - N.to_nat i)%nat with (S (N.to_nat u - N.to_nat (i + 1)))%nat by lia. exact Nn.
Qed.

Lemma in_R13 : forall u, (N.to_nat u < 13)%nat -> In u R13.
Proof.
  intros u H. change R13 with (map N.of_nat (seq 0 13)). rewrite <- (N2Nat.id u). apply in_map, in_seq. lia.
Qed.

Lemma R13_lt : forall u, In u R13 -> (u < 13)%N.
Proof.
  intros u H. change R13 with (map N.of_nat (seq 0 13)) in H. apply in_map_iff in H as (n & <- & H). apply in_seq in H. lia.
Qed.

Lemma index_word : forall w u, index_of w est_usage_words 0 = Some u -> In u R13 /\ word_of u = w.
Proof.
  intros w u H. destruct (index_of_spec _ _ _ _ H) as [R Nn]. rewrite (proj1 (proj2 est_words_numbering)) in R.
  split; [apply in_R13; lia|]. unfold word_of. rewrite Nat.sub_0_r in Nn. exact Nn.
Qed.

(* the decoder's scanner only reports positions of its own word list *)
Lemma est_usage_from_range : forall b ws i s u r, est_usage_from_b b ws i s = Some (u, r) ->
  (N.to_nat i <= N.to_nat u < N.to_nat i + length ws)%nat.
Proof.
  intros b. induction ws as [|w ws IH]; intros i s u r H; cbn [est_usage_from_b] in H; [discriminate|].
  destruct (lit_cs w s) as [rest|].
  - destruct (est_after_ok b rest); [injection H as <- _; cbn [length]; lia|]. specialize (IH _ _ _ _ H). cbn [length]. lia.
  - specialize (IH _ _ _ _ H). cbn [length]. lia.
Qed.

(* an instance of the lemma above, given as such: checking a hypothesis about est_usage_at_b against est_usage_from_b on the
   word list makes the conversion test unfold the list first, which is slow *)
Lemma est_usage_at_range : forall b s u r, est_usage_at_b b s = Some (u, r) ->
  (N.to_nat 0 <= N.to_nat u < N.to_nat 0 + length est_usage_words)%nat.
Proof. intros b s. exact (est_usage_from_range b est_usage_words 0 s). Qed.

Lemma first_some_in : forall (A B : Type) (f : A -> option B) l y, SR.Model.Clauses.first_some f l = Some y -> exists x, In x l /\ f x = Some y.
Proof.
  intros A B f. induction l as [|x l IH]; intros y H; cbn [SR.Model.Clauses.first_some] in H; [discriminate|].
  destruct (f x) eqn:E; [injection H as <-; exists x; split; [left; reflexivity|exact E]|].
  destruct (IH y H) as (x0 & I & F). exists x0. split; [right; exact I|exact F].
Qed.

Lemma est_token_usage_range : forall b prev s u r, est_token_at_b b prev s = Some (EUsage u, r) -> In u R13.
Proof.
  intros b prev s u r H. unfold est_token_at_b in H. destruct (est_before_ok b prev); [|discriminate].
  destruct (est_alt_usage_b b s) as [[v r0]|] eqn:E.
  - injection H as <- _. unfold est_alt_usage_b in E. destruct (first_some_in _ _ _ _ _ E) as (x & _ & F).
    apply est_usage_at_range in F. rewrite (proj1 (proj2 est_words_numbering)) in F. apply in_R13. lia.
  - destruct (est_alt_picture s) as [[p r0]|]; discriminate.
Qed.

Lemma last_usage_range_b : forall b s prev skip u0, In u0 R13 -> In (last_usage (est_scan_b b prev skip s) u0) R13.
Proof.
  intros b. induction s as [|c t IH]; intros prev skip u0 H; cbn [est_scan_b last_usage]; [exact H|].
  destruct skip as [|k]; [|apply IH; exact H].
  destruct (est_token_at_b b prev (c :: t)) as [[[v|p] rest]|] eqn:E; cbn [last_usage]; try (apply IH; exact H).
  apply IH. apply (est_token_usage_range _ _ _ _ _ E).
Qed.

Lemma last_usage_range : forall s prev skip u0, In u0 R13 -> In (last_usage (est_scan prev skip s) u0) R13.
Proof. intros. apply last_usage_range_b. assumption. Qed.

Lemma reparse_usage_range : forall e, reparse_agrees e = true -> In (usage_number (spec_info e)) R13.
Proof.
  intros e H. unfold reparse_agrees in H. apply andb_true_iff in H as [H _]. apply andb_true_iff in H as [_ U]. apply N.eqb_eq in U.
  rewrite <- U. unfold est_items, est_items_b. apply last_usage_range_b. apply in_R13. cbn. lia.
Qed.

(* two entries with the same clause content, both re-read as written: their usage numbers name words of one family *)
Lemma usage_same_family : forall e e', normal (ce_dict e) = normal (ce_dict e') -> reparse_agrees e = true -> reparse_agrees e' = true ->
  In (usage_number (spec_info e)) R13 /\ In (usage_number (spec_info e')) R13
  /\ norm_value 11 (word_of (usage_number (spec_info e))) = norm_value 11 (word_of (usage_number (spec_info e'))).
Proof.
  intros e e' N RA RA'. pose proof (reparse_usage_range e RA) as Ru. pose proof (reparse_usage_range e' RA') as Ru'.
  split; [exact Ru|]. split; [exact Ru'|].
  pose proof (lookup_same_normal 11 _ _ N) as B.
  unfold usage_number, spec_info in *. cbn [i_usage] in *.
  destruct (lookup 11 (ce_dict e)) as [w|], (lookup 11 (ce_dict e')) as [w'|]; cbn [option_map] in B; try discriminate; [|reflexivity].
  injection B as B.
  destruct (index_of w est_usage_words 0) as [u|] eqn:Eu; [|apply R13_lt in Ru; discriminate Ru].
  destruct (index_of w' est_usage_words 0) as [u'|] eqn:Eu'; [|apply R13_lt in Ru'; discriminate Ru'].
  rewrite (proj2 (index_word _ _ Eu)), (proj2 (index_word _ _ Eu')). exact B.
Qed.

Lemma usage_classes : forall e e', normal (ce_dict e) = normal (ce_dict e') -> reparse_agrees e = true -> reparse_agrees e' = true ->
  jt_class (usage_number (spec_info e)) = jt_class (usage_number (spec_info e'))
  /\ calc_class (usage_number (spec_info e)) = calc_class (usage_number (spec_info e')).
Proof. intros e e' N RA RA'. destruct (usage_same_family e e' N RA RA') as (I & I' & E). apply family_classes; assumption. Qed.

Theorem doc_r_noredef : (forall t, noredef t = true -> doc_r t = doc_of t)
  /\ (forall ks, noredef_f ks = true -> forall acc, docs_kids_r ks acc = docs_kids ks acc /\ docs_kids_o ks acc = docs_kids ks acc).
Proof.
  apply xtree_xforest_ind.
  - intros d b x kids IH NR. cbn [noredef] in NR. apply andb_true_iff in NR as [_ NRk]. cbn [doc_r doc_of].
    destruct (IH NRk []) as [E1 E2]. rewrite E1, E2. reflexivity.
  - intros _ acc. split; reflexivity.
  - intros k IHk r IHr NR acc. cbn [noredef_f] in NR. apply andb_true_iff in NR as [NRk NRr].
    cbn [docs_kids_r docs_kids_o docs_kids].
    rewrite (noredef_xeff k NRk), (IHk NRk). split; destruct (doc_of k) as [dk| |]; cbn [rbind]; try reflexivity; apply (IHr NRr).
Qed.

Module DefsR.
Import SR.Model.Structure.
Local Notation str := SR.Model.Pipeline.str.

Lemma jfind_split : forall k (l : list (str * jdoc)) v, jfind k l = Some v ->
  exists a1 a2, l = a1 ++ (k, v) :: a2 /\ ~ In k (map fst a1).
Proof.
  intros k. induction l as [|[k1 v1] l IH]; intros v H; cbn [jfind] in H; [discriminate|].
  destruct (str_eqb k1 k) eqn:Q.
  - apply StructureP.str_eqb_eq in Q. subst k1. injection H as <-. exists [], l. split; [reflexivity|intros []].
  - destruct (IH v H) as (a1 & a2 & E & N). exists ((k1, v1) :: a1), a2. split; [rewrite E; reflexivity|].
    cbn [map fst]. intros [I|I]; [subst; rewrite StructureP.str_eqb_refl in Q; discriminate|exact (N I)].
Qed.

Lemma jfind_app_other : forall k (a1 : list (str * jdoc)) a2, ~ In k (map fst a1) -> jfind k (a1 ++ a2) = jfind k a2.
Proof.
  intros k. induction a1 as [|[k1 v1] a1 IH]; intros a2 N; [reflexivity|]. apply notin_keys_cons in N as [E N].
  cbn [app jfind]. rewrite E. apply (IH _ N).
Qed.

Lemma jfind_jset_other : forall k k' v (l : list (str * jdoc)), str_eqb k k' = false -> jfind k' (jset k v l) = jfind k' l.
Proof.
  intros k k' v. induction l as [|[k1 v1] l IH]; intros N; cbn [jset jfind].
  - rewrite N. reflexivity.
  - destruct (str_eqb k1 k) eqn:Q; cbn [jfind].
    + apply StructureP.str_eqb_eq in Q. subst k1. rewrite N. reflexivity.
    + destruct (str_eqb k1 k'); [reflexivity|apply IH; exact N].
Qed.

Lemma fdefs_mid : forall a1 k v a2, fdefs (a1 ++ (k, v) :: a2) = fdefs a1 ++ defs v ++ fdefs a2.
Proof. intros. rewrite fdefs_app, fdefs_cons. reflexivity. Qed.

Lemma objs_mid : forall a1 k v a2, objs (a1 ++ (k, v) :: a2) = objs a1 && is_obj v && objs a2.
Proof. intros. rewrite objs_app. unfold objs at 2. cbn [forallb snd]. fold (objs a2). rewrite andb_assoc. reflexivity. Qed.

(* appending an alternative to a oneOf entry adds exactly its definitions *)
Lemma oneof_add_defs : forall key dk acc acc2, oneof_add key dk acc = ROk acc2 -> objs acc = true -> is_obj dk = true ->
  objs acc2 = true /\ Permutation (fdefs acc2) (fdefs acc ++ defs dk) /\ map fst acc2 = map fst acc.
Proof.
  intros key dk acc acc2 H O Od. unfold oneof_add in H.
  destruct (jfind key acc) as [[ | |kvs| ]|] eqn:J; try discriminate.
  destruct (jfind k_oneOf kvs) as [[ | | |l]|] eqn:J1; try discriminate. injection H as <-.
  destruct (jfind_split _ _ _ J) as (b1 & b2 & E & N). destruct (jfind_split _ _ _ J1) as (c1 & c2 & E1 & N1). subst acc kvs.
  rewrite (Redef.jset_mid _ _ _ _ _ N), (Redef.jset_mid _ _ _ _ _ N1).
  rewrite objs_mid in O. apply andb_true_iff in O as [O O2]. apply andb_true_iff in O as [O1 _].
  split; [rewrite objs_mid, O1, O2; reflexivity|]. split.
  - rewrite !fdefs_mid, !defs_obj.
    assert (HD : head_def (c1 ++ (k_oneOf, JArr (l ++ [dk])) :: c2) = head_def (c1 ++ (k_oneOf, JArr l) :: c2)).
    { unfold head_def. rewrite <- (Redef.jset_mid k_oneOf (JArr l) (JArr (l ++ [dk])) c1 c2 N1).
      rewrite !jfind_jset_other by reflexivity. reflexivity. }
    rewrite HD, !fdefs_mid. cbn [defs]. rewrite flat_map_app. cbn [flat_map]. rewrite app_nil_r.
    rewrite <- !app_assoc. do 4 apply Permutation_app_head.
    apply Permutation_trans with (l' := (fdefs c2 ++ fdefs b2) ++ defs dk); [apply Permutation_app_comm|rewrite <- app_assoc; apply Permutation_refl].
  - rewrite !map_app. reflexivity.
Qed.

Definition KI (acc : list (str * jdoc)) (pn : list str) : Prop :=
  forall key, In key (map fst acc) -> Redef.redkey key = true \/ In key pn.

Lemma fresh_key : forall acc pn k, KI acc pn -> Redef.redkey k = false -> existsb (str_eqb k) pn = false ->
  existsb (str_eqb k) (map fst acc) = false.
Proof.
  intros acc pn k K R N. destruct (existsb (str_eqb k) (map fst acc)) eqn:E; [|reflexivity].
  apply Redef.existsb_str_In in E. destruct (K k E) as [Q|Q]; [congruence|]. apply Redef.existsb_str_In in Q. congruence.
Qed.

Lemma KI_snoc : forall acc pn k v, KI acc pn -> KI (acc ++ [(k, v)]) (pn ++ [k]).
Proof.
  intros acc pn k v K key I. rewrite map_app in I. apply in_app_or in I as [I|[<-|[]]].
  - destruct (K key I) as [Q|Q]; [left; exact Q|right; apply in_or_app; left; exact Q].
  - right. apply in_or_app. right. left. reflexivity.
Qed.

Lemma KI_red : forall acc pn k v, KI acc pn -> Redef.redkey k = true -> KI (acc ++ [(k, v)]) pn.
Proof.
  intros acc pn k v K R key I. rewrite map_app in I. apply in_app_or in I as [I|[<-|[]]]; [apply (K key I)|left; exact R].
Qed.

Definition D2t (t : xtree) : Prop := shape_ok t = true -> forall anc, names_wf anc t = true ->
  forall doc, doc_r t = ROk doc -> is_obj doc = true /\ Permutation (defs doc) (xdefs t).

(* F: one of the two loops over the children ks, as a function of the properties collected so far *)
Definition kids_defs (F : list (str * jdoc) -> R (list (str * jdoc))) (ks : xforest) : Prop :=
  forall acc pn props, nodup_str (pn ++ knames ks) = true -> KI acc pn -> objs acc = true -> F acc = ROk props ->
    objs props = true /\ Permutation (fdefs props) (fdefs acc ++ xdefs_f ks).

Definition D2f (ks : xforest) : Prop := shape_ok_f ks = true -> forall anc, names_wf_f anc ks = true ->
  kids_defs (docs_kids_r ks) ks /\ kids_defs (docs_kids_o ks) ks.

Lemma D2f_cons : forall k r, D2t k -> D2f r -> D2f (XCons k r).
Proof.
  intros k r IHk IHr S anc W. cbn [shape_ok_f] in S. apply andb_true_iff in S as [Sk Sr].
  cbn [names_wf_f] in W. apply andb_true_iff in W as [Wk Wr]. destruct (IHr Sr anc Wr) as [IR IO].
  pose proof (Redef.names_wf_redkey _ _ Wk) as Rk.
  (* the child is entered under its own name (its document, or a placeholder); F: the rest of either loop *)
  assert (ENTER : forall F, kids_defs F r ->
            forall acc pn v props, nodup_str (pn ++ knames (XCons k r)) = true -> KI acc pn -> objs acc = true -> is_obj v = true ->
              F (jset (du (xdde k)) v acc) = ROk props ->
              objs props = true /\ Permutation (fdefs props) ((fdefs acc ++ defs v) ++ xdefs_f r)).
  { intros F IF acc pn v props ND K O Ov H. cbn [knames] in ND. destruct (nodup_mid _ _ _ ND) as [Fr ND2].
    rewrite (jset_fresh _ _ _ (fresh_key _ pn _ K Rk Fr)) in H. rewrite <- (fdefs_snoc acc (du (xdde k)) v).
    apply (IF _ _ props ND2 (KI_snoc _ _ _ _ K)); [rewrite objs_snoc, O, Ov; reflexivity|exact H]. }
  assert (PLAIN : forall F, kids_defs F r ->
            kids_defs (fun acc => rbind (doc_r k) (fun dk => F (jset (du (xdde k)) dk acc))) (XCons k r)).
  { intros F IF acc pn props ND K O H. apply rbind_ok in H as (dk & Ek & H). destruct (IHk Sk anc Wk dk Ek) as [Ok Dk].
    destruct (ENTER F IF acc pn dk props ND K O Ok H) as [Op Pp]. split; [exact Op|].
    apply (Permutation_trans Pp). cbn [xdefs_f]. rewrite <- app_assoc. apply Permutation_app_head, Permutation_app_tail, Dk. }
  split.
  - intros acc pn props ND K O H. cbn [docs_kids_r] in H. destruct (xeff_redef k) as [tgt|] eqn:X; [|apply (PLAIN _ IR acc pn props ND K O H)].
    cbv zeta in H. apply rbind_ok in H as (dk & Ek & H). apply rbind_ok in H as (acc2 & OA & H).
    destruct (IHk Sk anc Wk dk Ek) as [Ok Dk].
    set (key := redef_key tgt) in *.
    set (acc1 := match jfind key acc with Some _ => acc | None => acc ++ [(key, oneof_new key)] end) in *.
    assert (A1 : KI acc1 pn /\ objs acc1 = true /\ fdefs acc1 = fdefs acc).
    { unfold acc1. destruct (jfind key acc); [repeat split; assumption|]. split; [apply KI_red; [exact K|apply Redef.redkey_redef]|].
      split; [rewrite objs_snoc, O; reflexivity|]. rewrite fdefs_snoc. apply app_nil_r. }
    destruct A1 as (K1 & O1 & F1).
    destruct (oneof_add_defs _ _ _ _ OA O1 Ok) as (O2 & P2 & M2).
    assert (K2 : KI acc2 pn) by (intros key0 I; rewrite M2 in I; apply (K1 key0 I)).
    destruct (ENTER _ IR acc2 pn (placeholder k) props ND K2 O2 eq_refl H) as [Op Pp]. split; [exact Op|].
    apply (Permutation_trans Pp). rewrite app_nil_r. cbn [xdefs_f]. rewrite app_assoc. apply Permutation_app_tail.
    apply (Permutation_trans P2). rewrite F1. apply Permutation_app_head, Dk.
  - intros acc pn props ND K O H. cbn [docs_kids_o] in H. destruct (xeff_redef k) as [tgt|]; [discriminate|].
    apply (PLAIN _ IO acc pn props ND K O H).
Qed.

Lemma KI_nil : forall pn, KI [] pn.
Proof. intros pn key []. Qed.

Lemma D2t_node : forall d b x kids, D2f kids -> D2t (XNode d b x kids).
Proof.
  intros d b x kids IH S anc W doc H. cbn [shape_ok] in S. apply andb_true_iff in S as [S Leaf]. apply andb_true_iff in S as [ND Sk].
  destruct (IH Sk _ (Redef.names_wf_kids _ _ _ _ _ W)) as [IR IO].
  rewrite doc_r_node in H. apply (defs_node (@Permutation _) d b x kids _ _ doc (perm_nil _) (@perm_skip _)) with (3 := H); [exact Leaf|].
  intros props Ek. destruct (eocc (de d)); [apply (IO [] [] props ND (KI_nil []) eq_refl Ek)|apply (IR [] [] props ND (KI_nil []) eq_refl Ek)].
Qed.

Theorem defs_doc_r : (forall t, D2t t) /\ (forall ks, D2f ks).
Proof.
  apply xtree_xforest_ind.
  - intros d b x kids IH. apply D2t_node. exact IH.
  - intros _ anc _. split; intros acc pn props _ _ O H; cbn [docs_kids_r docs_kids_o] in H; injection H as <-;
      (split; [exact O|]); cbn [xdefs_f]; rewrite app_nil_r; apply Permutation_refl.
  - intros k IHk r IHr. apply D2f_cons; assumption.
Qed.
End DefsR.


Lemma docs_r_defs : forall xf docs, forallb shape_ok xf = true -> forallb (names_wf []) xf = true -> docs_r xf = ROk docs ->
  Permutation (flat_map defs docs) (map name_cobol (SR.Model.Structure.preorder_f (map erase xf))).
Proof.
  induction xf as [|t xf IH]; intros docs S W H; cbn [docs_r] in H.
  - injection H as <-. apply Permutation_refl.
  - cbn [forallb] in S, W. apply andb_true_iff in S as [St S]. apply andb_true_iff in W as [Wt W].
    apply rbind_ok in H as (doc & Et & H). apply rbind_ok in H as (r & Er & H). injection H as <-.
    destruct DefsR.defs_doc_r as [DT _]. destruct (DT t St [] Wt doc Et) as [_ Dd]. destruct xdefs_erase as [XE _].
    cbn [flat_map map]. rewrite SR.Proofs.StructureP.preorder_f_cons, map_app. apply Permutation_app; [rewrite <- XE; exact Dd|apply (IH r S W Er)].
Qed.

Module Resp2.
Import SR.Model.Structure.
Local Notation str := SR.Model.Pipeline.str.

(* structure() on entry lists that agree on level, name and REDEFINES target *)

Section Sim2.
  Variable Rd : dde -> dde -> Prop.
  Hypothesis Rd_lv : forall d d', Rd d d' -> dlv d = dlv d'.
  Hypothesis Rd_red : forall d d', Rd d d' -> eredef (de d) = eredef (de d').
  Hypothesis Rd_nm : forall d d', Rd d d' -> dde_name (de d) = dde_name (de d').

  Inductive tsim : tree -> tree -> Prop :=
  | ts_node : forall d b kids d' kids', Rd d d' -> Forall2 tsim kids kids' -> tsim (TNode d b kids) (TNode d' b kids').

  Definition fsim (f f' : frame) : Prop := Rd (fd f) (fd f') /\ Forall2 tsim (fkids f) (fkids f').

  Lemma close_sim : forall f f', fsim f f' -> tsim (close f) (close f').
  Proof. intros f f' [H1 H2]. unfold close. constructor; assumption. Qed.

  Lemma attach_sim : forall t t' f f', tsim t t' -> fsim f f' -> fsim (attach t f) (attach t' f').
  Proof. intros t t' f f' Ht [H1 H2]. split; [exact H1|]. unfold attach. cbn [fkids]. apply Forall2_app; [exact H2|constructor; [exact Ht|constructor]]. Qed.

  Lemma pop_sim : forall x rest rest' cur cur', fsim cur cur' -> Forall2 fsim rest rest' ->
    match pop x cur rest, pop x cur' rest' with
    | inl (b, r), inl (b', r') => fsim b b' /\ Forall2 fsim r r'
    | inr t, inr t' => tsim t t'
    | _, _ => False
    end.
  Proof.
    intros x rest rest' cur cur' Hc Hr. revert cur cur' Hc. induction Hr as [|p p' rest rest' Hp Hr IH]; intros cur cur' Hc; cbn [pop];
      rewrite <- (Rd_lv _ _ (proj1 Hc)); destruct (pop_test x (dlv (fd cur))).
    - apply close_sim. exact Hc.
    - split; [exact Hc|constructor].
    - apply IH. apply attach_sim; [apply close_sim; exact Hc|exact Hp].
    - split; [exact Hc|constructor; assumption].
  Qed.

  Lemma name_is_sim : forall tgt t t', tsim t t' -> name_is tgt t = name_is tgt t'.
  Proof. intros tgt t t' T. destruct T as [d b kids d' kids' Hd _]. unfold name_is. cbn [troot]. rewrite (Rd_nm _ _ Hd). reflexivity. Qed.

  Lemma set_based_sim : forall t t', tsim t t' -> tsim (set_based t) (set_based t').
  Proof. intros t t' T. destruct T as [d b kids d' kids' Hd Hk]. cbn [set_based]. constructor; assumption. Qed.

  Lemma mark_unique_sim : forall tgt kids kids', Forall2 tsim kids kids' ->
    match mark_unique tgt kids, mark_unique tgt kids' with
    | Some a, Some a' => Forall2 tsim a a'
    | None, None => True
    | _, _ => False
    end.
  Proof.
    intros tgt kids kids' F. unfold mark_unique.
    assert (FL : Forall2 tsim (filter (name_is tgt) kids) (filter (name_is tgt) kids')).
    { induction F as [|t t' kids kids' Ht F IH]; cbn [filter]; [constructor|]. rewrite <- (name_is_sim tgt _ _ Ht).
      destruct (name_is tgt t); [constructor; assumption|exact IH]. }
    assert (MP : Forall2 tsim (map (fun t => if name_is tgt t then set_based t else t) kids)
                              (map (fun t => if name_is tgt t then set_based t else t) kids')).
    { clear FL. induction F as [|t t' kids kids' Ht F IH]; cbn [map]; [constructor|]. constructor; [|exact IH]. rewrite <- (name_is_sim tgt _ _ Ht).
      destruct (name_is tgt t); [apply set_based_sim; exact Ht|exact Ht]. }
    destruct FL as [|a a' l l' _ FL']; [exact I|]. destruct FL' as [|? ? ? ? _ _]; [exact MP|exact I].
  Qed.

  Definition ssim (s s' : state) : Prop :=
    Forall2 tsim (roots s) (roots s') /\ fsim (cur s) (cur s') /\ Forall2 fsim (rest s) (rest s').

  Lemma skipped_sim : forall d d', Rd d d' -> skipped d = skipped d'.
  Proof. intros d d' H. unfold skipped. rewrite (Rd_lv _ _ H). reflexivity. Qed.

  Lemma open_sim : forall d d', Rd d d' -> fsim (open d) (open d').
  Proof. intros d d' H. split; [exact H|constructor]. Qed.

  Definition rsim (r r' : res state) : Prop :=
    match r, r' with Ok s, Ok s' => ssim s s' | Err e, Err e' => e = e' | _, _ => False end.

  Lemma step_sim : forall s s' d d', ssim s s' -> Rd d d' -> rsim (step s d) (step s' d').
  Proof.
    intros s s' d d' (Hroots & Hcur & Hrest) Hd. unfold step. rewrite <- (skipped_sim _ _ Hd).
    destruct (skipped d); [exact (conj Hroots (conj Hcur Hrest))|].
    pose proof (pop_sim (dlv d) (rest s) (rest s') (cur s) (cur s') Hcur Hrest) as PS. rewrite <- (Rd_lv _ _ Hd), <- (Rd_red _ _ Hd).
    destruct (pop (dlv d) (cur s) (rest s)) as [[b r]|t], (pop (dlv d) (cur s') (rest s')) as [[b' r']|t']; try contradiction.
    - destruct PS as [Hb Hr]. destruct (eredef (de d)) as [tgt|].
      + pose proof (mark_unique_sim tgt _ _ (proj2 Hb)) as MS.
        destruct (mark_unique tgt (fkids b)) as [k1|], (mark_unique tgt (fkids b')) as [k1'|]; try contradiction; [|reflexivity].
        split; [exact Hroots|]. split; [apply open_sim; exact Hd|]. constructor; [split; [exact (proj1 Hb)|exact MS]|exact Hr].
      + split; [exact Hroots|]. split; [apply open_sim; exact Hd|]. constructor; assumption.
    - split; [cbn [roots]; apply Forall2_app; [exact Hroots|constructor; [exact PS|constructor]]|].
      split; [apply open_sim; exact Hd|constructor].
  Qed.

  Lemma run_sim : forall l l', Forall2 Rd l l' -> forall s s', ssim s s' -> rsim (run s l) (run s' l').
  Proof.
    intros l l' F. induction F as [|d d' l l' Hd F IH]; intros s s' Hs; cbn [run]; [exact Hs|].
    pose proof (step_sim s s' d d' Hs Hd) as SS. destruct (step s d) as [s1|e], (step s' d') as [s1'|e']; try contradiction; [apply IH; exact SS|exact SS].
  Qed.

  Lemma collapse_sim : forall rest rest', Forall2 fsim rest rest' -> forall cur cur', fsim cur cur' ->
    tsim (collapse cur rest) (collapse cur' rest').
  Proof.
    intros rest rest' F. induction F as [|p p' rest rest' Hp F IH]; intros cur cur' Hc; cbn [collapse]; [apply close_sim; exact Hc|].
    apply IH. apply attach_sim; [apply close_sim; exact Hc|exact Hp].
  Qed.

  Lemma structure_ddes_sim : forall l l', Forall2 Rd l l' ->
    match structure_ddes l, structure_ddes l' with
    | Ok f, Ok f' => Forall2 tsim f f'
    | Err e, Err e' => e = e'
    | _, _ => False
    end.
  Proof.
    intros l l' F. destruct F as [|d d' l l' Hd F]; [reflexivity|]. cbn [structure_ddes].
    assert (I : ssim {| roots := []; cur := open d; rest := [] |} {| roots := []; cur := open d'; rest := [] |}).
    { split; [constructor|]. split; [apply open_sim; exact Hd|constructor]. }
    pose proof (run_sim l l' F _ _ I) as RS.
    destruct (run {| roots := []; cur := open d; rest := [] |} l) as [s1|e], (run {| roots := []; cur := open d'; rest := [] |} l') as [s1'|e'];
      try contradiction; [|exact RS].
    destruct RS as (Hr & Hc & Hrest). unfold finish. apply Forall2_app; [exact Hr|constructor; [apply collapse_sim; assumption|constructor]].
  Qed.
End Sim2.

(* what a document depends on besides the cobol text, REDEFINES target included *)

Definition dsim2 (d d' : dde) : Prop :=
  dlv d = dlv d' /\ du d = du d' /\ dde_name (de d) = dde_name (de d') /\ eredef (de d) = eredef (de d')
  /\ epic (de d) = epic (de d') /\ eocc (de d) = eocc (de d') /\ calcsize_text (cobol_of d) = calcsize_text (cobol_of d').

Definition esim2 (e e' : entry) : Prop :=
  elv e = elv e' /\ dde_name e = dde_name e' /\ eredef e = eredef e' /\ epic e = epic e' /\ eocc e = eocc e'
  /\ calcsize_text ([fst (elv e); snd (elv e); 32%N] ++ etext e) = calcsize_text ([fst (elv e'); snd (elv e'); 32%N] ++ etext e').

Lemma mk_ddes_sim2 : forall l l', Forall2 esim2 l l' -> forall c, Forall2 dsim2 (mk_ddes c l) (mk_ddes c l').
Proof.
  intros l l' F. induction F as [|e e' l l' (L & Nm & R1 & Ep & Eo & Cs) F IH]; intros c; cbn [mk_ddes]; [constructor|].
  assert (IF : is_filler e' = is_filler e) by (unfold is_filler; rewrite Nm; reflexivity). rewrite IF, <- Nm, <- L.
  destruct (is_filler e); (constructor; [|apply IH]); unfold dsim2, dlv, cobol_of, dlv; cbn [de du]; repeat split; assumption.
Qed.

Inductive xsim2 : xtree -> xtree -> Prop :=
| xs2_node : forall d b x kids d' x' kids', dsim2 d d' -> isim x x' -> xsim2_f kids kids' -> xsim2 (XNode d b x kids) (XNode d' b x' kids')
with xsim2_f : xforest -> xforest -> Prop :=
| xs2_nil : xsim2_f XNil XNil
| xs2_cons : forall k r k' r', xsim2 k k' -> xsim2_f r r' -> xsim2_f (XCons k r) (XCons k' r').

Scheme xsim2_mut := Induction for xsim2 Sort Prop
with xsim2_f_mut := Induction for xsim2_f Sort Prop.
Combined Scheme xsim2_ind2 from xsim2_mut, xsim2_f_mut.

Theorem xsim2_of : (forall xt xt', tsim dsim2 (erase xt) (erase xt') ->
                     length (xpre xt) = length (xpre xt') /\ (Forall2 isim (xpre xt) (xpre xt') -> xsim2 xt xt'))
  /\ (forall ks ks', Forall2 (tsim dsim2) (erase_f ks) (erase_f ks') ->
                     length (xpre_f ks) = length (xpre_f ks') /\ (Forall2 isim (xpre_f ks) (xpre_f ks') -> xsim2_f ks ks')).
Proof.
  apply xtree_xforest_ind.
  - intros d b x kids IH [d' b' x' kids'] T. cbn [erase] in T. inversion T as [? ? ? ? ? Hd Hk]; subst.
    destruct (IH kids' Hk) as [Len Sim]. cbn [xpre length]. split; [rewrite Len; reflexivity|].
    intros F. inversion F as [|? ? ? ? Hx F']; subst. constructor; [exact Hd|exact Hx|apply Sim; exact F'].
  - intros [|k' r'] T; cbn [erase_f] in T; inversion T. split; [reflexivity|]. intros _. constructor.
  - intros k IHk r IHr [|k' r'] T; cbn [erase_f] in T; inversion T as [|? ? ? ? Hk Hr]; subst.
    destruct (IHk k' Hk) as [Lk Sk]. destruct (IHr r' Hr) as [Lr Sr]. cbn [xpre_f]. rewrite !app_length. split; [lia|].
    intros F. destruct (Forall2_app_len _ _ _ _ _ _ _ Lk F) as [Fk Fr]. constructor; [apply Sk; exact Fk|apply Sr; exact Fr].
Qed.

Lemma xsim2_forest : forall xf xf', Forall2 (tsim dsim2) (map erase xf) (map erase xf') ->
  Forall2 isim (concat (map xpre xf)) (concat (map xpre xf')) -> Forall2 xsim2 xf xf'.
Proof.
  induction xf as [|t xf IH]; intros [|t' xf'] T F; cbn [map] in T; inversion T as [|? ? ? ? Ht Tr]; subst; [constructor|].
  destruct xsim2_of as [XO _]. destruct (XO t t' Ht) as [Len Sim]. cbn [map concat] in F.
  destruct (Forall2_app_len _ _ _ _ _ _ _ Len F) as [Ft Fr]. constructor; [apply Sim; exact Ft|apply IH; assumption].
Qed.

Lemma strip_kvs_jfind : forall k (l : list (str * jdoc)), str_eqb k k_cobol = false ->
  jfind k (strip_kvs l) = option_map strip_cobol (jfind k l).
Proof.
  intros k. induction l as [|[k1 v1] l IH]; intros N; [reflexivity|]. unfold strip_kvs in *. cbn [flat_map fst snd jfind].
  destruct (str_eqb k1 k_cobol) eqn:Q.
  - apply StructureP.str_eqb_eq in Q. subst k1. cbn [app]. rewrite (IH N).
    rewrite (str_eqb_neq k_cobol k) by (intros <-; discriminate). reflexivity.
  - cbn [app jfind]. destruct (str_eqb k1 k); [reflexivity|apply IH; exact N].
Qed.

Lemma strip_kvs_jset : forall k v (l : list (str * jdoc)), str_eqb k k_cobol = false ->
  strip_kvs (jset k v l) = jset k (strip_cobol v) (strip_kvs l).
Proof.
  intros k v. induction l as [|[k1 v1] l IH]; intros N; unfold strip_kvs in *; cbn [jset flat_map fst snd].
  - rewrite N. reflexivity.
  - destruct (str_eqb k1 k) eqn:Q.
    + apply StructureP.str_eqb_eq in Q. subst k1. cbn [flat_map fst snd]. rewrite N. cbn [app jset]. rewrite StructureP.str_eqb_refl. reflexivity.
    + cbn [flat_map fst snd]. destruct (str_eqb k1 k_cobol); cbn [app jset]; [apply IH; exact N|]. rewrite Q. rewrite (IH N). reflexivity.
Qed.

Lemma accsim_jfind : forall a a' key, accsim a a' ->
  match jfind key a, jfind key a' with
  | Some v, Some v' => strip_cobol v = strip_cobol v'
  | None, None => True
  | _, _ => False
  end.
Proof.
  intros a a' key F. induction F as [|[k v] [k' v'] a a' [K V] F IH]; cbn [jfind]; [exact I|]. cbn [fst snd] in *. subst k'.
  destruct (str_eqb k key); [exact V|exact IH].
Qed.

Definition sdoc (d d' : jdoc) : Prop := strip_cobol d = strip_cobol d'.

Lemma oneof_add_sim : forall key dk dk' a a', accsim a a' -> sdoc dk dk' ->
  rrel accsim (oneof_add key dk a) (oneof_add key dk' a').
Proof.
  intros key dk dk' a a' F D. unfold oneof_add. pose proof (accsim_jfind a a' key F) as J.
  destruct (jfind key a) as [v|], (jfind key a') as [v'|]; try contradiction; [|reflexivity].
  destruct v as [s|n|kvs|l], v' as [s'|n'|kvs'|l']; cbn [strip_cobol] in J; try discriminate; try reflexivity.
  injection J as J. fold (strip_kvs kvs) in J. fold (strip_kvs kvs') in J.
  pose proof (strip_kvs_jfind k_oneOf kvs eq_refl) as A. pose proof (strip_kvs_jfind k_oneOf kvs' eq_refl) as A'. rewrite J in A. rewrite A in A'.
  destruct (jfind k_oneOf kvs) as [w|], (jfind k_oneOf kvs') as [w'|]; cbn [option_map] in A'; try discriminate; [|reflexivity].
  injection A' as A'.
  destruct w as [s|n|o|l], w' as [s'|n'|o'|l']; cbn [strip_cobol] in A'; try discriminate; try reflexivity.
  injection A' as A'. apply accsim_jset; [exact F|].
  rewrite !strip_obj, !strip_kvs_jset by reflexivity. rewrite J. cbn [strip_cobol]. rewrite !map_app. cbn [map]. rewrite A', D. reflexivity.
Qed.

Lemma xeff_sim : forall k k', xsim2 k k' -> xeff_redef k = xeff_redef k' /\ du (xdde k) = du (xdde k')
  /\ sdoc (placeholder k) (placeholder k').
Proof.
  intros k k' S. destruct S as [d b x kids d' x' kids' (L & U & Nm & Rd & _) _ _]. unfold xeff_redef, placeholder, sdoc. cbn [xdde].
  rewrite Nm, Rd, U. repeat split; reflexivity.
Qed.

Lemma node_doc_sim : forall d d' x x' kids kids' kg kg' ko ko', dsim2 d d' -> isim x x' ->
  match kids, kids' with XNil, XNil | XCons _ _, XCons _ _ => True | _, _ => False end ->
  rrel accsim kg kg' -> rrel accsim ko ko' -> rrel sdoc (node_doc d x kids kg ko) (node_doc d' x' kids' kg' ko').
Proof.
  intros d d' x x' kids kids' kg kg' ko ko' (L & U & Nm & Rd & Ep & Eo & Cs) (Mx & Jt) Sh Kg Ko.
  unfold node_doc. rewrite <- Eo, <- Ep, <- Mx, <- Jt, <- Nm, <- U, <- Cs.
  destruct (eocc (de d)).
  - apply rrel_bind_same. intros mx. destruct (epic (de d)).
    + apply rrel_bind_same. intros jt. reflexivity.
    + apply (rrel_bind _ _ _ _ _ _ _ _ _ _ Ko). intros p p' F. pose proof (accsim_strip _ _ F) as SP. unfold strip_kvs in SP.
      unfold rrel, sdoc. cbn. rewrite SP. reflexivity.
  - destruct kids, kids'; try contradiction.
    + apply rrel_bind_same. intros jt. apply rrel_bind_same. intros n. reflexivity.
    + apply (rrel_bind _ _ _ _ _ _ _ _ _ _ Kg). intros p p' F. pose proof (accsim_strip _ _ F) as SP. unfold strip_kvs in SP.
      unfold rrel, sdoc. cbn. rewrite SP. reflexivity.
Qed.

Theorem doc_r_sim : (forall t t', xsim2 t t' -> rrel sdoc (doc_r t) (doc_r t'))
  /\ (forall ks ks', xsim2_f ks ks' -> forall a a', accsim a a' ->
        rrel accsim (docs_kids_r ks a) (docs_kids_r ks' a') /\ rrel accsim (docs_kids_o ks a) (docs_kids_o ks' a')).
Proof.
  apply xsim2_ind2.
  - intros d b x kids d' x' kids' Sd Sx Sk IH. rewrite !doc_r_node.
    apply node_doc_sim; [exact Sd|exact Sx|destruct Sk; exact I|apply (IH [] []); constructor|apply (IH [] []); constructor].
  - intros a a' F. split; exact F.
  - intros k r k' r' Sk IHk Sr IHr a a' F. destruct (xeff_sim k k' Sk) as (X & U & PH).
    cbn [docs_kids_r docs_kids_o]. rewrite <- X, <- U.
    assert (PLAIN : forall g g' : list (str * jdoc) -> R (list (str * jdoc)),
              (forall b b', accsim b b' -> rrel accsim (g b) (g' b')) ->
              rrel accsim (rbind (doc_r k) (fun dk => g (jset (du (xdde k)) dk a))) (rbind (doc_r k') (fun dk => g' (jset (du (xdde k)) dk a')))).
    { intros g g' G. apply (rrel_bind _ _ _ _ _ _ _ _ _ _ IHk). intros dk dk' D. apply G. apply accsim_jset; assumption. }
    split; destruct (xeff_redef k) as [tgt|]; [|apply PLAIN; intros; apply IHr; assumption|reflexivity|apply PLAIN; intros; apply IHr; assumption].
    cbv zeta. apply (rrel_bind _ _ _ _ _ _ _ _ _ _ IHk). intros dk dk' D. eapply rrel_bind.
    + apply (oneof_add_sim (redef_key tgt) dk dk'); [|exact D]. pose proof (accsim_jfind a a' (redef_key tgt) F) as J.
      destruct (jfind (redef_key tgt) a), (jfind (redef_key tgt) a'); try contradiction; [exact F|].
      apply Forall2_app; [exact F|constructor; [split; reflexivity|constructor]].
    + intros b b' B. apply IHr. apply accsim_jset; assumption.
Qed.

Lemma docs_r_sim : forall xf xf', Forall2 xsim2 xf xf' ->
  rrel (fun l l' => map strip_cobol l = map strip_cobol l') (docs_r xf) (docs_r xf').
Proof.
  intros xf xf' F. induction F as [|t t' xf xf' Ht F IH]; cbn [docs_r]; [reflexivity|].
  apply (rrel_bind _ _ _ _ _ _ _ _ _ _ (proj1 doc_r_sim t t' Ht)). intros d d' D.
  apply (rrel_bind _ _ _ _ _ _ _ _ _ _ IH). intros l l' E. cbn [rrel map]. rewrite D, E. reflexivity.
Qed.

Import SR.Spec.Clauses.

Lemma respell_sim3 : forall e e', same_clauses e e' -> ce_ok e = true -> ce_ok e' = true ->
  respelling_domain e = true -> respelling_domain e' = true ->
  esim2 (spec_entry e) (spec_entry e') /\ isim (spec_info e) (spec_info e')
  /\ info_skipped (spec_info e) = info_skipped (spec_info e').
Proof.
  intros e e' SC OK OK' RD RD'.
  pose proof (normal_same_clauses e e' SC OK OK') as N. destruct SC as (E1 & E2 & _).
  unfold respelling_domain in RD, RD'. apply andb_true_iff in RD as [FX RA]. apply andb_true_iff in RD' as [FX' RA'].
  unfold filler_exact in FX, FX'.
  assert (L14 := lookup_verbatim 14 _ _ N (fun v => eq_refl)). assert (L7 := lookup_verbatim 7 _ _ N (fun v => eq_refl)).
  assert (L6 := lookup_verbatim 6 _ _ N (fun v => eq_refl)). assert (L5 := lookup_verbatim 5 _ _ N (fun v => eq_refl)).
  assert (L4 := lookup_verbatim 4 _ _ N (fun v => eq_refl)). assert (L0 := lookup_verbatim 0 _ _ N (fun v => eq_refl)).
  assert (L13 := filler_same _ _ N FX FX').
  assert (IP : i_pic (spec_info e) = i_pic (spec_info e')) by exact L7.
  destruct (usage_classes e e' N RA RA') as [JC CC].
  split; [|split].
  - unfold esim2, spec_entry. cbn [SR.Model.Structure.elv SR.Model.Structure.dde_name SR.Model.Structure.ename SR.Model.Structure.efill
      SR.Model.Structure.eredef SR.Model.Structure.epic SR.Model.Structure.eocc SR.Model.Structure.etext fst snd]. unfold has in *.
    rewrite L14, L13, L7, L6, L4, L0, E1, E2. repeat split.
    rewrite <- E1, <- E2. rewrite (calcsize_agrees e RA). rewrite E1, E2. rewrite (calcsize_agrees e' RA'). rewrite <- IP.
    apply (size_formula_class _ _ _ CC).
  - unfold isim. split.
    + unfold max_items_doc, spec_info. cbn [i_dep i_occ]. rewrite L5, L6. reflexivity.
    + unfold json_type_kvs. rewrite <- IP. rewrite (json_type_class _ _ _ JC). reflexivity.
  - unfold info_skipped, spec_info, spec_entry. cbn [i_entry SR.Model.Structure.elv]. rewrite E1, E2. reflexivity.
Qed.

Lemma dsim2_lv : forall d d', dsim2 d d' -> SR.Model.Structure.dlv d = SR.Model.Structure.dlv d'.
Proof. intros d d' H. apply H. Qed.
Lemma dsim2_red : forall d d', dsim2 d d' -> SR.Model.Structure.eredef (SR.Model.Structure.de d) = SR.Model.Structure.eredef (SR.Model.Structure.de d').
Proof. intros d d' (_ & _ & _ & A & _). exact A. Qed.
Lemma dsim2_nm : forall d d', dsim2 d d' -> SR.Model.Structure.dde_name (SR.Model.Structure.de d) = SR.Model.Structure.dde_name (SR.Model.Structure.de d').
Proof. intros d d' (_ & _ & A & _). exact A. Qed.

(* what holds of any two spellings of one entry holds of two lists of them, entry by entry *)
Lemma respelling_pointwise : forall (A : Type) (g : centry -> A) (Q : A -> A -> Prop),
  (forall e e', same_clauses e e' -> ce_ok e = true -> ce_ok e' = true ->
                respelling_domain e = true -> respelling_domain e' = true -> Q (g e) (g e')) ->
  forall es es', Forall2 same_clauses es es' ->
  forallb ce_ok es = true -> forallb ce_ok es' = true ->
  forallb respelling_domain es = true -> forallb respelling_domain es' = true ->
  Forall2 Q (map g es) (map g es').
Proof.
  intros A g Q H es es' SC. induction SC as [|e e' es es' Se SC IH]; intros OK OK' RD RD'; [constructor|]. cbn [forallb map] in *.
  apply andb_true_iff in OK as [O1 O2]. apply andb_true_iff in OK' as [O1' O2'].
  apply andb_true_iff in RD as [D1 D2]. apply andb_true_iff in RD' as [D1' D2'].
  constructor; [apply H; assumption|apply IH; assumption].
Qed.

Lemma respelling_entries : forall es es', Forall2 same_clauses es es' ->
  forallb ce_ok es = true -> forallb ce_ok es' = true ->
  forallb respelling_domain es = true -> forallb respelling_domain es' = true ->
  Forall2 esim2 (map spec_entry es) (map spec_entry es')
  /\ Forall2 (fun x x' => isim x x' /\ info_skipped x = info_skipped x') (map spec_info es) (map spec_info es').
Proof.
  intros es es' SC OK OK' RD RD'. split.
  - apply respelling_pointwise; [|assumption..]. intros e e' S O O' D D'. exact (proj1 (respell_sim3 e e' S O O' D D')).
  - apply respelling_pointwise; [|assumption..]. intros e e' S O O' D D'. exact (proj2 (respell_sim3 e e' S O O' D D')).
Qed.

(* two printings of the same clauses: structure() accepts both or refuses both alike, and the documents that the
   specification demands of the two forests agree up to the cobol keyword *)
Lemma docs_r_respelling : forall es es', Forall2 same_clauses es es' ->
  forallb ce_ok es = true -> forallb ce_ok es' = true ->
  forallb respelling_domain es = true -> forallb respelling_domain es' = true ->
  match SR.Model.Structure.structure (map spec_entry es), SR.Model.Structure.structure (map spec_entry es') with
  | Ok f, Ok f' => forall xf xf', map erase xf = f -> map erase xf' = f' ->
      concat (map xpre xf) = kept_infos (map spec_info es) -> concat (map xpre xf') = kept_infos (map spec_info es') ->
      strip_outcome (to_outcome (docs_r xf)) = strip_outcome (to_outcome (docs_r xf'))
  | Err e, Err e' => e = e'
  | _, _ => False
  end.
Proof.
  intros es es' SC OKe OKe' RD RD'.
  destruct (respelling_entries es es' SC OKe OKe' RD RD') as [ES IS].
  pose proof (structure_ddes_sim dsim2 dsim2_lv dsim2_red dsim2_nm _ _ (mk_ddes_sim2 _ _ ES 0%N)) as SS.
  fold (SR.Model.Structure.structure (map spec_entry es)) in SS. fold (SR.Model.Structure.structure (map spec_entry es')) in SS.
  destruct (SR.Model.Structure.structure (map spec_entry es)) as [f|e], (SR.Model.Structure.structure (map spec_entry es')) as [f'|e'];
    try exact SS.
  intros xf xf' R R' Q Q'.
  pose proof (kept_infos_sim _ _ IS) as KS. rewrite <- Q, <- Q' in KS. rewrite <- R, <- R' in SS.
  pose proof (docs_r_sim _ _ (xsim2_forest _ _ SS KS)) as DS.
  destruct (docs_r xf) as [l|e|w], (docs_r xf') as [l'|e'|w']; try contradiction; cbn [rrel to_outcome strip_outcome] in *; subst; try reflexivity.
  rewrite DS. reflexivity.
Qed.

End Resp2.

