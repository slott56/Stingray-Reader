(* Format transparency (C03): a table written in a supported format and read back gives the expected rows.
   Header-row formats lift C09 through sheet_iter, at the level of the parser's content; NDJSON is read by an explicit
   schema (DNav); fixed-width text and EBCDIC read fields at offsets that are the partial sums of the widths, EBCDIC
   through cp037 (decoding what was encoded), the RECFM F and N readers of C05 and the estruct text of C02; the registry
   selects the reader of every registered suffix; the third-party parsers are Section variables under the two ASSUMED
   hypotheses H_ext and H_num (numbers_parser). *)
From Coq Require Import NArith List Bool Arith Lia.
Import ListNotations.
Require Import SR.Base.Res SR.Spec.Transparency SR.Spec.Table SR.Spec.Recfm SR.Spec.Encode.
Require Import SR.Gen.Cp037 SR.Gen.RecfmParams.
Require Import SR.Model.HeaderRow SR.Model.Workbook.
Require SR.Model.Recfm.
Require Import SR.Proofs.HeaderRowP SR.Proofs.RecfmP SR.Proofs.EstructP.
(* wf_table, wf_workbook, splits_back_all, wf_numbers, bad_doc occur in theorem statements (Props/) and live in
   Spec/WorkbookWf.v *)
Require Export SR.Spec.WorkbookWf.
Open Scope nat_scope.

(* The glue of implementations.py, in closed form.  Model/Workbook.v interprets the records of Gen/ImplParams.v (read
   from XLSUnpacker, XLSXUnpacker, ODSUnpacker and NumbersUnpacker on every run).  The lemmas named rule_* (the last
   is rule_dnav_missing, beside the NDJSON reader) state what the interpretation comes to for the values the source
   has, each proved by computation from those values; everything below uses these lemmas and never unfolds
   the interpreter.  An edit of the glue (iter_rows(min_row=2), str(cell.value), a dropped sheet name, another separator,
   reversed(...)) changes Gen/ImplParams.v and one of these proofs stops. *)
Lemma map_res_id {A} (f : A -> res A) (l : list A) : (forall x, f x = Ok x) -> map_res f l = Ok l.
Proof.
  intros H. induction l as [|x l IH]; [reflexivity|]. cbn [map_res]. rewrite H, IH. reflexivity.
Qed.

(* the cell delivered is the stored cell itself: cell.value of the library's cell object (xlrd, openpyxl, numbers_parser),
   the item of the row (pyexcel); no conversion *)
Lemma rule_cell (o : office) (c : cell) : deliver_cell o (glue_of o) c = Ok c.
Proof. destruct o as [[| |]|]; reflexivity. Qed.

(* every cell of the row, in order *)
Lemma rule_row (o : office) (r : row) : deliver_row o (glue_of o) r = Ok r.
Proof.
  unfold deliver_row.
  replace (apply_ops (g_cells_ops (glue_of o)) r) with r by (destruct o as [[| |]|]; reflexivity).
  apply map_res_id. apply rule_cell.
Qed.

(* every stored row, once, in order (no first-row offset, no step, no reversal; the ODS guard skips only a sheet
   without rows) *)
Lemma rule_pick_rows (o : office) (rows : sheet) : pick_rows o (glue_of o) rows = rows.
Proof.
  assert (H : firstn (length rows - 0) (skipn 0 rows) = rows).
  { rewrite Nat.sub_0_r. cbn [skipn]. apply firstn_all. }
  destruct o as [[| |]|]; unfold pick_rows; cbn; try exact H.
  destruct rows; [reflexivity|exact H].
Qed.

Lemma rule_deliver (o : office) (rows : sheet) : deliver o (glue_of o) rows = Ok rows.
Proof. unfold deliver. rewrite rule_pick_rows. apply map_res_id. apply rule_row. Qed.

(* sheet_iter of the XLS / XLSX / ODS unpackers: the stored sheet names, all of them, in stored order *)
Lemma rule_names_book (b : book) (ss : list (key * sheet)) : sheet_names (C_multi b ss) = map fst ss.
Proof. destruct b; reflexivity. Qed.

(* instance_iter(name) of the XLS / XLSX / ODS unpackers: the rows stored under that name, KeyError without such a sheet *)
Lemma rule_instances_book (b : book) (ss : list (key * sheet)) (name : key) :
  wb_instances (C_multi b ss) name = match lookup ss name with Some rows => Ok rows | None => Err KeyError end.
Proof.
  cbn [wb_instances]. unfold instances_book.
  replace (g_lookup (glue_of (O_book b))) with LK_name by (destruct b; reflexivity).
  destruct (lookup ss name) as [rows|]; [apply rule_deliver|reflexivity].
Qed.

(* the separator NumbersUnpacker.sheet_iter writes between sheet and table name, and the one instance_iter splits at *)
Lemma name_sep_eq : name_sep = [58; 58]%N.
Proof. reflexivity. Qed.

Lemma part_sep_eq : part_sep = [58; 58]%N.
Proof. reflexivity. Qed.

Lemma partition_sep_nil : partition_sep [] = ([], []).
Proof. reflexivity. Qed.

Lemma partition_sep_one (c : N) : partition_sep [c] = ([c], []).
Proof. unfold partition_sep. rewrite part_sep_eq. cbn. destruct (c =? 58)%N; reflexivity. Qed.

(* name.partition(::) one character at a time *)
Lemma partition_sep_unf (c d : N) (t : key) :
  partition_sep (c :: d :: t)
  = if (c =? 58)%N && (d =? 58)%N then ([], t) else let (a, b) := partition_sep (d :: t) in (c :: a, b).
Proof.
  unfold partition_sep. rewrite part_sep_eq.
  change (partition_by [58; 58]%N (c :: d :: t))
    with (match strip_prefix [58; 58]%N (c :: d :: t) with
          | Some rest => ([], rest)
          | None => let (a, b) := partition_by [58; 58]%N (d :: t) in (c :: a, b)
          end).
  cbn [strip_prefix]. destruct (c =? 58)%N; [destruct (d =? 58)%N|]; reflexivity.
Qed.

(* NumbersUnpacker.sheet_iter: sheet::table for every table of every sheet, sheets and tables in stored order *)
Lemma rule_names_numbers (ss : list (key * list (key * sheet))) :
  sheet_names (C_numbers ss) = flat_map (fun s => map (fun t => fst s ++ name_sep ++ fst t) (snd s)) ss.
Proof. reflexivity. Qed.

(* NumbersUnpacker.instance_iter(name): the rows of sheets[first].tables[last] for name.partition(::) *)
Lemma rule_instances_numbers (ss : list (key * list (key * sheet))) (name : key) :
  wb_instances (C_numbers ss) name =
  let (s, t) := partition_sep name in
  match lookup ss s with
  | None => Err KeyError
  | Some tables => match lookup tables t with Some rows => Ok rows | None => Err KeyError end
  end.
Proof.
  cbn [wb_instances]. unfold instances_numbers, partition_sep, part_sep.
  change (g_lookup glue_NUMBERS) with (LK_partition [58; 58]%N). cbv iota beta.
  destruct (partition_by [58; 58]%N name) as [s t].
  destruct (lookup ss s) as [tables|]; [|reflexivity].
  destruct (lookup tables t) as [rows|]; [apply (rule_deliver O_NUMBERS)|reflexivity].
Qed.

Lemma map_by_index {A B C} (f : A -> C) (g : B -> C) : forall (l : list A) (r : list B),
  length l = length r ->
  (forall i a b, nth_error l i = Some a -> nth_error r i = Some b -> f a = g b) ->
  map f l = map g r.
Proof.
  induction l as [|a l IH]; intros [|b r] Hlen H; try discriminate Hlen; [reflexivity|].
  cbn [map]. f_equal; [exact (H 0 a b eq_refl eq_refl)|].
  apply IH; [injection Hlen as Hlen; exact Hlen|]. intros i. exact (H (S i)).
Qed.

Lemma NoDup_two {A} (a b : A) : a <> b -> NoDup [a; b].
Proof. intros H. constructor; [intros [E|[]]; exact (H (eq_sym E))|]. constructor; [intros []|constructor]. Qed.

Lemma forallb_imp {A} (P Q : A -> bool) (l : list A) :
  (forall x, P x = true -> Q x = true) -> forallb P l = true -> forallb Q l = true.
Proof. rewrite !forallb_forall. auto. Qed.

Lemma forallb_concat {A} (P : A -> bool) (l : list (list A)) : forallb P (concat l) = forallb (forallb P) l.
Proof. induction l as [|x l IH]; [reflexivity|]. cbn [concat forallb]. rewrite forallb_app, IH. reflexivity. Qed.

Lemma Forall2_length {A B} (R : A -> B -> Prop) l l' : Forall2 R l l' -> length l = length l'.
Proof. induction 1; [reflexivity|cbn; f_equal; assumption]. Qed.

Lemma Forall2_map_r {A B C} (R : A -> C -> Prop) (f : B -> C) : forall (l' : list B) (l : list A),
  Forall2 R l (map f l') -> Forall2 (fun a b => R a (f b)) l l'.
Proof.
  induction l' as [|b l' IH]; intros l H; inversion H; subst; constructor; [assumption|apply IH; assumption].
Qed.

Lemma lookup_in_nodup {V} (d : list (key * V)) k v : NoDup (map fst d) -> In (k, v) d -> lookup d k = Some v.
Proof.
  induction d as [|[k0 v0] d IH]; intros Hnd Hin; [destruct Hin|].
  cbn [map fst lookup] in *. inversion Hnd as [|x l Hnotin Hnd']; subst.
  destruct Hin as [E|Hin].
  - injection E as -> ->. rewrite key_eqb_refl. reflexivity.
  - rewrite key_eqb_neq; [apply IH; assumption|].
    intros ->. apply Hnotin. change k with (fst (k, v)). apply in_map. exact Hin.
Qed.

Lemma lookup_map {V W} (g : V -> W) (d : list (key * V)) k :
  lookup (map (fun s => (fst s, g (snd s))) d) k = option_map g (lookup d k).
Proof.
  induction d as [|[k0 v0] d IH]; [reflexivity|]. cbn [map fst snd lookup]. destruct (key_eqb k0 k); [reflexivity|exact IH].
Qed.

Lemma lookup_combine {V} : forall (hs : list key) (vs : list V) i k v,
  NoDup hs -> nth_error hs i = Some k -> nth_error vs i = Some v -> lookup (combine hs vs) k = Some v.
Proof.
  induction hs as [|h hs IH]; intros vs i k v Hnd Hk Hv; [destruct i; discriminate|].
  inversion Hnd as [|x l Hnotin Hnd']; subst.
  destruct vs as [|v0 vs]; [destruct i; discriminate|].
  destruct i as [|i]; cbn [nth_error combine lookup] in *.
  - injection Hk as ->. injection Hv as ->. rewrite key_eqb_refl. reflexivity.
  - rewrite key_eqb_neq; [exact (IH vs i k v Hnd' Hk Hv)|].
    intros ->. apply Hnotin. exact (nth_error_In _ _ Hk).
Qed.

Lemma str_of_phys_row r : map str_of (phys_row r) = r.
Proof. unfold phys_row. rewrite map_map. cbn. apply map_id. Qed.

Lemma rect_row T r : rect T = true -> In r (t_rows T) -> length r = length (t_header T).
Proof.
  unfold rect. intros H Hin. rewrite forallb_forall in H. apply Nat.eqb_eq. apply H. exact Hin.
Qed.

(* one sheet: whatever the container, if the parser delivers the stored table for that name *)
Lemma read_sheet_header_ok c name T :
  wb_instances c name = Ok (phys_sheet T) -> wf_table T ->
  read_sheet_header c name (t_header T) = expected_rows T.
Proof.
  intros Hc [Hnd Hrect]. unfold read_sheet_header. rewrite Hc. cbn [bind]. unfold phys_sheet.
  destruct (rows_tl (phys_row (t_header T) :: map phys_row (t_rows T)) None) as [os Hos].
  cbn [data_rows tl] in Hos.
  destruct (by_name_table _ _ _ _ _ Hos) as (s & -> & Hby); [rewrite str_of_phys_row; exact Hnd|].
  rewrite Hos. cbn [bind fst snd]. unfold expected_rows. f_equal.
  rewrite map_map. apply map_ext_in. intros r Hr. apply map_by_index.
  - symmetry. exact (rect_row T r Hrect Hr).
  - intros i k b Hk Hb. change k with (str_of (Txt k)).
    rewrite (Hby (phys_row r) i (Txt k) (map_nth_error Txt i _ Hk)). unfold phys_row.
    rewrite (map_nth_error Txt i r Hb). reflexivity.
Qed.

Lemma sheets_shift c p probes : forall names i,
  read_sheets_header c names (p :: probes) (S i) = read_sheets_header c names probes i.
Proof. induction names as [|n names IH]; intros i; [reflexivity|]. cbn [read_sheets_header]. rewrite IH. reflexivity. Qed.

(* [c] is the content of a file that stores W: the sheets by name, each the stored table *)
Definition holds (c : content) (W : workbook) : Prop :=
  sheet_names c = map fst W
  /\ forall s, In s W -> wb_instances c (fst s) = Ok (phys_sheet (snd s)) /\ wf_table (snd s).

Lemma read_header_holds c W : holds c W -> read_header c (headers W) = expected W.
Proof.
  intros [Hn Hs]. unfold read_header. rewrite Hn. clear Hn.
  induction W as [|s W IH]; [reflexivity|].
  destruct (Hs s (or_introl eq_refl)) as [Hc Hwf].
  cbn [map headers read_sheets_header expected probes_at nth]. rewrite (read_sheet_header_ok c _ _ Hc Hwf), sheets_shift.
  f_equal. apply IH. intros s' Hs'. apply Hs. right. exact Hs'.
Qed.

Lemma holds_single T : wf_table T -> holds (C_single (phys_sheet T)) [([], T)].
Proof. intros Hwf. split; [reflexivity|]. intros s [<-|[]]. split; [reflexivity|exact Hwf]. Qed.

Lemma holds_multi (b : book) (W : workbook) : wf_workbook W ->
  holds (C_multi b (map (fun s => (fst s, phys_sheet (snd s))) W)) W.
Proof.
  intros [Hnd Hwf]. split; [rewrite rule_names_book, map_map; reflexivity|].
  intros [n T] Hin. split; [|rewrite Forall_forall in Hwf; exact (Hwf _ Hin)].
  cbn [fst snd]. rewrite rule_instances_book, lookup_map, (lookup_in_nodup W n T Hnd Hin). reflexivity.
Qed.

Lemma partition_no_colon (s t : key) :
  forallb (fun c => negb (c =? 58)%N) s = true -> partition_sep (s ++ name_sep ++ t) = (s, t).
Proof.
  induction s as [|c s IH]; intros H.
  { rewrite name_sep_eq. cbn [app]. rewrite partition_sep_unf. reflexivity. }
  cbn [forallb] in H. apply andb_prop in H as [Hc Hs]. apply negb_true_iff in Hc.
  cbn [app]. specialize (IH Hs). remember (s ++ name_sep ++ t) as rest eqn:E.
  destruct rest as [|d t']; [rewrite name_sep_eq in E; destruct s; discriminate E|].
  rewrite partition_sep_unf, Hc, IH. reflexivity.
Qed.

Lemma holds_numbers (d : numbers_doc) : wf_numbers d -> holds (phys_numbers d) (flatten_numbers d).
Proof.
  intros (Hnd & Hsheets & Hsplit). rewrite Forall_forall in Hsheets. split.
  - unfold phys_numbers, flatten_numbers. rewrite rule_names_numbers, name_sep_eq. clear.
    induction d as [|s d IH]; [reflexivity|].
    cbn [map flat_map fst snd]. rewrite map_app, IH, !map_map. reflexivity.
  - intros [n T] Hin. apply in_flat_map in Hin as ([sn tables] & Hs & Hin).
    apply in_map_iff in Hin as ([tn T'] & E & Ht). injection E as <- <-.
    destruct (Hsheets _ Hs) as [Hndt Hwft]. rewrite Forall_forall in Hwft. split; [|exact (Hwft _ Ht)].
    pose proof (Hsplit _ _ Hs Ht) as Hp. cbn [fst snd] in *. unfold phys_numbers. rewrite rule_instances_numbers, Hp.
    rewrite (lookup_map (map (fun t => (fst t, phys_sheet (snd t))))), (lookup_in_nodup (V := list (key * table)) d sn tables Hnd Hs).
    cbn [option_map]. rewrite lookup_map, (lookup_in_nodup tables tn T' Hndt Ht). reflexivity.
Qed.

(* Sheet.row_iter with the do-nothing loader and a bound schema delivers every instance
   (the rules of Gen/HeaderRowParams.v: HeaderRowP.rule_row_iter, rule_body_base) *)
Lemma rows_preset_some {S I} (keep : body_pred -> I -> bool) (s : S) (src : list I) :
  rows_preset keep (Some s) src = Ok src.
Proof.
  unfold rows_preset. rewrite rule_row_iter. cbn [bind fst snd]. rewrite rule_body_base.
  destruct src; reflexivity.
Qed.

Lemma rows_preset_is_row_iter keep (s : schema) (src : sheet) :
  row_iter NoLoader (Some s) src = Ok (Some s, src) /\ rows_preset keep (Some s) src = Ok src.
Proof. split; [apply rows_noloader|apply rows_preset_some]. Qed.

Lemma find_entry_hand hs k : NoDup hs -> In k hs -> exists e, find_entry (hand_schema hs) k = Some e.
Proof.
  intros Hnd Hk. rewrite <- (keys_hand hs Hnd) in Hk. apply in_map_iff in Hk as (e & <- & He).
  unfold find_entry. destruct (find _ _) as [e'|] eqn:E; [exists e'; reflexivity|].
  apply (find_none _ _ E) in He. rewrite key_eqb_refl in He. discriminate He.
Qed.

(* DNav.name: a member the document does not have is a KeyError (instance[name], not instance.get(name)) *)
Lemma rule_dnav_missing : dnav_absent = Err KeyError.
Proof. reflexivity. Qed.

Lemma json_row_ok (T : table) (r : list text) : NoDup (t_header T) -> length r = length (t_header T) ->
  map (fun k => dnav_name (hand_schema (t_header T)) k (phys_doc T r)) (t_header T)
  = map (fun c => Ok (Some (Txt c))) r.
Proof.
  intros Hnd Hlen. apply map_by_index; [symmetry; exact Hlen|]. intros i k b Hk Hb. unfold dnav_name.
  destruct (find_entry_hand _ k Hnd (nth_error_In _ _ Hk)) as [e ->].
  rewrite (lookup_combine _ _ i k (Txt b) Hnd Hk (map_nth_error Txt i r Hb) : lookup (phys_doc T r) k = _). reflexivity.
Qed.

Lemma json_ok T : wf_table T ->
  read_json (C_json (map (phys_doc T) (t_rows T))) [t_header T] = expected [([], T)].
Proof.
  intros [Hnd Hrect]. unfold read_json. cbn [sheet_names map json_instances bind probes_at nth expected fst snd].
  rewrite rows_preset_some. cbn [bind]. unfold expected_rows. do 3 f_equal. rewrite map_map.
  apply map_ext_in. intros r Hr. apply json_row_ok; [exact Hnd|exact (rect_row T r Hrect Hr)].
Qed.

Lemma pad_length w (c : text) : length c <= w -> length (pad w c) = w.
Proof. intros H. unfold pad. rewrite app_length, repeat_length. lia. Qed.

Lemma pad_exact w (c : text) : length c = w -> pad w c = c.
Proof. intros H. unfold pad. replace (w - length c) with 0 by lia. apply app_nil_r. Qed.

Lemma pad_row_all (P : N -> bool) : P blank = true -> forall (ws : list nat) (r : list text),
  forallb (forallb P) r = true -> forallb (forallb P) (pad_row ws r) = true.
Proof.
  intros Hb. induction ws as [|w ws IH]; intros [|c r] H; try reflexivity.
  cbn [forallb] in H. apply andb_prop in H as [Hc Hr].
  change (pad_row (w :: ws) (c :: r)) with (pad w c :: pad_row ws r). cbn [forallb]. rewrite (IH r Hr), andb_true_r.
  unfold pad. rewrite forallb_app, Hc. clear - Hb.
  induction (w - length c) as [|n IHn]; [reflexivity|]. cbn [repeat forallb]. rewrite Hb. exact IHn.
Qed.

Definition len_is {A} (w : nat) (c : list A) : Prop := length c = w.

Lemma pad_row_lengths : forall (ws : list nat) (r : list text),
  length r = length ws ->
  forallb (fun p => Nat.leb (length (snd p)) (fst p)) (combine ws r) = true ->
  Forall2 len_is ws (pad_row ws r).
Proof.
  induction ws as [|w ws IH]; intros [|c r] Hlen H; try discriminate Hlen; [constructor|].
  cbn [combine forallb fst snd] in H. apply andb_prop in H as [Hc Hr]. apply Nat.leb_le in Hc.
  unfold pad_row. cbn [combine map fst snd]. constructor.
  - apply pad_length. exact Hc.
  - apply IH; [cbn in Hlen; lia|exact Hr].
Qed.

(* what [fits] says, for the proofs: one width per column, and every row padded fills the widths *)
Lemma fits_inv widths T : fits widths T = true ->
  length widths = length (t_header T)
  /\ (forall r, In r (t_rows T) -> length r = length widths /\ Forall2 len_is widths (pad_row widths r)).
Proof.
  unfold fits. intros H. apply andb_prop in H as [H Hrows]. apply andb_prop in H as [Hlen _].
  apply Nat.eqb_eq in Hlen. split; [exact Hlen|].
  intros r Hr. rewrite forallb_forall in Hrows. specialize (Hrows r Hr).
  apply andb_prop in Hrows as [H1 H2]. apply Nat.eqb_eq in H1. split; [exact H1|apply pad_row_lengths; assumption].
Qed.

Lemma pad_row_exact : forall (ws : list nat) (r : list text),
  length r = length ws ->
  forallb (fun p => Nat.eqb (length (snd p)) (fst p)) (combine ws r) = true ->
  pad_row ws r = r.
Proof.
  induction ws as [|w ws IH]; intros [|c r] Hlen H; try discriminate Hlen; [reflexivity|].
  cbn [combine forallb fst snd] in H. apply andb_prop in H as [Hc Hr]. apply Nat.eqb_eq in Hc.
  unfold pad_row. cbn [combine map fst snd]. f_equal; [apply pad_exact; exact Hc|].
  apply IH; [cbn in Hlen; lia|exact Hr].
Qed.

Lemma pad_table_exact widths T : fits_exactly widths T = true -> pad_table widths T = T.
Proof.
  unfold fits_exactly. intros H. apply andb_prop in H as [Hfit Hex].
  destruct (fits_inv widths T Hfit) as [_ Hrows].
  destruct T as [hs rows]. unfold pad_table. cbn [t_header t_rows] in *. f_equal.
  rewrite <- (map_id rows) at 2. apply map_ext_in. intros r Hr.
  rewrite forallb_forall in Hex. apply pad_row_exact; [apply (Hrows r Hr)|apply Hex; exact Hr].
Qed.

(* field i lies after the fields before it; [pre] is what the induction has passed *)
Lemma field_at {A} : forall (hs : list key) (ws : list nat) (cells : list (list A)) (pre tail : list A) i k c,
  NoDup hs -> Forall2 len_is ws cells -> nth_error hs i = Some k -> nth_error cells i = Some c ->
  exists a, lookup (locate (combine hs ws) (length pre)) k = Some (a, a + length c)
    /\ slice a (a + length c) (pre ++ concat cells ++ tail) = c.
Proof.
  induction hs as [|h hs IH]; intros ws cells pre tail i k c Hnd HF Hk Hc; [destruct i; discriminate|].
  inversion Hnd as [|x l Hnotin Hnd']; subst.
  destruct HF as [|w c0 ws cells Hw HF]; [destruct i; discriminate|]. unfold len_is in Hw. subst w.
  destruct i as [|i]; cbn [nth_error combine locate lookup concat] in *.
  - injection Hk as ->. injection Hc as ->. exists (length pre). rewrite key_eqb_refl. split; [reflexivity|].
    unfold slice. rewrite skipn_exact, Nat.add_comm, Nat.add_sub, <- app_assoc. apply firstn_exact.
  - rewrite key_eqb_neq by (intros ->; apply Hnotin; exact (nth_error_In _ _ Hk)).
    destruct (IH ws cells (pre ++ c0) tail i k c Hnd' HF Hk Hc) as (a & Hlook & Hslice).
    exists a. rewrite app_length in Hlook. rewrite <- app_assoc in Hslice. rewrite <- app_assoc. split; assumption.
Qed.

Lemma field_ok {A} (hs : list key) (ws : list nat) (cells : list (list A)) (tail : list A) i k c :
  NoDup hs -> Forall2 len_is ws cells -> nth_error hs i = Some k -> nth_error cells i = Some c ->
  field (layout_of hs ws) k (concat cells ++ tail) = Ok (length c, c).
Proof.
  intros Hnd HF Hk Hc. destruct (field_at hs ws cells [] tail i k c Hnd HF Hk Hc) as (a & Hlook & Hslice).
  unfold field, layout_of. cbn [length app] in *. rewrite Hlook, Hslice, Nat.add_comm, Nat.add_sub. reflexivity.
Qed.

(* a row of the layout whose fields are [cells], read by the column names: [decode] is what a field's slice becomes *)
Lemma row_by_name {A} (view : key -> list A -> value) (decode : list A -> text) (hs : list key) (ws : list nat)
  (cells : list (list A)) (tail : list A) :
  (forall k c, field (layout_of hs ws) k (concat cells ++ tail) = Ok (length c, c) ->
     view k (concat cells ++ tail) = Ok (Some (Txt (decode c)))) ->
  NoDup hs -> length ws = length hs -> Forall2 len_is ws cells ->
  map (fun k => view k (concat cells ++ tail)) hs = map (fun c => Ok (Some (Txt (decode c)))) cells.
Proof.
  intros Hview Hnd Hlen HF. apply map_by_index; [rewrite <- Hlen; exact (Forall2_length _ _ _ HF)|].
  intros i k c Hk Hc. apply Hview. exact (field_ok hs ws cells tail i k c Hnd HF Hk Hc).
Qed.

Lemma text_row_ok (hs : list key) (ws : list nat) (cells : list text) (tail : list N) :
  NoDup hs -> length ws = length hs -> Forall2 len_is ws cells ->
  map (fun k => text_value (layout_of hs ws) k (concat cells ++ tail)) hs
  = map (fun c => Ok (Some (Txt c))) cells.
Proof.
  apply (row_by_name (text_value (layout_of hs ws)) (fun c => c)).
  intros k c Hf. unfold text_value. rewrite Hf. reflexivity.
Qed.

Lemma line_safe_no_cr s : line_safe_text s = true -> forallb (fun c => negb (c =? 13)%N) s = true.
Proof. apply forallb_imp. intros c H. apply andb_prop in H. apply H. Qed.

Lemma universal_newlines_id s : forallb (fun c => negb (c =? 13)%N) s = true -> universal_newlines s = s.
Proof.
  induction s as [|c s IH]; intros H; [reflexivity|].
  cbn [forallb] in H. apply andb_prop in H as [Hc Hs]. apply negb_true_iff in Hc.
  cbn [universal_newlines]. rewrite Hc. f_equal. apply IH. exact Hs.
Qed.

Lemma lines_from_line body : forall cur rest,
  forallb (fun c => negb (c =? 10)%N) body = true ->
  lines_from cur (body ++ nl :: rest) = (rev cur ++ body ++ [nl]) :: lines_from [] rest.
Proof.
  unfold nl. induction body as [|c body IH]; intros cur rest H.
  - cbn [app lines_from N.eqb Pos.eqb rev]. reflexivity.
  - cbn [forallb] in H. apply andb_prop in H as [Hc Hb]. apply negb_true_iff in Hc.
    cbn [app lines_from]. rewrite Hc. rewrite (IH (c :: cur) rest Hb). cbn [rev].
    rewrite <- !app_assoc. reflexivity.
Qed.

(* a file of lines without line breaks inside them: the reader's lines are the writer's *)
Lemma text_lines_map {X} (f : X -> list N) (xs : list X) :
  Forall (fun x => line_safe_text (f x) = true) xs ->
  text_lines (concat (map (fun x => f x ++ [nl]) xs)) = map (fun x => f x ++ [nl]) xs.
Proof.
  intros H. unfold text_lines. rewrite universal_newlines_id.
  - induction H as [|x xs Hx Hxs IH]; [reflexivity|].
    cbn [map concat]. rewrite <- app_assoc. cbn [app].
    rewrite (lines_from_line (f x) [] _ (forallb_imp _ _ _ (fun c H => proj1 (andb_prop _ _ H)) Hx)). f_equal. exact IH.
  - induction H as [|x xs Hx Hxs IH]; [reflexivity|].
    cbn [map concat]. rewrite !forallb_app, IH, (line_safe_no_cr _ Hx). reflexivity.
Qed.

Lemma rows_plain_some {S I} (s : S) (src : list I) : rows_plain (Some s) src = Ok src.
Proof. destruct src; reflexivity. Qed.

Lemma fixed_lines T widths : line_safe T = true ->
  text_lines (write_fixed_text T widths) = map (write_fixed_row widths) (t_rows T).
Proof.
  intros Hsafe. apply (text_lines_map (fun r => concat (pad_row widths r))).
  apply Forall_forall. intros r Hr. unfold line_safe_text. rewrite forallb_concat. apply (pad_row_all _ eq_refl).
  unfold line_safe in Hsafe. rewrite forallb_forall in Hsafe. apply Hsafe. exact Hr.
Qed.

Lemma fixed_row_ok T widths r : NoDup (t_header T) -> fits widths T = true -> In r (t_rows T) ->
  map (fun k => text_value (layout_of (t_header T) widths) k (write_fixed_row widths r)) (t_header T)
  = map (fun c => Ok (Some (Txt c))) (pad_row widths r).
Proof.
  intros Hnd Hfit Hr. destruct (fits_inv widths T Hfit) as [Hlen Hrows].
  apply text_row_ok; [exact Hnd|exact Hlen|apply (Hrows r Hr)].
Qed.

Lemma fixed_text_ok T widths :
  NoDup (t_header T) -> fits widths T = true -> line_safe T = true ->
  read_fixed (write_fixed_text T widths) (layout_of (t_header T) widths) (t_header T)
  = expected [([], pad_table widths T)].
Proof.
  intros Hnd Hfit Hsafe. unfold read_fixed, expected, expected_rows. cbn [map fst snd pad_table t_rows].
  rewrite (fixed_lines T widths Hsafe), rows_preset_some. cbn [bind]. do 3 f_equal. rewrite !map_map.
  apply map_ext_in. intros r Hr. apply fixed_row_ok; assumption.
Qed.

Lemma index_in_nth c : forall (l : list N) (i b : N),
  index_in c l i = Some b -> exists j, b = (i + N.of_nat j)%N /\ nth_error l j = Some c.
Proof.
  induction l as [|x l IH]; intros i b H; [discriminate|].
  cbn [index_in] in H. destruct (N.eqb x c) eqn:E.
  - injection H as <-. apply N.eqb_eq in E. subst x. exists 0. split; [lia|reflexivity].
  - destruct (IH _ _ H) as (j & -> & Hj). exists (S j). split; [lia|exact Hj].
Qed.

Lemma decode_encode c : in_repertoire c = true -> cp037 (encode_char c) = c.
Proof.
  unfold in_repertoire, encode_char, cp037_encode. destruct (index_in c cp037_table 0) as [b|] eqn:E; [|discriminate].
  intros _. destruct (index_in_nth c _ _ _ E) as (j & -> & Hj).
  unfold cp037. replace (N.to_nat (0 + N.of_nat j)) with j by lia.
  apply nth_error_nth. exact Hj.
Qed.

Lemma decode_encode_text s : forallb in_repertoire s = true -> map cp037 (encode_text s) = s.
Proof.
  induction s as [|c s IH]; intros H; [reflexivity|].
  cbn [forallb] in H. apply andb_prop in H as [Hc Hs].
  unfold encode_text in *. cbn [map]. rewrite (decode_encode c Hc), (IH Hs). reflexivity.
Qed.

(* the numbers below n, counted in N (a list of N.of_nat k would be built in unary for every k) *)
Definition below (n : N) : list N := N.recursion [] (fun k l => k :: l) n.

Lemma below_in n c : (c < n)%N -> In c (below n).
Proof.
  unfold below. induction n as [|n IH] using N.peano_ind; intros H; [lia|].
  rewrite (N.recursion_succ eq) by (reflexivity || intros x y -> l l' ->; reflexivity).
  destruct (N.eq_dec c n) as [->|Hne]; [left; reflexivity|right; apply IH; lia].
Qed.

(* the repertoire of code page 037 is Latin-1: every code point below 256 has a byte *)
Lemma latin1_in_repertoire c : (c < 256)%N -> in_repertoire c = true.
Proof.
  intros H. assert (Hall : forallb in_repertoire (below 256) = true) by (vm_compute; reflexivity).
  rewrite forallb_forall in Hall. apply Hall, below_in, H.
Qed.

Lemma usage_is_display : usage_DISPLAY = display_spelling.
Proof. reflexivity. Qed.

Lemma ebcdic_row_ok (hs : list key) (ws : list nat) (cells : list text) (tail : list N) :
  NoDup hs -> length ws = length hs -> Forall2 len_is ws cells ->
  forallb (forallb in_repertoire) cells = true ->
  map (fun k => ebcdic_value (layout_of hs ws) k (encode_text (concat cells) ++ tail)) hs
  = map (fun c => Ok (Some (Txt c))) cells.
Proof.
  intros Hnd Hlen HF Hrep. unfold encode_text at 1. rewrite concat_map.
  rewrite (row_by_name (ebcdic_value (layout_of hs ws)) (map cp037) hs ws (map encode_text cells)).
  - rewrite map_map. apply map_ext_in. intros c Hc. rewrite forallb_forall in Hrep.
    rewrite (decode_encode_text c (Hrep c Hc)). reflexivity.
  - intros k c Hf. unfold ebcdic_value. rewrite Hf. cbn [bind fst snd].
    rewrite usage_is_display, (C02_text (length c) c eq_refl). reflexivity.
  - exact Hnd.
  - exact Hlen.
  - clear - HF. induction HF as [|w c ws cells Hc HF IH]; constructor; [|exact IH].
    unfold len_is, encode_text in *. rewrite map_length. exact Hc.
Qed.

Definition record_of (widths : list nat) (r : list text) : list N := encode_text (concat (pad_row widths r)).

Definition prefixed (widths : list nat) (buf : list N) (row : list text) : Prop :=
  exists tail, buf = record_of widths row ++ tail.

Lemma prefixed_exact widths (rows : list (list text)) : Forall2 (prefixed widths) (map (record_of widths) rows) rows.
Proof.
  induction rows as [|row rows IH]; constructor; [exists []; symmetry; apply app_nil_r|exact IH].
Qed.

Lemma records_decode T widths : NoDup (t_header T) -> fits widths T = true -> repertoire_ok T = true ->
  forall (rows : list (list text)) (bufs : list (list N)), incl rows (t_rows T) -> Forall2 (prefixed widths) bufs rows ->
  map (fun rec => map (fun k => ebcdic_value (layout_of (t_header T) widths) k rec) (t_header T)) bufs
  = map (map (fun c => Ok (Some (Txt c)))) (map (pad_row widths) rows).
Proof.
  intros Hnd Hfit Hrep rows bufs Hin HF. destruct (fits_inv widths T Hfit) as [Hlen Hrows].
  unfold repertoire_ok in Hrep. rewrite forallb_forall in Hrep.
  induction HF as [|buf row bufs rows (tail & ->) HF IH]; [reflexivity|].
  apply incl_cons_inv in Hin as [Hrow Hin]. cbn [map]. f_equal; [|exact (IH Hin)].
  apply ebcdic_row_ok; [exact Hnd|exact Hlen|apply (Hrows row Hrow)|apply (pad_row_all _ eq_refl), Hrep, Hrow].
Qed.

Lemma concat_length_sum {A} (ws : list nat) (cells : list (list A)) :
  Forall2 len_is ws cells -> length (concat cells) = list_sum ws.
Proof.
  induction 1 as [|w c ws cells Hc HF IH]; [reflexivity|].
  cbn [concat list_sum]. rewrite app_length, IH, Hc. reflexivity.
Qed.

Lemma record_length widths T r : fits widths T = true -> In r (t_rows T) ->
  length (record_of widths r) = list_sum widths.
Proof.
  intros Hfit Hr. destruct (fits_inv widths T Hfit) as [_ Hrows].
  unfold record_of, encode_text. rewrite map_length. apply concat_length_sum, (Hrows r Hr).
Qed.

Lemma layout_end_sum (hs : list key) (ws : list nat) : length ws = length hs ->
  layout_end (layout_of hs ws) = list_sum ws.
Proof.
  intros H. unfold layout_end, layout_of.
  enough (G : forall acc, fold_left (fun a p => a + snd p) (combine hs ws) acc = acc + list_sum ws) by apply G.
  revert ws H. induction hs as [|h hs IH]; intros [|w ws] H acc; try discriminate H; cbn [combine fold_left snd].
  - apply plus_n_O.
  - rewrite IH by (injection H as H; exact H). change (list_sum (w :: ws)) with (w + list_sum ws). apply eq_sym, Nat.add_assoc.
Qed.

Lemma total_positive (T : table) widths : fits widths T = true -> t_header T <> [] -> 1 <= list_sum widths.
Proof.
  unfold fits. intros H Hne. apply andb_prop in H as [H _]. apply andb_prop in H as [Hlen Hpos].
  apply Nat.eqb_eq in Hlen. destruct widths as [|w ws]; [destruct (t_header T); [contradiction|discriminate Hlen]|].
  cbn [forallb] in Hpos. apply andb_prop in Hpos as [Hw _]. apply Nat.leb_le in Hw.
  change (list_sum (w :: ws)) with (w + list_sum ws). lia.
Qed.

(* the record length COBOL_EBCDIC_Sheet.set_schema arrives at *)
Lemma sheet_lrecl_layout (T : table) widths wb_lrecl : fits widths T = true -> t_header T <> [] ->
  wb_lrecl = None \/ wb_lrecl = Some (list_sum widths) ->
  sheet_lrecl wb_lrecl (layout_of (t_header T) widths) = list_sum widths.
Proof.
  intros Hfit Hne Hl. destruct (fits_inv widths T Hfit) as [Hlen _].
  pose proof (total_positive T widths Hfit Hne) as Htot.
  destruct Hl as [->| ->]; cbn [sheet_lrecl]; [apply layout_end_sum; exact Hlen|].
  destruct (list_sum widths); [lia|reflexivity].
Qed.

Lemma N_run_extend {A} mode kind B : forall (lens extra : list nat) (s : Recfm.st A) bufs s',
  Recfm.N_run mode kind B s lens = (bufs, Recfm.Done, s') ->
  Recfm.N_run mode kind B s (lens ++ extra) = (bufs, Recfm.Done, s').
Proof.
  induction lens as [|n lens IH]; intros extra s bufs s' H.
  - cbn [app]. cbn [Recfm.N_run] in H. destruct (Recfm.buf s) eqn:E; [|discriminate H].
    destruct extra; cbn [Recfm.N_run]; rewrite E; exact H.
  - cbn [app Recfm.N_run] in *. destruct (Recfm.buf s) eqn:E; [exact H|].
    destruct (n =? 0); [discriminate H|].
    destruct (Recfm.N_step mode kind B s n) as [s0|e]; [|discriminate H].
    destruct (Recfm.N_run mode kind B s0 lens) as [[items f] s''] eqn:E2.
    injection H as <- -> <-. rewrite (IH extra s0 items s'' E2). reflexivity.
Qed.

Lemma heads_prefix {A} : forall (recs bufs : list (list A)),
  length bufs = length recs -> heads (map (@length A) recs) bufs = recs ->
  Forall2 (fun buf rec => exists tail, buf = rec ++ tail) bufs recs.
Proof.
  induction recs as [|rec recs IH]; intros [|buf bufs] Hlen H; try discriminate Hlen; [constructor|].
  unfold heads in H. cbn [map combine fst snd] in H. injection H as H1 H2.
  constructor.
  - exists (skipn (length rec) buf). rewrite <- H1 at 1. apply eq_sym, firstn_skipn.
  - apply IH; [cbn in Hlen; lia|exact H2].
Qed.

(* records of one length: the lengths the consumer announces *)
Lemma lengths_repeat {A} L (recs : list (list A)) : (forall rec, In rec recs -> length rec = L) ->
  map (@length A) recs = repeat L (length recs).
Proof.
  induction recs as [|rec recs IH]; intros H; [reflexivity|].
  cbn [map length repeat]. rewrite (H rec (or_introl eq_refl)), IH; [reflexivity|].
  intros rec' Hin. apply H. right. exact Hin.
Qed.

Lemma recs_legal (T : table) widths (rows : list (list text)) : fits widths T = true -> incl rows (t_rows T) ->
  forallb (fun r => length r =? list_sum widths) (map (record_of widths) rows) = true.
Proof.
  intros Hfit Hin. apply forallb_forall. intros rec Hr. apply in_map_iff in Hr as (row & <- & Hrow).
  apply Nat.eqb_eq. apply (record_length widths T row Hfit). apply Hin. exact Hrow.
Qed.

Lemma ebcdic_records_ok r kind wb_lrecl T widths :
  fits widths T = true -> t_header T <> [] ->
  (r = RECFM_N -> list_sum widths <= N.to_nat buffer_size) ->
  wb_lrecl = None \/ wb_lrecl = Some (list_sum widths) ->
  exists bufs, ebcdic_records r kind wb_lrecl (layout_of (t_header T) widths) (write_ebcdic T widths) = Ok bufs
    /\ Forall2 (prefixed widths) bufs (t_rows T).
Proof.
  intros Hfit Hne Hbuf Hl. destruct (fits_inv widths T Hfit) as [Hlen _].
  pose proof (total_positive T widths Hfit Hne) as Htot.
  pose proof (recs_legal T widths (t_rows T) Hfit (incl_refl _)) as Hleg.
  change (write_ebcdic T widths) with (concat (map (record_of widths) (t_rows T))).
  set (recs := map (record_of widths) (t_rows T)) in *.
  destruct r.
  - (* RECFM_N: the consumer announces the record length after every row; announcements beyond the last are not used *)
    assert (Hrl : forall rec, In rec recs -> length rec = list_sum widths).
    { intros rec Hin. rewrite forallb_forall in Hleg. apply Nat.eqb_eq, Hleg, Hin. }
    assert (Hlegal : legal_N (N.to_nat buffer_size) recs = true).
    { apply forallb_forall. intros rec Hin. rewrite (Hrl rec Hin).
      apply andb_true_intro. split; apply Nat.leb_le; [exact Htot|apply Hbuf; reflexivity]. }
    destruct (N_read_roundtrip kind recs Hlegal) as (bufs & s' & Hrun & Hlb & Hheads & _ & _).
    exists bufs. split.
    2: { apply (Forall2_map_r (fun buf rec => exists tail, buf = rec ++ tail) (record_of widths)), heads_prefix; assumption. }
    unfold ebcdic_records. rewrite (layout_end_sum _ _ Hlen).
    pose proof (legal_F_len (list_sum widths) recs Htot Hleg) as Hle.
    replace (S (length (concat recs))) with (length recs + (S (length (concat recs)) - length recs)) by lia.
    rewrite repeat_app, <- (lengths_repeat _ recs Hrl).
    unfold Recfm.N_read in *. unfold write_N in Hrun.
    rewrite (N_run_extend _ _ _ _ _ _ _ _ Hrun). reflexivity.
  - exists recs. split; [|apply prefixed_exact].
    unfold ebcdic_records. rewrite (sheet_lrecl_layout T widths wb_lrecl Hfit Hne Hl).
    change (concat recs) with (write_F recs). rewrite (F_record_iter_ok kind (list_sum widths) recs); [reflexivity|].
    unfold legal_F. rewrite Hleg, andb_true_r. apply Nat.leb_le. exact Htot.
Qed.

Lemma ebcdic_ok r kind wb_lrecl T widths :
  NoDup (t_header T) -> fits widths T = true -> repertoire_ok T = true -> t_header T <> [] ->
  (r = RECFM_N -> list_sum widths <= N.to_nat buffer_size) ->
  wb_lrecl = None \/ wb_lrecl = Some (list_sum widths) ->
  read_ebcdic r kind wb_lrecl (write_ebcdic T widths) (layout_of (t_header T) widths) (t_header T)
  = expected [([], pad_table widths T)].
Proof.
  intros Hnd Hfit Hrep Hne Hbuf Hl.
  destruct (ebcdic_records_ok r kind wb_lrecl T widths Hfit Hne Hbuf Hl) as (bufs & Hrec & HF).
  unfold read_ebcdic, expected, expected_rows. cbn [map fst snd pad_table t_rows].
  rewrite Hrec. cbn [bind]. rewrite rows_plain_some. cbn [bind]. do 3 f_equal.
  exact (records_decode T widths Hnd Hfit Hrep _ _ (incl_refl _) HF).
Qed.

Lemma reader_for_ok f : reader_for f = Ok f.
Proof. destruct f; vm_compute; reflexivity. Qed.

Lemma storable_single_inv f W : single_sheet f = true -> storable f W = true -> exists T, W = [([], T)].
Proof.
  unfold storable. intros -> H. destruct W as [|[n T] [|p l]]; [discriminate H| |destruct n; discriminate H].
  destruct n; [exists T; reflexivity|discriminate H].
Qed.

Lemma facade_phys f W : third_party f = true -> storable f W = true -> wf_workbook W ->
  facade_read f (phys f W) (headers W) = expected W.
Proof.
  intros Htp Hst Hwf. destruct (single_sheet f) eqn:Hs.
  - destruct (storable_single_inv f W Hs Hst) as [T ->]. destruct Hwf as [_ Hwf]. inversion Hwf as [|? ? HT _]; subst.
    destruct f; try discriminate Htp; try discriminate Hs; cbn [facade_read phys];
      [apply read_header_holds, holds_single|apply read_header_holds, holds_single|apply json_ok]; exact HT.
  - destruct f; try discriminate Htp; try discriminate Hs; cbn [facade_read phys];
      apply read_header_holds, holds_multi; exact Hwf.
Qed.

Lemma rect_pad_table widths T : fits widths T = true -> rect (pad_table widths T) = true.
Proof.
  intros Hfit. destruct (fits_inv widths T Hfit) as [Hlen Hrows].
  unfold rect, pad_table. cbn [t_header t_rows]. apply forallb_forall. intros r Hr.
  apply in_map_iff in Hr as (r0 & <- & Hr0). destruct (Hrows r0 Hr0) as [_ H].
  apply Nat.eqb_eq. rewrite <- Hlen. symmetry. exact (Forall2_length _ _ _ H).
Qed.

Lemma wf_single T : wf_table T -> wf_workbook [([], T)].
Proof.
  intros H. split; [cbn; constructor; [intros []|constructor]|]. constructor; [exact H|constructor].
Qed.

Lemma storable_single f T : storable f [([], T)] = true.
Proof. unfold storable. destruct (single_sheet f); reflexivity. Qed.

Section ThirdParty.
Variable image : Type.
(* what csv.writer / openpyxl / pyexcel_ods3 / json.dumps produce for W, what csv.reader / openpyxl / pyexcel /
   xlrd / json.loads deliver for a file *)
Variable ext_write : fmt -> workbook -> image.
Variable ext_parse : fmt -> image -> content.
(* ASSUMED, not proved: the third-party pair returns the stored table *)
Hypothesis H_ext : forall f W, third_party f = true -> storable f W = true ->
  ext_parse f (ext_write f W) = phys f W.

Lemma facade_ok f W : third_party f = true -> storable f W = true -> wf_workbook W ->
  open_read ext_parse f (ext_write f W) (headers W) = Ok (expected W).
Proof.
  intros Htp Hst Hwf. unfold open_read. rewrite reader_for_ok. cbn [bind].
  rewrite (H_ext f W Htp Hst), (facade_phys f W Htp Hst Hwf). reflexivity.
Qed.

Lemma facade_padded f T widths : third_party f = true -> NoDup (t_header T) -> fits widths T = true ->
  open_read ext_parse f (ext_write f [([], pad_table widths T)]) [t_header T] = Ok (expected [([], pad_table widths T)]).
Proof.
  intros Htp Hnd Hfit. apply (facade_ok f [([], pad_table widths T)] Htp (storable_single f _)).
  apply wf_single. split; [exact Hnd|apply rect_pad_table; exact Hfit].
Qed.

(* Numbers: the abstract input is a document of sheets holding named tables *)
Variable num_write : numbers_doc -> image.
(* ASSUMED as well, not proved: numbers_parser returns the stored document *)
Hypothesis H_num : forall d, ext_parse F_NUMBERS (num_write d) = phys_numbers d.

Lemma facade_numbers_ok d : wf_numbers d ->
  open_read ext_parse F_NUMBERS (num_write d) (headers (flatten_numbers d)) = Ok (expected (flatten_numbers d)).
Proof.
  intros Hwf. unfold open_read. rewrite reader_for_ok. cbn [bind facade_read].
  rewrite H_num, (read_header_holds _ _ (holds_numbers d Hwf)). reflexivity.
Qed.
End ThirdParty.
