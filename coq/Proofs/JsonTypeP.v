(* Lemmas for C08.  One elementary item: what json_type, json_type_ext and estruct.calcsize say of a USAGE and a PICTURE
   against what Spec/SchemaTruth.v spec_field demands, usage family by usage family.  The tree build makes of a record
   description: every name an anchor, every reference a name, no oneOf empty; with well-formed REDEFINES no anchor twice.
   SchemaMaker.from_json on that tree: every reference is bound, when it is met, to the object that bears the name.
   Main lemmas: delivered (one item, all usages); names_anchored, anchors_distinct (from anchors_triple, by induction on
   the description); main_all with the children loop [loop] (the walk of the loader under the invariants Pre / Inv of
   Section LoadP), and resolve_good, which reads the bindings off the sites the walk returns. *)
From Coq Require Import NArith List Bool Lia Arith FinFun.
Import ListNotations.
Require Import SR.Base.Res SR.Gen.JsonTypeParams SR.Spec.Encode SR.Spec.Fits
  SR.Spec.Layout SR.Model.Layout SR.Model.Estruct SR.Spec.SchemaTruth SR.Model.JsonType
  SR.Proofs.EstructP SR.Proofs.EstructWidthP SR.Proofs.ListFactsP.
(* wf8, the hypothesis of the theorems on whole descriptions, is stated in Spec/JsonTypeWf.v *)
Require Export SR.Spec.JsonTypeWf.
(* C01's development (Proofs/LayoutP.v) is used qualified: assemble_d is the children loop of
   build_json_schema without the accumulator, unions_ok the well-formedness of REDEFINES among siblings;
   its keys_js is anchors_of, and its nodup_assemble_gen shows that the loop repeats no key. *)
Require SR.Proofs.LayoutP.
Module L := SR.Proofs.LayoutP.
Open Scope N_scope.

Lemma emit_with_ok jt u p t e c sz :
  jt u (pic_text p) = Ok (t, e, c) -> calcsize u (est_pic p) = Ok sz -> emit_with jt u p = Ok (mkfield t e c sz sz).
Proof. unfold emit_with. intros -> ->. reflexivity. Qed.

Lemma emit_with_conv jt u p f :
  emit_with jt u p = Ok f -> match jt u (pic_text p) with Ok (_, _, c) => f_conv f = c | Err _ => False end.
Proof.
  unfold emit_with. destruct (jt u (pic_text p)) as [[[t e] c]|]; [|discriminate].
  destruct (calcsize u (est_pic p)); [|discriminate]. intros H. inversion H. reflexivity.
Qed.

Lemma usage_family u s m n ri rf :
  u = display_spelling \/ In u packed_spellings \/ In u binary_spellings \/ In u float4_spellings \/ In u float8_spellings
  \/ spec_field u (PNum s m n ri rf) = None.
Proof.
  cbn [spec_field]. unfold mem_spelling.
  destruct (u =? display_spelling) eqn:E; [left; apply N.eqb_eq; exact E|].
  destruct (existsb (N.eqb u) packed_spellings) eqn:E1; [apply existsb_eqb_In in E1; auto|].
  destruct (existsb (N.eqb u) binary_spellings) eqn:E2; [apply existsb_eqb_In in E2; auto|].
  destruct (existsb (N.eqb u) float4_spellings) eqn:E3; [apply existsb_eqb_In in E3; auto|].
  destruct (existsb (N.eqb u) float8_spellings) eqn:E4; [apply existsb_eqb_In in E4; auto 6|].
  do 5 right. destruct (spec_size u s m n); reflexivity.
Qed.

Lemma display_field s m n ri rf :
  spec_field display_spelling (PNum s m n ri rf)
  = Some (ty_string, enc_cp037, conv_decimal, N.of_nat (spec_display_width s (m + n)), py_decimal).
Proof. reflexivity. Qed.

Lemma display_keywords txt :
  json_type display_spelling txt = Ok (if numeric_text jt_numeric_chars jt_upper txt then (1, 1, 6) else (1, 1, 0))
  /\ json_type_ext display_spelling txt = Ok (if numeric_text xt_numeric_chars xt_upper txt then (4, 0, 0) else (1, 0, 0)).
Proof. split; reflexivity. Qed.

Lemma packed_family u s m n ri rf txt : In u packed_spellings ->
  spec_field u (PNum s m n ri rf)
  = Some (ty_string, enc_packed_decimal, conv_decimal, N.of_nat (spec_packed_width (m + n)), py_decimal)
  /\ json_type u txt = Ok (1, 2, 6) /\ json_type_ext u txt = Ok (4, 0, 0).
Proof. unfold packed_spellings. cbn [In]. intros [<-|[<-|[<-|[]]]]; repeat split. Qed.

Lemma binary_family u s m n ri rf txt : In u binary_spellings ->
  spec_field u (PNum s m n ri rf)
  = option_map (fun w => (ty_integer, enc_bigendian_int, conv_none, N.of_nat w, py_int)) (spec_binary_width (m + n))
  /\ json_type u txt = Ok (2, 3, 0) /\ json_type_ext u txt = Ok (2, 0, 0).
Proof.
  unfold binary_spellings. cbn [In].
  intros [<-|[<-|[<-|[<-|[<-|[]]]]]]; repeat split; unfold spec_field, spec_size; destruct (spec_binary_width (m + n)); reflexivity.
Qed.

Lemma float4_family u s m n ri rf txt : In u float4_spellings ->
  spec_field u (PNum s m n ri rf) = Some (ty_number, enc_bigendian_float, conv_none, 4, py_float)
  /\ json_type u txt = Ok (3, 4, 0) /\ json_type_ext u txt = Ok (3, 0, 0).
Proof. unfold float4_spellings. cbn [In]. intros [<-|[<-|[]]]; repeat split. Qed.

Lemma float8_family u s m n ri rf txt : In u float8_spellings ->
  spec_field u (PNum s m n ri rf) = Some (ty_number, enc_bigendian_double, conv_none, 8, py_float)
  /\ json_type u txt = Ok (3, 5, 0) /\ json_type_ext u txt = Ok (3, 0, 0).
Proof. unfold float8_spellings. cbn [In]. intros [<-|[<-|[]]]; repeat split. Qed.

Lemma run_plain c rep k : rep && negb (k =? 0)%nat = false -> run c rep k = repeat c k.
Proof. destruct k; [reflexivity|]. cbn [Nat.eqb negb]. rewrite andb_true_r. intros ->. reflexivity. Qed.

Lemma plain_pic_text s m n ri rf : written_with_repeat (PNum s m n ri rf) = false ->
  pic_text (PNum s m n ri rf)
  = (if s then [83] else []) ++ repeat 57 m ++ match n with O => [] | S _ => 86 :: repeat 57 n end.
Proof.
  cbn [written_with_repeat pic_text]. intros Hw. apply orb_false_iff in Hw as [Hi Hf].
  rewrite (run_plain 57 ri m Hi). destruct n; [reflexivity|]. rewrite (run_plain 57 rf _ Hf). reflexivity.
Qed.

Lemma all_in_repeat chars (up : bool) c k : mem (if up then upper c else c) chars = true -> all_in chars up (repeat c k) = true.
Proof. intros H. apply forallb_forall. intros x Hx. apply repeat_spec in Hx. subst x. exact H. Qed.

Lemma plain_numeric chars up s m n ri rf :
  (1 <= m + n)%nat -> written_with_repeat (PNum s m n ri rf) = false ->
  all_in chars up [83; 57; 86] = true ->
  numeric_text chars up (pic_text (PNum s m n ri rf)) = true.
Proof.
  intros Hmn Hw Hc. rewrite (plain_pic_text s m n ri rf Hw).
  cbn [all_in forallb] in Hc. apply andb_true_iff in Hc as [HS Hc]. apply andb_true_iff in Hc as [H9 Hc].
  apply andb_true_iff in Hc as [HV _].
  assert (Hall : all_in chars up ((if s then [83] else []) ++ repeat 57 m ++ match n with O => [] | S _ => 86 :: repeat 57 n end) = true).
  { unfold all_in. rewrite !forallb_app. apply andb_true_iff. split; [destruct s; cbn [forallb]; rewrite ?HS; reflexivity|].
    apply andb_true_iff. split; [apply (all_in_repeat chars up 57 m H9)|].
    destruct n; [reflexivity|]. cbn [forallb]. rewrite HV. apply (all_in_repeat chars up 57 _ H9). }
  unfold numeric_text. rewrite Hall. destruct s; [reflexivity|]. destruct m; [|reflexivity]. destruct n; [lia|reflexivity].
Qed.

Lemma run_head c rep k : (1 <= k)%nat -> exists rest, run c rep k = c :: rest.
Proof.
  destruct k as [|k]; [lia|]. intros _. unfold run. destruct rep; [eexists; reflexivity|].
  cbn [repeat]. eexists; reflexivity.
Qed.

Lemma text_not_numeric chars up alpha k rep :
  (1 <= k)%nat -> mem 88 chars = false -> mem 65 chars = false ->
  numeric_text chars up (pic_text (PText alpha k rep)) = false.
Proof.
  intros Hk HX HA. cbn [pic_text].
  destruct (run_head (if alpha then 65 else 88) rep k Hk) as [rest ->].
  unfold numeric_text, all_in. cbn [forallb].
  assert (mem (if up then upper (if alpha then 65 else 88) else (if alpha then 65 else 88)) chars = false) as ->.
  { destruct up, alpha; cbn; assumption. }
  reflexivity.
Qed.

Lemma calcsize_float u s m n : (1 <= m + n)%nat ->
  (In u float4_spellings -> calcsize u (mkpic s m n) = Ok 4) /\ (In u float8_spellings -> calcsize u (mkpic s m n) = Ok 8).
Proof.
  intros Hmn. unfold calcsize.
  assert (picture_size (mkpic s m n) =? 0 = false) as -> by (unfold picture_size; cbn [p_signed p_int p_frac]; destruct s; lia).
  unfold float4_spellings, float8_spellings. cbn [In]. split; intros [<-|[<-|[]]]; reflexivity.
Qed.

Lemma text_calcsize k : (1 <= k)%nat -> calcsize display_spelling (mkpic false k 0) = Ok (N.of_nat k).
Proof. intros Hk. rewrite calcsize_display by lia. unfold spec_display_width. f_equal. lia. Qed.

(* both generators agree with the property on keywords and size, and the keywords declare the demanded Python type *)
Definition agrees (u : N) (p : fpic) : Prop :=
  match spec_field u p with
  | Some (t, e, c, sz, py) =>
      json_type u (pic_text p) = Ok (t, e, c)
      /\ json_type_ext u (pic_text p) = Ok (if c =? conv_decimal then ty_decimal else t, 0, 0)
      /\ calcsize u (est_pic p) = Ok sz
      /\ declared_pytype t c = Some py
  | None => True
  end.

Lemma num_agrees u s m n ri rf :
  (1 <= m + n)%nat -> known_bad_C08 u (PNum s m n ri rf) = None -> agrees u (PNum s m n ri rf).
Proof.
  intros Hmn Hk. unfold agrees. cbn [est_pic]. set (txt := pic_text (PNum s m n ri rf)).
  destruct (usage_family u s m n ri rf) as [->|[Hu|[Hu|[Hu|[Hu| ->]]]]]; [| | | | |exact I].
  - (* DISPLAY outside the known-bad family is written without repeat notation: both generators see a numeric text *)
    rewrite display_field.
    cbn [known_bad_C08] in Hk. change (display_spelling =? display_spelling) with true in Hk. cbn [andb] in Hk.
    destruct (written_with_repeat (PNum s m n ri rf)) eqn:Hw; [discriminate|].
    destruct (display_keywords txt) as [-> ->]. unfold txt.
    rewrite !(plain_numeric _ _ s m n ri rf Hmn Hw) by reflexivity.
    split; [reflexivity|]. split; [reflexivity|]. split; [apply calcsize_display; exact Hmn|reflexivity].
  - destruct (packed_family u s m n ri rf txt Hu) as [-> [Ej Ex]].
    split; [exact Ej|]. split; [exact Ex|]. split; [apply calcsize_packed; assumption|reflexivity].
  - destruct (binary_family u s m n ri rf txt Hu) as [-> [Ej Ex]].
    destruct (spec_binary_width (m + n)) as [w|] eqn:Ew; [|exact I].
    split; [exact Ej|]. split; [exact Ex|]. split; [|reflexivity]. apply (calcsize_binary u s m n w Hu Ew).
    cbn [known_bad_C08] in Hk. destruct ((u =? display_spelling) && _); [discriminate|].
    unfold mem_spelling in Hk. rewrite (proj2 (existsb_eqb_In u _) Hu) in Hk. cbn [andb] in Hk.
    destruct (s && _); [discriminate|reflexivity].
  - destruct (float4_family u s m n ri rf txt Hu) as [-> [Ej Ex]].
    split; [exact Ej|]. split; [exact Ex|]. split; [apply (calcsize_float u s m n Hmn); exact Hu|reflexivity].
  - destruct (float8_family u s m n ri rf txt Hu) as [-> [Ej Ex]].
    split; [exact Ej|]. split; [exact Ex|]. split; [apply (calcsize_float u s m n Hmn); exact Hu|reflexivity].
Qed.

Lemma text_agrees u alpha k rep : (1 <= k)%nat -> agrees u (PText alpha k rep).
Proof.
  intros Hk. unfold agrees. cbn [spec_field est_pic]. destruct (u =? display_spelling) eqn:E; [|exact I].
  apply N.eqb_eq in E. subst u.
  destruct (display_keywords (pic_text (PText alpha k rep))) as [-> ->].
  rewrite !(text_not_numeric _ _ alpha k rep Hk) by reflexivity.
  split; [reflexivity|]. split; [reflexivity|]. split; [apply text_calcsize; exact Hk|reflexivity].
Qed.

Lemma generators_agree u p : wf_pic p = true -> known_bad_C08 u p = None -> agrees u p.
Proof.
  destruct p as [s m n ri rf|alpha k rep]; cbn [wf_pic]; intros Hwf Hk.
  - apply andb_true_iff in Hwf as [Hwf _]. apply Nat.leb_le in Hwf. exact (num_agrees u s m n ri rf Hwf Hk).
  - apply Nat.leb_le in Hwf. exact (text_agrees u alpha k rep Hwf).
Qed.

Lemma in_binary_not_display u : In u binary_spellings -> u <> display_spelling.
Proof. cbn. intros [H|[H|[H|[H|[H|[]]]]]]; subst; discriminate. Qed.

Lemma delivered u p f buffer t e c sz py :
  wf_pic p = true -> spec_field u p = Some (t, e, c, sz, py) -> emit_field u p = Ok f ->
  valid_record u p buffer -> delivered_type u p (f_conv f) buffer = Ok py.
Proof.
  intros Hwf Hs He Hv. pose proof (emit_with_conv json_type u p f He) as Ej.
  apply (f_equal (option_map snd)) in Hs. unfold delivered_type.
  destruct p as [s m n ri rf|alpha k rep]; cbn [valid_record] in Hv; cbn [decode wf_pic] in *.
  - apply andb_true_iff in Hwf as [W1 W2]. apply Nat.leb_le in W1, W2.
    destruct Hv as [[-> Hv]|[[Hu Hv]|[Hu Hv]]].
    + (* zoned: decimal or no conversion, a Decimal either way *)
      destruct Hv as [ds [z [Hd [Hz [Hl ->]]]]]. unfold spec_display_width in Hl.
      assert (Hne : ds <> []) by (intros ->; cbn [length] in Hl; destruct s; lia).
      rewrite (C02_zoned (mkpic s m n) ds z Hne Hd Hz) by (destruct s; lia).
      rewrite display_field in Hs. rewrite (proj1 (display_keywords _)) in Ej.
      injection Hs as <-. destruct (numeric_text _ _ _); rewrite Ej; reflexivity.
    + (* packed: decimal *)
      destruct Hv as [ds [sg [Hd [Hz [Hl ->]]]]]. rewrite (C02_packed u (mkpic s m n) ds sg Hu Hd Hz) by lia.
      destruct (packed_family u s m n ri rf (pic_text (PNum s m n ri rf)) Hu) as [E [Ej' _]].
      rewrite E in Hs. rewrite Ej' in Ej. injection Hs as <-. rewrite Ej. reflexivity.
    + (* binary: no conversion *)
      destruct Hv as [w [v [Hw [Hr ->]]]]. rewrite (C02_binary u (mkpic s m n) w v Hu Hw Hr).
      destruct (binary_family u s m n ri rf (pic_text (PNum s m n ri rf)) Hu) as [E [Ej' _]].
      rewrite E, Hw in Hs. rewrite Ej' in Ej. injection Hs as <-. rewrite Ej. reflexivity.
  - (* text: no conversion *)
    destruct Hv as [-> [Hl _]]. apply Nat.leb_le in Hwf. rewrite (C02_text k buffer Hl).
    rewrite (proj1 (display_keywords _)), (text_not_numeric _ _ alpha k rep Hwf) in Ej by reflexivity.
    injection Hs as <-. rewrite Ej. reflexivity.
Qed.

(* Spec/SchemaTruth.v and C01 (Spec/LayoutWf.v) each list the names of a description *)
Lemma ids_bridge : (forall x, L.ids x = ids_of x) /\ (forall ks, L.ids_kids ks = ids_kids ks).
Proof.
  apply item_items_ind.
  - reflexivity.
  - intros i oc rd ks IH. simpl. f_equal. exact IH.
  - reflexivity.
  - intros x IHx xs IHxs. simpl. f_equal; [exact IHx|exact IHxs].
Qed.

(* distinctness of a given list of names, by evaluation: removing duplicates changes nothing *)
Lemma NoDup_by_nodup (l : list N) : nodup N.eq_dec l = l -> NoDup l.
Proof. intros <-. apply NoDup_nodup. Qed.

Lemma NoDup_nodup_keys l : NoDup l -> nodup_keys l = true.
Proof.
  induction 1 as [|k l Hn Hd IH]; [reflexivity|]. cbn [nodup_keys]. rewrite IH, andb_true_r.
  destruct (existsb (key_eqb k) l) eqn:E; [|reflexivity]. apply existsb_exists in E as [x [Hin Hx]].
  apply L.key_eqb_eq in Hx. subst x. contradiction.
Qed.

Definition b_id (b : built) : id := fst (fst b).
Definition b_union (b : built) : option id := snd (fst b).
Definition b_js (b : built) : js := snd b.

Fixpoint pmembers (ps : props) : list (key * js) :=
  match ps with PNil => [] | PCons k s r => (k, s) :: pmembers r end.
Fixpoint avals (al : jalts) : list js :=
  match al with ANil => [] | ACons s r => s :: avals r end.

Lemma prop_keys_members ps : prop_keys ps = map fst (pmembers ps).
Proof. induction ps as [|k s r IH]; [reflexivity|]. cbn [prop_keys pmembers map fst]. rewrite IH. reflexivity. Qed.
Lemma anchors_props_members ps : anchors_props ps = flat_map (fun m => anchors_of (snd m)) (pmembers ps).
Proof. induction ps as [|k s r IH]; [reflexivity|]. cbn [anchors_props pmembers flat_map snd]. rewrite IH. reflexivity. Qed.
Lemma anchors_alts_members al : anchors_alts al = flat_map anchors_of (avals al).
Proof. induction al as [|s r IH]; [reflexivity|]. cbn [anchors_alts avals flat_map]. rewrite IH. reflexivity. Qed.
Lemma refs_props_members ps : refs_props ps = flat_map (fun m => refs_of (snd m)) (pmembers ps).
Proof. induction ps as [|k s r IH]; [reflexivity|]. cbn [refs_props pmembers flat_map snd]. rewrite IH. reflexivity. Qed.
Lemma refs_alts_members al : refs_alts al = flat_map refs_of (avals al).
Proof. induction al as [|s r IH]; [reflexivity|]. cbn [refs_alts avals flat_map]. rewrite IH. reflexivity. Qed.
Lemma shape_props_members ps : shape_props ps = forallb (fun m => shape_ok (snd m)) (pmembers ps).
Proof. induction ps as [|k s r IH]; [reflexivity|]. cbn [shape_props pmembers forallb snd]. rewrite IH. reflexivity. Qed.
Lemma shape_alts_members al : shape_alts al = forallb shape_ok (avals al).
Proof. induction al as [|s r IH]; [reflexivity|]. cbn [shape_alts avals forallb]. rewrite IH. reflexivity. Qed.

Lemma In_alts_of u all s : In s (avals (alts_of u all)) <-> exists i, In (i, Some u, s) all.
Proof.
  induction all as [|[[i0 ou0] s0] r IH]; [split; [intros []|intros [i []]]|].
  cbn [alts_of In]. destruct ou0 as [u'|].
  - destruct (N.eqb u u') eqn:E.
    + apply N.eqb_eq in E. subst u'. cbn [avals In]. rewrite IH. split.
      * intros [<-|[i H]]; [exists i0; left; reflexivity|exists i; right; exact H].
      * intros [i [H|H]]; [left; inversion H; reflexivity|right; exists i; exact H].
    + rewrite IH. split; intros [i H]; exists i; [right; exact H|].
      destruct H as [H|H]; [inversion H; subst; rewrite N.eqb_refl in E; discriminate|exact H].
  - rewrite IH. split; intros [i H]; exists i; [right; exact H|]. destruct H as [H|H]; [discriminate|exact H].
Qed.

Lemma pmembers_plain bs : pmembers (plain bs) = map (fun b => (KName (b_id b), b_js b)) bs.
Proof. induction bs as [|[[i ou] s] r IH]; [reflexivity|]. cbn [plain pmembers map]. rewrite IH. reflexivity. Qed.

(* the ordered properties of a group, E being the unions already emitted: every child under its name, as itself or,
   a union member, as a placeholder; before the first member of a union its oneOf *)
Lemma In_assemble all : forall bs E m, In m (pmembers (assemble all E bs)) <->
  exists b, In b bs /\ match b_union b with
                       | None => m = (KName (b_id b), b_js b)
                       | Some u => m = (KName (b_id b), JRef (KName (b_id b)))
                                   \/ (m = (KRedef u, JOne (Some (KRedef u)) (alts_of u all)) /\ ~ In u E)
                       end.
Proof.
  induction bs as [|[[i0 ou0] s0] r IH]; intros E m; [split; [intros []|intros [b [[] _]]]|].
  cbn [assemble]. destruct ou0 as [u0|].
  - destruct (existsb (N.eqb u0) E) eqn:EE.
    + apply existsb_eqb_In in EE. cbn [pmembers In]. split.
      * intros [H|H]; [exists (i0, Some u0, s0); split; [left; reflexivity|left; symmetry; exact H]|].
        apply IH in H as [b [Hb Hm]]. exists b. split; [right; exact Hb|exact Hm].
      * intros [b [[<-|Hb] Hm]]; [|right; apply IH; exists b; split; assumption].
        cbn [b_union b_id fst snd] in Hm. destruct Hm as [Hm|[_ Hn]]; [left; symmetry; exact Hm|contradiction].
    + assert (Hn0 : ~ In u0 E) by (intros H; apply existsb_eqb_In in H; rewrite H in EE; discriminate).
      cbn [pmembers In]. split.
      * intros [H|[H|H]].
        -- exists (i0, Some u0, s0). split; [left; reflexivity|]. right. split; [symmetry; exact H|exact Hn0].
        -- exists (i0, Some u0, s0). split; [left; reflexivity|]. left. symmetry. exact H.
        -- apply IH in H as [b [Hb Hm]]. exists b. split; [right; exact Hb|]. destruct (b_union b); [|exact Hm].
           destruct Hm as [Hm|[Hm Hn]]; [left; exact Hm|right; split; [exact Hm|]]. intros H. apply Hn. right. exact H.
      * intros [b [[<-|Hb] Hm]].
        -- cbn [b_union b_id fst snd] in Hm. destruct Hm as [Hm|[Hm _]]; [right; left|left]; symmetry; exact Hm.
        -- destruct (b_union b) as [u|] eqn:Eb; [|right; right; apply IH; exists b; rewrite Eb; split; assumption].
           destruct Hm as [Hm|[Hm Hn]]; [right; right; apply IH; exists b; rewrite Eb; split; [exact Hb|left; exact Hm]|].
           destruct (N.eq_dec u0 u) as [->|Hne]; [left; symmetry; exact Hm|].
           right. right. apply IH. exists b. rewrite Eb. split; [exact Hb|]. right. split; [exact Hm|]. intros [H|H]; [exact (Hne H)|exact (Hn H)].
  - cbn [pmembers In]. split.
    + intros [H|H]; [exists (i0, None, s0); split; [left; reflexivity|symmetry; exact H]|].
      apply IH in H as [b [Hb Hm]]. exists b. split; [right; exact Hb|exact Hm].
    + intros [b [[<-|Hb] Hm]]; [left; symmetry; exact Hm|right; apply IH; exists b; split; assumption].
Qed.

Lemma assemble_keys_nodup all : forall bs E, NoDup (map b_id bs) -> NoDup (prop_keys (assemble all E bs)).
Proof.
  induction bs as [|[[i0 ou0] s0] r IH]; intros E Hnd; [constructor|].
  cbn [map b_id fst] in Hnd. inversion Hnd as [|? ? Hni Hnr]; subst.
  assert (Hkey : forall E' k, In k (prop_keys (assemble all E' r)) ->
                 match k with KName i => In i (map b_id r) | KRedef u => ~ In u E' end).
  { intros E' k Hk. rewrite prop_keys_members in Hk. apply in_map_iff in Hk as [[k' s] [<- Hm]].
    apply In_assemble in Hm as [b [Hb Hm]]. cbn [fst]. destruct (b_union b).
    - destruct Hm as [Hm|[Hm Hn]]; inversion Hm; subst; [apply in_map; exact Hb|exact Hn].
    - inversion Hm; subst. apply in_map. exact Hb. }
  assert (Hname : forall E', ~ In (KName i0) (prop_keys (assemble all E' r))) by (intros E' H; exact (Hni (Hkey E' _ H))).
  cbn [assemble]. destruct ou0 as [u0|]; [destruct (existsb (N.eqb u0) E)|]; cbn [prop_keys];
    try (constructor; [apply Hname|apply IH; exact Hnr]).
  constructor; [|constructor; [apply Hname|apply IH; exact Hnr]].
  intros [H|H]; [discriminate|]. apply (Hkey _ _ H). left. reflexivity.
Qed.

Lemma kid_alts_bid targets ks : map b_id (kid_alts targets ks) = L.kid_ids ks.
Proof. induction ks as [|x xs IH]; [reflexivity|]. rewrite L.kid_alts_cons. cbn [map b_id fst L.kid_ids]. rewrite IH. reflexivity. Qed.

Lemma ids_are_anchors :
  (forall x k, In k (map KName (L.ids x)) -> In k (anchors_of (build_alt x)))
  /\ (forall ks targets k, In k (map KName (L.ids_kids ks)) ->
        exists i ou s, In (i, ou, s) (kid_alts targets ks) /\ In k (anchors_of s)).
Proof.
  apply item_items_ind.
  - intros i sz oc redef k Hk. cbn [L.ids map In] in Hk. destruct Hk as [Hk|[]]. subst k.
    destruct oc; cbn; auto.
  - intros i oc redef ks IH k Hk. cbn [L.ids map In] in Hk. destruct Hk as [Hk|Hk].
    + subst k. destruct oc; cbn; auto.
    + (* a repeated group holds its children as they are *)
      assert (Hplain : In k (anchors_props (plain (kid_alts [] ks)))).
      { destruct (IH [] k Hk) as [i' [ou [s [A B]]]]. rewrite anchors_props_members, pmembers_plain. apply in_flat_map.
        exists (KName i', s). split; [apply in_map_iff; exists (i', ou, s); split; [reflexivity|exact A]|exact B]. }
      destruct oc as [|n|c]; cbn [build_alt anchors_of js_anchor app]; right; [|exact Hplain|exact Hplain].
      (* the schema of a union member stands among the alternatives of its union *)
      set (bs := kid_alts (redef_targets ks) ks). destruct (IH (redef_targets ks) k Hk) as [i' [ou [s [A B]]]]. fold bs in A.
      rewrite anchors_props_members. apply in_flat_map. destruct ou as [u|].
      * exists (KRedef u, JOne (Some (KRedef u)) (alts_of u bs)).
        split; [apply In_assemble; exists (i', Some u, s); split; [exact A|right; split; [reflexivity|intros []]]|].
        cbn [snd anchors_of js_anchor app]. right. rewrite anchors_alts_members. apply in_flat_map.
        exists s. split; [apply In_alts_of; exists i'; exact A|exact B].
      * exists (KName i', s). split; [apply In_assemble; exists (i', None, s); split; [exact A|reflexivity]|exact B].
  - intros targets k [].
  - intros x IHx xs IHxs targets k Hk. cbn [L.ids_kids] in Hk. rewrite map_app in Hk. rewrite L.kid_alts_cons.
    apply in_app_or in Hk as [Hk|Hk].
    + exists (item_id x), (union_of targets x), (build_alt x). split; [left; reflexivity|apply IHx; exact Hk].
    + destruct (IHxs targets k Hk) as [i [ou [s [A B]]]]. exists i, ou, s. split; [right; exact A|exact B].
Qed.

Lemma refs_are_names :
  (forall x k, In k (refs_of (build_alt x)) -> In k (map KName (L.ids x ++ counters_of x)))
  /\ (forall ks targets i ou s, In (i, ou, s) (kid_alts targets ks) ->
        In i (L.ids_kids ks) /\ forall k, In k (refs_of s) -> In k (map KName (L.ids_kids ks ++ counters_kids ks))).
Proof.
  apply item_items_ind.
  - intros i sz oc redef k Hk. destruct oc; cbn in Hk |- *; tauto.
  - intros i oc redef ks IH k Hk.
    (* a reference met among the properties of the group: the name of a child, or a reference inside a child *)
    assert (Hkid : forall targets b, In b (kid_alts targets ks) -> (k = KName (b_id b) \/ In k (refs_of (b_js b))) ->
                   In k (map KName (L.ids (Group i oc redef ks) ++ counters_of (Group i oc redef ks)))).
    { intros targets [[i' ou] s] A H. destruct (IH targets i' ou s A) as [C D].
      assert (In k (map KName (L.ids_kids ks ++ counters_kids ks))) as H'.
      { destruct H as [->|H]; [apply in_map, in_or_app; left; exact C|apply D; exact H]. }
      revert H'. apply incl_map. cbn [L.ids counters_of]. apply incl_app_app; [apply incl_tl, incl_refl|apply incl_appr, incl_refl]. }
    destruct oc as [|n|c]; cbn [build_alt refs_of] in Hk.
    + set (bs := kid_alts (redef_targets ks) ks) in Hk.
      rewrite refs_props_members in Hk. apply in_flat_map in Hk as [m [Hm Hk]].
      apply In_assemble in Hm as [b [Hb Hm]]. destruct (b_union b) as [u|].
      * destruct Hm as [->|[-> _]]; cbn [snd refs_of] in Hk.
        -- destruct Hk as [<-|[]]. apply (Hkid _ b Hb). left. reflexivity.
        -- rewrite refs_alts_members in Hk. apply in_flat_map in Hk as [s [Hs Hk]]. apply In_alts_of in Hs as [i' Hs].
           apply (Hkid _ _ Hs). right. exact Hk.
      * subst m. apply (Hkid _ b Hb). right. exact Hk.
    + rewrite refs_props_members, pmembers_plain in Hk. apply in_flat_map in Hk as [m [Hm Hk]].
      apply in_map_iff in Hm as [b [<- Hb]]. apply (Hkid _ b Hb). right. exact Hk.
    + destruct Hk as [<-|Hk]; [apply in_map, in_or_app; right; left; reflexivity|].
      rewrite refs_props_members, pmembers_plain in Hk. apply in_flat_map in Hk as [m [Hm Hk]].
      apply in_map_iff in Hm as [b [<- Hb]]. apply (Hkid _ b Hb). right. exact Hk.
  - intros targets i ou s [].
  - intros x IHx xs IHxs targets i ou s Hin. rewrite L.kid_alts_cons in Hin. cbn [L.ids_kids counters_kids].
    destruct Hin as [Heq|Hin].
    + inversion Heq; subst. split; [apply in_or_app; left; apply L.item_id_in_ids|].
      intros k Hk. eapply incl_map; [|apply IHx; exact Hk]. apply incl_app_app; apply incl_appl, incl_refl.
    + destruct (IHxs targets i ou s Hin) as [A B]. split; [apply in_or_app; right; exact A|].
      intros k Hk. eapply incl_map; [|apply B; exact Hk]. apply incl_app_app; apply incl_appr, incl_refl.
Qed.

Lemma names_anchored (t : item) (i : id) : In i (ids_of t) -> In (KName i) (anchors_of (build t)).
Proof. intros H. apply (proj1 ids_are_anchors). apply in_map. rewrite (proj1 ids_bridge). exact H. Qed.

Lemma plain_shape ks :
  NoDup (L.kid_ids ks) -> (forall b, In b (kid_alts [] ks) -> shape_ok (b_js b) = true) ->
  shape_ok (JObj None (plain (kid_alts [] ks))) = true.
Proof.
  intros Hids Hs. cbn [shape_ok]. rewrite prop_keys_members, shape_props_members, pmembers_plain, map_map. cbn [fst].
  rewrite <- (map_map b_id KName), kid_alts_bid.
  rewrite NoDup_nodup_keys by (apply FinFun.Injective_map_NoDup; [intros a b H; inversion H; reflexivity|exact Hids]).
  apply forallb_forall. intros m Hm. apply in_map_iff in Hm as [b [<- Hb]]. exact (Hs b Hb).
Qed.

Lemma build_shape :
  (forall x, NoDup (L.ids x) -> shape_ok (build_alt x) = true)
  /\ (forall ks, NoDup (L.ids_kids ks) -> forall targets b, In b (kid_alts targets ks) -> shape_ok (b_js b) = true).
Proof.
  apply item_items_ind.
  - intros i sz oc redef _. destruct oc; reflexivity.
  - intros i oc redef ks IH Hnd. cbn [L.ids] in Hnd. inversion Hnd as [|? ? _ Hk]; subst.
    pose proof (L.NoDup_ids_kid_ids ks Hk) as Hids. specialize (IH Hk).
    destruct oc as [|n|c]; cbn [build_alt shape_ok].
    + set (bs := kid_alts (redef_targets ks) ks).
      rewrite NoDup_nodup_keys by (apply assemble_keys_nodup; unfold bs; rewrite kid_alts_bid; exact Hids).
      rewrite shape_props_members. apply forallb_forall. intros m Hm. apply In_assemble in Hm as [b [Hb Hm]].
      destruct b as [[i' ou] s]. cbn [b_union b_id b_js fst snd] in Hm. destruct ou as [u|]; [|subst m; exact (IH _ _ Hb)].
      destruct Hm as [->|[-> _]]; [reflexivity|]. cbn [snd shape_ok].
      (* the oneOf of union u: it holds at least this member, and nothing but schemas of children *)
      assert (Hs : In s (avals (alts_of u bs))) by (apply In_alts_of; exists i'; exact Hb).
      assert (shape_alts (alts_of u bs) = true) as ->.
      { rewrite shape_alts_members. apply forallb_forall. intros s' Hs'. apply In_alts_of in Hs' as [i'' Hs']. exact (IH _ _ Hs'). }
      destruct (alts_of u bs); [destruct Hs|reflexivity].
    + exact (plain_shape ks Hids (IH [])).
    + exact (plain_shape ks Hids (IH [])).
  - intros _ targets b [].
  - intros x IHx xs IHxs Hnd targets b Hin. cbn [L.ids_kids] in Hnd.
    rewrite L.kid_alts_cons in Hin. destruct Hin as [<-|Hin].
    + apply IHx. exact (NoDup_app_l _ _ Hnd).
    + exact (IHxs (NoDup_app_r _ _ Hnd) targets b Hin).
Qed.

Lemma shape_build (t : item) : NoDup (ids_of t) -> shape_ok (build t) = true.
Proof. intros H. apply (proj1 build_shape). rewrite (proj1 ids_bridge). exact H. Qed.

Lemma wf8_group e i oc rd ks : wf8 e (Group i oc rd ks) = true ->
  wf8_kids e ks = true /\ L.unions_ok e [] ks = true /\ match oc with Once => True | _ => redef_targets ks = [] end.
Proof.
  cbn [wf8]. rewrite !andb_true_iff. intros [[Hk Hu] Hoc]. split; [exact Hk|]. split; [exact Hu|].
  destruct oc; [exact I| |]; destruct (redef_targets ks); (reflexivity || discriminate).
Qed.

Lemma build_group e i oc rd ks :
  NoDup (L.ids_kids ks) -> wf8 e (Group i oc rd ks) = true ->
  build_alt (Group i oc rd ks)
  = match oc with
    | Once => JObj (Some (KName i)) (L.assemble_d ks)
    | Times n => JArr (Some (KName i)) n (JObj None (L.assemble_d ks))
    | Odo c => JOdo (Some (KName i)) c (JObj None (L.assemble_d ks))
    end.
Proof.
  intros Hnd Hw. destruct (wf8_group e i oc rd ks Hw) as [_ [Hu Er]]. destruct oc as [|n|c].
  - apply (L.build_group_once e); assumption.
  - rewrite (L.no_redef_assemble ks Er). reflexivity.
  - rewrite (L.no_redef_assemble ks Er). reflexivity.
Qed.

Lemma group_anchors e i oc rd ks :
  NoDup (L.ids_kids ks) -> wf8 e (Group i oc rd ks) = true ->
  anchors_of (build_alt (Group i oc rd ks)) = KName i :: anchors_props (L.assemble_d ks).
Proof. intros Hnd Hw. rewrite (build_group e i oc rd ks Hnd Hw). destruct oc; reflexivity. Qed.

(* what the children loop needs of each child's schema: no anchor twice, anchors among the keys of the child's own
   names, REDEFINES-<child> not among them *)
Definition triple (y : item) : Prop :=
  NoDup (anchors_of (build_alt y)) /\ incl (anchors_of (build_alt y)) (L.K (L.ids y))
  /\ ~ In (KRedef (item_id y)) (anchors_of (build_alt y)).

Lemma anchors_triple e :
  (forall x, wf8 e x = true -> NoDup (L.ids x) -> triple x)
  /\ (forall ks, wf8_kids e ks = true -> NoDup (L.ids_kids ks) -> forall y, L.in_kids y ks -> triple y).
Proof.
  apply item_items_ind.
  - intros i sz oc rd _ _. unfold triple.
    assert (anchors_of (build_alt (Elem i sz oc rd)) = [KName i]) as -> by (destruct oc; reflexivity).
    split; [repeat constructor; intros []|]. split.
    + intros k [<-|[]]. apply L.K_name. left. reflexivity.
    + intros [H|[]]. discriminate.
  - intros i oc rd ks IH Hw Hnd.
    apply NoDup_cons_iff in Hnd as [Hi Hndk]. specialize (IH (proj1 (wf8_group e i oc rd ks Hw)) Hndk).
    unfold triple. rewrite (group_anchors e i oc rd ks Hndk Hw). cbn [item_id L.ids].
    assert (Hincl : incl (anchors_props (L.assemble_d ks)) (L.K (L.ids_kids ks))).
    (* LayoutP states its lemmas for its own L.keys_js / L.keys_props, the same Fixpoint as anchors_of /
       anchors_props of Spec/SchemaTruth.v: the two are convertible, which is why they apply here *)
    { apply (L.keys_assemble_d ks). intros y Hy. exact (proj1 (proj2 (IH y Hy))). }
    split; [|split].
    + constructor; [intros Hin; apply Hincl, L.K_name in Hin; contradiction|].
      apply (L.nodup_assemble_gen ks); [| | |exact Hndk]; intros y Hy; apply (IH y Hy).
    + exact (L.K_own i _ _ Hincl).
    + intros [H|H]; [discriminate|]. apply Hincl in H. apply L.K_redef in H. contradiction.
  - intros _ _ y [].
  - intros x IHx xs IHxs Hw Hnd y Hy. cbn [wf8_kids] in Hw. apply andb_true_iff in Hw as [Hwx Hwxs].
    cbn [L.ids_kids] in Hnd. destruct Hy as [->|Hy].
    + apply IHx; [exact Hwx|exact (NoDup_app_l _ _ Hnd)].
    + apply IHxs; [exact Hwxs|exact (NoDup_app_r _ _ Hnd)|exact Hy].
Qed.

Lemma wf8_not_raises e :
  (forall x, wf8 e x = true -> build_raises x = false) /\ (forall ks, wf8_kids e ks = true -> kids_raise ks = false).
Proof.
  apply item_items_ind.
  - reflexivity.
  - intros i oc rd ks IH Hw. destruct (wf8_group e i oc rd ks Hw) as [Hk [_ Er]].
    cbn [build_raises]. rewrite (IH Hk), orb_false_r. destruct oc; [reflexivity| |]; rewrite Er; reflexivity.
  - reflexivity.
  - intros x IHx xs IHxs Hw. cbn [wf8_kids] in Hw. apply andb_true_iff in Hw as [A B]. cbn [kids_raise]. rewrite (IHx A), (IHxs B). reflexivity.
Qed.

Lemma anchors_distinct e t : NoDup (ids_of t) -> wf8 e t = true -> NoDup (anchors_of (build t)).
Proof.
  intros Hnd Hw. rewrite <- (proj1 ids_bridge) in Hnd. exact (proj1 (proj1 (anchors_triple e) t Hw Hnd)).
Qed.

(* The loader's cache answers with the newest entry of a key.  A node with $anchor k is entered under k and bears k.
   A node without $anchor may be entered under its title - the placeholder of a union member, the array of an elementary
   OCCURS item - and the title of an entry is its name: a lookup of that name then finds the titled node, not the
   anchored one.  So a name can be referred to while it is [usable]: entered, and not yet titled.  The walk of a built
   schema keeps every name usable until its last reference site: placeholders come after the oneOf that anchors the
   members, counters are neither union members nor tables. *)
Section LoadP.
  Variable filler : id -> bool.

  Definition keys (c : cache) : list key := map fst c.
  Definition entry_ok (p : key * desc) : Prop := snd (snd p) = Some (fst p) \/ snd (snd p) = None.
  Definition titled (c : cache) (k : key) : Prop := exists cl, In (k, (cl, None)) c.
  Definition usable (c : cache) (k : key) : Prop := In k (keys c) /\ ~ titled c k.

  Lemma titled_app r c k : titled (r ++ c) k <-> titled r k \/ titled c k.
  Proof.
    unfold titled. split.
    - intros [cl H]. apply in_app_or in H as [H|H]; [left|right]; exists cl; exact H.
    - intros [[cl H]|[cl H]]; exists cl; apply in_or_app; [left|right]; exact H.
  Qed.

  Lemma usable_app r c k : usable (r ++ c) k <-> (In k (keys r) \/ In k (keys c)) /\ ~ titled r k /\ ~ titled c k.
  Proof. unfold usable, keys. rewrite map_app, in_app_iff, titled_app. apply and_iff_compat_l, Decidable.not_or_iff. Qed.

  Lemma usable_lookup c k : Forall entry_ok c -> usable c k -> exists cl, clookup k c = Some (cl, Some k).
  Proof.
    induction c as [|[k' [cl a]] c IH]; intros Hok [Hin Hnt]; [destruct Hin|].
    inversion Hok as [|? ? Hh Ht]; subst. cbn [clookup].
    destruct (key_eqb k k') eqn:E.
    - apply L.key_eqb_eq in E. subst k'. destruct Hh as [Hh|Hh]; cbn [fst snd] in Hh; subst a.
      + exists cl. reflexivity.
      + exfalso. apply Hnt. exists cl. left. reflexivity.
    - apply IH; [exact Ht|]. split.
      + destruct Hin as [Hin|Hin]; [|exact Hin]. cbn [fst] in Hin. subst k'. rewrite (proj2 (L.key_eqb_eq k k) eq_refl) in E. discriminate.
      + intros [cl' H]. apply Hnt. exists cl'. right. exact H.
  Qed.

  (* titles: the names under which nodes WITHOUT $anchor are cached *)
  Definition own_title (s : js) : list key :=
    match js_anchor s with
    | Some _ => []
    | None => match cache_key filler s with Some k => [k] | None => [] end
    end.

  Fixpoint titles_of (s : js) : list key :=
    own_title s ++
    match s with
    | JAtom _ _ => []
    | JArr _ _ its => titles_of its
    | JOdo _ _ its => titles_of its
    | JObj _ ps => titles_props ps
    | JOne _ alts => titles_alts alts
    | JRef _ => []
    end
  with titles_props (ps : props) : list key :=
    match ps with PNil => [] | PCons _ s r => titles_of s ++ titles_props r end
  with titles_alts (alts : jalts) : list key :=
    match alts with ANil => [] | ACons s r => titles_of s ++ titles_alts r end.

  (* what a walk adds to the cache: entries that bear their key or no $anchor, every anchor met, titles only where met *)
  Definition adds (r : cache) (anchors titles : list key) : Prop :=
    Forall entry_ok r /\ incl anchors (keys r) /\ (forall k, titled r k -> In k titles).

  Lemma adds_nil : adds [] [] [].
  Proof. split; [constructor|]. split; [intros k []|intros k [cl []]]. Qed.

  Lemma adds_app r2 r1 a1 a2 t1 t2 : adds r1 a1 t1 -> adds r2 a2 t2 -> adds (r2 ++ r1) (a1 ++ a2) (t1 ++ t2).
  Proof.
    intros [A1 [B1 C1]] [A2 [B2 C2]]. split; [apply Forall_app; split; assumption|]. split.
    - intros k Hk. unfold keys. rewrite map_app. apply in_or_app. apply in_app_or in Hk as [Hk|Hk]; [right; apply B1|left; apply B2]; exact Hk.
    - intros k Hk. apply titled_app in Hk as [Hk|Hk]; apply in_or_app; [right; apply C2|left; apply C1]; exact Hk.
  Qed.

  (* a node is registered after the walk of what it holds *)
  Lemma adds_own s cl c r1 a t :
    adds r1 a t ->
    exists r, register filler s (cl, js_anchor s) (r1 ++ c) = r ++ c
              /\ adds r ((match js_anchor s with Some k => [k] | None => [] end) ++ a) (own_title s ++ t).
  Proof.
    intros A1.
    assert (exists r0, register filler s (cl, js_anchor s) (r1 ++ c) = r0 ++ r1 ++ c
                       /\ adds r0 (match js_anchor s with Some k => [k] | None => [] end) (own_title s)) as [r0 [E A0]].
    { unfold register, own_title. destruct (js_anchor s) as [k|] eqn:Ea.
      - assert (cache_key filler s = Some k) as -> by (unfold cache_key; rewrite Ea; reflexivity).
        exists [(k, (cl, Some k))]. split; [reflexivity|]. split; [constructor; [left; reflexivity|constructor]|].
        split; [intros x [<-|[]]; left; reflexivity|]. intros x [cl' [H|[]]]. inversion H.
      - destruct (cache_key filler s) as [k|].
        + exists [(k, (cl, None))]. split; [reflexivity|]. split; [constructor; [right; reflexivity|constructor]|].
          split; [intros x []|]. intros x [cl' [H|[]]]. inversion H; subst. left. reflexivity.
        + exists []. split; [reflexivity|apply adds_nil]. }
    exists (r0 ++ r1). split; [rewrite E; apply app_assoc|].
    destruct (adds_app r0 r1 _ _ _ _ A1 A0) as [O [K T]]. split; [exact O|]. split.
    - intros k Hk. apply K, in_or_app, or_comm, in_app_or. exact Hk.
    - intros k Hk. apply in_or_app, or_comm, in_app_or, T. exact Hk.
  Qed.

  (* what a walk returns: the reference sites in document order, and the cache grown by what the nodes register *)
  Definition walked (c : cache) (w : res (cache * list site)) (sites anchors titles : list key) : Prop :=
    match w with
    | Ok (c', l) => map fst l = sites /\ exists r, c' = r ++ c /\ adds r anchors titles
    | Err _ => True
    end.

  Lemma walked_own s cl {c w sites a t} :
    walked c w sites a t ->
    walked c (match w with Ok (c1, l1) => Ok (register filler s (cl, js_anchor s) c1, l1) | Err e => Err e end)
           sites ((match js_anchor s with Some k => [k] | None => [] end) ++ a) (own_title s ++ t).
  Proof.
    destruct w as [[c1 l1]|]; [|exact (fun H => H)].
    intros [M [r1 [-> A1]]]. split; [exact M|]. exact (adds_own s cl c r1 a t A1).
  Qed.

  Lemma walked_seq {c w} f {s1 a1 t1 s2 a2 t2} :
    walked c w s1 a1 t1 -> (forall c1, walked c1 (f c1) s2 a2 t2) ->
    walked c (match w with
              | Ok (c1, l1) => match f c1 with Ok (c2, l2) => Ok (c2, l1 ++ l2) | Err e => Err e end
              | Err e => Err e
              end) (s1 ++ s2) (a1 ++ a2) (t1 ++ t2).
  Proof.
    destruct w as [[c1 l1]|]; [|exact (fun _ _ => I)]. intros [M1 [r1 [-> A1]]] H. specialize (H (r1 ++ c)).
    destruct (f (r1 ++ c)) as [[c2 l2]|]; [|exact I]. destruct H as [M2 [r2 [-> A2]]].
    split; [rewrite map_app; exact (f_equal2 (@app key) M1 M2)|].
    exists (r2 ++ r1). split; [apply app_assoc|]. exact (adds_app _ _ _ _ _ _ A1 A2).
  Qed.

  Lemma lwalk_spec :
    (forall s c, walked c (lwalk filler s c) (site_keys s) (anchors_of s) (titles_of s))
    /\ (forall ps c, walked c (lwalk_props filler ps c) (site_keys_props ps) (anchors_props ps) (titles_props ps))
    /\ (forall al c, walked c (lwalk_alts filler al c) (site_keys_alts al) (anchors_alts al) (titles_alts al)).
  Proof.
    apply js_props_alts_ind.
    - intros a sz c. split; [reflexivity|]. exact (adds_own (JAtom a sz) CAtomic c [] [] [] adds_nil).
    - intros a n its IH c. exact (walked_own (JArr a n its) CArray (IH c)).
    - intros a cn its IH c. specialize (IH c). simpl. destruct (lwalk filler its c) as [[c1 l1]|]; [|exact I].
      destruct (clookup (KName cn) c1); [|exact I].
      destruct IH as [M [r1 [-> A1]]]. split; [|exact (adds_own (JOdo a cn its) CDepends c r1 _ _ A1)].
      rewrite map_app. exact (f_equal (fun t => t ++ [KName cn]) M).
    - intros a ps IH c. exact (walked_own (JObj a ps) CObject (IH c)).
    - intros a al IH c. destruct al as [|s0 r0]; [exact I|].
      exact (walked_own (JOne a (ACons s0 r0)) COneOf (IH c)).
    - intros k c. split; [reflexivity|]. exact (adds_own (JRef k) CRef c [] [] [] adds_nil).
    - intros c. split; [reflexivity|]. exists []. split; [reflexivity|apply adds_nil].
    - intros k s IHs r IHr c. exact (walked_seq (lwalk_props filler r) (IHs c) IHr).
    - intros c. split; [reflexivity|]. exists []. split; [reflexivity|apply adds_nil].
    - intros s IHs r IHr c. exact (walked_seq (lwalk_alts filler r) (IHs c) IHr).
  Qed.

  Lemma lwalk_adds s c c' l : lwalk filler s c = Ok (c', l) -> exists r, c' = r ++ c /\ adds r (anchors_of s) (titles_of s).
  Proof. intros E. pose proof (proj1 lwalk_spec s c) as H. rewrite E in H. exact (proj2 H). Qed.

  Variable e : env.

  (* the title under which a node without $anchor that stands for item i is cached: none for a FILLER *)
  Definition tk (i : id) : list key := if filler i then [] else [KName i].

  Lemma tk_in j i : In (KName j) (tk i) -> j = i.
  Proof. unfold tk. destruct (filler i); [intros []|intros [H|[]]; inversion H; reflexivity]. Qed.

  Lemma own_title_ref i : own_title (JRef (KName i)) = tk i.
  Proof. unfold own_title, tk. cbn. destruct (filler i); reflexivity. Qed.

  Lemma elem_titles i sz oc rd :
    titles_of (build_alt (Elem i sz oc rd)) = match oc with Once => [] | _ => tk i end.
  Proof. destruct oc; cbn; unfold tk; destruct (filler i); reflexivity. Qed.

  Lemma group_titles i oc rd ks :
    NoDup (L.ids_kids ks) -> wf8 e (Group i oc rd ks) = true ->
    titles_of (build_alt (Group i oc rd ks)) = titles_props (L.assemble_d ks).
  Proof. intros Hnd Hw. rewrite (build_group e i oc rd ks Hnd Hw). destruct oc; reflexivity. Qed.

  (* the placeholder of a union member bears its title; the oneOf of a union bears REDEFINES-x *)
  Lemma titles_assemble_cons x xs :
    titles_props (L.assemble_d (ICons x xs)) =
    match item_redef x with
    | Some _ => tk (item_id x) ++ titles_props (L.assemble_d xs)
    | None =>
        if existsb (N.eqb (item_id x)) (redef_targets xs)
        then (titles_of (build_alt x) ++ titles_alts (L.alts_red (item_id x) xs)) ++ tk (item_id x) ++ titles_props (L.assemble_d xs)
        else titles_of (build_alt x) ++ titles_props (L.assemble_d xs)
    end.
  Proof.
    assert (Hp : forall i r, titles_props (PCons (KName i) (JRef (KName i)) r) = tk i ++ titles_props r).
    { intros i r. cbn [titles_props titles_of]. rewrite own_title_ref, app_nil_r. reflexivity. }
    cbn [L.assemble_d]. destruct (item_redef x) as [u|]; [apply Hp|].
    destruct (existsb (N.eqb (item_id x)) (redef_targets xs)); [|reflexivity].
    rewrite <- Hp. reflexivity.
  Qed.

  Lemma titles_alts_red u xs k :
    In k (titles_alts (L.alts_red u xs)) ->
    exists y, L.in_kids y xs /\ item_redef y = Some u /\ In k (titles_of (build_alt y)).
  Proof.
    induction xs as [|y ys IH]; intros H; [destruct H|].
    assert (Hr : In k (titles_alts (L.alts_red u ys)) ->
                 exists z, L.in_kids z (ICons y ys) /\ item_redef z = Some u /\ In k (titles_of (build_alt z))).
    { intros H'. destruct (IH H') as [z [A B]]. exists z. split; [right; exact A|exact B]. }
    cbn [L.alts_red] in H. destruct (item_redef y) as [u'|] eqn:Er; [|exact (Hr H)].
    destruct (N.eqb u u') eqn:E; [|exact (Hr H)]. apply N.eqb_eq in E. subst u'.
    cbn [titles_alts] in H. apply in_app_or in H as [H|H]; [|exact (Hr H)].
    exists y. split; [left; reflexivity|split; assumption].
  Qed.

  Lemma alts_red_none u xs : ~ In u (redef_targets xs) -> L.alts_red u xs = ANil.
  Proof.
    induction xs as [|y ys IH]; intros H; [reflexivity|].
    cbn [L.alts_red redef_targets] in *. destruct (item_redef y) as [u'|]; [|exact (IH H)].
    destruct (N.eqb u u') eqn:E; [apply N.eqb_eq in E; subst; exfalso; apply H; left; reflexivity|].
    apply IH. intros Hin. apply H. right. exact Hin.
  Qed.

  Lemma anchors_alts_red u xs y k :
    L.in_kids y xs -> item_redef y = Some u -> In k (anchors_of (build_alt y)) -> In k (anchors_alts (L.alts_red u xs)).
  Proof.
    induction xs as [|z zs IH]; intros Hin Er Hk; [destruct Hin|].
    cbn [L.alts_red]. destruct Hin as [->|Hin].
    - rewrite Er, N.eqb_refl. cbn [anchors_alts]. apply in_or_app. left. exact Hk.
    - destruct (item_redef z) as [u'|]; [destruct (N.eqb u u')|]; try (cbn [anchors_alts]; apply in_or_app; right); apply IH; assumption.
  Qed.

  Lemma decl_where :
    (forall x j, In j (decl x) -> match x with Elem _ _ _ _ => False | Group _ _ _ ks => In j (L.ids_kids ks) end)
    /\ (forall ks j, In j (decl_kids ks) -> exists z, L.in_kids z ks /\ item_redef z = None /\ In j (L.ids z)).
  Proof.
    apply item_items_ind.
    - intros i sz oc rd j [].
    - intros i oc rd ks IH j Hj. cbn [decl] in Hj. destruct (IH j Hj) as [z [A [_ B]]].
      apply (L.in_kids_ids_incl z ks A). exact B.
    - intros j [].
    - intros x IHx xs IHxs j Hj. cbn [decl_kids] in Hj. apply in_app_or in Hj as [Hj|Hj].
      + destruct (item_redef x) eqn:Er; [destruct Hj|]. exists x. split; [left; reflexivity|]. split; [exact Er|].
        apply in_app_or in Hj as [Hj|Hj].
        * destruct (eligible x xs); [|destruct Hj]. destruct Hj as [<-|[]]. apply L.item_id_in_ids.
        * specialize (IHx j Hj). destruct x as [|i oc rd ks]; [destruct IHx|]. cbn [L.ids]. right. exact IHx.
      + destruct (IHxs j Hj) as [z [A B]]. exists z. split; [right; exact A|exact B].
  Qed.

  Lemma decl_strict x j : NoDup (L.ids x) -> In j (decl x) -> In j (L.ids x) /\ j <> item_id x.
  Proof.
    intros Hnd Hj. pose proof (proj1 decl_where x j Hj) as H. destruct x as [|i oc rd ks]; [destruct H|].
    cbn [L.ids item_id] in *. inversion Hnd as [|? ? Hi _]; subst. split; [right; exact H|]. intros ->. contradiction.
  Qed.

  Lemma eligible_plain x xs :
    eligible x xs = true -> existsb (N.eqb (item_id x)) (redef_targets xs) = false /\ L.elem_table x = false.
  Proof.
    destruct x as [i sz oc rd|]; [|discriminate]. cbn [eligible item_id]. destruct oc; try discriminate. destruct rd; [discriminate|].
    intros H. apply negb_true_iff in H. split; [exact H|reflexivity].
  Qed.

  (* what a title inside the schema of x can be: a name of x that is no counter declared in x, and the name of x itself
     only when x is an elementary OCCURS item *)
  Definition TT (x : item) : Prop := forall i, In (KName i) (titles_of (build_alt x)) ->
    In i (L.ids x) /\ ~ In i (decl x) /\ (i = item_id x -> L.elem_table x = true).

  Lemma TT_kids ks :
    NoDup (L.ids_kids ks) -> (forall y, L.in_kids y ks -> TT y) ->
    forall i, In (KName i) (titles_props (L.assemble_d ks)) -> In i (L.ids_kids ks) /\ ~ In i (decl_kids ks).
  Proof.
    induction ks as [|x xs IH]; intros Hnd Hk i Hin; [destruct Hin|].
    cbn [L.ids_kids] in Hnd. pose proof (NoDup_app_l _ _ Hnd) as Hndx. pose proof (NoDup_app_r _ _ Hnd) as Hndxs.
    assert (Hdisj : forall j, In j (L.ids x) -> In j (L.ids_kids xs) -> False) by (intros j; apply (NoDup_app_disj _ _ j Hnd)).
    assert (Hxs : forall y, L.in_kids y xs -> TT y) by (intros y Hy; apply Hk; right; exact Hy).
    specialize (IH Hndxs Hxs i).
    cbn [L.ids_kids decl_kids].
    set (head := match item_redef x with Some _ => [] | None => (if eligible x xs then [item_id x] else []) ++ decl x end).
    assert (Hhead : forall j, In j head -> In j (L.ids x)).
    { unfold head. destruct (item_redef x); [intros j []|]. intros j Hj. apply in_app_or in Hj as [Hj|Hj].
      - destruct (eligible x xs); [|destruct Hj]. destruct Hj as [<-|[]]. apply L.item_id_in_ids.
      - apply (decl_strict x j Hndx Hj). }
    assert (Hrest : forall j, In j (decl_kids xs) -> In j (L.ids_kids xs)).
    { intros j Hj. destruct (proj2 decl_where xs j Hj) as [z [A [_ B]]]. apply (L.in_kids_ids_incl z xs A). exact B. }
    (* it is enough to place i: in x outside [head], or in the rest outside the counters of the rest *)
    assert (Hfin : (In i (L.ids x) /\ ~ In i head) \/ (In i (L.ids_kids xs) /\ ~ In i (decl_kids xs)) ->
                   In i (L.ids x ++ L.ids_kids xs) /\ ~ In i (head ++ decl_kids xs)).
    { intros [[A B]|[A B]]; (split; [apply in_or_app; auto|]); intros H; apply in_app_or in H as [H|H]; try contradiction.
      - exact (Hdisj i A (Hrest i H)).
      - exact (Hdisj i (Hhead i H) A). }
    apply Hfin. clear Hfin.
    assert (Hown : In (KName i) (tk (item_id x)) -> existsb (N.eqb (item_id x)) (redef_targets xs) = true \/ item_redef x <> None ->
                   In i (L.ids x) /\ ~ In i head).
    { intros H Hm. apply tk_in in H. subst i. split; [apply L.item_id_in_ids|]. unfold head.
      destruct (item_redef x) eqn:Er; [intros []|]. destruct Hm as [Hm|Hm]; [|contradiction]. intros H.
      apply in_app_or in H as [H|H].
      - destruct (eligible x xs) eqn:El; [|destruct H]. apply eligible_plain in El as [El _]. rewrite El in Hm. discriminate.
      - exact (proj2 (decl_strict x _ Hndx H) eq_refl). }
    assert (Hbuilt : item_redef x = None -> In (KName i) (titles_of (build_alt x)) -> In i (L.ids x) /\ ~ In i head).
    { intros Er H. destruct (Hk x (or_introl eq_refl) i H) as [A [B C]]. split; [exact A|]. unfold head. rewrite Er.
      intros H'. apply in_app_or in H' as [H'|H']; [|contradiction].
      destruct (eligible x xs) eqn:El; [|destruct H']. destruct H' as [<-|[]]. apply eligible_plain in El as [_ El].
      rewrite (C eq_refl) in El. discriminate. }
    rewrite titles_assemble_cons in Hin. destruct (item_redef x) as [u|] eqn:Er.
    - apply in_app_or in Hin as [H|H]; [left; apply (Hown H); right; discriminate|right; exact (IH H)].
    - destruct (existsb (N.eqb (item_id x)) (redef_targets xs)) eqn:Et.
      + apply in_app_or in Hin as [H|H]; [apply in_app_or in H as [H|H]|apply in_app_or in H as [H|H]].
        * left. exact (Hbuilt eq_refl H).
        * (* inside a redefiner of x: not a counter, those are declared outside redefiners *)
          right. destruct (titles_alts_red _ _ _ H) as [y [Hy [Ey Ht]]]. destruct (Hxs y Hy i Ht) as [A _].
          split; [apply (L.in_kids_ids_incl y xs Hy); exact A|]. intros Hd.
          destruct (proj2 decl_where xs i Hd) as [z [Hz [Ez B]]].
          assert (y = z) by (apply (L.kids_share xs y z i Hy Hz A B Hndxs)). subst z. rewrite Ey in Ez. discriminate.
        * left. apply (Hown H). left. reflexivity.
        * right. exact (IH H).
      + apply in_app_or in Hin as [H|H]; [left; exact (Hbuilt eq_refl H)|right; exact (IH H)].
  Qed.

  Lemma TT_all :
    (forall x, wf8 e x = true -> NoDup (L.ids x) -> TT x)
    /\ (forall ks, wf8_kids e ks = true -> forall y, L.in_kids y ks -> NoDup (L.ids y) -> TT y).
  Proof.
    apply item_items_ind.
    - intros i sz oc rd _ _ j H. rewrite elem_titles in H. destruct oc; [destruct H| |]; apply tk_in in H; subst j;
        (split; [left; reflexivity|split; [intros []|reflexivity]]).
    - intros i oc rd ks IH Hw Hnd j H. apply NoDup_cons_iff in Hnd as [Hi Hndk].
      rewrite (group_titles i oc rd ks Hndk Hw) in H. destruct (wf8_group e i oc rd ks Hw) as [Hwk _].
      destruct (TT_kids ks Hndk (fun y Hy => IH Hwk y Hy (L.NoDup_ids_kid y ks Hy Hndk)) j H) as [A B].
      split; [right; exact A|]. split; [exact B|]. intros ->. contradiction.
    - intros _ y [].
    - intros x IHx xs IHxs Hw y Hy Hnd. cbn [wf8_kids] in Hw. apply andb_true_iff in Hw as [Hwx Hwxs].
      destruct Hy as [->|Hy]; [apply IHx; assumption|apply IHxs; assumption].
  Qed.

  Lemma TT_kid ks y : wf8_kids e ks = true -> NoDup (L.ids_kids ks) -> L.in_kids y ks -> TT y.
  Proof. intros Hw Hnd Hy. exact (proj2 TT_all ks Hw y Hy (L.NoDup_ids_kid y ks Hy Hnd)). Qed.

  (* the name of an item is a title inside its own schema only for an elementary OCCURS item *)
  Lemma T2 x : wf8 e x = true -> NoDup (L.ids x) ->
    In (KName (item_id x)) (titles_of (build_alt x)) -> L.elem_table x = true.
  Proof. intros Hw Hnd H. exact (proj2 (proj2 (proj1 TT_all x Hw Hnd _ H)) eq_refl). Qed.

  (* a reference site: the name referred to and what the cache answered when the walk met it; good when the answer
     is the node that bears the name as its $anchor *)
  Definition good_site (p : site) : Prop := exists cl, snd p = Some (cl, Some (fst p)).

  (* The cache before the walk of x: no name of x is titled yet, and the counters declared so far ([seen], what
     odo_ok lets an OCCURS DEPENDING ON inside x name) are usable and are not names of x. *)
  Definition Pre (c : cache) (x : item) (seen : list id) : Prop :=
    Forall entry_ok c
    /\ (forall i, In i (L.ids x) -> ~ titled c (KName i))
    /\ (forall j, In j seen -> usable c (KName j) /\ ~ In j (L.ids x)).

  (* from such a cache the walk of the schema of x succeeds, and every reference it meets is good *)
  Definition Main (x : item) : Prop := forall c seen,
    wf8 e x = true -> NoDup (L.ids x) -> Pre c x seen -> odo_ok seen x = true ->
    exists c' l, lwalk filler (build_alt x) c = Ok (c', l) /\ Forall good_site l.

  (* The cache inside the children loop, xs still to come, B the bases of the unions whose oneOf has been walked: a
     child has no name titled unless it redefines a base of B, and then its own name is usable (its placeholder
     refers to it); [seen] as in Pre. *)
  Definition Inv (c : cache) (B : list id) (xs : items) (seen : list id) : Prop :=
    Forall entry_ok c
    /\ (forall y, L.in_kids y xs -> (match item_redef y with Some u => ~ In u B | None => True end) ->
                  forall i, In i (L.ids y) -> ~ titled c (KName i))
    /\ (forall y u, L.in_kids y xs -> item_redef y = Some u -> In u B -> usable c (KName (item_id y)))
    /\ (forall j, In j seen -> usable c (KName j) /\ ~ In j (L.ids_kids xs)).

  Lemma name_anchored x j : In j (L.ids x) -> In (KName j) (anchors_of (build_alt x)).
  Proof. intros H. apply (proj1 ids_are_anchors). apply in_map. exact H. Qed.

  (* the children of a group are walked under what holds of the group, no base met yet *)
  Lemma Pre_Inv c i oc rd ks seen : Pre c (Group i oc rd ks) seen -> Inv c [] ks seen.
  Proof.
    intros [P1 [P2 P3]]. split; [exact P1|]. split; [|split].
    - intros y Hy _ j Hj. apply P2. right. apply (L.in_kids_ids_incl y ks Hy). exact Hj.
    - intros y u _ _ [].
    - intros j Hj. destruct (P3 j Hj) as [A Bn]. split; [exact A|]. intros H. apply Bn. right. exact H.
  Qed.

  (* a child that redefines nothing is walked under what holds of the children *)
  Lemma Inv_Pre c B x xs seen : Inv c B (ICons x xs) seen -> item_redef x = None -> Pre c x seen.
  Proof.
    intros [I1 [I2 [_ I3]]] Er. split; [exact I1|]. split.
    - apply (I2 x (or_introl eq_refl)). rewrite Er. exact I.
    - intros j Hj. destruct (I3 j Hj) as [A Bn]. split; [exact A|]. intros H. apply Bn. apply in_or_app. left. exact H.
  Qed.

  Lemma Inv_tail c B x xs seen : Inv c B (ICons x xs) seen -> Inv c B xs seen.
  Proof.
    intros [I1 [I2 [I2' I3]]]. split; [exact I1|]. split; [|split].
    - intros y Hy. apply I2. right. exact Hy.
    - intros y u Hy. apply I2'. right. exact Hy.
    - intros j Hj. destruct (I3 j Hj) as [A Bn]. split; [exact A|]. intros H. apply Bn. cbn [L.ids_kids]. apply in_or_app. right. exact H.
  Qed.

  (* The cache grows by r while the children xs are still to come, new bases bs and new counters news become available.
     Among the names of xs, r may title only what lies strictly inside a redefiner of a new base. *)
  Lemma Inv_step c r B bs xs seen news :
    Inv c B xs seen -> Forall entry_ok r -> (forall u, In u bs -> ~ In u B) ->
    (forall i, titled r (KName i) -> ~ In i seen /\
       forall y, L.in_kids y xs -> In i (L.ids y) -> i <> item_id y /\ exists u, item_redef y = Some u /\ In u bs) ->
    (forall y u, L.in_kids y xs -> item_redef y = Some u -> In u bs -> In (KName (item_id y)) (keys r)) ->
    (forall j, In j news -> In (KName j) (keys r) /\ ~ titled r (KName j) /\ ~ titled c (KName j) /\ ~ In j (L.ids_kids xs)) ->
    Inv (r ++ c) (bs ++ B) xs (news ++ seen).
  Proof.
    intros [I1 [I2 [I2' I3]]] Hr Hbs Ht Hk Hn.
    assert (Hid : forall y, L.in_kids y xs -> ~ titled r (KName (item_id y))).
    { intros y Hy Hti. destruct (Ht _ Hti) as [_ H]. destruct (H y Hy (L.item_id_in_ids y)) as [Hne _]. apply Hne. reflexivity. }
    split; [apply Forall_app; split; assumption|]. split; [|split].
    - intros y Hy Hc i Hi Hti. apply titled_app in Hti as [Hti|Hti].
      + destruct (Ht i Hti) as [_ H]. destruct (H y Hy Hi) as [_ [u [Eu Hu]]]. rewrite Eu in Hc. apply Hc. apply in_or_app. left. exact Hu.
      + apply (I2 y Hy) in Hti; [exact Hti| |exact Hi]. destruct (item_redef y); [|exact I]. intros H. apply Hc. apply in_or_app. right. exact H.
    - intros y u Hy Ey Hu. apply usable_app. apply in_app_or in Hu as [Hu|Hu].
      + split; [left; exact (Hk y u Hy Ey Hu)|]. split; [exact (Hid y Hy)|].
        apply (I2 y Hy); [rewrite Ey; apply Hbs; exact Hu|apply L.item_id_in_ids].
      + destruct (I2' y u Hy Ey Hu) as [Hin Hnt]. split; [right; exact Hin|]. split; [exact (Hid y Hy)|exact Hnt].
    - intros j Hj. apply in_app_or in Hj as [Hj|Hj].
      + destruct (Hn j Hj) as [A [B' [C D]]]. split; [apply usable_app; auto|exact D].
      + destruct (I3 j Hj) as [[Hin Hnt] D]. split; [|exact D]. apply usable_app. split; [right; exact Hin|]. split; [|exact Hnt].
        intros Hti. exact (proj1 (Ht _ Hti) Hj).
  Qed.

  Lemma odo_kids_redef seen xs y : odo_kids seen xs = true -> L.in_kids y xs -> item_redef y <> None -> odo_ok [] y = true.
  Proof.
    revert seen. induction xs as [|x xs IH]; intros seen H Hy Hr; [destruct Hy|].
    cbn [odo_kids] in H. destruct Hy as [->|Hy].
    - destruct (item_redef x); [|contradiction]. apply andb_true_iff in H as [H _]. exact H.
    - destruct (item_redef x); apply andb_true_iff in H as [_ H]; eapply IH; eauto.
  Qed.

  Lemma unions_redef_not_table bases xs y :
    L.unions_ok e bases xs = true -> L.in_kids y xs -> item_redef y <> None -> L.elem_table y = false.
  Proof.
    revert bases. induction xs as [|x xs IH]; intros bases H Hy Hr; [destruct Hy|].
    cbn [L.unions_ok] in H. destruct Hy as [->|Hy].
    - destruct (item_redef x); [|contradiction]. apply andb_true_iff in H as [H _]. apply andb_true_iff in H as [H _].
      destruct (L.elem_table x); [discriminate|reflexivity].
    - destruct (item_redef x); apply andb_true_iff in H as [_ H]; eapply IH; eauto.
  Qed.

  (* the redefiners of u, one after the other: each is walked with nothing of it titled yet *)
  Lemma walk_alts_red u : forall xs c,
    (forall y, L.in_kids y xs -> Main y) -> wf8_kids e xs = true -> NoDup (L.ids_kids xs) ->
    Forall entry_ok c ->
    (forall y, L.in_kids y xs -> item_redef y = Some u -> forall i, In i (L.ids y) -> ~ titled c (KName i)) ->
    (forall y, L.in_kids y xs -> item_redef y = Some u -> odo_ok [] y = true) ->
    exists c' l, lwalk_alts filler (L.alts_red u xs) c = Ok (c', l) /\ Forall good_site l.
  Proof.
    induction xs as [|y ys IH]; intros c HM Hw Hnd Hok Hnt Hodo; [exists c, []; split; [reflexivity|constructor]|].
    cbn [wf8_kids] in Hw. apply andb_true_iff in Hw as [Hwy Hwys]. cbn [L.ids_kids] in Hnd.
    pose proof (NoDup_app_l _ _ Hnd) as Hndy. pose proof (NoDup_app_r _ _ Hnd) as Hndys.
    assert (HMys : forall z, L.in_kids z ys -> Main z) by (intros z Hz; apply HM; right; exact Hz).
    assert (Hskip : exists c' l, lwalk_alts filler (L.alts_red u ys) c = Ok (c', l) /\ Forall good_site l).
    { apply IH; try assumption; intros z Hz; [apply Hnt|apply Hodo]; right; exact Hz. }
    cbn [L.alts_red]. destruct (item_redef y) as [u'|] eqn:Er; [|exact Hskip].
    destruct (N.eqb u u') eqn:E; [|exact Hskip]. apply N.eqb_eq in E. subst u'.
    destruct (HM y (or_introl eq_refl) c [] Hwy Hndy) as [c1 [l1 [E1 G1]]].
    { split; [exact Hok|]. split; [apply (Hnt y (or_introl eq_refl) Er)|intros j []]. }
    { apply (Hodo y (or_introl eq_refl) Er). }
    destruct (lwalk_adds _ _ _ _ E1) as [r1 [-> [O1 [_ T1]]]].
    destruct (IH (r1 ++ c) HMys Hwys Hndys) as [c2 [l2 [E2 G2]]].
    { apply Forall_app. split; assumption. }
    { intros z Hz Ez i Hi Ht. apply titled_app in Ht as [Ht|Ht]; [|exact (Hnt z (or_intror Hz) Ez i Hi Ht)].
      destruct (proj1 TT_all y Hwy Hndy i (T1 _ Ht)) as [Hiy _].
      apply (NoDup_app_disj _ _ i Hnd Hiy). apply (L.in_kids_ids_incl z ys Hz). exact Hi. }
    { intros z Hz. apply Hodo. right. exact Hz. }
    exists c2, (l1 ++ l2). simpl. rewrite E1, E2. split; [reflexivity|apply Forall_app; split; assumption].
  Qed.

  (* the placeholder of a union member whose name is usable: the reference is bound at once, to the object that bears the
     name, and only the title of the member is registered *)
  Lemma walk_placeholder c B i xs seen :
    Inv c B xs seen -> usable c (KName i) -> ~ In i (L.ids_kids xs) -> ~ In i seen ->
    exists r l, lwalk filler (JRef (KName i)) c = Ok (r ++ c, l) /\ Forall good_site l /\ Inv (r ++ c) B xs seen.
  Proof.
    intros HI Hus Hi Hs. destruct (usable_lookup c _ (proj1 HI) Hus) as [cl Hl].
    destruct (adds_own (JRef (KName i)) CRef c [] [] [] adds_nil) as [r [E [O [_ T]]]].
    exists r, [(KName i, Some (cl, Some (KName i)))]. cbn [lwalk]. cbn [js_anchor app] in E. rewrite Hl, E.
    split; [reflexivity|]. split; [constructor; [exists cl; reflexivity|constructor]|].
    apply (Inv_step c r B [] xs seen [] HI O).
    - intros u [].
    - intros j Hj. apply T in Hj. rewrite app_nil_r, own_title_ref in Hj. apply tk_in in Hj. subst j.
      split; [exact Hs|]. intros y Hy Hiy. exfalso. apply Hi. apply (L.in_kids_ids_incl y xs Hy). exact Hiy.
    - intros y u _ _ [].
    - intros j [].
  Qed.

  Lemma walk_props_cons k s ps c c1 l1 :
    lwalk filler s c = Ok (c1, l1) -> Forall good_site l1 ->
    (exists c' l, lwalk_props filler ps c1 = Ok (c', l) /\ Forall good_site l) ->
    exists c' l, lwalk_props filler (PCons k s ps) c = Ok (c', l) /\ Forall good_site l.
  Proof.
    intros E1 G1 [c' [l [E G]]]. exists c', (l1 ++ l). simpl. rewrite E1, E.
    split; [reflexivity|apply Forall_app; split; assumption].
  Qed.

  (* one round of the children loop: x is the child met, xs are those to come *)
  Section Round.
    Variables (x : item) (xs : items) (c : cache) (B seen : list id).
    Hypothesis Hw : wf8_kids e (ICons x xs) = true.
    Hypothesis Hnd : NoDup (L.ids_kids (ICons x xs)).
    Hypothesis HI : Inv c B (ICons x xs) seen.

    Lemma seen_apart j : In j seen -> ~ In j (L.ids x) /\ ~ In j (L.ids_kids xs).
    Proof. intros Hj. destruct (proj2 (proj2 (proj2 HI)) j Hj) as [_ Bn]. cbn [L.ids_kids] in Bn. rewrite in_app_iff in Bn. tauto. Qed.

    Lemma apart i : In i (L.ids x) -> In i (L.ids_kids xs) -> False.
    Proof. apply (NoDup_app_disj _ _ i Hnd). Qed.

    Lemma round_TT : TT x.
    Proof. exact (TT_kid _ x Hw Hnd (or_introl eq_refl)). Qed.

    (* x redefines a base: the name of x is usable, its placeholder is bound *)
    Lemma round_redefiner u : item_redef x = Some u -> In u B ->
      exists r l, lwalk filler (JRef (KName (item_id x))) c = Ok (r ++ c, l) /\ Forall good_site l /\ Inv (r ++ c) B xs seen.
    Proof.
      intros Er Hu. apply (walk_placeholder c B (item_id x) xs seen (Inv_tail _ _ _ _ _ HI)).
      - exact (proj1 (proj2 (proj2 HI)) x u (or_introl eq_refl) Er Hu).
      - exact (apart _ (L.item_id_in_ids x)).
      - intros Hs. exact (proj1 (seen_apart _ Hs) (L.item_id_in_ids x)).
    Qed.

    Hypothesis HxB : ~ In (item_id x) B.

    (* x has been walked (r1) and is redefined: its redefiners are walked after it, none of their names titled yet,
       and the oneOf REDEFINES-x over all of them is registered *)
    Lemma round_union r1 l1 :
      (forall y, L.in_kids y xs -> Main y) ->
      (forall y, L.in_kids y xs -> item_redef y = Some (item_id x) -> odo_ok [] y = true) ->
      lwalk filler (build_alt x) c = Ok (r1 ++ c, l1) -> Forall good_site l1 ->
      adds r1 (anchors_of (build_alt x)) (titles_of (build_alt x)) ->
      exists r l, lwalk filler (JOne (Some (KRedef (item_id x))) (ACons (build_alt x) (L.alts_red (item_id x) xs))) c = Ok (r ++ c, l)
                  /\ Forall good_site l
                  /\ adds r (anchors_of (build_alt x) ++ anchors_alts (L.alts_red (item_id x) xs))
                            (titles_of (build_alt x) ++ titles_alts (L.alts_red (item_id x) xs)).
    Proof.
      intros HM Hodo E1 G1 [O1 [_ T1]]. destruct (proj1 (andb_true_iff (wf8 e x) (wf8_kids e xs)) Hw) as [_ Hwxs].
      destruct (walk_alts_red (item_id x) xs (r1 ++ c) HM Hwxs (NoDup_app_r _ _ Hnd)) as [c2 [l2 [E2 G2]]].
      { apply Forall_app. split; [exact O1|exact (proj1 HI)]. }
      { intros y Hy Ey i Hi Ht. apply titled_app in Ht as [Ht|Ht].
        - exact (apart i (proj1 (round_TT i (T1 _ Ht))) (L.in_kids_ids_incl y xs Hy i Hi)).
        - apply (proj1 (proj2 HI) y (or_intror Hy)) in Ht; [exact Ht|rewrite Ey; exact HxB|exact Hi]. }
      { exact Hodo. }
      set (one := JOne (Some (KRedef (item_id x))) (ACons (build_alt x) (L.alts_red (item_id x) xs))).
      assert (EJ : lwalk filler one c = Ok (register filler one (COneOf, Some (KRedef (item_id x))) c2, l1 ++ l2)).
      { unfold one. simpl. rewrite E1, E2. reflexivity. }
      destruct (lwalk_adds _ _ _ _ EJ) as [r3 [Ec3 [O3 [K3 T3]]]].
      exists r3, (l1 ++ l2). rewrite EJ, Ec3. split; [reflexivity|]. split; [apply Forall_app; split; assumption|].
      split; [exact O3|]. split; [intros k Hk; apply K3; right; exact Hk|exact T3].
    Qed.

    (* x has been walked, with its redefiners when it has any: the cache has grown by r.  What r has titled lies inside x,
       or strictly inside a redefiner of x. *)
    Variable r : cache.
    Hypothesis Er : item_redef x = None.
    Hypothesis Hr : adds r (anchors_of (build_alt x) ++ anchors_alts (L.alts_red (item_id x) xs))
                           (titles_of (build_alt x) ++ titles_alts (L.alts_red (item_id x) xs)).
    Hypothesis Hrt : forall y, L.in_kids y xs -> item_redef y <> None -> L.elem_table y = false.

    Lemma round_titled i : titled r (KName i) ->
      In (KName i) (titles_of (build_alt x))
      \/ exists y, L.in_kids y xs /\ item_redef y = Some (item_id x) /\ In i (L.ids y) /\ i <> item_id y.
    Proof.
      intros H. apply (proj2 (proj2 Hr)) in H. apply in_app_or in H as [H|H]; [left; exact H|right].
      destruct (titles_alts_red _ _ _ H) as [y [Hy [Ey Hty]]]. exists y.
      destruct (TT_kid _ y Hw Hnd (or_intror Hy) i Hty) as [A [_ C]].
      split; [exact Hy|]. split; [exact Ey|]. split; [exact A|]. intros ->.
      rewrite (Hrt y Hy) in C; [specialize (C eq_refl); discriminate|rewrite Ey; discriminate].
    Qed.

    Lemma round_keys j : In j (L.ids x) -> In (KName j) (keys r).
    Proof. intros Jx. apply (proj1 (proj2 Hr)). apply in_or_app. left. apply name_anchored. exact Jx. Qed.

    Lemma round_untitled j : In j (L.ids x) -> ~ In (KName j) (titles_of (build_alt x)) -> ~ titled r (KName j) /\ ~ titled c (KName j).
    Proof.
      intros Jx Jt. split.
      - intros Ht. destruct (round_titled j Ht) as [H|[y [Hy [_ [Hjy _]]]]]; [exact (Jt H)|].
        exact (apart j Jx (L.in_kids_ids_incl y xs Hy j Hjy)).
      - apply (proj1 (proj2 HI) x (or_introl eq_refl)); [rewrite Er; exact I|exact Jx].
    Qed.

    (* x becomes a base; the counters news, names of x that x does not title, become available *)
    Lemma round_child news :
      (forall j, In j news -> In j (L.ids x) /\ ~ In (KName j) (titles_of (build_alt x))) ->
      Inv (r ++ c) (item_id x :: B) xs (news ++ seen).
    Proof.
      intros Hnews.
      apply (Inv_step c r B [item_id x] xs seen news (Inv_tail _ _ _ _ _ HI) (proj1 Hr)).
      - intros v [<-|[]]. exact HxB.
      - intros i Hi. destruct (round_titled i Hi) as [H|[y' [Hy' [Ey' [Hiy' Hne]]]]].
        + destruct (round_TT i H) as [Hix _]. split; [intros Hs; exact (proj1 (seen_apart i Hs) Hix)|].
          intros y Hy Hiy. exfalso. exact (apart i Hix (L.in_kids_ids_incl y xs Hy i Hiy)).
        + split; [intros Hs; exact (proj2 (seen_apart i Hs) (L.in_kids_ids_incl y' xs Hy' i Hiy'))|]. intros y Hy Hiy.
          assert (y' = y) by (apply (L.kids_share xs y' y i Hy' Hy Hiy' Hiy (NoDup_app_r _ _ Hnd))). subst y'.
          split; [exact Hne|]. exists (item_id x). split; [exact Ey'|left; reflexivity].
      - intros y u Hy Ey [<-|[]]. apply (proj1 (proj2 Hr)). apply in_or_app. right.
        apply (anchors_alts_red _ xs y _ Hy Ey). apply name_anchored. apply L.item_id_in_ids.
      - intros j Hj. destruct (Hnews j Hj) as [Jx Jt]. destruct (round_untitled j Jx Jt) as [A A'].
        split; [exact (round_keys j Jx)|]. split; [exact A|]. split; [exact A'|exact (apart j Jx)].
    Qed.

    (* unless x is an elementary OCCURS item its own name is usable afterwards *)
    Lemma round_usable : L.elem_table x = false -> usable (r ++ c) (KName (item_id x)).
    Proof.
      intros Hnt. pose proof (L.item_id_in_ids x) as Hidx. destruct (round_untitled _ Hidx) as [A A'].
      { intros Ht. rewrite (proj2 (proj2 (round_TT _ Ht)) eq_refl) in Hnt. discriminate. }
      apply usable_app. split; [left; exact (round_keys _ Hidx)|split; assumption].
    Qed.
  End Round.

  Lemma loop : forall xs bases c seen,
    (forall y, L.in_kids y xs -> Main y) ->
    wf8_kids e xs = true -> NoDup (L.ids_kids xs) -> L.unions_ok e bases xs = true ->
    (forall u, In u (map fst bases) -> ~ In u (L.kid_ids xs)) ->
    Inv c (map fst bases) xs seen -> odo_kids seen xs = true ->
    exists c' l, lwalk_props filler (L.assemble_d xs) c = Ok (c', l) /\ Forall good_site l.
  Proof.
    induction xs as [|x xs IH]; intros bases c seen HM Hw Hnd Hu HB HI Hodo;
      [exists c, []; split; [reflexivity|constructor]|].
    pose proof (L.unions_sib_ok e bases _ Hu) as Hsib.
    assert (Hw' := Hw). cbn [wf8_kids] in Hw'. apply andb_true_iff in Hw' as [Hwx Hwxs].
    pose proof (NoDup_app_l _ _ Hnd) as Hndx. pose proof (NoDup_app_r _ _ Hnd) as Hndxs.
    assert (HMxs : forall y, L.in_kids y xs -> Main y) by (intros y Hy; apply HM; right; exact Hy).
    assert (HB' : forall v, In v (map fst bases) -> ~ In v (L.kid_ids xs)) by (intros v Hv Hin; apply (HB v Hv); right; exact Hin).
    cbn [L.unions_ok] in Hu. cbn [L.sib_ok] in Hsib. cbn [odo_kids] in Hodo. cbn [L.assemble_d].
    destruct (item_redef x) as [u|] eqn:Er.
    - (* a redefiner: its placeholder *)
      apply andb_true_iff in Hu as [_ Hux]. apply andb_true_iff in Hsib as [HuB _]. apply existsb_eqb_In in HuB.
      apply andb_true_iff in Hodo as [_ Hodoxs].
      destruct (round_redefiner x xs c _ seen Hnd HI u Er HuB) as [r [l [E [G HIr]]]].
      apply (walk_props_cons _ _ _ _ _ _ E G). exact (IH bases (r ++ c) seen HMxs Hwxs Hndxs Hux HB' HIr Hodoxs).
    - (* not a redefiner: x is built in place *)
      apply andb_true_iff in Hu as [Hux Huxs]. apply andb_true_iff in Hodo as [Hodox Hodoxs].
      assert (HxB : ~ In (item_id x) (map fst bases)) by (intros H; apply (HB _ H); left; reflexivity).
      assert (HB'' : forall v, In v (map fst ((item_id x, extent e x) :: bases)) -> ~ In v (L.kid_ids xs)).
      { intros v [<-|Hv]; [|exact (HB' v Hv)]. pose proof (L.NoDup_ids_kid_ids (ICons x xs) Hnd) as H. inversion H; assumption. }
      pose proof (fun y => unions_redef_not_table _ xs y Huxs) as Hrt.
      pose proof (round_TT x xs Hw Hnd) as TTx.
      destruct (HM x (or_introl eq_refl) c seen Hwx Hndx (Inv_Pre _ _ _ _ _ HI Er) Hodox) as [c1 [l1 [E1 G1]]].
      destruct (lwalk_adds _ _ _ _ E1) as [r1 [-> A1]].
      (* a counter declared in x is titled nowhere in x *)
      assert (Hdecl : forall j, In j (decl x) -> In j (L.ids x) /\ ~ In (KName j) (titles_of (build_alt x))).
      { intros j Hj. split; [exact (proj1 (decl_strict x j Hndx Hj))|]. intros Ht. exact (proj1 (proj2 (TTx j Ht)) Hj). }
      destruct (existsb (N.eqb (item_id x)) (redef_targets xs)) eqn:Et.
      + (* x is redefined: REDEFINES-x oneOf [x, its redefiners], then the placeholder of x *)
        assert (Hnt : L.elem_table x = false).
        { cbn in Hux. rewrite orb_false_r in Hux. destruct (L.elem_table x); [discriminate|reflexivity]. }
        assert (Helig : eligible x xs = false).
        { destruct (eligible x xs) eqn:El; [|reflexivity]. apply eligible_plain in El as [El _]. rewrite El in Et. discriminate. }
        rewrite Helig in Hodoxs. cbn [app] in Hodoxs.
        destruct (round_union x xs c _ seen Hw Hnd HI HxB r1 l1 HMxs) as [r3 [l3 [E3 [G3 A3]]]]; [|exact E1|exact G1|exact A1|].
        { intros y Hy Ey. apply (odo_kids_redef _ xs y Hodoxs Hy). rewrite Ey. discriminate. }
        pose proof (round_child x xs c _ seen Hw Hnd HI HxB r3 Er A3 Hrt (decl x) Hdecl) as HI3.
        destruct (walk_placeholder (r3 ++ c) _ (item_id x) xs _ HI3 (round_usable x xs c _ seen Hw Hnd HI r3 Er A3 Hrt Hnt))
          as [r4 [l4 [E4 [G4 HI4]]]].
        { exact (apart x xs Hnd _ (L.item_id_in_ids x)). }
        { intros Hs. apply in_app_or in Hs as [Hs|Hs].
          - exact (proj2 (decl_strict x _ Hndx Hs) eq_refl).
          - exact (proj1 (seen_apart x xs c _ seen HI _ Hs) (L.item_id_in_ids x)). }
        apply (walk_props_cons _ _ _ _ _ _ E3 G3), (walk_props_cons _ _ _ _ _ _ E4 G4).
        exact (IH ((item_id x, extent e x) :: bases) (r4 ++ r3 ++ c) (decl x ++ seen) HMxs Hwxs Hndxs Huxs HB'' HI4 Hodoxs).
      + (* plain child: its own name becomes a counter when it is eligible *)
        assert (A1' : adds r1 (anchors_of (build_alt x) ++ anchors_alts (L.alts_red (item_id x) xs))
                              (titles_of (build_alt x) ++ titles_alts (L.alts_red (item_id x) xs))).
        { rewrite alts_red_none by (rewrite <- existsb_eqb_In, Et; discriminate). cbn [anchors_alts titles_alts]. rewrite !app_nil_r. exact A1. }
        apply (walk_props_cons _ _ _ _ _ _ E1 G1).
        apply (fun H => IH ((item_id x, extent e x) :: bases) (r1 ++ c) _ HMxs Hwxs Hndxs Huxs HB'' H Hodoxs).
        rewrite app_assoc. apply (round_child x xs c _ seen Hw Hnd HI HxB r1 Er A1' Hrt).
        intros j Hj. apply in_app_or in Hj as [Hj|Hj]; [|exact (Hdecl j Hj)].
        destruct (eligible x xs) eqn:El; [|destruct Hj]. destruct Hj as [<-|[]]. split; [apply L.item_id_in_ids|].
        intros Ht. apply eligible_plain in El as [_ El]. rewrite (proj2 (proj2 (TTx _ Ht)) eq_refl) in El. discriminate.
  Qed.

  (* a DEPENDING ON counter that is usable before the items of its table are walked, and that the items do not title,
     is bound to the object that bears its name *)
  Lemma walk_odo a cn its c l1 r1 :
    lwalk filler its c = Ok (r1 ++ c, l1) -> Forall entry_ok (r1 ++ c) -> usable c (KName cn) -> ~ titled r1 (KName cn) ->
    Forall good_site l1 ->
    exists c' l, lwalk filler (JOdo a cn its) c = Ok (c', l) /\ Forall good_site l.
  Proof.
    intros E1 Hok [Hin Hnt] Hr G1.
    destruct (usable_lookup (r1 ++ c) (KName cn) Hok) as [cl Hl]; [apply usable_app; auto|].
    simpl. rewrite E1, Hl. eexists; eexists; split; [reflexivity|]. apply Forall_app. split; [exact G1|].
    constructor; [exists cl; reflexivity|constructor].
  Qed.

  Lemma main_all : (forall x, Main x) /\ (forall ks y, L.in_kids y ks -> Main y).
  Proof.
    apply item_items_ind.
    - intros i sz oc rd c seen Hw Hnd [P1 [P2 P3]] Hodo. destruct oc as [|n|cn].
      + eexists; eexists; split; [reflexivity|constructor].
      + eexists; eexists; split; [reflexivity|constructor].
      + cbn [build_alt].
        assert (exists c1, lwalk filler (elem_items i sz) c = Ok (c1, [])) as [c1 E1] by (eexists; reflexivity).
        destruct (lwalk_adds _ _ _ _ E1) as [r1 [-> [O1 [_ T1]]]].
        cbn [odo_ok item_oc counter_in] in Hodo. rewrite andb_true_r in Hodo. apply existsb_eqb_In in Hodo.
        apply (walk_odo None cn _ c [] r1 E1); [apply Forall_app; split; assumption|exact (proj1 (P3 cn Hodo))| |constructor].
        intros Ht. destruct (T1 _ Ht).
    - intros i oc rd ks IH c seen Hw Hnd HP Hodo.
      destruct (wf8_group e i oc rd ks Hw) as [Hwk [Hu _]]. apply NoDup_cons_iff in Hnd as [Hi Hndk].
      cbn [odo_ok item_oc] in Hodo. apply andb_true_iff in Hodo as [Hcnt Hok].
      destruct (loop ks [] c seen IH Hwk Hndk Hu (fun u Hf => match Hf with end) (Pre_Inv c i oc rd ks seen HP) Hok) as [c1 [l1 [E1 G1]]].
      destruct HP as [P1 [P2 P3]].
      rewrite (build_group e i oc rd ks Hndk Hw). destruct oc as [|n|cn].
      + simpl. rewrite E1. eexists; eexists; split; [reflexivity|exact G1].
      + simpl. rewrite E1. eexists; eexists; split; [reflexivity|exact G1].
      + pose proof (proj1 (proj2 lwalk_spec) (L.assemble_d ks) c) as H. rewrite E1 in H. destruct (proj2 H) as [r1 [-> [O1 [_ T1]]]].
        cbn [counter_in] in Hcnt. apply existsb_eqb_In in Hcnt. destruct (P3 cn Hcnt) as [Hus Hn].
        apply (walk_odo _ cn _ c l1 r1); [simpl; rewrite E1; reflexivity|apply Forall_app; split; assumption|exact Hus| |exact G1].
        intros Ht. apply Hn. cbn [L.ids]. right.
        apply (TT_kids ks Hndk (fun y => TT_kid ks y Hwk Hndk) cn (T1 _ Ht)).
    - intros y [].
    - intros x IHx xs IHxs y [->|Hy]; [exact IHx|apply IHxs; exact Hy].
  Qed.

  Lemma resolve_good c : forall l, Forall good_site l ->
    exists l', resolve c l = Ok l' /\ map fst l' = map fst l /\ forall k d, In (k, d) l' -> snd d = Some k.
  Proof.
    induction l as [|[k o] l IH]; intros H; [exists []; split; [reflexivity|split; [reflexivity|intros k d []]]|].
    inversion H as [|? ? [cl Hg] Hr]; subst. cbn [fst snd] in Hg. subst o.
    destruct (IH Hr) as [l' [E [M G]]]. exists ((k, (cl, Some k)) :: l'). cbn [resolve]. rewrite E.
    split; [reflexivity|]. split; [cbn [map fst]; rewrite M; reflexivity|].
    intros k' d [Heq|Hin]; [inversion Heq; reflexivity|apply (G k' d Hin)].
  Qed.
End LoadP.
