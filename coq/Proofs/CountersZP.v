(* Lemmas for Props/C06e.v about the walk over Python's integers (Model/Counters.zwalk).
   What Location.__init__ and the cases of LocationMaker.walk amount to under the rules read from the source
   (Gen/LayoutParams.v) is proved by computation from the generated file (zinit_*_eq, zwalk_*, z*_unf): a source edit that
   changes a rule makes these equations fail, while Model/Counters.v and the judge still follow the edited source.
   For the flat family of Props/C06.v and EVERY count vector over Z the walk is the closed form Spec/CountersWf.zflat_nav
   (znav_flat_with: the argument of OdoStreamP.nav_flat over Z); the walk of Model/Layout.v over nat cannot stand in for
   it: a negative count gives sizes and offsets it has no values for.
   The walk carries A FLAG negref (is a negative item count refused): false is the walk before the fix of finding
   K-negative-counter (the _old statements), true the repaired one; negref_now, by computation from Gen/LayoutParams.v,
   says which one the source has, and is the lemma that breaks when the guard goes. *)
From Coq Require Import ZArith NArith List Bool Lia.
Import ListNotations.
Require Import SR.Base.Res SR.Spec.Layout SR.Model.LayoutRule SR.Gen.LayoutParams SR.Model.Layout SR.Spec.OdoStream.
Require Import SR.Model.Counters SR.Spec.CountersWf.
Require Import SR.Proofs.LayoutP SR.Proofs.OdoStreamP.
Open Scope Z_scope.

Lemma zinit_start_eq s e : zinit_start s e = s.
Proof. reflexivity. Qed.

Lemma zinit_end_eq s e : zinit_end s e = zmk_end s e.
Proof.
  unfold zinit_end, zinit_given, zmk_end.
  change (evalZ (zenv_init s e) init_test) with e. change (evalZ (zenv_init s e) init_end_then) with e.
  change (evalZ (zenv_init s e) init_end_else) with s. destruct (e =? 0); reflexivity.
Qed.

Lemma zinit_size_eq s e : zinit_size s e = zmk_size s e.
Proof.
  unfold zinit_size, zinit_given, zmk_size.
  change (evalZ (zenv_init s e) init_test) with e. change (evalZ (zenv_init s e) init_size_then) with (e - s).
  change (evalZ (zenv_init s e) init_size_else) with 0. destruct (e =? 0); reflexivity.
Qed.

(* the size a constructor called with (s, s + z) stores: z, unless s + z = 0 *)
Lemma zmk_size_plus s z : s + z <> 0 -> zmk_size s (s + z) = z.
Proof. intros H. unfold zmk_size. destruct (Z.eqb_spec (s + z) 0); [contradiction|lia]. Qed.
Lemma zmk_size_zero s z : s + z = 0 -> zmk_size s (s + z) = 0.
Proof. intros H. unfold zmk_size. rewrite H. reflexivity. Qed.
Lemma zmk_end_plus s z : s + z <> 0 -> zmk_end s (s + z) = s + z.
Proof. intros H. unfold zmk_end. destruct (Z.eqb_spec (s + z) 0); [contradiction|reflexivity]. Qed.
(* from a non-negative start the test on the value of end is harmless *)
Lemma zmk_size_nonneg s z : 0 <= s -> 0 <= z -> zmk_size s (s + z) = z.
Proof. intros Hs Hz. unfold zmk_size. destruct (Z.eqb_spec (s + z) 0); lia. Qed.
Lemma zmk_end_nonneg s z : 0 <= s -> 0 <= z -> zmk_end s (s + z) = s + z.
Proof. intros Hs Hz. unfold zmk_end. destruct (Z.eqb_spec (s + z) 0); lia. Qed.

(* the source as it is now refuses a negative item count *)
Lemma negref_now : odo_negative_refused = true.
Proof. reflexivity. Qed.

Section ZW.
  Variable B : Type.
  Variable negref : bool.
  Variable zdec : list B -> res Z.
  Variable r : list B.
  Notation zwalk := (Counters.zwalk_with negref zdec r).
  Notation zwalk_props := (Counters.zwalk_props_with negref zdec r).

  Lemma zwalk_atom a sz st an : zwalk (JAtom a sz) st an = Ok (zatom st sz, zreg a (zatom st sz) an).
  Proof. unfold zatom. rewrite <- zinit_end_eq, <- zinit_size_eq. reflexivity. Qed.

  Lemma zwalk_arr a n its st an :
    zwalk (JArr a n its) st an =
    match zwalk its st an with
    | Err e => Err e
    | Ok (sub, an1) => Ok (ztab st (zsize sub) (Z.of_nat n) sub its, zreg a (ztab st (zsize sub) (Z.of_nat n) sub its) an1)
    end.
  Proof.
    change (zwalk (JArr a n its) st an)
      with (match zwalk its st an with
            | Err e => Err e
            | Ok (sub, an1) =>
                let en := st + zsize sub * Z.of_nat n in
                Ok (ZArr (zinit_start st en) (zinit_end st en) (zinit_size st en) (zsize sub) (Z.of_nat n) sub its,
                    zreg a (ZArr (zinit_start st en) (zinit_end st en) (zinit_size st en) (zsize sub) (Z.of_nat n) sub its) an1)
            end).
    destruct (zwalk its st an) as [[sub an1]|ex]; [|reflexivity]. cbv zeta.
    rewrite zinit_start_eq, zinit_end_eq, zinit_size_eq. reflexivity.
  Qed.

  (* the counter: AtomicLocation.value slices instance[start + 0 : end + 0] *)
  Lemma zodo_count_unf c an :
    zodo_count zdec r c an =
    match zlookup (KName c) an with
    | None => Err KeyError
    | Some (ZAtom cst cen _) => zdec (pyslice r cst cen)
    | Some _ => Err TypeError
    end.
  Proof.
    change (zodo_count zdec r c an)
      with (match zlookup (KName c) an with
            | None => Err KeyError
            | Some (ZAtom cst cen _) => zdec (pyslice r (cst + 0) (cen + 0))
            | Some _ => Err TypeError
            end).
    destruct (zlookup (KName c) an) as [[cst cen csz| | | |]|]; try reflexivity. rewrite !Z.add_0_r. reflexivity.
  Qed.

  Lemma zwalk_odo a c its st an :
    zwalk (JOdo a c its) st an =
    match zodo_count zdec r c an with
    | Err e => Err e
    | Ok cnt =>
        if negref && (cnt <? 0) then Err ValueError else
        match zwalk its st an with
        | Err e => Err e
        | Ok (sub, an1) => Ok (ztab st (zsize sub) cnt sub its, zreg a (ztab st (zsize sub) cnt sub its) an1)
        end
    end.
  Proof.
    change (zwalk (JOdo a c its) st an)
      with (match zodo_count zdec r c an with
            | Err e => Err e
            | Ok cnt =>
                if negref && (cnt <? 0) then Err ValueError else
                match zwalk its st an with
                | Err e => Err e
                | Ok (sub, an1) =>
                    let en := st + zsize sub * cnt in
                    Ok (ZArr (zinit_start st en) (zinit_end st en) (zinit_size st en) (zsize sub) cnt sub its,
                        zreg a (ZArr (zinit_start st en) (zinit_end st en) (zinit_size st en) (zsize sub) cnt sub its) an1)
                end
            end).
    destruct (zodo_count zdec r c an) as [cnt|ex]; [|reflexivity].
    destruct (negref && (cnt <? 0)); [reflexivity|].
    destruct (zwalk its st an) as [[sub an1]|ex]; [|reflexivity]. cbv zeta.
    rewrite zinit_start_eq, zinit_end_eq, zinit_size_eq. reflexivity.
  Qed.

  Lemma zwalk_obj a ps st an :
    zwalk (JObj a ps) st an =
    match zwalk_props ps st an with
    | Err e => Err e
    | Ok (pls, off, an1) => Ok (zobj st off pls, zreg a (zobj st off pls) an1)
    end.
  Proof.
    change (zwalk (JObj a ps) st an)
      with (match zwalk_props ps st an with
            | Err e => Err e
            | Ok (pls, off, an1) =>
                Ok (ZObj (zinit_start st off) (zinit_end st off) (zsum (zsizes_props pls)) pls,
                    zreg a (ZObj (zinit_start st off) (zinit_end st off) (zsum (zsizes_props pls)) pls) an1)
            end).
    destruct (zwalk_props ps st an) as [[[pls off] an1]|ex]; [|reflexivity].
    rewrite zinit_start_eq, zinit_end_eq. reflexivity.
  Qed.

  Lemma zwalk_props_nil off an : zwalk_props PNil off an = Ok (ZPNil, off, an).
  Proof. reflexivity. Qed.

  Lemma zwalk_props_cons k p rest off an :
    zwalk_props (PCons k p rest) off an =
    match zwalk p off an with
    | Err e => Err e
    | Ok (pl, an1) =>
        match zwalk_props rest (off + zsize pl) (zreg (js_anchor p) pl an1) with
        | Err e => Err e
        | Ok (rl, off', an2) => Ok (ZPCons k pl rl, off', an2)
        end
    end.
  Proof. reflexivity. Qed.

  Lemma znav_of_unf s :
    znav_of_with negref zdec r s = match zwalk s 0 [] with Ok (l, an) => Ok (mkznav l an) | Err e => Err e end.
  Proof. reflexivity. Qed.

  Lemma znav_name_unf v k :
    znav_name v k =
    match zn_loc v with
    | ZObj _ _ _ ps =>
        match zfind_prop k ps with
        | None => Err KeyError
        | Some (ZRef _ _ _ t) => match zlookup t (zn_an v) with Some l => Ok (mkznav l (zn_an v)) | None => Err KeyError end
        | Some l => Ok (mkznav l (zn_an v))
        end
    | _ => Err TypeError
    end.
  Proof. reflexivity. Qed.

  (* NDNav.index: if index < 0 or index >= item_count: raise IndexError *)
  Lemma znav_index_unf v i :
    znav_index_with negref zdec r v i =
    match zn_loc v with
    | ZArr st _ _ isz cnt _ sch =>
        if (i <? 0) || (cnt <=? i) then Err IndexError
        else match zwalk sch (st + isz * i) [] with Ok (l, an) => Ok (mkznav l an) | Err e => Err e end
    | _ => Err TypeError
    end.
  Proof. reflexivity. Qed.

  Lemma znav_raw_unf v : znav_raw r v = pyslice r (zstart (zn_loc v)) (zend (zn_loc v)).
  Proof. reflexivity. Qed.
End ZW.

Section Flat.
  Variable negref : bool.
  Variable zdec : list N -> res Z.
  Variable r : list N.
  Notation zwalk := (Counters.zwalk_with negref zdec r).
  Notation zwalk_props := (Counters.zwalk_props_with negref zdec r).

  Lemma zwalk_plain : forall ks off an, all_plain ks = true ->
    zwalk_props (plain (kid_alts [] ks)) off an = Ok (zpprops ks off, zpend ks off, zpanch ks off an).
  Proof.
    induction ks as [|x xs IH]; intros off an H; [reflexivity|].
    cbn [all_plain] in H. apply andb_prop in H as [Hx Hxs].
    destruct (plain_elem_inv x Hx) as (i & sz & ->).
    rewrite kid_alts_cons, plain_cons. cbn [build_alt item_id].
    rewrite zwalk_props_cons, zwalk_atom. cbn [js_anchor zreg].
    rewrite IH by exact Hxs. reflexivity.
  Qed.

  Lemma zwalk_items x st an : table_shape x = true ->
    zwalk (table_items_js x) st an = Ok (zocc_loc x st, zocc_anch x st an).
  Proof.
    destruct x as [i sz oc rd|g oc rd gks]; cbn [table_shape table_items_js zocc_loc zocc_anch]; intros H.
    - unfold elem_items. rewrite zwalk_obj, zwalk_props_cons, zwalk_atom. cbn [js_anchor zreg].
      rewrite zwalk_props_nil. reflexivity.
    - rewrite zwalk_obj, zwalk_plain by exact H. reflexivity.
  Qed.

  Lemma zlookup_reg2 c i l an : c <> i -> zlookup (KName c) (zreg2 i l an) = zlookup (KName c) an.
  Proof.
    intros H. unfold zreg2. cbn [zlookup]. rewrite key_eqb_name.
    destruct (N.eqb c i) eqn:E; [apply N.eqb_eq in E; contradiction|reflexivity].
  Qed.
  Lemma zlookup_reg2_same c l an : zlookup (KName c) (zreg2 c l an) = Some l.
  Proof. unfold zreg2. cbn [zlookup]. rewrite key_eqb_name, N.eqb_refl. reflexivity. Qed.

  Lemma zlookup_panch c : forall ks off an, ~ In c (kid_ids ks) ->
    zlookup (KName c) (zpanch ks off an) = zlookup (KName c) an.
  Proof.
    induction ks as [|x xs IH]; intros off an H; [reflexivity|].
    cbn [kid_ids] in H. cbn [zpanch]. rewrite IH by (intros Hin; apply H; right; exact Hin).
    apply zlookup_reg2. intros ->. apply H. left. reflexivity.
  Qed.

  Variable ze : id -> Z.
  Notation zfloc := (zfloc ze).
  Notation zfsz := (zfsz ze).
  Notation zfanch1 := (zfanch1 ze).
  Notation zfprops := (zfprops ze).
  Notation zfend := (zfend ze).
  Notation zfanch := (zfanch ze).
  Notation zcount := (zcount ze).

  Lemma zlookup_fanch1 c x o an : ~ In c (own_ids x) ->
    zlookup (KName c) (zfanch1 x o an) = zlookup (KName c) an.
  Proof.
    intros H. unfold CountersWf.zfanch1. destruct (plain_elem x) eqn:Ep.
    - apply zlookup_reg2. intros ->. apply H, own_ids_head.
    - destruct x as [i sz oc rd|g oc rd gks]; cbn [own_ids] in H.
      + cbn [zocc_anch]. apply zlookup_reg2. intros ->. apply H. left. reflexivity.
      + rewrite zlookup_reg2 by (intros ->; apply H; left; reflexivity).
        cbn [zocc_anch]. apply zlookup_panch. intros Hin. apply H. right. exact Hin.
  Qed.

  Variable P : id -> Prop.
  Notation zholds := (zholds ze zdec r P).

  (* every earlier fixed elementary item is registered as the atom the code built for it, and its bytes - as the
     code slices them - decode to ze(name) when it is a counter *)
  Definition zan_ok (earlier : list id) (an : zanchors) : Prop :=
    forall c, In c earlier ->
      exists o en sz, zlookup (KName c) an = Some (ZAtom o en sz) /\ (P c -> zdec (pyslice r o en) = Ok (ze c)).

  (* one child: its location, and the anchors once the children loop has registered it *)
  Lemma zwalk_flat_kid earlier x off an :
    flat_kid earlier x = true -> zan_ok earlier an ->
    (match item_oc x with Odo c => P c | _ => True end) ->
    exists an1,
      zwalk (build_alt x) off an = (if negref && neg_count ze x then Err ValueError else Ok (zfloc x off, an1))
      /\ zreg (js_anchor (build_alt x)) (zfloc x off) an1 = zfanch1 x off an.
  Proof.
    intros Hf Han HP. unfold neg_count, CountersWf.zfanch1, CountersWf.zfloc. destruct (plain_elem x) eqn:Ep.
    - destruct (plain_elem_inv x Ep) as (i & sz & ->). cbn [build_alt item_oc item_id elem_bytes].
      rewrite zwalk_atom, andb_false_r. eexists. split; reflexivity.
    - destruct (flat_table earlier x Hf Ep) as (Hoc & ->). change items_js with table_items_js.
      pose proof (zwalk_items x off an (flat_kid_shape earlier x Hf)) as Hw.
      revert HP Hoc. destruct (item_oc x) as [|n|c]; cbn [oc_ok zcount]; intros HP Hoc; [discriminate| |].
      + rewrite zwalk_arr, Hw, andb_false_r. eexists. split; [reflexivity|]. destruct x; reflexivity.
      + apply existsb_eqb_In in Hoc. destruct (Han c Hoc) as (o & en & sz & Hl & Hd).
        rewrite zwalk_odo, zodo_count_unf, Hl, (Hd HP), Hw.
        eexists. split; [destruct (negref && (ze c <? 0)); reflexivity|]. destruct x; reflexivity.
  Qed.

  Lemma zan_ok_step earlier x off an :
    zan_ok earlier an -> (forall c, In c earlier -> ~ In c (own_ids x)) ->
    (match x with
     | Elem c sz Once None => P c -> zdec (pyslice r off (zmk_end off (off + Z.of_nat sz))) = Ok (ze c)
     | _ => True
     end) ->
    zan_ok (if plain_elem x then item_id x :: earlier else earlier) (zfanch1 x off an).
  Proof.
    intros Han Hdis Hx c Hc.
    assert (Hold : In c earlier ->
              exists o en sz, zlookup (KName c) (zfanch1 x off an) = Some (ZAtom o en sz) /\ (P c -> zdec (pyslice r o en) = Ok (ze c))).
    { intros Hc'. destruct (Han c Hc') as (o & en & sz & Hl & Hd). exists o, en, sz. split; [|exact Hd].
      rewrite zlookup_fanch1; [exact Hl|exact (Hdis c Hc')]. }
    destruct (plain_elem x) eqn:Ep; [|exact (Hold Hc)]. destruct Hc as [<-|Hc]; [|exact (Hold Hc)].
    destruct (plain_elem_inv x Ep) as (i & sz & ->). cbn [item_id].
    eexists off, _, _. unfold CountersWf.zfanch1, CountersWf.zfloc. cbn [plain_elem item_id elem_bytes].
    rewrite zlookup_reg2_same. split; [reflexivity|exact Hx].
  Qed.

  Lemma zwalk_flat_kids : forall ks earlier off an,
    flat_kids earlier ks = true ->
    (forall c, In c earlier -> ~ In c (all_ids ks)) ->
    NoDup (all_ids ks) ->
    zan_ok earlier an ->
    zholds ks off ->
    (forall c, In c (counters_of ks) -> P c) ->
    zwalk_props (plain (kid_alts [] ks)) off an =
    if negref && has_neg ze ks then Err ValueError else Ok (zfprops ks off, zfend ks off, zfanch ks off an).
  Proof.
    induction ks as [|x xs IH]; intros earlier off an Hf Hdis Hnd Han Hh HP.
    { cbn [has_neg]. rewrite andb_false_r. reflexivity. }
    cbn [flat_kids] in Hf. apply andb_prop in Hf as [Hx Hxs].
    cbn [CountersWf.zholds] in Hh. destruct Hh as [Hhx Hhxs].
    cbn [all_ids] in Hnd, Hdis. cbn [counters_of] in HP.
    assert (HPx : match item_oc x with Odo c => P c | _ => True end).
    { destruct (item_oc x) as [|n|c]; [exact I|exact I|]. apply HP. left. reflexivity. }
    destruct (zwalk_flat_kid earlier x off an Hx Han HPx) as (an1 & Hw & Han1).
    rewrite kid_alts_cons, plain_cons, zwalk_props_cons, Hw. cbn [has_neg]. rewrite andb_orb_distrib_r.
    destruct (negref && neg_count ze x); [reflexivity|].
    rewrite Han1. fold (zfsz x off).
    rewrite (IH (if plain_elem x then item_id x :: earlier else earlier) (off + zfsz x off) (zfanch1 x off an)).
    - destruct (negref && has_neg ze xs); reflexivity.
    - exact Hxs.
    - intros c Hc Hin. destruct (plain_elem x); [destruct Hc as [<-|Hc]|].
      + exact (NoDup_app_disj _ _ _ Hnd (own_ids_head x) Hin).
      + apply (Hdis c Hc). apply in_or_app. right. exact Hin.
      + apply (Hdis c Hc). apply in_or_app. right. exact Hin.
    - exact (NoDup_app_r _ _ Hnd).
    - apply zan_ok_step; [exact Han| |exact Hhx].
      intros c Hc Hin. apply (Hdis c Hc). apply in_or_app. left. exact Hin.
    - exact Hhxs.
    - intros c Hc. apply HP. destruct (item_oc x); try exact Hc. right. exact Hc.
  Qed.
End Flat.

(* the whole record, for EVERY count vector over Z: the navigator is the closed form - or, when negative counts are refused
   and some table's counter is negative, ValueError *)
Lemma znav_flat_with (negref : bool) (zdec : list N -> res Z) (ze : id -> Z) t r :
  flat_odo t = true -> zcounters_hold zdec ze t r ->
  znav_of_with negref zdec r (build t) =
  if negref && has_neg ze (item_kids t) then Err ValueError else Ok (zflat_nav ze t).
Proof.
  intros Hf Hc. destruct (flat_odo_inv t Hf) as (i0 & rd & kids & -> & Hk & Hnd).
  cbn [zcounters_hold] in Hc. rewrite (build_flat i0 rd kids Hk).
  rewrite znav_of_unf, zwalk_obj.
  rewrite (zwalk_flat_kids negref zdec r ze (fun c => In c (counters_of kids)) kids [] 0 [] Hk).
  - cbn [item_kids]. destruct (negref && has_neg ze kids); reflexivity.
  - intros c [].
  - exact Hnd.
  - intros c [].
  - exact Hc.
  - intros c Hin. exact Hin.
Qed.

(* from here to [Section After]: what the items after a table need (after_table_with, item_after_table_nonneg_with) *)
Lemma in_items_counter : forall ks a c, in_items a ks -> item_oc a = Odo c -> In c (counters_of ks).
Proof.
  induction ks as [|x xs IH]; intros a c Ha Hc; [destruct Ha|].
  cbn [counters_of]. destruct Ha as [->|Ha].
  - rewrite Hc. left. reflexivity.
  - destruct (item_oc x); try (apply (IH a c Ha Hc)). right. apply (IH a c Ha Hc).
Qed.

Lemma has_neg_false ze : forall ks, has_neg ze ks = false <-> forall c, In c (counters_of ks) -> 0 <= ze c.
Proof.
  induction ks as [|x xs IH]; cbn [has_neg counters_of]; [split; [intros _ c []|reflexivity]|].
  unfold neg_count. rewrite orb_false_iff, IH. destruct (item_oc x) as [|n|c]; [tauto|tauto|].
  rewrite Z.ltb_ge. split.
  - intros [H0 H] c' [<-|Hc]; [exact H0|exact (H c' Hc)].
  - intros H. split; [apply H; left; reflexivity|]. intros c' Hc. apply H. right. exact Hc.
Qed.

Lemma has_neg_true ze ks x c : in_items x ks -> item_oc x = Odo c -> ze c < 0 -> has_neg ze ks = true.
Proof.
  intros Hin Hoc Hneg. destruct (has_neg ze ks) eqn:E; [reflexivity|].
  pose proof (proj1 (has_neg_false ze ks) E c (in_items_counter ks x c Hin Hoc)). lia.
Qed.

Lemma consecutive_unf a b tl x y :
  consecutive (ICons a (ICons b tl)) x y = ((a = x /\ b = y) \/ consecutive (ICons b tl) x y).
Proof. reflexivity. Qed.

Lemma consecutive_in_items : forall ks x y, consecutive ks x y -> in_items x ks /\ in_items y ks.
Proof.
  induction ks as [|a tl IH]; intros x y H; [destruct H|].
  destruct tl as [|b tl']; [destruct H|].
  rewrite consecutive_unf in H. destruct H as [[-> ->]|H].
  - split; [left; reflexivity|right; left; reflexivity].
  - destruct (IH x y H) as [H1 H2]. split; right; assumption.
Qed.

Lemma in_items_kid_ids : forall ks x, in_items x ks -> In (item_id x) (kid_ids ks).
Proof.
  induction ks as [|a tl IH]; intros x H; [destruct H|].
  destruct H as [->|H]; [left; reflexivity|right; exact (IH x H)].
Qed.

Lemma in_items_shape : forall ks earlier a, flat_kids earlier ks = true -> in_items a ks -> table_shape a = true.
Proof.
  induction ks as [|x xs IH]; intros earlier a H Ha; [destruct Ha|].
  cbn [flat_kids] in H. apply andb_prop in H as [Hx Hxs]. destruct Ha as [->|Ha].
  - exact (flat_kid_shape earlier a Hx).
  - exact (IH _ a Hxs Ha).
Qed.

Lemma NoDup_kid_ids ks : NoDup (all_ids ks) -> NoDup (kid_ids ks).
Proof.
  induction ks as [|x xs IH]; intros H; [constructor|].
  cbn [all_ids] in H. cbn [kid_ids]. constructor.
  - intros Hin. exact (NoDup_app_disj _ _ _ H (own_ids_head x) (kid_ids_sub xs _ Hin)).
  - exact (IH (NoDup_app_r _ _ H)).
Qed.

Lemma zatom_size_nonneg o sz : 0 <= o -> zsize (zatom o sz) = Z.of_nat sz.
Proof. intros H. unfold zatom. cbn [zsize]. apply zmk_size_nonneg; lia. Qed.

Lemma zpprops_sum_nonneg : forall ks off, all_plain ks = true -> 0 <= off ->
  zsum (zsizes_props (zpprops ks off)) = Z.of_nat (kids_extent (fun _ => 0%nat) ks).
Proof.
  induction ks as [|x xs IH]; intros off H Hoff; [reflexivity|].
  cbn [all_plain] in H. apply andb_prop in H as [Hx Hxs].
  destruct (plain_elem_inv x Hx) as (i & sz & ->).
  cbn [zpprops zsizes_props zsum fold_right elem_bytes kids_extent is_redefiner item_redef item_oc count ext1].
  rewrite (zatom_size_nonneg off sz Hoff).
  pose proof (IH (off + Z.of_nat sz) Hxs ltac:(lia)) as E. unfold zsum in E. rewrite E. lia.
Qed.

Lemma zocc_size_nonneg x o : table_shape x = true -> 0 <= o -> zsize (zocc_loc x o) = item_bytes x.
Proof.
  intros Hs Ho. unfold item_bytes. destruct x as [i sz oc rd|g oc rd gks]; cbn [zocc_loc zobj zsize ext1].
  - cbn [zsizes_props zsum fold_right]. rewrite (zatom_size_nonneg o sz Ho). lia.
  - exact (zpprops_sum_nonneg gks o Hs Ho).
Qed.

Section After.
  Variable ze : id -> Z.

  Lemma zstart_zfloc a o : zstart (zfloc ze a o) = o.
  Proof. unfold zfloc. destruct (plain_elem a); reflexivity. Qed.

  (* where the closed form puts two consecutive children; Inv is any property of the running offset that every child
     preserves (True in general; 0 <= off when no counter is negative) *)
  Lemma zfprops_consecutive (Inv : Z -> Prop) : forall ks off x y,
    NoDup (kid_ids ks) ->
    (forall a o, in_items a ks -> Inv o -> Inv (o + zfsz ze a o)) ->
    Inv off -> consecutive ks x y ->
    exists o, Inv o
      /\ zfind_prop (KName (item_id x)) (zfprops ze ks off) = Some (zfloc ze x o)
      /\ zfind_prop (KName (item_id y)) (zfprops ze ks off) = Some (zfloc ze y (o + zfsz ze x o)).
  Proof.
    induction ks as [|a tl IH]; intros off x y Hnd Hstep Hinv H; [destruct H|].
    destruct tl as [|b tl']; [destruct H|].
    cbn [kid_ids] in Hnd. inversion Hnd as [|? ? Ha Hnd']; subst.
    assert (Hne : forall z, In (item_id z) (kid_ids (ICons b tl')) -> N.eqb (item_id z) (item_id a) = false).
    { intros z Hz. apply N.eqb_neq. intros E. apply Ha. rewrite <- E. exact Hz. }
    rewrite consecutive_unf in H. destruct H as [[-> ->]|H].
    - exists off. split; [exact Hinv|]. cbn [zfprops zfind_prop]. rewrite !key_eqb_name, !N.eqb_refl.
      rewrite (Hne y (or_introl eq_refl)). split; reflexivity.
    - destruct (consecutive_in_items _ _ _ H) as [Hx Hy].
      destruct (IH (off + zfsz ze a off) x y Hnd') as (o & Ho & F1 & F2).
      + intros a' o' Ha' Ho'. apply Hstep; [right; exact Ha'|exact Ho'].
      + apply Hstep; [left; reflexivity|exact Hinv].
      + exact H.
      + exists o. split; [exact Ho|].
        cbn [zfprops zfind_prop] in *. rewrite !key_eqb_name in *.
        rewrite (Hne x (in_items_kid_ids _ x Hx)), (Hne y (in_items_kid_ids _ y Hy)). split; assumption.
  Qed.

  Lemma zfloc_not_ref x o : match zfloc ze x o with ZRef _ _ _ _ => False | _ => True end.
  Proof. unfold zfloc. destruct (plain_elem x); exact I. Qed.

  Lemma znav_name_zfloc st en sz ps an k x o :
    zfind_prop k ps = Some (zfloc ze x o) ->
    znav_name (mkznav (ZObj st en sz ps) an) k = Ok (mkznav (zfloc ze x o) an).
  Proof.
    intros H. rewrite znav_name_unf. cbn [zn_loc zn_an]. rewrite H.
    unfold zfloc. destruct (plain_elem x); reflexivity.
  Qed.

  Lemma zflat_nav_consecutive (Inv : Z -> Prop) i0 rd kids x y :
    NoDup (all_ids kids) ->
    (forall a o, in_items a kids -> Inv o -> Inv (o + zfsz ze a o)) ->
    Inv 0 -> consecutive kids x y ->
    exists o an, Inv o
      /\ znav_name (zflat_nav ze (Group i0 Once rd kids)) (KName (item_id x)) = Ok (mkznav (zfloc ze x o) an)
      /\ znav_name (zflat_nav ze (Group i0 Once rd kids)) (KName (item_id y)) = Ok (mkznav (zfloc ze y (o + zfsz ze x o)) an).
  Proof.
    intros Hnd Hstep H0 Hxy.
    destruct (zfprops_consecutive Inv kids 0 x y (NoDup_kid_ids kids Hnd) Hstep H0 Hxy) as (o & Ho & F1 & F2).
    exists o. eexists. split; [exact Ho|]. cbn [zflat_nav]. unfold zobj. split; apply znav_name_zfloc; assumption.
  Qed.

  Lemma zfsz_nonneg a o : table_shape a = true -> 0 <= zcount ze (item_oc a) -> 0 <= o ->
    zfsz ze a o = zcount ze (item_oc a) * item_bytes a /\ 0 <= zfsz ze a o.
  Proof.
    intros Hs Hc Ho. unfold zfsz, zfloc. destruct (plain_elem a) eqn:Ep.
    - destruct (plain_elem_inv a Ep) as (i & sz & ->).
      cbn [elem_bytes]. rewrite (zatom_size_nonneg o sz Ho). unfold item_bytes. cbn [item_oc zcount ext1]. lia.
    - unfold ztab. cbn [zsize]. rewrite (zocc_size_nonneg a o Hs Ho).
      assert (0 <= item_bytes a) by (unfold item_bytes; lia).
      rewrite zmk_size_nonneg by nia. split; nia.
  Qed.
End After.

(* what the walk does with the item that follows a table, for every value of the counter - as long as the walk goes
   through: always before the fix (negref = false), with no negative counter after it *)
Lemma after_table_with (negref : bool) (zdec : list N -> res Z) (ze : id -> Z) t r :
  flat_odo t = true -> zcounters_hold zdec ze t r -> negref && has_neg ze (item_kids t) = false ->
  exists v, znav_of_with negref zdec r (build t) = Ok v
    /\ forall x y c, consecutive (item_kids t) x y -> item_oc x = Odo c ->
         exists vx vy st en sz isz sub sch,
           znav_name v (KName (item_id x)) = Ok vx /\ znav_name v (KName (item_id y)) = Ok vy
           /\ zn_loc vx = ZArr st en sz isz (ze c) sub sch
           /\ sz = (if st + isz * ze c =? 0 then 0 else isz * ze c)
           /\ en = (if st + isz * ze c =? 0 then st else st + isz * ze c)
           /\ zstart (zn_loc vy) = st + sz
           /\ (0 <= st -> isz = item_bytes x)
           /\ (forall i, ze c <= i -> znav_index_with negref zdec r vx i = Err IndexError).
Proof.
  intros Hf Hc Hgo. exists (zflat_nav ze t).
  split; [rewrite (znav_flat_with negref zdec ze t r Hf Hc), Hgo; reflexivity|].
  destruct (flat_odo_inv t Hf) as (i0 & rd & kids & -> & Hk & Hnd).
  cbn [item_kids]. intros x y c Hxy Hoc.
  destruct (zflat_nav_consecutive ze (fun _ => True) i0 rd kids x y Hnd (fun _ _ _ _ => I) I Hxy) as (o & an & _ & Nx & Ny).
  assert (Hpx : plain_elem x = false) by (destruct x as [? ? oc ?|]; [cbn [item_oc] in Hoc; subst oc; reflexivity|reflexivity]).
  assert (Ex : zfloc ze x o = ztab o (zsize (zocc_loc x o)) (ze c) (zocc_loc x o) (table_items_js x)).
  { unfold zfloc. rewrite Hpx, Hoc. reflexivity. }
  eexists _, _, o, _, _, _, _, _.
  split; [exact Nx|]. split; [exact Ny|]. cbn [zn_loc]. split; [exact Ex|].
  split; [unfold zmk_size; destruct (o + zsize (zocc_loc x o) * ze c =? 0); lia|].
  split; [reflexivity|].
  split; [rewrite zstart_zfloc; unfold zfsz; rewrite Ex; reflexivity|].
  split.
  - intros Ho. destruct (consecutive_in_items _ _ _ Hxy) as [Hix _].
    exact (zocc_size_nonneg x o (in_items_shape kids [] x Hk Hix) Ho).
  - intros i Hi. rewrite znav_index_unf. cbn [zn_loc]. rewrite Ex. unfold ztab.
    destruct (ze c <=? i) eqn:E; [rewrite orb_true_r; reflexivity|apply Z.leb_gt in E; lia].
Qed.

(* no counter negative: the property's sentence holds of the walk, with or without the sign test *)
Lemma item_after_table_nonneg_with (negref : bool) (zdec : list N -> res Z) (ze : id -> Z) t r :
  flat_odo t = true -> zcounters_hold zdec ze t r ->
  (forall c, In c (counters_of (item_kids t)) -> 0 <= ze c) ->
  exists v, znav_of_with negref zdec r (build t) = Ok v
    /\ forall x y c, consecutive (item_kids t) x y -> item_oc x = Odo c ->
         exists vx vy, znav_name v (KName (item_id x)) = Ok vx /\ znav_name v (KName (item_id y)) = Ok vy
           /\ 0 <= zstart (zn_loc vx)
           /\ zstart (zn_loc vy) = zstart (zn_loc vx) + occupied (ze c) * item_bytes x.
Proof.
  intros Hf Hc Hnn. exists (zflat_nav ze t).
  split; [rewrite (znav_flat_with negref zdec ze t r Hf Hc), (proj2 (has_neg_false ze _) Hnn), andb_false_r; reflexivity|].
  destruct (flat_odo_inv t Hf) as (i0 & rd & kids & -> & Hk & Hnd).
  cbn [item_kids] in *. intros x y c Hxy Hoc.
  assert (Hsz : forall a o, in_items a kids -> 0 <= o -> zfsz ze a o = zcount ze (item_oc a) * item_bytes a /\ 0 <= zfsz ze a o).
  { intros a o Ha Ho. apply (zfsz_nonneg ze a o (in_items_shape kids [] a Hk Ha)); [|exact Ho].
    destruct (item_oc a) as [|n|c'] eqn:E; cbn [zcount]; [lia|lia|]. exact (Hnn c' (in_items_counter kids a c' Ha E)). }
  destruct (zflat_nav_consecutive ze (fun o => 0 <= o) i0 rd kids x y Hnd) as (o & an & Ho & Nx & Ny).
  - intros a o' Ha Ho'. destruct (Hsz a o' Ha Ho') as [_ H]. lia.
  - lia.
  - exact Hxy.
  - eexists _, _. split; [exact Nx|]. split; [exact Ny|]. cbn [zn_loc]. rewrite !zstart_zfloc. split; [exact Ho|].
    destruct (consecutive_in_items _ _ _ Hxy) as [Hix _].
    destruct (Hsz x o Hix Ho) as [E _]. rewrite E, Hoc. cbn [zcount].
    unfold occupied. pose proof (Hnn c (in_items_counter kids x c Hix Hoc)). rewrite Z.max_r by lia. reflexivity.
Qed.

(* the property's sentence, for EVERY count vector: refused, or the next item after the occupied elements *)
Lemma item_after_table_refusing : item_after_table_statement_with true.
Proof.
  intros zdec ze t r Hf Hc. destruct (has_neg ze (item_kids t)) eqn:E.
  - left. rewrite (znav_flat_with true zdec ze t r Hf Hc), E. reflexivity.
  - right. destruct (item_after_table_nonneg_with true zdec ze t r Hf Hc (proj1 (has_neg_false ze _) E)) as (v & Hv & H).
    exists v. split; [exact Hv|]. intros x y c Hxy Hoc. destruct (H x y c Hxy Hoc) as (vx & vy & N1 & N2 & _ & Hst).
    exists vx, vy. repeat split; assumption.
Qed.

(* the witness against the walk without the sign test (Spec/CountersWf.v neg_tree, neg_rec: PIC S9 = F0 D2 = -2) *)

Lemma neg_witness_holds : flat_odo neg_tree = true /\ zcounters_hold zcount_zoned neg_ze neg_tree neg_rec.
Proof.
  split; [reflexivity|].
  cbn [zcounters_hold neg_tree zholds].
  repeat split; intros Hin; try (vm_compute; reflexivity); exfalso; cbn in Hin; destruct Hin as [E|[]]; discriminate.
Qed.

Lemma neg_witness_old : znav_of_with false zcount_zoned neg_rec (build neg_tree) = Ok (zflat_nav neg_ze neg_tree).
Proof. destruct neg_witness_holds as [Hf Hc]. exact (znav_flat_with false zcount_zoned neg_ze neg_tree neg_rec Hf Hc). Qed.
