(* C14.  The registry (Model/Registry.v): a lookup answers with the last decoration that mentions the suffix
   (registry_matches_spec, registry_last_wins), also between registrations (run_ops_history).  The life cycle
   (Model/Lifecycle.v): [inv] lists the states a class outside the finding can be in; every event and close keep it
   (step_inv, close_inv), so a with statement leaves nothing open whatever its body does (with_block_exit, release).
   For the class of the finding the same argument runs with [inv_numbers]: one descriptor stays open. *)
From Coq Require Import NArith List Bool Arith.
Import ListNotations.
Require Import SR.Base.Res SR.Gen.RegistryParams SR.Spec.Lifecycle SR.Model.Registry SR.Model.Lifecycle.
Require SR.Proofs.ListFactsP.

Lemma str_eqb_eq a b : str_eqb a b = true <-> a = b.
Proof. exact (ListFactsP.Nlist_eqb_eq a b). Qed.

Lemma str_eqb_spec a b : reflect (a = b) (str_eqb a b).
Proof. apply iff_reflect. symmetry. apply str_eqb_eq. Qed.

Lemma str_eqb_sym a b : str_eqb a b = str_eqb b a.
Proof. apply eq_true_iff_eq. rewrite !str_eqb_eq. split; intros H; symmetry; exact H. Qed.

(* the comparison of the specification is the comparison of the model *)
Lemma existsb_mention s names : existsb (seq_eqb s) names = existsb (str_eqb s) names.
Proof. reflexivity. Qed.

Lemma existsb_str_In s names : existsb (str_eqb s) names = true <-> In s names.
Proof. exact (ListFactsP.existsb_Nlist_eqb_In s names). Qed.

Lemma reg_get_set r k c s :
  reg_get (reg_set r k c) s = if str_eqb k s then Some c else reg_get r s.
Proof.
  induction r as [|[k' c'] t IH]; cbn [reg_set reg_get]; [reflexivity|].
  change later_wins with true. cbv iota.
  destruct (str_eqb_spec k' k) as [->|Hk]; cbn [reg_get].
  - destruct (str_eqb k s); reflexivity.
  - rewrite IH. destruct (str_eqb_spec k' s) as [->|]; [|reflexivity].
    destruct (str_eqb_spec k s) as [->|]; [contradiction|reflexivity].
Qed.

Lemma reg_get_decorate names c r s :
  reg_get (decorate r (names, c)) s = if existsb (seq_eqb s) names then Some c else reg_get r s.
Proof.
  unfold decorate. cbn [fst snd]. revert r. induction names as [|n t IH]; intros r; cbn [fold_left existsb].
  - reflexivity.
  - rewrite IH, reg_get_set. change (seq_eqb s n) with (str_eqb s n). rewrite (str_eqb_sym s n).
    destruct (str_eqb n s); cbn [orb]; destruct (existsb (seq_eqb s) t); reflexivity.
Qed.

Lemma reg_get_fold ds r s :
  reg_get (fold_left decorate ds r) s =
  match last_mention ds s with Some c => Some c | None => reg_get r s end.
Proof.
  revert r. induction ds as [|[names c] t IH]; intros r; simpl.
  - reflexivity.
  - rewrite IH. destruct (last_mention t s); [reflexivity|].
    rewrite reg_get_decorate. destruct (existsb (seq_eqb s) names); reflexivity.
Qed.

Lemma reg_get_register_all ds s : reg_get (register_all ds) s = last_mention ds s.
Proof. unfold register_all. rewrite reg_get_fold. destruct (last_mention ds s); reflexivity. Qed.

Lemma last_mention_none ds s :
  (forall d, In d ds -> ~ In s (fst d)) -> last_mention ds s = None.
Proof.
  induction ds as [|d t IH]; intros H; simpl; [reflexivity|].
  rewrite IH by (intros d' Hd'; apply H; right; exact Hd').
  destruct (existsb (seq_eqb s) (fst d)) eqn:E; [|reflexivity].
  apply existsb_str_In in E. exfalso. apply (H d); [left; reflexivity|exact E].
Qed.

Lemma last_mention_some ds1 names c ds2 s :
  In s names -> (forall d, In d ds2 -> ~ In s (fst d)) ->
  last_mention (ds1 ++ (names, c) :: ds2) s = Some c.
Proof.
  intros Hin Hnone. induction ds1 as [|d t IH]; simpl.
  - rewrite (last_mention_none ds2 s Hnone).
    assert (E : existsb (seq_eqb s) names = true) by (apply existsb_str_In in Hin; exact Hin).
    simpl. rewrite E. reflexivity.
  - rewrite IH. reflexivity.
Qed.

Lemma registry_matches_spec ds s :
  open_workbook (register_all ds) s =
  match last_mention ds s with
  | Some c => (Ok c, [Construct c])
  | None => (Err NotImplementedError, [])
  end.
Proof. unfold open_workbook. rewrite reg_get_register_all. reflexivity. Qed.

Lemma registry_last_wins (ds : list (list str * N)) (s : str) :
  (forall ds1 names c ds2,
      ds = ds1 ++ (names, c) :: ds2 -> In s names -> (forall d, In d ds2 -> ~ In s (fst d)) ->
      open_workbook (register_all ds) s = (Ok c, [Construct c]))
  /\ ((forall d, In d ds -> ~ In s (fst d)) ->
      open_workbook (register_all ds) s = (Err NotImplementedError, [])).
Proof.
  split.
  - intros ds1 names c ds2 -> Hin Hnone.
    rewrite registry_matches_spec, (last_mention_some ds1 names c ds2 s Hin Hnone). reflexivity.
  - intros H. rewrite registry_matches_spec, (last_mention_none ds s H). reflexivity.
Qed.

Lemma register_all_snoc pre names c :
  register_all (pre ++ [(names, c)]) = decorate (register_all pre) (names, c).
Proof. unfold register_all. rewrite fold_left_app. reflexivity. Qed.

(* histories: registrations and opens interleaved, starting after the registrations [pre] *)
Lemma run_ops_history ops : forall pre,
  run_ops (register_all pre) ops = map answer (history pre ops).
Proof.
  induction ops as [|[names c|s] t IH]; intros pre; cbn [run_ops history map].
  - reflexivity.
  - rewrite <- register_all_snoc. apply IH.
  - rewrite IH, registry_matches_spec. reflexivity.
Qed.

Lemma run_ops_history_fresh ops : run_ops [] ops = map answer (history [] ops).
Proof. exact (run_ops_history ops []). Qed.

Lemma unknown_opens_nothing (r : registry) (s : str) e tr :
  open_workbook r s = (Err e, tr) -> e = NotImplementedError /\ tr = [] /\ reg_get r s = None.
Proof.
  unfold open_workbook. destruct (reg_get r s); intros [= <- <-]. repeat split.
Qed.

Local Open Scope nat_scope.

(* every close() is guarded and deletes the attribute; the classes that hold a descriptor until close()
   do call the_file.close() *)
Lemma shape_is c : exists closes, shape c = (true, closes, true) /\ (class_kind c = HoldsUntilClose -> closes = true).
Proof. destruct c; eexists; (split; [reflexivity|intros H; try reflexivity; discriminate H]). Qed.

(* close() of every class: never raises, leaves no attribute, and a second close is the identity *)
Lemma close_total c s : exists s', unpacker_close c s = Ok s' /\ the_file s' = None.
Proof.
  destruct (shape_is c) as (closes & E & _). unfold unpacker_close. rewrite E.
  destruct (the_file s) eqn:F; eexists; (split; [reflexivity|]); [reflexivity|exact F].
Qed.

Lemma close_idempotent c s s1 : unpacker_close c s = Ok s1 -> unpacker_close c s1 = Ok s1.
Proof.
  intros H. destruct (close_total c s) as (s' & H1 & H2). rewrite H1 in H. injection H as <-.
  destruct (shape_is c) as (closes & E & _). unfold unpacker_close. rewrite E, H2. reflexivity.
Qed.

(* the state shapes reachable for a class outside the finding *)
Definition inv (c : cls) (s : st) : Prop :=
  garbage s = [] /\
  match class_kind c with
  | HoldsUntilClose =>
      (the_file s = None /\ os s = []) \/ (exists h, the_file s = Some (PyFile h) /\ os s = [h])
  | ReadsAtOpen => os s = [] /\ (the_file s = None \/ the_file s = Some (Doc None))
  | HoldsUntilGC => False
  end.

Lemma construct_inv c m s1 : known_bad c m = false -> construct c m (init m) = Ok s1 -> inv c s1.
Proof.
  destruct c, m; simpl; intros Hk H; try discriminate; injection H as <-; unfold inv; simpl; eauto.
Qed.

Lemma os_close_single h : os_close h [h] = [].
Proof. unfold os_close. simpl. rewrite Nat.eqb_refl. reflexivity. Qed.

Lemma close_inv c s s' : inv c s -> unpacker_close c s = Ok s' -> inv c s' /\ os s' = [].
Proof.
  intros [Hg Hs] H. destruct (shape_is c) as (closes & E & Hcl).
  unfold unpacker_close in H. rewrite E in H. unfold inv. destruct (class_kind c); [| |contradiction].
  - rewrite Hcl in H by reflexivity.
    destruct Hs as [[Hf Ho]|(h & Hf & Ho)]; rewrite Hf in H; injection H as <-.
    + auto.
    + cbn [garbage the_file os]. rewrite Ho, os_close_single. cbn [existsb]. auto.
  - destruct Hs as [Ho [Hf|Hf]]; rewrite Hf in H; injection H as <-.
    + auto.
    + cbn [garbage the_file os]. auto.
Qed.

(* only close() changes the state: what it preserves, every completed event preserves *)
Lemma step_preserves (P : st -> Prop) c :
  (forall s s', P s -> unpacker_close c s = Ok s' -> P s') ->
  forall e s s', P s -> step c e s = Ok s' -> P s'.
Proof.
  intros Hclose e s s' Hs H. destruct e as [[x|]| |]; simpl in H; try discriminate.
  - injection H as <-. exact Hs.
  - exact (Hclose s s' Hs H).
Qed.

Lemma step_inv c e s s' : inv c s -> step c e s = Ok s' -> inv c s'.
Proof. apply step_preserves. intros s0 s0' Hi H. apply (close_inv c s0 s0' Hi H). Qed.

Lemma run_body_preserves (P : st -> Prop) c :
  (forall s s', P s -> unpacker_close c s = Ok s' -> P s') ->
  forall b s, P s -> P (fst (fst (run_body c b s))).
Proof.
  intros Hclose. induction b as [|e b IH]; intros s Hs; cbn [run_body]; [exact Hs|].
  destruct (step c e s) as [s'|x] eqn:E; [|exact Hs].
  specialize (IH s' (step_preserves P c Hclose e s s' Hs E)).
  destruct (run_body c b s') as [[s2 x] log]. exact IH.
Qed.

(* what the constructor establishes and close() preserves holds when the body ends, however it ends; the close()
   of __exit__ never raises, and what it returns is the state after the with statement *)
Lemma with_block_exit (P : st -> Prop) c m body s1 :
  (forall s s', P s -> unpacker_close c s = Ok s' -> P s') ->
  construct c m (init m) = Ok s1 -> P s1 ->
  exists s2, P s2 /\ unpacker_close c s2 = Ok (o_exit (with_block c m body)).
Proof.
  intros Hclose Hc H1. pose proof (run_body_preserves P c Hclose body s1 H1) as H2.
  unfold with_block. rewrite Hc. destruct (run_body c body s1) as [[s2 x] log].
  exists s2. split; [exact H2|]. destruct (close_total c s2) as [s3 [H3 _]]. rewrite H3. reflexivity.
Qed.

(* outside the finding, whatever the body does and wherever it raises, after the with statement nothing is
   open on the path, the caller's file object is closed, and a further close changes nothing and raises nothing *)
Lemma release c m body s1 :
  known_bad c m = false -> construct c m (init m) = Ok s1 ->
  let s := o_exit (with_block c m body) in
  os s = [] /\ caller_closed s = true /\ unpacker_close c s = Ok s.
Proof.
  intros Hk Hc s.
  destruct (with_block_exit (inv c) c m body s1 (fun s s' Hi H => proj1 (close_inv c s s' Hi H)) Hc
              (construct_inv c m s1 Hk Hc)) as (s2 & Hi & H3).
  fold s in H3. destruct (close_inv c s2 s Hi H3) as [_ Ho].
  split; [exact Ho|]. split.
  - unfold caller_closed. rewrite Ho. reflexivity.
  - apply (close_idempotent c s2 s H3).
Qed.

(* the finding, Numbers: descriptor 1 stays open, held by the document until close() and by garbage after it *)
Definition inv_numbers (s : st) : Prop :=
  os s = [1] /\
  ((the_file s = Some (Doc (Some 1)) /\ garbage s = []) \/ (the_file s = None /\ garbage s = [1])).

Lemma close_inv_numbers s s' :
  inv_numbers s -> unpacker_close Numbers s = Ok s' -> inv_numbers s' /\ the_file s' = None.
Proof.
  intros [Ho Hs] H. unfold unpacker_close in H. change (shape Numbers) with (true, false, true) in H. cbv iota beta in H.
  unfold inv_numbers.
  destruct Hs as [[Hf Hg]|[Hf Hg]]; rewrite Hf in H; injection H as <-.
  - cbn [os the_file garbage]. rewrite Hg. auto.
  - auto.
Qed.
