(* Property C07, known finding 7, on Model/Structure.v: structure() compares the target of a
   REDEFINES clause with the names of the earlier siblings character by character.  COBOL words are
   not case-sensitive, so  05 fld-a PIC X.  05 B REDEFINES FLD-A PIC X.  is a well-formed copybook;
   structure raises ValueError on it (tuple unpacking of an empty list of matches).

   [up_spec l] is the copybook as the specification sees it (Spec/Dde.v) with every data name and
   every REDEFINES target in upper case: the witness is well-formed there.  (In general it is the
   exact-spelling predicate that decides what structure does: StructureFullP.redefines_error_full.)
   The witness is checked in Props/C07.v (C07_refuted_7). *)
(* Spec/RedefinesCaseWitness.v holds the definitions that theorem statements (Props/) mention; the parsing-only
   abbreviations let other files write them RedefinesCaseP.name as well. *)
Require Export SR.Spec.RedefinesCaseWitness.
Notation up_spec := SR.Spec.RedefinesCaseWitness.up_spec (only parsing).
Notation witness7 := SR.Spec.RedefinesCaseWitness.witness7 (only parsing).
Notation witness7_same_case := SR.Spec.RedefinesCaseWitness.witness7_same_case (only parsing).
