(* Lemmas for Props/C01b.v: what is stored in a record is what navigation returns (C01 / C10 composed with C02).
   One field: the encoders of Spec/Encode.v fill the field's width and the item's decoder returns what was stored (C02).
   The record: its bytes at the specification's offset of a path are the encoding of the value assigned to that path
   (record_field; Spec/Record.v against Spec/Layout.v only).  The location: a path to an elementary occurrence reaches an
   AtomicLocation carrying the item's own anchor (atom_reached), because the walk makes every location for a schema that
   occurs in the one it was started on (shaped, subs) and registers it under that schema's anchor, and a $ref resolves to
   the location of the one schema that carries the anchor (distinct anchors).  compose puts the three together with a
   layout theorem (where the location is) and atom_value (value = decoder on own bytes). *)
From Coq Require Import NArith List Bool Lia Arith.
Import ListNotations.
Require Import SR.Base.Res SR.Base.Dec SR.Gen.Cp037 SR.Spec.Layout SR.Spec.Encode SR.Spec.Record
  SR.Model.Layout SR.Model.Estruct SR.Model.LayoutValue SR.Model.RecordValue SR.Spec.Coherence.
Require SR.Proofs.EstructP SR.Proofs.EstructWidthP.
Require Import SR.Proofs.LayoutValueP SR.Proofs.LayoutP SR.Proofs.LayoutOdoP.
Open Scope nat_scope.

Lemma length_lpad w ds : length ds <= w -> length (lpad w ds) = w.
Proof. intro H. unfold lpad. rewrite app_length, repeat_length. lia. Qed.

Lemma lpad_nonempty w ds : 1 <= w -> lpad w ds <> [].
Proof. intros Hw H. apply (f_equal (@length N)) in H. unfold lpad in H. rewrite app_length, repeat_length in H. cbn [length] in H. lia. Qed.

Lemma val_lpad w ds : val (lpad w ds) = val ds.
Proof.
  unfold val, lpad. rewrite fold_left_app. f_equal.
  induction (w - length ds) as [|k IH]; [reflexivity|exact IH].
Qed.

Lemma digits_lpad w ds : forallb is_digit ds = true -> forallb is_digit (lpad w ds) = true.
Proof.
  intro H. unfold lpad. rewrite forallb_app, H, andb_true_r.
  induction (w - length ds) as [|k IH]; [reflexivity|exact IH].
Qed.

Lemma cp037_enc_table : forallb (fun c => N.eqb (cp037 (cp037_enc c)) c) cp037_table = true.
Proof. vm_compute. reflexivity. Qed.

Lemma cp037_text_roundtrip : forall cs, forallb in_cp037 cs = true -> map cp037 (map cp037_enc cs) = cs.
Proof.
  induction cs as [|c t IH]; intro H; [reflexivity|]. cbn [forallb] in H. apply andb_prop in H. destruct H as [Hc Ht].
  cbn [map]. rewrite (IH Ht). f_equal.
  apply existsb_eqb_In in Hc. apply N.eqb_eq. exact (proj1 (forallb_forall _ _) cp037_enc_table c Hc).
Qed.

Lemma field_width k sz v : kind_ok k sz = true -> val_ok k v = true -> length (enc_field k v) = sz.
Proof.
  unfold kind_ok. intros Hk Hv. apply andb_prop in Hk. destruct Hk as [Hsz _]. apply Nat.eqb_eq in Hsz. subst sz.
  destruct k as [u s m n|s m n|u s m n|k]; destruct v as [ds sg|z|cs]; try discriminate; cbn [val_ok enc_field kind_width] in *.
  - rewrite EstructWidthP.length_enc_packed, length_lpad by lia. reflexivity.
  - rewrite EstructWidthP.length_enc_zoned. apply length_lpad. unfold spec_display_width. lia.
  - apply EstructWidthP.length_enc_be.
  - rewrite map_length. lia.
Qed.

(* the item's decoder returns what was stored: C02's round trip of the item's kind, on the padded digit string *)
Lemma field_roundtrip (kd : kinds) i sz v :
  kind_ok (kd i) sz = true -> val_ok (kd i) v = true ->
  field_dec kd (Some (KName i)) (enc_field (kd i) v) = Ok (py_of (stored (kd i) v)).
Proof.
  unfold kind_ok, field_dec. intros Hk Hv. apply andb_prop in Hk. destruct Hk as [_ Hk].
  destruct (kd i) as [u s m n|s m n|u s m n|k]; destruct v as [ds sg|z|cs]; try discriminate;
    cbn [val_ok enc_field stored scale py_of] in *.
  - apply andb_prop in Hk. destruct Hk as [Hu Hd]. apply existsb_eqb_In in Hu.
    apply andb_prop in Hv. destruct Hv as [Hv Hs]. apply andb_prop in Hv. destruct Hv as [Hdig Hl].
    rewrite (EstructP.C02_packed u (mkpic s m n) (lpad (m + n) ds) sg Hu (digits_lpad _ _ Hdig) Hs).
    + now rewrite val_lpad.
    + rewrite length_lpad; lia.
  - apply andb_prop in Hk. destruct Hk as [H1 Hd]. apply Nat.leb_le in H1.
    apply andb_prop in Hv. destruct Hv as [Hv Hs]. apply andb_prop in Hv. destruct Hv as [Hdig Hl].
    rewrite (EstructP.C02_zoned (mkpic s m n) (lpad (spec_display_width s (m + n)) ds) sg (lpad_nonempty _ _ H1) (digits_lpad _ _ Hdig) Hs).
    + now rewrite val_lpad.
    + rewrite length_lpad; unfold spec_display_width in *; lia.
  - apply andb_prop in Hk. destruct Hk as [Hu Hw]. apply existsb_eqb_In in Hu. unfold binary_width in *.
    destruct (spec_binary_width (m + n)) as [w|] eqn:Ew; [|discriminate].
    apply (EstructP.C02_binary u (mkpic s m n) w z Hu Ew). lia.
  - apply andb_prop in Hv. destruct Hv as [Hl Hc]. apply Nat.eqb_eq in Hl.
    rewrite (EstructP.C02_text k (map cp037_enc cs)) by now rewrite map_length.
    now rewrite cp037_text_roundtrip.
Qed.

Lemma slice_within {T} (R : list T) st n A K C :
  slice R st (st + n) = A ++ K ++ C -> slice R (st + length A) (st + length A + length K) = K.
Proof.
  unfold slice. replace (st + n - st) with n by lia. replace (st + length A + length K - (st + length A)) with (length K) by lia.
  intro H. rewrite skipn_add. set (T0 := skipn st R) in *.
  rewrite <- (firstn_skipn n T0), H. rewrite <- !app_assoc.
  rewrite skipn_app, skipn_all, Nat.sub_diag. cbn [skipn app].
  rewrite firstn_app, firstn_all, Nat.sub_diag. cbn [firstn]. now rewrite app_nil_r.
Qed.

Lemma length_flat_map_const {T} (f : nat -> list T) w : forall l,
  (forall j, In j l -> length (f j) = w) -> length (flat_map f l) = length l * w.
Proof.
  induction l as [|a t IH]; intro H; [reflexivity|]. cbn [flat_map length]. rewrite app_length, H, IH; [lia| |now left].
  intros j Hj. apply H. now right.
Qed.

Lemma flat_map_seq_split {T} (f : nat -> list T) w : forall n a i,
  (forall j, a <= j < a + n -> length (f j) = w) -> i < n ->
  exists A C, flat_map f (seq a n) = A ++ f (a + i) ++ C /\ length A = i * w.
Proof.
  induction n as [|n IH]; intros a i H Hi; [lia|]. cbn [seq flat_map]. destruct i as [|i].
  - exists [], (flat_map f (seq (S a) n)). rewrite Nat.add_0_r. split; reflexivity.
  - destruct (IH (S a) i) as [A [C [E L]]]; [intros j Hj; apply H; lia|lia|].
    exists (f a ++ A), C. rewrite E. replace (S a + i) with (a + S i) by lia. rewrite <- app_assoc. split; [reflexivity|].
    rewrite app_length, L, H by lia. lia.
Qed.

Section RecordLemmas.
  Variable kd : kinds.
  Variable vals : assignment.
  Variable e : env.

  Definition view_bytes (i0 : id) (v : view) (path : list step) : list N :=
    match v with
    | VItem x => rec_item kd vals e x path
    | VOcc (Elem i _ _ _) => enc_field (kd i) (vals (path ++ [PName i]))
    | VOcc (Group _ _ _ ks) => rec_kids kd vals e ks path
    | VAtom _ => enc_field (kd i0) (vals path)
    end.

  Definition ok_view (i0 : id) (v : view) (path : list step) : bool :=
    match v with
    | VItem x => ok_item kd vals e x path
    | VOcc (Elem i sz _ _) => kind_ok (kd i) sz && val_ok (kd i) (vals (path ++ [PName i]))
    | VOcc (Group _ _ _ ks) => ok_kids kd vals e ks path
    | VAtom sz => kind_ok (kd i0) sz && val_ok (kd i0) (vals path)
    end.

  Lemma rec_item_elem_once i sz rd path : rec_item kd vals e (Elem i sz Once rd) path = enc_field (kd i) (vals path).
  Proof. reflexivity. Qed.
  Lemma rec_item_elem_table i sz oc rd path : oc <> Once ->
    rec_item kd vals e (Elem i sz oc rd) path
    = flat_map (fun j => enc_field (kd i) (vals (path ++ [PIndex j; PName i]))) (seq 0 (count e oc)).
  Proof. destruct oc; [congruence|reflexivity|reflexivity]. Qed.
  Lemma rec_item_group_once i rd ks path : rec_item kd vals e (Group i Once rd ks) path = rec_kids kd vals e ks path.
  Proof. reflexivity. Qed.
  Lemma rec_item_group_table i oc rd ks path : oc <> Once ->
    rec_item kd vals e (Group i oc rd ks) path
    = flat_map (fun j => rec_kids kd vals e ks (path ++ [PIndex j])) (seq 0 (count e oc)).
  Proof. destruct oc; [congruence|reflexivity|reflexivity]. Qed.
  Lemma rec_kids_cons x xs path : rec_kids kd vals e (ICons x xs) path
    = (if is_redefiner x then [] else rec_item kd vals e x (path ++ [PName (item_id x)])) ++ rec_kids kd vals e xs path.
  Proof. reflexivity. Qed.

  Lemma ok_item_elem_once i sz rd path :
    ok_item kd vals e (Elem i sz Once rd) path = kind_ok (kd i) sz && val_ok (kd i) (vals path).
  Proof. reflexivity. Qed.
  Lemma ok_item_elem_table i sz oc rd path : oc <> Once ->
    ok_item kd vals e (Elem i sz oc rd) path
    = kind_ok (kd i) sz && forallb (fun j => val_ok (kd i) (vals (path ++ [PIndex j; PName i]))) (seq 0 (count e oc)).
  Proof. destruct oc; [congruence|reflexivity|reflexivity]. Qed.
  Lemma ok_item_group_once i rd ks path : ok_item kd vals e (Group i Once rd ks) path = ok_kids kd vals e ks path.
  Proof. reflexivity. Qed.
  Lemma ok_item_group_table i oc rd ks path : oc <> Once ->
    ok_item kd vals e (Group i oc rd ks) path
    = forallb (fun j => ok_kids kd vals e ks (path ++ [PIndex j])) (seq 0 (count e oc)).
  Proof. destruct oc; [congruence|reflexivity|reflexivity]. Qed.
  Lemma ok_kids_cons x xs path : ok_kids kd vals e (ICons x xs) path
    = (if is_redefiner x then true else ok_item kd vals e x (path ++ [PName (item_id x)])) && ok_kids kd vals e xs path.
  Proof. reflexivity. Qed.

  Lemma occ_cases (oc : occ) : oc = Once \/ oc <> Once.
  Proof. destruct oc; [now left|right; discriminate|right; discriminate]. Qed.

  Lemma length_rec :
    (forall x path, ok_item kd vals e x path = true -> length (rec_item kd vals e x path) = extent e x)
    /\ (forall ks path, ok_kids kd vals e ks path = true -> length (rec_kids kd vals e ks path) = kids_extent e ks).
  Proof.
    apply item_items_ind.
    - intros i sz oc rd path H. unfold extent. cbn [item_oc ext1]. destruct (occ_cases oc) as [->|Hoc].
      + rewrite ok_item_elem_once in H. apply andb_prop in H. destruct H as [Hk Hv].
        rewrite rec_item_elem_once, (field_width _ _ _ Hk Hv). cbn [count]. lia.
      + rewrite ok_item_elem_table in H by exact Hoc. apply andb_prop in H. destruct H as [Hk Hv].
        rewrite rec_item_elem_table by exact Hoc. rewrite (length_flat_map_const _ sz), seq_length; [reflexivity|].
        intros j Hj. apply (field_width _ _ _ Hk). exact (proj1 (forallb_forall _ _) Hv j Hj).
    - intros i oc rd ks IH path H. unfold extent. cbn [item_oc ext1]. destruct (occ_cases oc) as [->|Hoc].
      + rewrite ok_item_group_once in H. rewrite rec_item_group_once, (IH _ H). cbn [count]. lia.
      + rewrite ok_item_group_table in H by exact Hoc. rewrite rec_item_group_table by exact Hoc.
        rewrite (length_flat_map_const _ (kids_extent e ks)), seq_length; [reflexivity|].
        intros j Hj. apply IH. exact (proj1 (forallb_forall _ _) H j Hj).
    - reflexivity.
    - intros x IHx xs IHxs path H. rewrite ok_kids_cons in H. apply andb_prop in H. destruct H as [H1 H2].
      rewrite rec_kids_cons, app_length, (IHxs _ H2). cbn [kids_extent].
      destruct (is_redefiner x); [reflexivity|]. rewrite (IHx _ H1). reflexivity.
  Qed.

  Lemma length_view i0 v path : ok_view i0 v path = true -> length (view_bytes i0 v path) = view_size e v.
  Proof.
    destruct v as [x|x|sz]; cbn [ok_view view_bytes view_size].
    - apply (proj1 length_rec).
    - destruct x as [i sz oc rd|i oc rd ks]; cbn [ext1].
      + intro H. apply andb_prop in H. destruct H as [Hk Hv]. exact (field_width _ _ _ Hk Hv).
      + apply (proj2 length_rec).
    - intro H. apply andb_prop in H. destruct H as [Hk Hv]. exact (field_width _ _ _ Hk Hv).
  Qed.

  (* a non-redefining child: its bytes sit in the group's bytes at the specification's kid_start *)
  Lemma kids_split k x path : forall ks off seen,
    find_kid ks k = Some x -> is_redefiner x = false -> ok_kids kd vals e ks path = true ->
    exists A C, rec_kids kd vals e ks path = A ++ rec_item kd vals e x (path ++ [PName k]) ++ C
      /\ option_map snd (find (fun p => N.eqb (fst p) k) (kid_starts e ks off seen)) = Some (off + length A)
      /\ ok_item kd vals e x (path ++ [PName k]) = true.
  Proof.
    induction ks as [|x0 xs IH]; intros off seen Hf Hr Hok; [discriminate|].
    cbn [find_kid] in Hf. rewrite ok_kids_cons in Hok. apply andb_prop in Hok. destruct Hok as [H0 Hxs].
    rewrite rec_kids_cons. cbn [kid_starts]. destruct (N.eqb (item_id x0) k) eqn:Ek.
    - inversion Hf; subst x0. apply N.eqb_eq in Ek. unfold is_redefiner in Hr, H0 |- *.
      destruct (item_redef x) as [u|]; [discriminate|]. rewrite Ek in *.
      exists [], (rec_kids kd vals e xs path). cbn [find fst app length]. rewrite N.eqb_refl. cbn [option_map snd].
      split; [reflexivity|]. split; [f_equal; lia|exact H0].
    - unfold is_redefiner in H0 |- *. destruct (item_redef x0) as [u|] eqn:Er.
      + destruct (IH off ((item_id x0,
            match find (fun p => N.eqb (fst p) u) seen with Some p => snd p | None => off end) :: seen) Hf Hr Hxs)
          as [A [C [E [S O]]]].
        exists A, C. cbn [find fst]. rewrite Ek. cbn [app]. split; [exact E|]. split; [exact S|exact O].
      + destruct (IH (off + extent e x0) ((item_id x0, off) :: seen) Hf Hr Hxs) as [A [C [E [S O]]]].
        exists (rec_item kd vals e x0 (path ++ [PName (item_id x0)]) ++ A), C. cbn [find fst]. rewrite Ek.
        split; [rewrite E, <- app_assoc; reflexivity|]. split; [|exact O].
        rewrite S, app_length, (proj1 length_rec _ _ H0). f_equal. lia.
  Qed.

  (* the name a view goes by after step s: the child's, and an occurrence keeps its table's *)
  Definition step_id (s : step) (i0 : id) : id := match s with PName k => k | PIndex _ => i0 end.
  Definition not_redefiner (v : view) : bool := negb (match v with VItem x => is_redefiner x | _ => false end).

  Lemma in_kids_split k ks path st v' st' :
    (match find_kid ks k, kid_start e ks k with
     | Some x, Some o => inl (VItem x, st + o)
     | _, _ => inr NoSuchName
     end) = inl (v', st') ->
    not_redefiner v' = true -> ok_kids kd vals e ks path = true ->
    exists A C, rec_kids kd vals e ks path = A ++ view_bytes k v' (path ++ [PName k]) ++ C
      /\ st' = st + length A /\ ok_view k v' (path ++ [PName k]) = true.
  Proof.
    intros H Hn Hok. destruct (find_kid ks k) as [x|] eqn:Ef; [|discriminate].
    destruct (kid_start e ks k) as [o|] eqn:Es; [|discriminate]. inversion H; subst v' st'.
    unfold not_redefiner in Hn. apply negb_true_iff in Hn.
    destruct (kids_split k x path ks 0 [] Ef Hn Hok) as [A [C [E [S O]]]].
    unfold kid_start in Es. rewrite S in Es. inversion Es; subst o.
    exists A, C. cbn [view_bytes ok_view]. repeat split; [exact E|exact O].
  Qed.

  (* a table holds its occurrences one after the other *)
  Lemma table_occs i0 x path : is_table x = true ->
    rec_item kd vals e x path = flat_map (fun j => view_bytes i0 (VOcc x) (path ++ [PIndex j])) (seq 0 (count e (item_oc x)))
    /\ (ok_item kd vals e x path = true ->
        forall j, j < count e (item_oc x) -> ok_view i0 (VOcc x) (path ++ [PIndex j]) = true).
  Proof.
    unfold is_table. intro Ht. assert (Hoc : item_oc x <> Once) by (intro E; now rewrite E in Ht).
    destruct x as [i sz oc rd|i oc rd ks]; cbn [item_oc view_bytes ok_view] in *.
    - rewrite rec_item_elem_table, ok_item_elem_table by exact Hoc. split.
      + apply flat_map_ext. intro j. now rewrite <- app_assoc.
      + intros H j Hj. apply andb_prop in H. destruct H as [Hk Hv]. rewrite Hk, <- app_assoc.
        apply (proj1 (forallb_forall _ _) Hv). apply in_seq. lia.
    - rewrite rec_item_group_table, ok_item_group_table by exact Hoc. split; [reflexivity|].
      intros H j Hj. apply (proj1 (forallb_forall _ _) H). apply in_seq. lia.
  Qed.

  Lemma step_bytes i0 v st s v' st' path :
    ok_view i0 v path = true -> spec_step e v st s = inl (v', st') -> not_redefiner v' = true ->
    exists A C, view_bytes i0 v path = A ++ view_bytes (step_id s i0) v' (path ++ [s]) ++ C
      /\ st' = st + length A /\ ok_view (step_id s i0) v' (path ++ [s]) = true.
  Proof.
    intros Hok Hs Hn. destruct s as [k|j]; cbn [spec_step step_id] in *.
    - destruct v as [x|x|sz]; [| |discriminate].
      + destruct x as [i sz oc rd|i oc rd ks]; [discriminate|]. destruct oc; try discriminate.
        cbn [ok_view view_bytes] in *. rewrite ok_item_group_once in Hok. rewrite rec_item_group_once.
        exact (in_kids_split k ks path st v' st' Hs Hn Hok).
      + destruct x as [i sz oc rd|i oc rd ks].
        * destruct (N.eqb i k) eqn:E; [|discriminate]. apply N.eqb_eq in E. subst k. inversion Hs; subst v' st'.
          exists [], []. cbn [view_bytes ok_view app length]. rewrite app_nil_r. repeat split; [lia|exact Hok].
        * cbn [ok_view view_bytes] in *. exact (in_kids_split k ks path st v' st' Hs Hn Hok).
    - destruct v as [x|x|sz]; [|discriminate|discriminate].
      destruct (is_table x) eqn:Et; [|discriminate]. destruct (j <? count e (item_oc x)) eqn:Ej; [|discriminate].
      apply Nat.ltb_lt in Ej. inversion Hs; subst v' st'. cbn [ok_view view_bytes] in Hok |- *.
      destruct (table_occs i0 x path Et) as [Eb Ho]. rewrite Eb. specialize (Ho Hok).
      destruct (flat_map_seq_split (fun j => view_bytes i0 (VOcc x) (path ++ [PIndex j])) (ext1 e x) (count e (item_oc x)) 0 j)
        as [A [C [E L]]]; [|exact Ej|].
      { intros j' Hj'. apply (length_view i0 (VOcc x)), Ho. lia. }
      exists A, C. split; [exact E|]. split; [lia|exact (Ho j Ej)].
  Qed.

  (* a whole path: the bytes of the record at the specification's offset of the view reached are the view's own bytes *)
  Lemma path_bytes (R : list N) : forall p i0 v st path v' st',
    ok_view i0 v path = true -> slice R st (st + view_size e v) = view_bytes i0 v path ->
    spec_nav e v st p = inl (v', st') -> own_storage e v st p = true ->
    slice R st' (st' + view_size e v') = view_bytes (last_name p i0) v' (path ++ p)
    /\ ok_view (last_name p i0) v' (path ++ p) = true.
  Proof.
    induction p as [|s p IH]; intros i0 v st path v' st' Hok Hsl Hnav Hown.
    - cbn [spec_nav] in Hnav. inversion Hnav; subst v' st'. cbn [last_name]. rewrite app_nil_r. split; assumption.
    - cbn [spec_nav own_storage] in Hnav, Hown. destruct (spec_step e v st s) as [[v1 st1]|err] eqn:Es; [|discriminate].
      apply andb_prop in Hown. destruct Hown as [Hn Hown].
      destruct (step_bytes i0 v st s v1 st1 path Hok Es Hn) as [A [C [E [S O]]]].
      rewrite E in Hsl. pose proof (slice_within R st _ A _ C Hsl) as Hsl1. rewrite (length_view _ _ _ O), <- S in Hsl1.
      replace (path ++ s :: p) with ((path ++ [s]) ++ p) by (rewrite <- app_assoc; reflexivity).
      replace (last_name (s :: p) i0) with (last_name p (step_id s i0)) by (destruct s; reflexivity).
      exact (IH (step_id s i0) v1 st1 (path ++ [s]) v' st' O Hsl1 Hnav Hown).
  Qed.

  Lemma slice_whole {T} (l : list T) : slice l 0 (0 + length l) = l.
  Proof. unfold slice. cbn [skipn Nat.add]. rewrite Nat.sub_0_r. apply firstn_all. Qed.

  (* for every path to an elementary occurrence that owns its storage: the bytes the record holds at the
     specification's place of the occurrence are the encoding of the value assigned to the path, which fits its kind *)
  Lemma record_field (t : item) p i sz st :
    record_ok kd vals e t = true -> own_storage e (VItem t) 0 p = true -> elem_at e t p = Some (i, sz, st) ->
    slice (spec_record kd vals e t) st (st + sz) = enc_field (kd i) (vals p)
    /\ kind_ok (kd i) sz = true /\ val_ok (kd i) (vals p) = true.
  Proof.
    unfold record_ok, spec_record, elem_at. intros Hok Hown Hat.
    destruct (spec_nav e (VItem t) 0 p) as [[v st0]|err] eqn:En; [|discriminate].
    assert (H0 : slice (rec_item kd vals e t []) 0 (0 + view_size e (VItem t)) = view_bytes 0%N (VItem t) []).
    { cbn [view_size view_bytes]. rewrite <- (proj1 length_rec t [] Hok). apply slice_whole. }
    destruct (path_bytes (rec_item kd vals e t []) p 0%N (VItem t) 0 [] v st0 Hok H0 En Hown) as [Hs Ho].
    cbn [app] in Hs, Ho. destruct v as [x|x|sz0]; [|discriminate|].
    - destruct x as [i0 sz0 oc rd|]; [|discriminate]. destruct oc; try discriminate. inversion Hat; subst i0 sz0 st0.
      cbn [view_size view_bytes ok_view] in Hs, Ho. unfold extent in Hs. cbn [item_oc count ext1] in Hs. rewrite Nat.mul_1_l in Hs.
      rewrite rec_item_elem_once in Hs. rewrite ok_item_elem_once in Ho. apply andb_prop in Ho. tauto.
    - inversion Hat; subst i sz0 st0. cbn [view_size view_bytes ok_view] in Hs, Ho. apply andb_prop in Ho. tauto.
  Qed.
End RecordLemmas.

(* a location made for the schema s (kinds, anchors of atoms, item schemas of tables; not starts and sizes) *)
Fixpoint shaped (s : js) (l : wloc) {struct s} : Prop :=
  match s with
  | JAtom a sz => match l with WAtom a' _ sz' => a' = a /\ sz' = sz | _ => False end
  | JArr _ _ its => match l with WArr _ _ _ _ it sch => sch = its /\ shaped its it | _ => False end
  | JOdo _ _ its => match l with WArr _ _ _ _ it sch => sch = its /\ shaped its it | _ => False end
  | JObj _ ps => match l with WObj _ _ pls => shaped_props ps pls | _ => False end
  | JOne _ alts => match l with WOne _ _ als => shaped_alts alts als | _ => False end
  | JRef k => match l with WRef _ k' => k' = k | _ => False end
  end
with shaped_props (ps : props) (pls : wprops) {struct ps} : Prop :=
  match ps with
  | PNil => match pls with WPNil => True | _ => False end
  | PCons k s r => match pls with WPCons k' l r' => k' = k /\ shaped s l /\ shaped_props r r' | _ => False end
  end
with shaped_alts (alts : jalts) (als : walts) {struct alts} : Prop :=
  match alts with
  | ANil => match als with WANil => True | _ => False end
  | ACons s r => match als with WACons l r' => shaped s l /\ shaped_alts r r' | _ => False end
  end.

(* the schemas that occur in s, s itself first *)
Fixpoint subs (s : js) : list js :=
  s :: match s with
       | JArr _ _ its | JOdo _ _ its => subs its
       | JObj _ ps => subs_props ps
       | JOne _ alts => subs_alts alts
       | _ => []
       end
with subs_props (ps : props) : list js :=
  match ps with PNil => [] | PCons _ s r => subs s ++ subs_props r end
with subs_alts (alts : jalts) : list js :=
  match alts with ANil => [] | ACons s r => subs s ++ subs_alts r end.

Lemma subs_self s : In s (subs s).
Proof. destruct s; now left. Qed.

Lemma subs_incl :
  (forall c b, In b (subs c) -> incl (subs b) (subs c))
  /\ (forall ps b, In b (subs_props ps) -> incl (subs b) (subs_props ps))
  /\ (forall alts b, In b (subs_alts alts) -> incl (subs b) (subs_alts alts)).
Proof.
  apply js_props_alts_ind.
  - intros an sz b [<-|[]]. apply incl_refl.
  - intros an n its IH b [<-|H]; [apply incl_refl|apply incl_tl, IH, H].
  - intros an c its IH b [<-|H]; [apply incl_refl|apply incl_tl, IH, H].
  - intros an ps IH b [<-|H]; [apply incl_refl|apply incl_tl, IH, H].
  - intros an alts IH b [<-|H]; [apply incl_refl|apply incl_tl, IH, H].
  - intros t b [<-|[]]. apply incl_refl.
  - intros b [].
  - intros k s IHs r IHr b H. cbn [subs_props] in *. apply in_app_or in H. destruct H; [apply incl_appl|apply incl_appr]; auto.
  - intros b [].
  - intros s IHs r IHr b H. cbn [subs_alts] in *. apply in_app_or in H. destruct H; [apply incl_appl|apply incl_appr]; auto.
Qed.

(* the anchors a walk registers are those of the schemas that occur *)
Lemma jkeys_subs :
  (forall s, jkeys s = flat_map (fun s' => okey (js_anchor s')) (subs s))
  /\ (forall ps, jkeys_props ps = flat_map (fun s' => okey (js_anchor s')) (subs_props ps))
  /\ (forall alts, jkeys_alts alts = flat_map (fun s' => okey (js_anchor s')) (subs_alts alts)).
Proof.
  apply js_props_alts_ind; intros; cbn [jkeys jkeys_props jkeys_alts subs subs_props subs_alts flat_map];
    rewrite ?flat_map_app; congruence.
Qed.

Lemma NoDup_flat_map_inj {X Y} (f : X -> list Y) k : forall l x y,
  NoDup (flat_map f l) -> In x l -> In y l -> In k (f x) -> In k (f y) -> x = y.
Proof.
  induction l as [|z l IH]; intros x y Hnd Hx Hy Kx Ky; [destruct Hx|]. cbn [flat_map] in Hnd.
  assert (Hin : forall w, In w l -> In k (f w) -> In k (flat_map f l)) by (intros w Hw Kw; apply in_flat_map; eauto).
  destruct Hx as [->|Hx], Hy as [->|Hy].
  - reflexivity.
  - destruct (NoDup_app_disj _ _ k Hnd Kx (Hin y Hy Ky)).
  - destruct (NoDup_app_disj _ _ k Hnd Ky (Hin x Hx Kx)).
  - exact (IH x y (NoDup_app_r _ _ Hnd) Hx Hy Kx Ky).
Qed.

Lemma subs_unique S k s1 s2 : NoDup (jkeys S) -> In s1 (subs S) -> In s2 (subs S) ->
  js_anchor s1 = Some k -> js_anchor s2 = Some k -> s1 = s2.
Proof.
  intros Hnd H1 H2 A1 A2. rewrite (proj1 jkeys_subs) in Hnd.
  apply (NoDup_flat_map_inj _ k _ s1 s2 Hnd H1 H2); [rewrite A1|rewrite A2]; now left.
Qed.

Fixpoint pfind (k : key) (ps : props) : option js :=
  match ps with
  | PNil => None
  | PCons k' s r => if key_eqb k k' then Some s else pfind k r
  end.

Lemma shaped_find k : forall ps pls c, shaped_props ps pls -> wfind k pls = Some c ->
  exists s, pfind k ps = Some s /\ shaped s c.
Proof.
  induction ps as [|k0 s r IH]; intros pls c Hs Hf; destruct pls as [|k1 l r']; cbn [shaped_props] in Hs; try contradiction; [discriminate|].
  destruct Hs as [-> [Hl Hr]]. cbn [wfind pfind] in *. destruct (key_eqb k k0); [inversion Hf; subst; eauto|eauto].
Qed.

(* the walk, and name / index from a navigator, seen from the schema S the navigator was made for *)
Section Shape.
  Variable B : Type.
  Variable dcount : list B -> nat.
  Variable r : list B.
  Variable S : js.

  (* every registered location was made for a schema that occurs in S and carries the key as its anchor *)
  Definition An (an : wanchors) : Prop :=
    forall k l, In (k, l) an -> exists s', In s' (subs S) /\ js_anchor s' = Some k /\ shaped s' l.

  Lemma An_node s l an an1 : incl (subs s) (subs S) -> shaped s l -> (An an -> An an1) ->
    shaped s l /\ (An an -> An (wreg (js_anchor s) l an1)).
  Proof.
    intros Hs Hl Ha. split; [exact Hl|]. intro Han. unfold wreg. destruct (js_anchor s) as [a|] eqn:Ea; [|exact (Ha Han)].
    intros k l' [E|Hin]; [|exact (Ha Han k l' Hin)]. inversion E; subst. exists s. split; [apply Hs, subs_self|auto].
  Qed.

  (* LocationMaker.walk makes locations of the schema's shape and registers only locations of anchored sub-schemas *)
  Lemma walk_shape :
    (forall s st an l an', walkv dcount r s st an = Ok (l, an') -> incl (subs s) (subs S) -> shaped s l /\ (An an -> An an'))
    /\ (forall ps off an pls off' an', walkv_props dcount r ps off an = Ok (pls, off', an') -> incl (subs_props ps) (subs S) ->
          shaped_props ps pls /\ (An an -> An an'))
    /\ (forall alts st an als an', walkv_alts dcount r alts st an = Ok (als, an') -> incl (subs_alts alts) (subs S) ->
          shaped_alts alts als /\ (An an -> An an')).
  Proof.
    apply walkv_ind.
    - intros a sz st an Hs. apply (An_node (JAtom a sz)); [exact Hs|now split|auto].
    - intros a n its st an sub an1 _ IH Hs. destruct (IH (proj2 (incl_cons_inv Hs))) as [Hsh Ha].
      apply (An_node (JArr a n its)); [exact Hs|now split|exact Ha].
    - intros a c its st an ca cst csz sub an1 _ _ IH Hs. destruct (IH (proj2 (incl_cons_inv Hs))) as [Hsh Ha].
      apply (An_node (JOdo a c its)); [exact Hs|now split|exact Ha].
    - intros a ps st an pls off an1 _ IH Hs. destruct (IH (proj2 (incl_cons_inv Hs))) as [Hsh Ha].
      apply (An_node (JObj a ps)); [exact Hs|exact Hsh|exact Ha].
    - intros a s0 rest st an als an1 _ IH Hs. destruct (IH (proj2 (incl_cons_inv Hs))) as [Hsh Ha].
      apply (An_node (JOne a (ACons s0 rest))); [exact Hs|exact Hsh|exact Ha].
    - intros t st an _. now split.
    - intros off an _. now split.
    - intros k p rest off an pl an1 rl off' an2 _ IHp _ IHr Hs. apply incl_app_inv in Hs. destruct Hs as [Hp Hr].
      destruct (IHp Hp) as [Hs1 Ha1]. destruct (IHr Hr) as [Hs2 Ha2].
      split; [now repeat split|]. intros Han. exact (Ha2 (proj2 (An_node p pl an an1 Hp Hs1 Ha1) Han)).
    - intros st an _. now split.
    - intros s rest st an l an1 ls an2 _ IHs _ IHr Hs. apply incl_app_inv in Hs. destruct Hs as [Hp Hr].
      destruct (IHs Hp) as [Hs1 Ha1]. destruct (IHr Hr) as [Hs2 Ha2]. split; [now split|auto].
  Qed.

  (* NDNav.name on an object made for JObj a ps, where the schema has s0 under the name k: the navigator returned was made
     for s0, or - through the anchors - for the schema a $ref s0 names *)
  Lemma name_shape a ps nv k nv' s0 :
    shaped (JObj a ps) (vn_loc nv) -> An (vn_an nv) -> pfind k ps = Some s0 -> vnav_name nv k = Ok nv' ->
    vn_an nv' = vn_an nv
    /\ ((forall t, s0 <> JRef t) -> shaped s0 (vn_loc nv'))
    /\ (forall t, s0 = JRef t -> exists s', In s' (subs S) /\ js_anchor s' = Some t /\ shaped s' (vn_loc nv')).
  Proof.
    intros Hsh Han Hp Hn. destruct (vnav_name_ok _ _ _ Hn) as (st & sz & pls & c & Hl & Hw & Ea & Hc).
    rewrite Hl in Hsh. destruct (shaped_find k ps pls c Hsh Hw) as [s1 [Hp1 Hs1]]. rewrite Hp in Hp1. injection Hp1 as <-.
    split; [exact Ea|].
    destruct s0 as [?|?|?|?|?|t0]; destruct c as [?|?|?|?|st' t]; cbn [shaped] in Hs1; try contradiction;
      try (split; [intros _; now rewrite Hc|discriminate]).
    subst t0. split; [intros H; destruct (H t eq_refl)|]. intros t' Et. injection Et as <-.
    apply wlookup_in_key in Hc. exact (Han _ _ Hc).
  Qed.

  Definition table_of (its s : js) : Prop := match s with JArr _ _ i | JOdo _ _ i => i = its | _ => False end.

  (* NDNav.index on a table made for a schema whose items are its: the occurrence is walked afresh for its *)
  Lemma index_shape s its nv j nv' :
    table_of its s -> In s (subs S) -> shaped s (vn_loc nv) -> vnav_index dcount r nv j = Ok nv' ->
    In its (subs S) /\ shaped its (vn_loc nv') /\ An (vn_an nv').
  Proof.
    intros Ht Hs Hsh Hn. destruct (vnav_index_ok _ _ _ _ _ Hn) as (st0 & sz0 & isz & cnt & it & sch & Hl & _ & Ew).
    rewrite Hl in Hsh.
    assert (H : sch = its /\ In its (subs s)).
    { destruct s; try contradiction; cbn [table_of shaped subs] in *; subst; (split; [apply Hsh|right; apply subs_self]). }
    destruct H as [-> Hi]. apply (proj1 subs_incl S s Hs) in Hi.
    destruct (proj1 walk_shape its _ _ _ _ Ew (proj1 subs_incl S its Hi)) as [Hsl Ha].
    split; [exact Hi|]. split; [exact Hsl|]. apply Ha. intros k l0 [].
  Qed.
End Shape.

Lemma pfind_plain k tg : forall ks,
  pfind (KName k) (plain (kid_alts tg ks)) = option_map build_alt (find_kid ks k).
Proof.
  induction ks as [|x xs IH]; [reflexivity|]. rewrite kid_alts_cons. cbn [plain pfind key_eqb find_kid].
  rewrite (N.eqb_sym k (item_id x)). destruct (N.eqb (item_id x) k); [reflexivity|apply IH].
Qed.

(* the property a child's name stands for in the flattened children loop: the child's schema, or - for a member of a
   REDEFINES union, never an elementary OCCURS item - a $ref to it *)
Lemma pfind_assemble_d e k x : forall ks bases, unions_ok e bases ks = true -> find_kid ks k = Some x ->
  pfind (KName k) (assemble_d ks) = Some (build_alt x)
  \/ pfind (KName k) (assemble_d ks) = Some (JRef (KName (item_id x))) /\ elem_table x = false.
Proof.
  induction ks as [|y ys IH]; intros bases Hu Hf; [discriminate|]. cbn [find_kid unions_ok assemble_d] in *.
  destruct (item_redef y) as [u|].
  - apply andb_prop in Hu. destruct Hu as [Hu Hys]. apply andb_prop in Hu. destruct Hu as [Ht _].
    cbn [pfind key_eqb]. rewrite (N.eqb_sym k (item_id y)). destruct (N.eqb (item_id y) k); [|exact (IH bases Hys Hf)].
    injection Hf as <-. right. split; [reflexivity|now apply negb_true_iff].
  - apply andb_prop in Hu. destruct Hu as [Ht Hys].
    destruct (existsb (N.eqb (item_id y)) (redef_targets ys)); cbn [pfind key_eqb]; rewrite (N.eqb_sym k (item_id y));
      (destruct (N.eqb (item_id y) k); [injection Hf as <-|exact (IH _ Hys Hf)]).
    + right. split; [reflexivity|]. rewrite orb_false_r in Ht. now apply negb_true_iff.
    + now left.
Qed.

Lemma find_kid_id : forall ks k x, find_kid ks k = Some x -> item_id x = k.
Proof.
  induction ks as [|x0 xs IH]; intros k x H; [discriminate|]. cbn [find_kid] in H.
  destruct (N.eqb (item_id x0) k) eqn:E; [inversion H; subst; now apply N.eqb_eq|eauto].
Qed.

Lemma find_kid_in : forall ks k x, find_kid ks k = Some x -> in_kids x ks.
Proof.
  induction ks as [|x0 xs IH]; intros k x H; [discriminate|]. cbn [find_kid in_kids] in *.
  destruct (N.eqb (item_id x0) k); [inversion H; now left|right; eauto].
Qed.

Lemma subs_plain x tg : forall ks, in_kids x ks -> In (build_alt x) (subs_props (plain (kid_alts tg ks))).
Proof.
  induction ks as [|y ys IH]; intro H; [destruct H|]. rewrite kid_alts_cons. cbn [plain subs_props in_kids] in *.
  apply in_or_app. destruct H as [->|H]; [left; apply subs_self|right; auto].
Qed.

Lemma subs_alts_red u x : forall ks, in_kids x ks -> item_redef x = Some u -> In (build_alt x) (subs_alts (alts_red u ks)).
Proof.
  induction ks as [|y ys IH]; intros H E; [destruct H|]. cbn [alts_red in_kids] in *. destruct H as [->|H].
  - rewrite E, N.eqb_refl. cbn [subs_alts]. apply in_or_app. left. apply subs_self.
  - destruct (item_redef y) as [u'|]; [destruct (N.eqb u u')|]; auto. cbn [subs_alts]. apply in_or_app. right. auto.
Qed.

(* the schema of a child occurs in the flattened children loop's output: in place, at the head of the union named after it,
   or among the alternatives of the union of the earlier sibling (a base) it redefines *)
Lemma subs_assemble_d e x : forall ks bases, unions_ok e bases ks = true -> in_kids x ks ->
  In (build_alt x) (subs_props (assemble_d ks)) \/ exists u, item_redef x = Some u /\ In u (map fst bases).
Proof.
  induction ks as [|y ys IH]; intros bases Hu Hin; [destruct Hin|]. cbn [unions_ok assemble_d in_kids] in *.
  destruct (item_redef y) as [u|] eqn:Ey.
  - apply andb_prop in Hu. destruct Hu as [Hu Hys]. apply andb_prop in Hu. destruct Hu as [_ Hb].
    destruct Hin as [->|Hin].
    + right. exists u. split; [exact Ey|]. destruct (find (fun p => N.eqb (fst p) u) bases) as [b|] eqn:Ef; [|discriminate].
      apply find_some in Ef. destruct Ef as [Hi He]. apply N.eqb_eq in He. subst u. exact (in_map fst _ _ Hi).
    + destruct (IH bases Hys Hin) as [H|H]; [left|right; exact H]. right. exact H.
  - apply andb_prop in Hu. destruct Hu as [_ Hys]. destruct Hin as [->|Hin].
    + left. destruct (existsb (N.eqb (item_id y)) (redef_targets ys)); cbn [subs_props subs subs_alts].
      * right. apply in_or_app. left. apply in_or_app. left. apply subs_self.
      * apply in_or_app. left. apply subs_self.
    + destruct (IH _ Hys Hin) as [H|[u [Ex [<-|Hb]]]]; [left|left|right; eauto].
      * destruct (existsb (N.eqb (item_id y)) (redef_targets ys)); cbn [subs_props subs]; apply in_or_app; right; [right|]; exact H.
      * cbn [fst] in Ex. rewrite (proj2 (existsb_eqb_In _ _) (redef_targets_spec ys x _ Hin Ex)). cbn [subs_props subs subs_alts].
        right. apply in_or_app. left. apply in_or_app. right. exact (subs_alts_red _ x ys Hin Ex).
Qed.

Lemma build_not_ref x t : build_alt x <> JRef t.
Proof. destruct x as [i sz [|n|c] rd|i [|n|c] rd ks]; discriminate. Qed.

(* well-formed in C01's sense (no OCCURS DEPENDING ON) or in C06's general sense *)
Definition okx (e : env) (x : item) : Prop := wf e x = true \/ exists avail, wfo e avail x = true.

Lemma wfo_kid e : forall ks avail x, in_kids x ks -> wfo_kids e avail ks = true -> okx e x.
Proof.
  induction ks as [|y ys IH]; intros avail x H Hw; [destruct H|]. cbn [wfo_kids in_kids] in *.
  destruct (member y ys); apply andb_prop in Hw; destruct Hw as [H1 H2]; (destruct H as [->|H]; [|eauto]).
  - now left.
  - right. eauto.
Qed.

Lemma okx_kids e i oc rd ks : okx e (Group i oc rd ks) -> forall y, in_kids y ks -> okx e y.
Proof.
  intros [Hw|[avail Hw]] y Hy.
  - left. cbn [wf] in Hw. apply andb_prop in Hw. destruct Hw as [_ Hw]. apply andb_prop in Hw. destruct Hw as [Hk _].
    exact (wf_kids_in e y ks Hy Hk).
  - destruct oc as [|n|c]; cbn [wfo] in Hw.
    + apply andb_prop in Hw. destruct Hw as [Hk _]. exact (wfo_kid e ks avail y Hy Hk).
    + apply andb_prop in Hw. destruct Hw as [Hk _]. left. exact (wf_kids_in e y ks Hy Hk).
    + destruct rd; [discriminate|]. apply andb_prop in Hw. destruct Hw as [Hw _]. apply andb_prop in Hw. destruct Hw as [_ Hk].
      left. exact (wf_kids_in e y ks Hy Hk).
Qed.

Lemma okx_unions e i rd ks : okx e (Group i Once rd ks) -> unions_ok e [] ks = true.
Proof.
  intros [Hw|[avail Hw]].
  - cbn [wf no_odo item_oc andb] in Hw. apply andb_prop in Hw. tauto.
  - cbn [wfo] in Hw. apply andb_prop in Hw. tauto.
Qed.

Section PathShape.
  Variable B : Type.
  Variable dcount : list B -> nat.
  Variable r : list B.
  Variable e : env.
  Variable S : js.
  Hypothesis Suniq : NoDup (jkeys S).

  (* the schema of what a view shows *)
  Definition vjs (i0 : id) (v : view) : js :=
    match v with
    | VItem x => build_alt x
    | VOcc (Elem i sz _ _) => elem_items i sz
    | VOcc (Group _ _ _ ks) => JObj None (plain (kid_alts [] ks))
    | VAtom sz => JAtom (Some (KName i0)) sz
    end.

  Definition good (v : view) : Prop :=
    match v with
    | VItem x | VOcc x => okx e x /\ NoDup (ids x)
    | VAtom _ => True
    end.

  (* the invariant along a path: the schema of the view occurs in S, the navigator's location was made for it, and its
     anchors for schemas of S *)
  Definition pinv (i0 : id) (v : view) (nv : vnav) : Prop :=
    In (vjs i0 v) (subs S) /\ shaped (vjs i0 v) (vn_loc nv) /\ An S (vn_an nv) /\ good v.

  (* name(k) inside an object whose properties are those of the children ks of a group *)
  Lemma kid_step i0 a ps ks k x nv nv' :
    In (JObj a ps) (subs S) -> shaped (JObj a ps) (vn_loc nv) -> An S (vn_an nv) ->
    (forall y, in_kids y ks -> In (build_alt y) (subs (JObj a ps))) ->
    (forall y, in_kids y ks -> okx e y) -> NoDup (ids_kids ks) ->
    find_kid ks k = Some x ->
    pfind (KName k) ps = Some (build_alt x)
    \/ pfind (KName k) ps = Some (JRef (KName (item_id x))) /\ elem_table x = false ->
    vnav_name nv (KName k) = Ok nv' -> pinv i0 (VItem x) nv'.
  Proof.
    intros Hsub Hsh Han Hkids Hwf Hnd Hf Hfind Hn. pose proof (find_kid_in _ _ _ Hf) as Hin.
    assert (HsubS : In (build_alt x) (subs S)) by exact (proj1 subs_incl S _ Hsub _ (Hkids x Hin)).
    assert (Hg : good (VItem x)) by (split; [exact (Hwf x Hin)|exact (NoDup_ids_kid x ks Hin Hnd)]).
    destruct Hfind as [Hp|[Hp Het]]; destruct (name_shape S a ps nv (KName k) nv' _ Hsh Han Hp Hn) as [Ea [Hdirect Href]];
      rewrite <- Ea in Han.
    - split; [exact HsubS|]. split; [|now split]. apply Hdirect. intro t. apply build_not_ref.
    - destruct (Href _ eq_refl) as [s' [H1 [H2 H3]]].
      rewrite (subs_unique S _ s' (build_alt x) Suniq H1 HsubS H2 (anchor_build x Het)) in H3.
      split; [exact HsubS|]. split; [exact H3|now split].
  Qed.

  Lemma table_build i0 x : is_table x = true -> table_of (vjs i0 (VOcc x)) (build_alt x).
  Proof. destruct x as [i sz [|n|c] rd|i [|n|c] rd ks]; try discriminate; reflexivity. Qed.

  Lemma step_shape i0 v st s v' st' nv nv' :
    pinv i0 v nv -> spec_step e v st s = inl (v', st') -> vnav_step dcount r nv (wstep_of_step s) = Ok nv' ->
    pinv (step_id s i0) v' nv'.
  Proof.
    intros [Hsub [Hsh [Han Hg]]] Hs Hn. destruct s as [k|j]; cbn [spec_step step_id wstep_of_step vnav_step] in *.
    - destruct v as [x|x|sz]; [| |discriminate].
      + destruct x as [i sz oc rd|i oc rd ks]; [discriminate|]. destruct oc; try discriminate.
        destruct (find_kid ks k) as [x|] eqn:Ef; [|discriminate]. destruct (kid_start e ks k); [|discriminate]. inversion Hs; subst v' st'.
        cbn [vjs good] in *. destruct Hg as [Hwf Hnd]. pose proof (okx_unions e i rd ks Hwf) as Hun.
        inversion Hnd as [|? ? _ Hndk]; subst.
        rewrite (build_group_once e i rd ks Hndk Hun) in *.
        assert (Hkids : forall y, in_kids y ks -> In (build_alt y) (subs (JObj (Some (KName i)) (assemble_d ks)))).
        { intros y Hy. right. destruct (subs_assemble_d e y ks [] Hun Hy) as [H|[u [_ []]]]. exact H. }
        exact (kid_step i0 _ _ ks k x nv nv' Hsub Hsh Han Hkids (okx_kids e i Once rd ks Hwf) Hndk Ef
                 (pfind_assemble_d e k x ks [] Hun Ef) Hn).
      + destruct x as [i sz oc rd|i oc rd ks].
        * destruct (N.eqb i k) eqn:E; [|discriminate]. apply N.eqb_eq in E. subst k. inversion Hs; subst v' st'.
          cbn [vjs] in *. unfold elem_items in *.
          assert (Hp : pfind (KName i) (PCons (KName i) (JAtom (Some (KName i)) sz) PNil) = Some (JAtom (Some (KName i)) sz))
            by (cbn [pfind key_eqb]; now rewrite N.eqb_refl).
          destruct (name_shape S _ _ nv (KName i) nv' _ Hsh Han Hp Hn) as [Ea [Hdirect _]]. rewrite <- Ea in Han.
          split; [apply (proj1 subs_incl S _ Hsub); right; now left|]. split; [now apply Hdirect|now split].
        * destruct (find_kid ks k) as [x|] eqn:Ef; [|discriminate]. destruct (kid_start e ks k); [|discriminate]. inversion Hs; subst v' st'.
          cbn [vjs good] in *. destruct Hg as [Hwf Hnd]. inversion Hnd as [|? ? _ Hndk]; subst.
          apply (kid_step i0 None _ ks k x nv nv' Hsub Hsh Han); auto.
          -- intros y Hy. right. now apply subs_plain.
          -- exact (okx_kids e i oc rd ks Hwf).
          -- left. rewrite pfind_plain, Ef. reflexivity.
    - destruct v as [x|x|sz]; [|discriminate|discriminate].
      destruct (is_table x) eqn:Et; [|discriminate]. destruct (j <? count e (item_oc x)); [|discriminate]. inversion Hs; subst v' st'.
      destruct (index_shape B dcount r S _ _ nv j nv' (table_build i0 x Et) Hsub Hsh Hn) as [H1 [H2 H3]].
      split; [exact H1|]. split; [exact H2|now split].
  Qed.

  Lemma path_shape : forall p i0 v st v' st' nv nv',
    pinv i0 v nv -> spec_nav e v st p = inl (v', st') -> vnav_path dcount r nv (wpath p) = Ok nv' ->
    pinv (last_name p i0) v' nv'.
  Proof.
    induction p as [|s p IH]; intros i0 v st v' st' nv nv' Hi Hs Hn.
    - cbn [spec_nav wpath map vnav_path last_name] in *. inversion Hs; inversion Hn; subst. exact Hi.
    - cbn [spec_nav wpath map vnav_path] in *. destruct (spec_step e v st s) as [[v1 st1]|err] eqn:Es; [|discriminate].
      destruct (vnav_step dcount r nv (wstep_of_step s)) as [nv1|ex] eqn:En; [|discriminate].
      replace (last_name (s :: p) i0) with (last_name p (step_id s i0)) by (destruct s; reflexivity).
      exact (IH _ _ _ _ _ _ _ (step_shape i0 v st s v1 st1 nv nv1 Hi Es En) Hs Hn).
  Qed.
End PathShape.

Lemma nav_path_erase {B} (dcount : list B -> nat) (r : list B) : forall p w,
  nav_path dcount r (erase_nav w) p = erase_rnav (vnav_path dcount r w (wpath p)).
Proof.
  induction p as [|s p IH]; intro w; [reflexivity|]. cbn [nav_path wpath map vnav_path].
  assert (Hs : nav_step dcount r (erase_nav w) s = erase_rnav (vnav_step dcount r w (wstep_of_step s))).
  { destruct s as [k|i]; cbn [nav_step vnav_step wstep_of_step]; [apply nav_name_erase|apply nav_index_erase]. }
  rewrite Hs. destruct (vnav_step dcount r w (wstep_of_step s)) as [w1|ex]; cbn [erase_rnav]; [apply IH|reflexivity].
Qed.

Lemma elem_at_view e t p i sz st : elem_at e t p = Some (i, sz, st) ->
  exists v, spec_nav e (VItem t) 0 p = inl (v, st) /\ view_size e v = sz /\ vjs (last_name p 0%N) v = JAtom (Some (KName i)) sz.
Proof.
  unfold elem_at. destruct (spec_nav e (VItem t) 0 p) as [[v st0]|err]; [|discriminate].
  destruct v as [x|x|sz0]; [|discriminate|].
  - destruct x as [i0 sz0 oc rd|]; [|discriminate]. destruct oc; try discriminate. intro H; inversion H; subst.
    eexists. split; [reflexivity|]. split; [unfold view_size, extent; cbn [item_oc count ext1]; lia|reflexivity].
  - intro H; inversion H; subst. eexists. split; [reflexivity|]. split; reflexivity.
Qed.

(* the location an elementary occurrence is reached at is an AtomicLocation with the item's own anchor *)
Lemma atom_reached {B} (dcount : list B -> nat) (r : list B) e t p i sz st w0 wv :
  okx e t -> NoDup (ids t) -> NoDup (jkeys (build t)) ->
  vnav_of dcount r (build t) = Ok w0 -> vnav_path dcount r w0 (wpath p) = Ok wv ->
  elem_at e t p = Some (i, sz, st) ->
  exists st', vn_loc wv = WAtom (Some (KName i)) st' sz.
Proof.
  intros Hwf Hnd Hu H0 Hp Hat. destruct (elem_at_view e t p i sz st Hat) as [v [Hnav [_ Hjs]]].
  assert (Hi : pinv e (build t) 0%N (VItem t) w0).
  { destruct (proj1 (walk_shape B dcount r (build t)) _ _ _ _ _ (vnav_of_ok _ _ _ _ H0) (incl_refl _)) as [Hl Ha].
    split; [apply subs_self|]. split; [exact Hl|]. split; [|now split]. apply Ha. intros k l0 []. }
  destruct (path_shape B dcount r e (build t) Hu p 0%N (VItem t) 0 v st w0 wv Hi Hnav Hp) as [_ [Hsh _]].
  rewrite Hjs in Hsh. destruct (vn_loc wv) as [a st' sz'|?|?|?|?]; cbn [shaped] in Hsh; try contradiction.
  destruct Hsh as [-> ->]. eauto.
Qed.

(* the composition, from what a layout theorem (C01_layout or C06_layout) says about the record *)
Lemma compose (dcount : list N -> nat) (kd : kinds) (vals : assignment) (e : env) (t : item) :
  okx e t -> NoDup (ids t) -> NoDup (jkeys (build t)) -> record_ok kd vals e t = true ->
  (exists v0, nav_of dcount (spec_record kd vals e t) (build t) = Ok v0
     /\ forall p v st, spec_nav e (VItem t) 0 p = inl (v, st) ->
          exists nv, nav_path dcount (spec_record kd vals e t) v0 p = Ok nv
            /\ nav_raw (spec_record kd vals e t) nv = slice (spec_record kd vals e t) st (st + view_size e v)) ->
  forall p i sz st, elem_at e t p = Some (i, sz, st) -> own_storage e (VItem t) 0 p = true ->
    value_at kd dcount (spec_record kd vals e t) (build t) p = Some (Ok (PAtom (py_of (stored (kd i) (vals p))))).
Proof.
  intros Hwf Hnd Hu Hok [v0 [H0 Hpaths]] p i sz st Hat Hown. set (r := spec_record kd vals e t) in *.
  destruct (elem_at_view e t p i sz st Hat) as [v [Hnav [Hsz _]]].
  destruct (Hpaths p v st Hnav) as [nv [Hp Hraw]].
  rewrite nav_of_erase in H0. unfold value_at.
  destruct (vnav_of dcount r (build t)) as [w0|ex] eqn:E0; [|discriminate]. cbn [erase_rnav] in H0. inversion H0; subst v0.
  rewrite nav_path_erase in Hp. destruct (vnav_path dcount r w0 (wpath p)) as [wv|ex] eqn:Ep; [|discriminate].
  cbn [erase_rnav] in Hp. inversion Hp; subst nv.
  destruct (atom_reached dcount r e t p i sz st w0 wv Hwf Hnd Hu E0 Ep Hat) as [st' Hloc].
  rewrite (atom_value N pyval (field_dec kd) r wv _ _ _ Hloc).
  rewrite <- nav_raw_erase, Hraw, Hsz.
  destruct (record_field kd vals e t p i sz st Hok Hown Hat) as [Hsl [Hk Hv]]. fold r in Hsl.
  rewrite Hsl, (field_roundtrip kd i sz (vals p) Hk Hv). reflexivity.
Qed.

Theorem stored_is_read : forall (dcount : list N -> nat) (kd : kinds) (vals : assignment) (e : env) (t : item),
  LayoutP.wf e t = true -> NoDup (ids t) -> record_ok kd vals e t = true ->
  forall p i sz st, elem_at e t p = Some (i, sz, st) -> own_storage e (VItem t) 0 p = true ->
    value_at kd dcount (spec_record kd vals e t) (build t) p = Some (Ok (PAtom (py_of (stored (kd i) (vals p))))).
Proof.
  intros dcount kd vals e t Hwf Hnd Hok.
  pose proof (cobol_like_build e t Hwf Hnd) as Hc. unfold cobol_like in Hc. apply andb_prop in Hc. destruct Hc as [_ Hu].
  apply nodupk_NoDup in Hu.
  apply (compose dcount kd vals e t (or_introl Hwf) Hnd Hu Hok).
  destruct (layout_correct N dcount (spec_record kd vals e t) e t Hwf Hnd) as [v0 [H0 [_ [_ Hpaths]]]].
  exists v0. split; [exact H0|]. intros p v st Hs. destruct (Hpaths p v st Hs) as [nv [H1 [_ [_ H2]]]]. eauto.
Qed.
