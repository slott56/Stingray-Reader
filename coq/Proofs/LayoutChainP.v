(* Lemmas of Props/C01d.v: what the well-formedness predicate wf of the layout theorems excludes.  Under the structural
   minimum (wf_base: no OCCURS DEPENDING ON, every REDEFINES names an earlier sibling) and distinct sibling names, wf fails
   EXACTLY on: REDEFINES inside a repeated group (Model/Layout.v build_raises = K-redef-in-occurs), an elementary OCCURS
   item in a union (Judge/JLayoutCommon.v occurs_elem_in_union = K-occurs-elem-in-union), a REDEFINES whose target is itself
   a redefiner (chained_redef = K-redefines-of-redefiner), a redefiner longer than its target (Spec/LayoutChainWf.v
   longer_redefiner): wf_exact.  Each trigger of the judge is split into what it says of one sibling list (local_oeu,
   local_ch) and of the groups below it (deep_oeu, deep_ch); unions_ok is compared with the local parts, the induction
   over the tree takes care of the deep ones. *)
From Coq Require Import List Arith NArith Bool Btauto.
Import ListNotations.
Require Import SR.Base.Res SR.Spec.Layout SR.Model.Layout SR.Proofs.LayoutP SR.Proofs.LayoutNamesP.
Require Import SR.Spec.LayoutChainWf.
Require SR.Judge.JLayoutCommon.

Definition is_some {T} (o : option T) : bool := match o with Some _ => true | None => false end.

Fixpoint local_oeu (tg : list id) (ks : items) : bool :=
  match ks with
  | INil => false
  | ICons x xs => (elem_table x && is_some (union_of tg x)) || local_oeu tg xs
  end.
Fixpoint deep_oeu (ks : items) : bool :=
  match ks with INil => false | ICons x xs => JLayoutCommon.occurs_elem_in_union x || deep_oeu xs end.

Lemma kids_oeu_split tg : forall ks, JLayoutCommon.kids_oeu tg ks = local_oeu tg ks || deep_oeu ks.
Proof.
  induction ks as [|x xs IH]; [reflexivity|].
  cbn [JLayoutCommon.kids_oeu local_oeu deep_oeu]. rewrite IH.
  destruct x as [i sz oc rd|i oc rd ks].
  - assert (E : JLayoutCommon.occurs_elem_in_union (Elem i sz oc rd) = false) by reflexivity. rewrite E.
    destruct oc as [|n|c]; cbn [elem_table]; unfold is_some; destruct (union_of tg _); btauto.
  - cbn [elem_table]. btauto.
Qed.

Fixpoint local_ch (tg : list id) (ks : items) : bool :=
  match ks with
  | INil => false
  | ICons x xs => (is_redefiner x && existsb (N.eqb (item_id x)) tg) || local_ch tg xs
  end.
Fixpoint deep_ch (ks : items) : bool :=
  match ks with INil => false | ICons x xs => JLayoutCommon.chained_redef x || deep_ch xs end.

Lemma kids_chained_split tg : forall ks, JLayoutCommon.kids_chained tg ks = local_ch tg ks || deep_ch ks.
Proof.
  induction ks as [|x xs IH]; [reflexivity|].
  cbn [JLayoutCommon.kids_chained local_ch deep_ch]. rewrite IH. btauto.
Qed.

Lemma find_none_notin {T} u (l : list (id * T)) :
  find (fun p => N.eqb (fst p) u) l = None -> ~ In u (map fst l).
Proof.
  induction l as [|[a b] l IH]; cbn [find map fst In]; intros H; [tauto|].
  destruct (N.eqb a u) eqn:E; [discriminate|]. apply N.eqb_neq in E. intros [H1|H1]; [exact (E H1)|exact (IH H H1)].
Qed.

Lemma find_unique {T} (l : list (id * T)) p :
  NoDup (map fst l) -> In p l -> find (fun q => N.eqb (fst q) (fst p)) l = Some p.
Proof.
  induction l as [|[a b] l IH]; cbn [find map fst In]; intros Hnd Hin; [contradiction|].
  inversion Hnd as [|? ? Ha Hl]; subst. destruct Hin as [ <- |Hin].
  - cbn [fst]. rewrite N.eqb_refl. reflexivity.
  - destruct (N.eqb a (fst p)) eqn:E; [|apply IH; assumption].
    apply N.eqb_eq in E. subst a. exfalso. apply Ha. apply (in_map fst _ _ Hin).
Qed.

Lemma unions_ok_from e tg : forall ks seen bases,
  (forall u, In u tg -> find (fun p => N.eqb (fst p) u) seen = find (fun p => N.eqb (fst p) u) bases) ->
  incl (redef_targets ks) tg ->
  redef_earlier (map fst seen) ks = true ->
  local_oeu tg ks = false -> local_ch tg ks = false -> kids_longer e seen ks = false ->
  unions_ok e bases ks = true.
Proof.
  induction ks as [|x xs IH]; intros seen bases Inv Htg Hre Ho Hc Hl; [reflexivity|].
  cbn [unions_ok redef_targets redef_earlier local_oeu local_ch kids_longer] in *.
  apply andb_true_iff in Hre. destruct Hre as [Hu Hre].
  apply orb_false_iff in Ho. destruct Ho as [Hox Ho].
  apply orb_false_iff in Hc. destruct Hc as [Hcx Hc].
  apply orb_false_iff in Hl. destruct Hl as [Hlx Hl].
  unfold is_redefiner in Hcx. rewrite union_of_unf in Hox.
  destruct (item_redef x) as [u|] eqn:Er.
  - assert (Hutg : In u tg) by (apply Htg; left; reflexivity).
    cbn [andb] in Hcx. rewrite Hcx in Hox. cbn [is_some] in Hox. rewrite andb_true_r in Hox.
    rewrite Hox. cbn [negb andb].
    rewrite <- (Inv u Hutg). apply existsb_eqb_In in Hu.
    destruct (find (fun p => N.eqb (fst p) u) seen) as [[u' ext]|] eqn:Ef.
    + apply Nat.ltb_ge in Hlx. rewrite (proj2 (Nat.leb_le _ _) Hlx). cbn [andb].
      apply (IH ((item_id x, extent e x) :: seen) bases); try assumption.
      * intros v Hv. cbn [find fst]. destruct (N.eqb (item_id x) v) eqn:E; [|apply Inv; exact Hv].
        apply N.eqb_eq in E. subst v. apply existsb_eqb_notin in Hcx. contradiction.
      * intros v Hv. apply Htg. right. exact Hv.
    + exfalso. exact (find_none_notin u seen Ef Hu).
  - apply andb_true_iff. split.
    + destruct (elem_table x); [|reflexivity]. cbn [andb negb orb] in *.
      destruct (existsb (N.eqb (item_id x)) tg) eqn:Et; [discriminate|].
      destruct (existsb (N.eqb (item_id x)) (redef_targets xs)) eqn:E2; [|reflexivity].
      apply existsb_eqb_In in E2. apply Htg in E2. apply existsb_eqb_In in E2. congruence.
    + apply (IH ((item_id x, extent e x) :: seen) ((item_id x, extent e x) :: bases)); try assumption.
      intros v Hv. cbn [find fst]. destruct (N.eqb (item_id x) v); [reflexivity|apply Inv; exact Hv].
Qed.

Lemma local_ch_false tg : forall ks,
  (forall y, in_kids y ks -> item_redef y <> None -> ~ In (item_id y) tg) -> local_ch tg ks = false.
Proof.
  induction ks as [|x xs IH]; intros H; [reflexivity|]. cbn [local_ch].
  rewrite IH by (intros y Hy; apply H; right; exact Hy). rewrite orb_false_r.
  unfold is_redefiner. destruct (item_redef x) as [u|] eqn:Er; [|reflexivity]. cbn [andb].
  apply existsb_eqb_notin. apply (H x); [left; reflexivity|rewrite Er; discriminate].
Qed.

Lemma unions_ok_oeu e : forall ks bases tg0,
  unions_ok e bases ks = true ->
  NoDup (kid_ids ks) ->
  (forall j, In j (kid_ids ks) -> ~ In j tg0 /\ ~ In j (map fst bases)) ->
  local_oeu (tg0 ++ redef_targets ks) ks = false.
Proof.
  induction ks as [|x xs IH]; intros bases tg0 Hu Hnd Hfresh; [reflexivity|].
  cbn [unions_ok kid_ids redef_targets local_oeu] in *. inversion Hnd as [|? ? Hxnot Hndxs]; subst.
  destruct (item_redef x) as [u|] eqn:Er.
  - apply andb_true_iff in Hu. destruct Hu as [Hu Hxs]. apply andb_true_iff in Hu. destruct Hu as [Het Hf].
    apply negb_true_iff in Het. rewrite Het. cbn [andb orb].
    destruct (find (fun p => N.eqb (fst p) u) bases) as [[u' ext]|] eqn:Ef; [|discriminate].
    destruct (find_fst_In u bases _ Ef) as [Hin Heq]. cbn [fst] in *. subst u'.
    change (tg0 ++ u :: redef_targets xs) with (tg0 ++ [u] ++ redef_targets xs). rewrite app_assoc.
    apply (IH bases (tg0 ++ [u]) Hxs Hndxs).
    intros j Hj. destruct (Hfresh j (or_intror Hj)) as [H1 H2]. split; [|exact H2].
    intros H. apply in_app_or in H. destruct H as [H|[ <- |[]]]; [exact (H1 H)|exact (H2 Hin)].
  - apply andb_true_iff in Hu. destruct Hu as [Hx Hxs].
    assert (Hfx : elem_table x && is_some (union_of (tg0 ++ redef_targets xs) x) = false).
    { destruct (elem_table x); [|reflexivity]. cbn [negb orb andb] in *. apply negb_true_iff in Hx.
      assert (Ht0 : existsb (N.eqb (item_id x)) tg0 = false)
        by (apply existsb_eqb_notin; apply (Hfresh (item_id x)); left; reflexivity).
      unfold union_of. rewrite existsb_app.
      match goal with |- context [if ?a || ?b then _ else _] =>
        replace a with false by (symmetry; exact Ht0); replace b with false by (symmetry; exact Hx) end.
      cbn [orb]. rewrite Er. reflexivity. }
    rewrite Hfx. cbn [orb].
    apply (IH ((item_id x, extent e x) :: bases) tg0 Hxs Hndxs).
    intros j Hj. destruct (Hfresh j (or_intror Hj)) as [H1 H2]. split; [exact H1|].
    cbn [map fst]. intros [ <- |H]; [exact (Hxnot Hj)|exact (H2 H)].
Qed.

Lemma unions_ok_not_longer e : forall ks bases seen,
  unions_ok e bases ks = true ->
  (forall p, In p bases -> In p seen) ->
  NoDup (map fst seen) -> NoDup (kid_ids ks) ->
  (forall j, In j (kid_ids ks) -> ~ In j (map fst seen)) ->
  kids_longer e seen ks = false.
Proof.
  induction ks as [|x xs IH]; intros bases seen Hu Hsub Hnds Hnd Hdisj; [reflexivity|].
  cbn [unions_ok kid_ids kids_longer] in *. inversion Hnd as [|? ? Hxnot Hndxs]; subst.
  assert (Hnds' : NoDup (map fst ((item_id x, extent e x) :: seen))).
  { cbn [map fst]. constructor; [apply Hdisj; left; reflexivity|exact Hnds]. }
  assert (Hdisj' : forall j, In j (kid_ids xs) -> ~ In j (map fst ((item_id x, extent e x) :: seen))).
  { intros j Hj. cbn [map fst]. intros [ <- |H]; [exact (Hxnot Hj)|exact (Hdisj j (or_intror Hj) H)]. }
  destruct (item_redef x) as [u|] eqn:Er.
  - apply andb_true_iff in Hu. destruct Hu as [Hu Hxs]. apply andb_true_iff in Hu. destruct Hu as [_ Hf].
    destruct (find (fun p => N.eqb (fst p) u) bases) as [[u' ext]|] eqn:Ef; [|discriminate].
    destruct (find_fst_In u bases _ Ef) as [_ Heq]. cbn [fst] in Heq. subst u'.
    apply find_some in Ef. destruct Ef as [Hin _].
    pose proof (find_unique seen (u, ext) Hnds (Hsub _ Hin)) as Hfs. cbn [fst] in Hfs. rewrite Hfs.
    apply Nat.leb_le in Hf. rewrite (proj2 (Nat.ltb_ge _ _) Hf). cbn [orb].
    apply (IH bases ((item_id x, extent e x) :: seen) Hxs); try assumption.
    intros p Hp. right. apply Hsub. exact Hp.
  - apply andb_true_iff in Hu. destruct Hu as [_ Hxs]. cbn [orb].
    apply (IH ((item_id x, extent e x) :: bases) ((item_id x, extent e x) :: seen) Hxs); try assumption.
    intros p [ <- |Hp]; [left; reflexivity|right; apply Hsub; exact Hp].
Qed.

Lemma unions_ok_exact_local e ks : NoDup (kid_ids ks) -> redef_earlier [] ks = true ->
  unions_ok e [] ks = negb (local_oeu (redef_targets ks) ks || local_ch (redef_targets ks) ks || kids_longer e [] ks).
Proof.
  intros Hnd Hre. destruct (unions_ok e [] ks) eqn:Hu.
  - pose proof (unions_ok_oeu e ks [] [] Hu Hnd) as H1. cbn [app] in H1. rewrite H1 by (intros j _; split; intros []).
    rewrite (local_ch_false (redef_targets ks) ks)
      by (apply redefiner_not_target; [apply (unions_sib_ok e [] ks Hu)|exact Hnd]).
    assert (H3 : kids_longer e [] ks = false).
    { apply (unions_ok_not_longer e ks [] [] Hu); [intros p []|constructor|exact Hnd|intros j _ []]. }
    rewrite H3. reflexivity.
  - destruct (local_oeu (redef_targets ks) ks) eqn:Ho; [reflexivity|].
    destruct (local_ch (redef_targets ks) ks) eqn:Hc; [reflexivity|].
    destruct (kids_longer e [] ks) eqn:Hl; [reflexivity|]. exfalso.
    assert (Hu' : unions_ok e [] ks = true).
    { apply (unions_ok_from e (redef_targets ks) ks [] []); try assumption; [reflexivity|apply incl_refl]. }
    congruence.
Qed.

Lemma no_targets_local e : forall ks, redef_targets ks = [] ->
  local_oeu [] ks = false /\ local_ch [] ks = false /\ forall seen, kids_longer e seen ks = false.
Proof.
  induction ks as [|x xs IH]; intros H; [repeat split|].
  cbn [redef_targets] in H. destruct (item_redef x) as [u|] eqn:Er; [discriminate|].
  destruct (IH H) as (H1 & H2 & H3). cbn [local_oeu local_ch kids_longer]. unfold union_of, is_redefiner.
  rewrite Er, H1, H2. cbn [existsb is_some andb orb]. rewrite andb_false_r. repeat split. intros seen. apply H3.
Qed.

Lemma wf_exact e :
  (forall x, wf_base x = true -> siblings_distinct x = true ->
     wf e x = negb (build_raises x || JLayoutCommon.occurs_elem_in_union x || JLayoutCommon.chained_redef x
                    || longer_redefiner e x)) /\
  (forall ks, wf_base_kids ks = true -> sd_kids ks = true ->
     wf_kids e ks = negb (kids_raise ks || deep_oeu ks || deep_ch ks || kids_any_longer e ks)).
Proof.
  apply item_items_ind.
  - intros i sz oc rd Hb _. cbn [wf_base item_oc] in Hb. cbn [wf item_oc]. rewrite andb_true_r in *. rewrite Hb. reflexivity.
  - intros i oc rd ks IH Hb Hsd.
    cbn [wf_base item_oc] in Hb. apply andb_true_iff in Hb. destruct Hb as [Hoc Hb].
    apply andb_true_iff in Hb. destruct Hb as [Hre Hbk].
    destruct (sd_group _ _ _ _ Hsd) as [Hnd Hsdk].
    cbn [wf item_oc build_raises JLayoutCommon.occurs_elem_in_union JLayoutCommon.chained_redef longer_redefiner].
    rewrite kids_oeu_split, kids_chained_split, (IH Hbk Hsdk), Hoc. cbn [andb].
    destruct oc as [|n|c]; [| |discriminate].
    + rewrite (unions_ok_exact_local e ks Hnd Hre). btauto.
    + destruct (redef_targets ks) as [|t l] eqn:Et.
      * destruct (no_targets_local e ks Et) as (H1 & H2 & H3). rewrite H1, H2, H3. btauto.
      * btauto.
  - intros _ _. reflexivity.
  - intros x IHx xs IHxs Hb Hsd. cbn [wf_base_kids] in Hb. apply andb_true_iff in Hb. destruct Hb as [Hbx Hbxs].
    cbn [sd_kids] in Hsd. apply andb_true_iff in Hsd. destruct Hsd as [Hsx Hsxs].
    cbn [wf_kids kids_raise deep_oeu deep_ch kids_any_longer]. rewrite (IHx Hbx Hsx), (IHxs Hbxs Hsxs). btauto.
Qed.

Lemma sib_ok_earlier : forall ks bases seen, sib_ok bases ks = true -> incl bases seen -> redef_earlier seen ks = true.
Proof.
  induction ks as [|x xs IH]; intros bases seen H Hi; [reflexivity|]. cbn [sib_ok redef_earlier] in *.
  destruct (item_redef x) as [u|].
  - apply andb_true_iff in H. destruct H as [Hu Hxs]. apply andb_true_iff. split.
    + apply existsb_eqb_In. apply Hi. apply existsb_eqb_In. exact Hu.
    + apply (IH bases); [exact Hxs|]. intros v Hv. right. apply Hi. exact Hv.
  - cbn [andb]. apply (IH (item_id x :: bases)); [exact H|]. intros v [ <- |Hv]; [left; reflexivity|right; apply Hi; exact Hv].
Qed.

Lemma no_targets_earlier : forall ks seen, redef_targets ks = [] -> redef_earlier seen ks = true.
Proof.
  induction ks as [|x xs IH]; intros seen H; [reflexivity|]. cbn [redef_targets redef_earlier] in *.
  destruct (item_redef x); [discriminate|]. cbn [andb]. apply IH. exact H.
Qed.

(* wf implies the structural minimum (so wf_base is no extra demand of the layout theorems) *)
Lemma wf_wf_base e :
  (forall x, wf e x = true -> wf_base x = true) /\ (forall ks, wf_kids e ks = true -> wf_base_kids ks = true).
Proof.
  apply item_items_ind.
  - intros i sz oc rd H. cbn [wf wf_base] in *. exact H.
  - intros i oc rd ks IH H. cbn [wf wf_base] in *. apply andb_true_iff in H. destruct H as [Hoc H].
    apply andb_true_iff in H. destruct H as [Hk Hu]. rewrite Hoc, (IH Hk), andb_true_r. cbn [andb].
    destruct oc as [|n|c].
    + apply (sib_ok_earlier ks [] []); [apply (unions_sib_ok e [] ks Hu)|apply incl_refl].
    + apply no_targets_earlier. destruct (redef_targets ks); [reflexivity|discriminate].
    + discriminate.
  - reflexivity.
  - intros x IHx xs IHxs H. cbn [wf_kids wf_base_kids] in *. apply andb_true_iff in H. destruct H as [H1 H2].
    rewrite (IHx H1), (IHxs H2). reflexivity.
Qed.

(* what model and specification say on the witnesses of Props/C01d.v *)
Definition nav_range (t : item) (p : list step) : option (nat * nat) :=
  match nav_of (fun _ : list unit => 0) [] (build t) with
  | Ok v0 => match nav_path (fun _ : list unit => 0) [] v0 p with
             | Ok nv => Some (lstart (n_loc nv), lend (n_loc nv))
             | Err _ => None
             end
  | Err _ => None
  end.

Definition spec_range (t : item) (p : list step) : option (nat * nat) :=
  match spec_nav (fun _ => 0) (VItem t) 0 p with
  | inl (v, st) => Some (st, st + view_size (fun _ => 0) v)
  | inr _ => None
  end.
