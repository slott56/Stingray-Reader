(* Proofs for the heap model of C11's first half (Model/Heap.v): the FRAME property.

   Invariant carried through a history (keeps n0 h h'): the heap only grows, and every object that existed when the history
   began (oid < n0) is kept: same region and kind; a document object (RDoc) is literally the same; a Schema node (RNode) has
   the same value in every slot other than ref_to.  A clean write preserves it because its target is the root object itself
   (depth 0) and that object is either younger than the history (FRESH: mark <= base, and n0 <= mark), or lies in RLib / RClass
   (OWN / CLASSLEVEL: not a document object, not a Schema node), or is a Schema node of which only ref_to is written (REFSLOT). *)
From Coq Require Import String List Bool Arith Lia.
Import ListNotations.
Require Import SR.Model.HeapRule SR.Model.Heap.
Open Scope string_scope.
Open Scope list_scope.
Open Scope nat_scope.

Lemma hget_hupd : forall h t f o,
  hget o (hupd t f h) = if Nat.eqb o t then option_map f (hget o h) else hget o h.
Proof.
  unfold hget. induction h as [|x r IH]; intros t f o.
  - cbn. destruct (Nat.eqb o t); destruct o; reflexivity.
  - destruct t as [|t]; destruct o as [|o]; cbn; try reflexivity. apply IH.
Qed.

Lemma length_hupd : forall h t f, length (hupd t f h) = length h.
Proof. induction h as [|x r IH]; intros [|t] f; cbn; auto. Qed.

Lemma hget_app : forall h l o ob, hget o h = Some ob -> hget o (h ++ l) = Some ob.
Proof.
  unfold hget. intros h l o ob H. rewrite nth_error_app1; auto. apply nth_error_Some. congruence.
Qed.

Lemma hget_lt : forall h o ob, hget o h = Some ob -> o < length h.
Proof. unfold hget. intros h o ob H. apply nth_error_Some. congruence. Qed.

Lemma dget_dset_other : forall d k k' v, k' <> k -> dget k' (dset k v d) = dget k' d.
Proof.
  induction d as [|[k0 v0] r IH]; intros k k' v Hne; cbn.
  - destruct (String.eqb_spec k' k); [contradiction|reflexivity].
  - destruct (String.eqb_spec k k0) as [->|]; cbn.
    + destruct (String.eqb_spec k' k0); [contradiction|reflexivity].
    + destruct (String.eqb k' k0); auto.
Qed.

Lemma dget_ddel_other : forall d k k', k' <> k -> dget k' (ddel k d) = dget k' d.
Proof.
  induction d as [|[k0 v0] r IH]; intros k k' Hne; cbn; auto.
  destruct (String.eqb_spec k k0) as [->|]; cbn.
  - rewrite IH by auto. destruct (String.eqb_spec k' k0); [contradiction|reflexivity].
  - destruct (String.eqb k' k0); auto.
Qed.

Lemma dget_wr_other : forall ob k v k', k' <> k -> dget k' (o_slots (wr k v ob)) = dget k' (o_slots ob).
Proof. intros ob k [x|] k' H; cbn; [apply dget_dset_other | apply dget_ddel_other]; auto. Qed.

Lemma region_eqb_eq : forall a b, region_eqb a b = true <-> a = b.
Proof. intros [] []; cbn; split; intros H; try reflexivity; try discriminate. Qed.

Lemma site_eqb_clean : forall a b, site_eqb a b = true -> site_clean a = site_clean b.
Proof.
  intros [ra da na] [rb db nb]. unfold site_eqb, site_clean. cbn. intros H.
  apply andb_true_iff in H. destruct H as [H _]. apply andb_true_iff in H. destruct H as [Hr Hd].
  apply Nat.eqb_eq in Hd. subst db.
  destruct ra, rb; cbn in Hr; try discriminate; reflexivity.
Qed.

Lemma performed_site_clean : forall T f si,
  fn_clean T f = true -> existsb (site_eqb si) (sites T f) = true -> site_clean si = true.
Proof.
  intros T f si Hc Hex. apply existsb_exists in Hex. destruct Hex as [s' [Hin Heq]].
  unfold fn_clean in Hc. rewrite forallb_forall in Hc. rewrite (site_eqb_clean _ _ Heq). auto.
Qed.

Lemma sites_clean_of_table : forall T f, table_clean T = true -> fn_clean T f = true.
Proof.
  unfold fn_clean. induction T as [|[g l] r IH]; intros f H; cbn; auto.
  cbn in H. apply andb_true_iff in H. destruct H as [Hl Hr].
  destruct (String.eqb f g); auto.
Qed.

Lemma call_clean_of_table : forall T c, table_clean T = true -> call_clean T c = true.
Proof.
  intros T c H. unfold call_clean. rewrite sites_clean_of_table by auto. cbn.
  apply forallb_forall. intros a _. destruct a; cbn; auto. apply sites_clean_of_table; auto.
Qed.

Lemma all_calls_clean : forall T h, table_clean T = true -> forallb (call_clean T) h = true.
Proof. intros T h H. apply forallb_forall. intros c _. apply call_clean_of_table; auto. Qed.

Definition same_but_ref_to (ob ob' : obj) : Prop :=
  forall k, k <> k_ref_to -> dget k (o_slots ob') = dget k (o_slots ob).

(* what a history may make of an object that existed when it began *)
Definition kept (ob ob' : obj) : Prop :=
  o_reg ob' = o_reg ob /\ o_kind ob' = o_kind ob
  /\ (o_reg ob = RDoc -> ob' = ob)
  /\ (o_reg ob = RNode -> same_but_ref_to ob ob').

Definition keeps (n0 : nat) (h h' : heap) : Prop :=
  length h <= length h' /\
  forall o ob, o < n0 -> hget o h = Some ob -> exists ob', hget o h' = Some ob' /\ kept ob ob'.

Lemma kept_refl : forall ob, kept ob ob.
Proof. intros ob. repeat split. Qed.

Lemma kept_trans : forall a b c, kept a b -> kept b c -> kept a c.
Proof.
  intros a b c (R1 & K1 & D1 & N1) (R2 & K2 & D2 & N2). repeat split; try congruence.
  - intros Hd. rewrite D2 by congruence. auto.
  - intros Hn k Hk. rewrite (N2 ltac:(congruence) k Hk). apply N1; auto.
Qed.

Lemma kept_wr_lib : forall ob k v, o_reg ob <> RDoc -> o_reg ob <> RNode -> kept ob (wr k v ob).
Proof. intros ob k v Hd Hn. repeat split; intros; contradiction. Qed.

Lemma kept_wr_ref_to : forall ob v, o_reg ob = RNode -> kept ob (wr k_ref_to v ob).
Proof.
  intros ob v Hn. repeat split; [congruence|].
  intros _ k Hk. apply dget_wr_other. exact Hk.
Qed.

Lemma keeps_refl : forall n0 h, keeps n0 h h.
Proof. intros n0 h. split; [lia|]. intros o ob _ H. exists ob. split; [exact H|apply kept_refl]. Qed.

Lemma keeps_trans : forall n0 h1 h2 h3, keeps n0 h1 h2 -> keeps n0 h2 h3 -> keeps n0 h1 h3.
Proof.
  intros n0 h1 h2 h3 [L1 K1] [L2 K2]. split; [lia|].
  intros o ob Ho H1. destruct (K1 o ob Ho H1) as (ob2 & H2 & E2).
  destruct (K2 o ob2 Ho H2) as (ob3 & H3 & E3).
  exists ob3. split; [exact H3|exact (kept_trans _ _ _ E2 E3)].
Qed.

(* the hypothesis is vacuous for an object younger than the history (n0 <= t) *)
Lemma keeps_hupd : forall n0 h t f,
  (forall ob, t < n0 -> hget t h = Some ob -> kept ob (f ob)) -> keeps n0 h (hupd t f h).
Proof.
  intros n0 h t f Hf. split; [rewrite length_hupd; lia|].
  intros o ob Ho H. rewrite hget_hupd, H. destruct (Nat.eqb_spec o t) as [->|_].
  - exists (f ob). split; [reflexivity|exact (Hf ob Ho H)].
  - exists ob. split; [reflexivity|apply kept_refl].
Qed.

Lemma keeps_alloc : forall n0 h x, keeps n0 h (h ++ [x]).
Proof.
  intros n0 h x. split; [rewrite app_length; cbn; lia|].
  intros o ob _ H. exists ob. split; [apply hget_app; exact H|apply kept_refl].
Qed.

Lemma follow_nil : forall h o t, follow h o [] = Some t -> t = o.
Proof. intros h o t H. cbn in H. destruct (hget o h); congruence. Qed.

Lemma site_clean_depth : forall si, site_clean si = true -> s_depth si = 0.
Proof. intros si H. unfold site_clean in H. destruct (s_root si); try discriminate; apply Nat.eqb_eq; exact H. Qed.

Lemma clean_write_kept : forall si s base ob k v,
  site_clean si = true -> root_ok (s_root si) s base ob k = true -> base < mark s -> kept ob (wr k v ob).
Proof.
  intros si s base ob k v Hcl Hok Hold. unfold site_clean in Hcl.
  destruct (s_root si); try discriminate; cbn in Hok.
  - (* FRESH *) apply Nat.leb_le in Hok. lia.
  - (* OWN *) apply region_eqb_eq in Hok. apply kept_wr_lib; congruence.
  - (* CLASSLEVEL *) apply region_eqb_eq in Hok. apply kept_wr_lib; congruence.
  - (* REFSLOT *) apply andb_true_iff in Hok. destruct Hok as [Hw Hk]. apply String.eqb_eq in Hk. subst k.
    apply orb_true_iff in Hw. destruct Hw as [Hn | Hy].
    + apply region_eqb_eq in Hn. apply kept_wr_ref_to. exact Hn.
    + apply Nat.leb_le in Hy. lia.
Qed.

Lemma exec_act_keeps : forall T n0 s a s',
  n0 <= mark s -> act_clean T a = true -> exec_act T s a = Some s' ->
  keeps n0 (hp s) (hp s') /\ mark s' = mark s.
Proof.
  intros T n0 s a s' Hm Hc H. destruct a as [o | k sl | f si base path k v | o r]; cbn in H.
  - destruct (hget o (hp s)); inversion H; subst. split; [apply keeps_refl | auto].
  - inversion H; subst; cbn. split; [apply keeps_alloc | auto].
  - cbn in Hc.
    destruct (existsb (site_eqb si) (sites T f)) eqn:Hex; cbn in H; [|discriminate].
    destruct (Nat.eqb (length path) (s_depth si)) eqn:Hlen; [|discriminate].
    destruct (hget base (hp s)) as [ob|] eqn:Hb; [|discriminate].
    destruct (root_ok (s_root si) s base ob k) eqn:Hok; [|discriminate].
    destruct (follow (hp s) base path) as [tgt|] eqn:Hf; [|discriminate].
    inversion H; subst; cbn. split; [|reflexivity].
    pose proof (performed_site_clean T f si Hc Hex) as Hcl.
    apply Nat.eqb_eq in Hlen. rewrite (site_clean_depth si Hcl) in Hlen.
    destruct path; [|discriminate]. apply follow_nil in Hf. subst tgt.
    apply keeps_hupd. intros ob' Hold Hb'. rewrite Hb in Hb'. injection Hb' as <-.
    apply (clean_write_kept si s base); [exact Hcl|exact Hok|lia].
  - destruct (Nat.leb (mark s) o && releasable r) eqn:E; [|discriminate].
    destruct (hget o (hp s)); [|discriminate]. inversion H; subst; cbn.
    apply andb_true_iff in E. destruct E as [E _]. apply Nat.leb_le in E.
    split; [apply keeps_hupd; intros; lia | auto].
Qed.

Lemma exec_acts_keeps : forall T n0 l s s',
  n0 <= mark s -> forallb (act_clean T) l = true -> exec_acts T s l = Some s' -> keeps n0 (hp s) (hp s').
Proof.
  intros T n0. induction l as [|a r IH]; intros s s' Hm Hc H; cbn in H.
  - inversion H; subst. apply keeps_refl.
  - cbn in Hc. apply andb_true_iff in Hc. destruct Hc as [Ha Hr].
    destruct (exec_act T s a) as [s1|] eqn:E; [|discriminate].
    destruct (exec_act_keeps T n0 s a s1 Hm Ha E) as [K1 M1].
    eapply keeps_trans; [exact K1|]. apply IH; auto. lia.
Qed.

Lemma run_keeps_gen : forall T n0 h s s',
  n0 <= length (hp s) -> forallb (call_clean T) h = true -> run T s h = Some s' -> keeps n0 (hp s) (hp s').
Proof.
  intros T n0. induction h as [|c r IH]; intros s s' Hn Hc H; cbn in H.
  - inversion H; subst. apply keeps_refl.
  - cbn in Hc. apply andb_true_iff in Hc. destruct Hc as [Ha Hr].
    destruct (exec_call T s c) as [s1|] eqn:E; [|discriminate].
    unfold exec_call in E. unfold call_clean in Ha. apply andb_true_iff in Ha. destruct Ha as [_ Ha].
    assert (K1 : keeps n0 (hp s) (hp s1)) by (apply (exec_acts_keeps T n0 _ _ _ (Hn : n0 <= mark (St (hp s) (length (hp s)))) Ha E)).
    eapply keeps_trans; [exact K1|]. apply IH; auto. destruct K1 as [L _]. lia.
Qed.

Theorem run_keeps : forall T h s0 s1,
  forallb (call_clean T) h = true -> run T s0 h = Some s1 -> keeps (length (hp s0)) (hp s0) (hp s1).
Proof. intros. eapply run_keeps_gen; eauto. Qed.

Lemma render_nonref : forall n h h' v, (forall o, v <> VRef o) -> render n h v = render n h' v.
Proof. intros n h h' v H. destruct v; destruct n; try reflexivity; exfalso; eapply H; reflexivity. Qed.

Lemma render_doc_same : forall h h',
  doc_closed h ->
  (forall o ob, hget o h = Some ob -> o_reg ob = RDoc -> hget o h' = Some ob) ->
  forall n o ob, hget o h = Some ob -> o_reg ob = RDoc -> render n h' (VRef o) = render n h (VRef o).
Proof.
  intros h h' Hcl Hsame. induction n as [|n IH]; intros o ob Ho Hd; [reflexivity|].
  cbn. rewrite (Hsame o ob Ho Hd). rewrite Ho. f_equal.
  apply map_ext_in. intros [k v] Hin. cbn. f_equal.
  destruct v as [| b | z | s | o']; try (destruct n; reflexivity).
  destruct (Hcl o ob Ho Hd k o' Hin) as [ob' [Ho' Hd']]. eapply IH; eauto.
Qed.

Lemma pair_eqb_eq : forall a b, pair_eqb a b = true <-> a = b.
Proof.
  intros [a1 a2] [b1 b2]. unfold pair_eqb. cbn. rewrite andb_true_iff, !String.eqb_eq. split.
  - intros [-> ->]. reflexivity.
  - intros H. inversion H. auto.
Qed.

Lemma incl_b_In : forall l1 l2, incl_b l1 l2 = true -> forall x, In x l1 -> In x l2.
Proof.
  intros l1 l2 H x Hin. unfold incl_b in H. rewrite forallb_forall in H. specialize (H x Hin).
  apply existsb_exists in H. destruct H as [y [Hy E]]. apply pair_eqb_eq in E. subst. auto.
Qed.

Lemma same_sites_iff : forall l1 l2, same_sites l1 l2 = true -> forall x, In x l1 <-> In x l2.
Proof.
  intros l1 l2 H x. unfold same_sites in H. apply andb_true_iff in H. destruct H as [H1 H2].
  split; apply incl_b_In; auto.
Qed.

Lemma totals_eqb_eq : forall a b, totals_eqb a b = true -> a = b.
Proof.
  intros [a1 a2 a3 a4 a5] [b1 b2 b3 b4 b5]. unfold totals_eqb. cbn. intros H.
  repeat (apply andb_true_iff in H; destruct H as [H ?]).
  repeat match goal with E : Nat.eqb _ _ = true |- _ => apply Nat.eqb_eq in E end. subst. reflexivity.
Qed.

Lemma doc_closedb_sound : forall h, doc_closedb h = true -> doc_closed h.
Proof.
  intros h H o ob Ho Hd k o' Hin. unfold doc_closedb in H. rewrite forallb_forall in H.
  assert (Hin0 : In ob h) by (eapply nth_error_In; exact Ho).
  specialize (H ob Hin0). rewrite Hd in H. cbn in H.
  unfold refs_inb in H. rewrite forallb_forall in H. specialize (H (k, VRef o') Hin). cbn in H.
  destruct (hget o' h) as [ob'|]; [|discriminate]. exists ob'. split; auto. apply region_eqb_eq; auto.
Qed.
