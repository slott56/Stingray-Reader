(* What csv.reader delivers for the file csv.writer wrote (Model/Csv.v).  The reader is ONE machine over a list of
   events (a character, or None = the EOL that ends a line): [read_records_run].  A written row is followed on ANY events
   that hold its characters with line ends only directly after a CR or LF among them ([strip], [nones_ok]), so where the
   text layer cuts inside a quoted cell does not matter; the text layer is ANY splitter that decides character by
   character, from the character and what follows it, whether a line ends there ([ends], [cut]), and ends a line after
   the row terminator: [run_table].  The library's two text layers, mode r (universal newlines) and newline='', are
   instances: [csv_roundtrip], [csv_roundtrip_raw].  Last: a cell longer than the field size limit, and the reader as the
   library opens the file. *)
From Coq Require Import NArith List Bool Lia Arith.
Import ListNotations.
Require Import SR.Base.Res SR.Model.Csv.
Require SR.Model.Workbook SR.Proofs.WorkbookP.
(* ev, emit, finish, run, line_events occur in theorem statements (Props/) and live in Spec/CsvEvents.v.
   Props/C03b.v writes two of them CsvP.run and CsvP.line_events: the parsing-only abbreviations give those names. *)
Require Export SR.Spec.CsvEvents.
Notation run := SR.Spec.CsvEvents.run (only parsing).
Notation line_events := SR.Spec.CsvEvents.line_events (only parsing).
Open Scope N_scope.

Lemma frev_rev {A} (l : list A) : frev l = rev l.
Proof. unfold frev. rewrite rev_append_rev. apply app_nil_r. Qed.

Lemma run_line d : forall (l : text) r rest,
  run d r (map Some l ++ None :: rest)
  = match feed d r l with
    | Err e => ([], Some e)
    | Ok r' => match r_state r' with
               | START_RECORD => emit (frev (r_fields r')) (run d reset rest)
               | _ => run d r' rest
               end
    end.
Proof.
  induction l as [|c l IH]; intros r rest.
  - cbn [map app run feed]. destruct (process_char d r None) as [r'|e]; reflexivity.
  - cbn [map app run feed]. destruct (process_char d r (Some c)) as [r'|e]; cbn [bind]; [|reflexivity].
    apply IH.
Qed.

Lemma read_records_run d : forall lines r,
  read_records d r lines = run d r (flat_map line_events lines).
Proof.
  induction lines as [|l ls IH]; intros r; [reflexivity|].
  cbn [read_records flat_map]. unfold line_events at 1. rewrite <- app_assoc. cbn [app].
  rewrite run_line. destruct (feed d r l) as [r'|e]; [|reflexivity].
  destruct (r_state r'); try apply IH.
  rewrite IH. unfold emit. destruct (run d reset (flat_map line_events ls)); reflexivity.
Qed.

Lemma delim_ok_inv d : delim_ok d = true ->
  (d =? QUOTE) = false /\ (d =? CR) = false /\ (d =? LF) = false
  /\ (QUOTE =? d) = false /\ (CR =? d) = false /\ (LF =? d) = false.
Proof.
  unfold delim_ok. intros H. apply andb_prop in H as [H H3]. apply andb_prop in H as [H1 H2].
  apply negb_true_iff in H1, H2, H3. rewrite (N.eqb_sym QUOTE), (N.eqb_sym CR), (N.eqb_sym LF). tauto.
Qed.

Lemma special_inv d c : special d c = false ->
  (c =? d) = false /\ (c =? QUOTE) = false /\ (c =? CR) = false /\ (c =? LF) = false.
Proof.
  unfold special. intros H. apply orb_false_elim in H as [H H4]. apply orb_false_elim in H as [H H3].
  apply orb_false_elim in H as [H1 H2]. tauto.
Qed.

Lemma special_not_nl d c : special d c = false -> is_nl c = false.
Proof. intros H. destruct (special_inv d c H) as (_ & _ & H3 & H4). unfold is_nl. rewrite H3, H4. reflexivity. Qed.

Lemma of_nat_succ (k : nat) : N.of_nat (S k) = N.of_nat k + 1.
Proof. lia. Qed.

(* On the way through a file r_len is the length of the field buffer; the steps are stated for such readers. *)
Definition Sf (s : state) (f : text) (fs : list text) : reader := mk_reader s f (N.of_nat (length f)) fs.

Lemma add_char_ok s f fs c : N.of_nat (length f) < field_limit ->
  add_char (Sf s f fs) c = Ok (Sf s (c :: f) fs).
Proof.
  intros H. unfold add_char, Sf. cbn [r_len r_state r_field r_fields length].
  destruct (field_limit <=? _) eqn:E; [apply N.leb_le in E; lia|]. rewrite of_nat_succ. reflexivity.
Qed.

Section Steps.
Variable d : N.
Hypothesis Hd : delim_ok d = true.

Lemma pc_sr_other f fs c : is_nl c = false ->
  process_char d (Sf START_RECORD f fs) (Some c) = process_char d (Sf START_FIELD f fs) (Some c).
Proof. intros H. unfold process_char. cbn [Sf r_state set_state r_field r_len r_fields]. rewrite H. reflexivity. Qed.

Lemma pc_sr_nl f fs c : is_nl c = true ->
  process_char d (Sf START_RECORD f fs) (Some c) = Ok (Sf EAT_CRNL f fs).
Proof. intros H. unfold process_char. cbn [Sf r_state set_state r_field r_len r_fields]. rewrite H. reflexivity. Qed.

Lemma pc_sf_quote f fs :
  process_char d (Sf START_FIELD f fs) (Some QUOTE) = Ok (Sf IN_QUOTED_FIELD f fs).
Proof. reflexivity. Qed.

Lemma pc_sf_plain f fs c : special d c = false -> N.of_nat (length f) < field_limit ->
  process_char d (Sf START_FIELD f fs) (Some c) = Ok (Sf IN_FIELD (c :: f) fs).
Proof.
  intros H Hn. destruct (special_inv d c H) as (H1 & H2 & _).
  unfold process_char. cbn [Sf r_state]. rewrite (special_not_nl d c H), H1, H2.
  change (mk_reader START_FIELD f (N.of_nat (length f)) fs) with (Sf START_FIELD f fs).
  rewrite add_char_ok by exact Hn. reflexivity.
Qed.

Lemma pc_if_plain f fs c : special d c = false -> N.of_nat (length f) < field_limit ->
  process_char d (Sf IN_FIELD f fs) (Some c) = Ok (Sf IN_FIELD (c :: f) fs).
Proof.
  intros H Hn. destruct (special_inv d c H) as (H1 & H2 & _).
  unfold process_char. cbn [Sf r_state]. rewrite (special_not_nl d c H), H1. apply add_char_ok. exact Hn.
Qed.

Lemma pc_iq_quote f fs :
  process_char d (Sf IN_QUOTED_FIELD f fs) (Some QUOTE) = Ok (Sf QUOTE_IN_QUOTED_FIELD f fs).
Proof. reflexivity. Qed.

Lemma pc_iq_char f fs c : (c =? QUOTE) = false -> N.of_nat (length f) < field_limit ->
  process_char d (Sf IN_QUOTED_FIELD f fs) (Some c) = Ok (Sf IN_QUOTED_FIELD (c :: f) fs).
Proof. intros H Hn. unfold process_char. cbn [Sf r_state]. rewrite H. apply add_char_ok. exact Hn. Qed.

Lemma pc_iq_eol f fs :
  process_char d (Sf IN_QUOTED_FIELD f fs) None = Ok (Sf IN_QUOTED_FIELD f fs).
Proof. reflexivity. Qed.

Lemma pc_qq_quote f fs : N.of_nat (length f) < field_limit ->
  process_char d (Sf QUOTE_IN_QUOTED_FIELD f fs) (Some QUOTE) = Ok (Sf IN_QUOTED_FIELD (QUOTE :: f) fs).
Proof.
  intros Hn. unfold process_char. cbn [Sf r_state]. rewrite N.eqb_refl.
  change (mk_reader QUOTE_IN_QUOTED_FIELD f (N.of_nat (length f)) fs) with (Sf QUOTE_IN_QUOTED_FIELD f fs).
  rewrite add_char_ok by exact Hn. reflexivity.
Qed.

(* the states in which a field has just been read *)
Definition after_field (s : state) : Prop := s = START_FIELD \/ s = IN_FIELD \/ s = QUOTE_IN_QUOTED_FIELD.

Lemma pc_delim s f fs : after_field s ->
  process_char d (Sf s f fs) (Some d) = Ok (Sf START_FIELD [] (rev f :: fs)).
Proof.
  destruct (delim_ok_inv d Hd) as (H1 & H2 & H3 & _).
  intros [-> | [-> | ->]]; unfold process_char, is_nl; cbn [Sf r_state];
    rewrite ?H1, ?H2, ?H3, N.eqb_refl, <- (frev_rev f); reflexivity.
Qed.

Lemma pc_nl s f fs c : after_field s -> is_nl c = true ->
  process_char d (Sf s f fs) (Some c) = Ok (Sf EAT_CRNL [] (rev f :: fs)).
Proof.
  intros Hs H. destruct (delim_ok_inv d Hd) as (_ & _ & _ & _ & H5 & H6).
  assert (Hc : (c =? QUOTE) = false /\ (c =? d) = false).
  { unfold is_nl in H. apply orb_prop in H as [H|H]; apply N.eqb_eq in H; subst c; split; (reflexivity || assumption). }
  destruct Hs as [-> | [-> | ->]]; unfold process_char; cbn [Sf r_state];
    rewrite ?(proj1 Hc), ?(proj2 Hc), H, <- (frev_rev f); reflexivity.
Qed.

Lemma pc_eat_nl f fs c : is_nl c = true ->
  process_char d (Sf EAT_CRNL f fs) (Some c) = Ok (Sf EAT_CRNL f fs).
Proof. intros H. unfold process_char. cbn [Sf r_state]. rewrite H. reflexivity. Qed.

Lemma pc_eat_eol f fs :
  process_char d (Sf EAT_CRNL f fs) None = Ok (Sf START_RECORD f fs).
Proof. reflexivity. Qed.

End Steps.

Lemma run_some d r c r' t : process_char d r (Some c) = Ok r' -> run d r (Some c :: t) = run d r' t.
Proof. intros H. cbn [run]. rewrite H. reflexivity. Qed.

Lemma run_none_cont d r r' t : process_char d r None = Ok r' -> r_state r' <> START_RECORD ->
  run d r (None :: t) = run d r' t.
Proof. intros H Hs. cbn [run]. rewrite H. destruct (r_state r'); try reflexivity. congruence. Qed.

Lemma run_none_emit d r r' t : process_char d r None = Ok r' -> r_state r' = START_RECORD ->
  run d r (None :: t) = emit (frev (r_fields r')) (run d reset t).
Proof. intros H Hs. cbn [run]. rewrite H, Hs. reflexivity. Qed.

(* the characters of an event list; line ends only directly after a CR or LF (never two in a row) *)
Definition strip (es : list ev) : text := flat_map (fun e => match e with Some c => [c] | None => [] end) es.

Fixpoint nones_ok (prev_nl : bool) (es : list ev) : bool :=
  match es with
  | [] => true
  | Some c :: t => nones_ok (is_nl c) t
  | None :: t => prev_nl && nones_ok false t
  end.

Lemma strip_nil es : strip es = [] -> nones_ok false es = true -> es = [].
Proof. destruct es as [|[c|] t]; [reflexivity|discriminate|]. intros _ H. discriminate H. Qed.

Lemma strip_cons es x xs : strip es = x :: xs -> nones_ok false es = true ->
  exists es', es = Some x :: es' /\ strip es' = xs /\ nones_ok (is_nl x) es' = true.
Proof.
  destruct es as [|[c|] t]; [discriminate| |intros _ H; discriminate H].
  cbn [strip flat_map app nones_ok]. intros H Hn. injection H as -> H. exists t. auto.
Qed.

Lemma nones_after b es : nones_ok b es = true ->
  nones_ok false es = true \/ (exists es', es = None :: es' /\ nones_ok false es' = true).
Proof.
  destruct es as [|[c|] t]; intros H; [left; reflexivity|left; exact H|].
  right. cbn [nones_ok] in H. apply andb_prop in H as [_ H]. exists t. auto.
Qed.

(* events whose characters are a ++ b, cut where b begins; a line end directly after a stays with a *)
Lemma strip_app : forall es a b p, strip es = a ++ b -> nones_ok p es = true ->
  exists ea eb, es = ea ++ eb /\ strip ea = a /\ nones_ok p ea = true /\ strip eb = b /\ nones_ok false eb = true.
Proof.
  induction es as [|[c|] t IH]; intros a b p Hs Hn.
  - symmetry in Hs. apply app_eq_nil in Hs as [-> ->]. exists [], []. auto.
  - destruct a as [|x a]; [exists [], (Some c :: t); auto|].
    cbn [strip flat_map app] in Hs. injection Hs as -> Hs.
    destruct (IH a b (is_nl x) Hs Hn) as (ea & eb & -> & <- & Hna & Hb & Hnb). exists (Some x :: ea), eb. auto.
  - cbn [nones_ok] in Hn. apply andb_prop in Hn as [Hp Hn].
    destruct (IH a b false Hs Hn) as (ea & eb & -> & Ha & Hna & Hb & Hnb). exists (None :: ea), eb.
    cbn [nones_ok]. rewrite Hp, Hna. auto.
Qed.

Definition no_nl (s : text) : bool := forallb (fun c => negb (is_nl c)) s.

Lemma plain_events : forall s es, no_nl s = true -> strip es = s -> nones_ok false es = true -> es = map Some s.
Proof.
  induction s as [|x xs IH]; intros es Hs He Hn.
  - apply strip_nil; assumption.
  - destruct (strip_cons es x xs He Hn) as (es' & -> & He' & Hn').
    cbn [no_nl forallb] in Hs. apply andb_prop in Hs as [Hx Hxs]. apply negb_true_iff in Hx.
    rewrite Hx in Hn'. cbn [map]. f_equal. apply IH; assumption.
Qed.

Lemma run_infield d : forall cs f fs rest,
  existsb (special d) cs = false -> N.of_nat (length f + length cs) <= field_limit ->
  run d (Sf IN_FIELD f fs) (map Some cs ++ rest) = run d (Sf IN_FIELD (rev cs ++ f) fs) rest.
Proof.
  induction cs as [|c cs IH]; intros f fs rest Hs Hl; [reflexivity|].
  cbn [existsb] in Hs. apply orb_false_elim in Hs as [Hc Hcs]. cbn [length] in Hl.
  cbn [map app]. rewrite (run_some d _ _ _ _ (pc_if_plain d f fs c Hc ltac:(lia))).
  rewrite IH by (assumption || cbn [length]; lia). cbn [rev]. rewrite <- app_assoc. reflexivity.
Qed.

Section Generic.
Variable d : N.
Hypothesis Hd : delim_ok d = true.
(* the row terminator as the reader's text layer presents it *)
Variable term : text.
Hypothesis Hterm : term = [LF] \/ term = [CR; LF].
Lemma is_nl_delim : is_nl d = false.
Proof. destruct (delim_ok_inv d Hd) as (_ & H2 & H3 & _). unfold is_nl. rewrite H2, H3. reflexivity. Qed.

Lemma run_quoted : forall cs es f fs rest,
  strip es = double_quotes cs ++ [QUOTE] -> nones_ok false es = true -> N.of_nat (length f + length cs) <= field_limit ->
  run d (Sf IN_QUOTED_FIELD f fs) (es ++ rest) = run d (Sf QUOTE_IN_QUOTED_FIELD (rev cs ++ f) fs) rest.
Proof.
  induction cs as [|c cs IH]; intros es f fs rest Hs Hn Hl.
  - destruct (strip_cons es _ _ Hs Hn) as (es1 & -> & Hs1 & Hn1). rewrite (strip_nil es1 Hs1 Hn1).
    apply (run_some d _ _ _ _ (pc_iq_quote d f fs)).
  - cbn [double_quotes] in Hs. cbn [length] in Hl. assert (Hlt : N.of_nat (length f) < field_limit) by lia.
    cbn [rev]. rewrite <- app_assoc. cbn [app].
    destruct (c =? QUOTE) eqn:Ec.
    + apply N.eqb_eq in Ec. subst c.
      destruct (strip_cons es _ _ Hs Hn) as (es1 & -> & Hs1 & Hn1).
      change (is_nl QUOTE) with false in Hn1.
      destruct (strip_cons es1 _ _ Hs1 Hn1) as (es2 & -> & Hs2 & Hn2).
      change (is_nl QUOTE) with false in Hn2.
      cbn [app]. rewrite (run_some d _ _ _ _ (pc_iq_quote d f fs)).
      rewrite (run_some d _ _ _ _ (pc_qq_quote d f fs Hlt)).
      apply IH; [exact Hs2|exact Hn2|cbn [length]; lia].
    + destruct (strip_cons es _ _ Hs Hn) as (es1 & -> & Hs1 & Hn1).
      cbn [app]. rewrite (run_some d _ _ _ _ (pc_iq_char d f fs c Ec Hlt)).
      destruct (nones_after _ _ Hn1) as [Hn2|(es2 & -> & Hn2)].
      * apply IH; [exact Hs1|exact Hn2|cbn [length]; lia].
      * cbn [app]. rewrite (run_none_cont d _ _ _ (pc_iq_eol d _ _)) by (cbn [Sf r_state]; discriminate).
        apply IH; [exact Hs1|exact Hn2|cbn [length]; lia].
Qed.

Lemma run_term_after s f fs rest : after_field s ->
  run d (Sf s f fs) (map Some term ++ None :: rest) = emit (rev (rev f :: fs)) (run d reset rest).
Proof.
  intros Hs. destruct Hterm as [Ht|Ht]; rewrite Ht; cbn [map app].
  - rewrite (run_some d _ _ _ _ (pc_nl d Hd s f fs LF Hs eq_refl)).
    rewrite (run_none_emit d _ _ _ (pc_eat_eol d _ _) eq_refl). cbn [Sf r_fields]. rewrite ?frev_rev. reflexivity.
  - rewrite (run_some d _ _ _ _ (pc_nl d Hd s f fs CR Hs eq_refl)).
    rewrite (run_some d _ _ _ _ (pc_eat_nl d _ _ LF eq_refl)).
    rewrite (run_none_emit d _ _ _ (pc_eat_eol d _ _) eq_refl). cbn [Sf r_fields]. rewrite ?frev_rev. reflexivity.
Qed.

Lemma unquoted_no_nl f : needs_quotes d f = false -> no_nl f = true.
Proof.
  unfold needs_quotes, no_nl. induction f as [|c f IH]; [reflexivity|].
  cbn [existsb forallb]. intros H. apply orb_false_elim in H as [Hc Hf].
  rewrite (special_not_nl d c Hc), IH by exact Hf. reflexivity.
Qed.

Lemma run_field f fs es : within_limit f = true -> strip es = write_field d f -> nones_ok false es = true ->
  exists s, after_field s /\ forall cont, run d (Sf START_FIELD [] fs) (es ++ cont) = run d (Sf s (rev f) fs) cont.
Proof.
  intros Hl Hs Hn. unfold within_limit in Hl. apply N.leb_le in Hl.
  unfold write_field in Hs. destruct (needs_quotes d f) eqn:Eq.
  - exists QUOTE_IN_QUOTED_FIELD. split; [right; right; reflexivity|]. intros cont.
    destruct (strip_cons es _ _ Hs Hn) as (e1 & -> & H1 & Hn1). change (is_nl QUOTE) with false in Hn1.
    cbn [app]. rewrite (run_some d _ _ _ _ (pc_sf_quote d [] fs)).
    rewrite (run_quoted f e1 [] fs _ H1 Hn1) by exact Hl. rewrite app_nil_r. reflexivity.
  - rewrite (plain_events f es (unquoted_no_nl f Eq) Hs Hn). destruct f as [|c cs].
    + exists START_FIELD. split; [left; reflexivity|]. reflexivity.
    + exists IN_FIELD. split; [right; left; reflexivity|]. intros cont.
      unfold needs_quotes in Eq. cbn [existsb] in Eq. apply orb_false_elim in Eq as [Hc Hcs].
      cbn [map app]. rewrite (run_some d _ _ _ _ (pc_sf_plain d [] fs c Hc eq_refl)).
      rewrite run_infield by assumption. reflexivity.
Qed.

Lemma join_cons2 (a b : text) (t : list text) : join d (a :: b :: t) = a ++ d :: join d (b :: t).
Proof. reflexivity. Qed.

Definition row_limit (r : list text) : bool := forallb within_limit r.

Lemma run_fields : forall r fs es rest, r <> [] -> row_limit r = true ->
  strip es = join d (map (write_field d) r) -> nones_ok false es = true ->
  run d (Sf START_FIELD [] fs) (es ++ map Some term ++ None :: rest) = emit (rev fs ++ r) (run d reset rest).
Proof.
  induction r as [|f r IH]; intros fs es rest Hne Hl Hs Hn; [congruence|].
  cbn [row_limit forallb] in Hl. apply andb_prop in Hl as [Hf Hr].
  destruct r as [|g t].
  - cbn [map join] in Hs. destruct (run_field f fs es Hf Hs Hn) as (s & Hsf & Hrun).
    rewrite Hrun, run_term_after by exact Hsf. rewrite rev_involutive. reflexivity.
  - cbn [map] in Hs. rewrite join_cons2 in Hs.
    destruct (strip_app es _ _ false Hs Hn) as (ef & em & -> & Hsf & Hnf & Hm & Hnm).
    destruct (run_field f fs ef Hf Hsf Hnf) as (s & Hs' & Hrun).
    destruct (strip_cons em _ _ Hm Hnm) as (em' & -> & Hm' & Hnm'). rewrite is_nl_delim in Hnm'.
    rewrite <- app_assoc, Hrun. cbn [app]. rewrite (run_some d _ _ _ _ (pc_delim d Hd s _ _ Hs')), rev_involutive.
    rewrite (IH _ em' rest ltac:(discriminate) Hr Hm' Hnm'). cbn [rev]. rewrite <- app_assoc. reflexivity.
Qed.

Definition row_body (r : list text) : text :=
  let body := join d (map (write_field d) r) in
  match r, body with
  | _ :: _, [] => [QUOTE; QUOTE]
  | _, _ => body
  end.

Lemma write_row_body r : write_row d r = row_body r ++ [CR; LF].
Proof. unfold write_row, row_body. destruct r; [reflexivity|]. destruct (join d _); reflexivity. Qed.

Lemma body_nil f t : join d (map (write_field d) (f :: t)) = [] -> f = [] /\ t = [].
Proof.
  destruct t as [|g t].
  - cbn [map join]. unfold write_field. destruct (needs_quotes d f); [discriminate|auto].
  - cbn [map]. rewrite join_cons2. intros H. apply app_eq_nil in H as [_ H]. discriminate H.
Qed.

(* a record that has text does not begin with a line break *)
Lemma body_head f t c b : join d (map (write_field d) (f :: t)) = c :: b -> is_nl c = false.
Proof.
  assert (Hw : forall x, write_field d f = c :: x -> is_nl c = false).
  { unfold write_field. destruct (needs_quotes d f) eqn:Eq; intros x Hx.
    - injection Hx as <- _. reflexivity.
    - subst f. unfold needs_quotes in Eq. cbn [existsb] in Eq. apply orb_false_elim in Eq as [Hc _].
      exact (special_not_nl d c Hc). }
  destruct t as [|g t].
  - cbn [map join]. apply Hw.
  - cbn [map]. rewrite join_cons2. destruct (write_field d f) as [|c' w] eqn:Ew; cbn [app]; intros H; injection H as <- _.
    + exact is_nl_delim.
    + apply (Hw w). reflexivity.
Qed.

Lemma run_sr_other f fs c rest : is_nl c = false ->
  run d (Sf START_RECORD f fs) (Some c :: rest) = run d (Sf START_FIELD f fs) (Some c :: rest).
Proof. intros H. cbn [run]. rewrite (pc_sr_other d f fs c H). reflexivity. Qed.

Lemma run_row r es rest : row_limit r = true -> strip es = row_body r -> nones_ok false es = true ->
  run d reset (es ++ map Some term ++ None :: rest) = emit r (run d reset rest).
Proof.
  intros Hl Hs Hn. unfold row_body in Hs. destruct r as [|f t].
  - cbn [map join] in Hs. rewrite (strip_nil es Hs Hn). cbn [app]. change reset with (Sf START_RECORD [] []) at 1.
    destruct Hterm as [Ht|Ht]; rewrite Ht; cbn [map app].
    + rewrite (run_some d _ _ _ _ (pc_sr_nl d [] [] LF eq_refl)).
      rewrite (run_none_emit d _ _ _ (pc_eat_eol d _ _) eq_refl). reflexivity.
    + rewrite (run_some d _ _ _ _ (pc_sr_nl d [] [] CR eq_refl)).
      rewrite (run_some d _ _ _ _ (pc_eat_nl d _ _ LF eq_refl)).
      rewrite (run_none_emit d _ _ _ (pc_eat_eol d _ _) eq_refl). reflexivity.
  - pose proof (run_fields (f :: t) [] es rest ltac:(discriminate) Hl) as H.
    destruct (join d (map (write_field d) (f :: t))) as [|c b] eqn:Eb.
    + destruct (body_nil f t Eb) as [-> ->].
      rewrite (plain_events [QUOTE; QUOTE] es eq_refl Hs Hn). cbn [map app]. change reset with (Sf START_RECORD [] []) at 1.
      rewrite run_sr_other by reflexivity.
      rewrite (run_some d _ _ _ _ (pc_sf_quote d [] [])).
      rewrite (run_some d _ _ _ _ (pc_iq_quote d [] [])).
      rewrite run_term_after by (right; right; reflexivity). reflexivity.
    + specialize (H Hs Hn). destruct (strip_cons es c b Hs Hn) as (es' & -> & _ & _).
      cbn [app] in H |- *. change reset with (Sf START_RECORD [] []) at 1.
      rewrite run_sr_other by exact (body_head f t c b Eb). exact H.
Qed.

(* the text layer cuts a file into lines character by character.
   [ends c t]: a line ends after c when t follows; [cut cur s]: the lines of s after the line begun, [cur] (reversed) *)
Variable ends : N -> text -> bool.
Variable cut : text -> text -> list text.
Hypothesis cut_nil : cut [] [] = [].
Hypothesis cut_step : forall cur c t,
  cut cur (c :: t) = if ends c t then frev (c :: cur) :: cut [] t else cut (c :: cur) t.
Hypothesis ends_nl : forall c t, ends c t = true -> is_nl c = true.
Hypothesis cut_term : forall cur rest, cut cur (term ++ rest) = frev (rev term ++ cur) :: cut [] rest.

(* the events of s when x follows; no EOL for an unterminated last line *)
Fixpoint evl (s x : text) : list ev :=
  match s with
  | [] => []
  | c :: t => Some c :: if ends c (t ++ x) then None :: evl t x else evl t x
  end.

Lemma evl_strip s x : strip (evl s x) = s.
Proof.
  induction s as [|c t IH]; [reflexivity|]. cbn [evl]. destruct (ends c (t ++ x)); cbn [strip flat_map app]; f_equal; exact IH.
Qed.

Lemma evl_nones s x : forall b, nones_ok b (evl s x) = true.
Proof.
  induction s as [|c t IH]; intros b; [reflexivity|]. cbn [evl nones_ok]. destruct (ends c (t ++ x)) eqn:E; [|apply IH].
  cbn [nones_ok]. rewrite (ends_nl c _ E), IH. reflexivity.
Qed.

(* the events of the lines, as far as the first row terminator that ends a line *)
Lemma cut_row : forall a cur rest,
  flat_map line_events (cut cur (a ++ term ++ rest))
  = map Some (rev cur) ++ evl a (term ++ rest) ++ map Some term ++ None :: flat_map line_events (cut [] rest).
Proof.
  induction a as [|c a IH]; intros cur rest.
  - cbn [app evl]. rewrite cut_term. cbn [flat_map]. rewrite frev_rev, rev_app_distr, rev_involutive.
    unfold line_events. rewrite !map_app, <- !app_assoc. reflexivity.
  - cbn [app evl]. rewrite cut_step. destruct (ends c (a ++ term ++ rest)).
    + cbn [flat_map]. rewrite (IH []), frev_rev. unfold line_events. cbn [rev map app].
      rewrite map_app, <- !app_assoc. reflexivity.
    + rewrite (IH (c :: cur)). cbn [rev app]. rewrite map_app, <- !app_assoc. reflexivity.
Qed.

Definition table_limit (T : list (list text)) : bool := forallb row_limit T.

Lemma run_table : forall T, table_limit T = true ->
  run d reset (flat_map line_events (cut [] (concat (map (fun r => row_body r ++ term) T)))) = (T, None).
Proof.
  induction T as [|r T IH]; intros Hl; [cbn [map concat]; rewrite cut_nil; reflexivity|].
  cbn [table_limit forallb] in Hl. apply andb_prop in Hl as [Hr HT].
  cbn [map concat]. rewrite <- app_assoc, cut_row. cbn [rev map app].
  rewrite (run_row r _ _ Hr (evl_strip _ _) (evl_nones _ _ false)), IH by exact HT. reflexivity.
Qed.

End Generic.

(* The characters of a written file.  Beside the characters of the cells the writer puts in the delimiter and the quote character (inside a row) and the row
   terminator: a property of characters that holds of the cells and of these holds of the file. *)
Section Chars.
Variable P : N -> bool.
Variable d : N.
Hypothesis Pd : P d = true.
Hypothesis Pq : P QUOTE = true.

Lemma all_double_quotes f : forallb P f = true -> forallb P (double_quotes f) = true.
Proof.
  induction f as [|c f IH]; [reflexivity|]. cbn [forallb double_quotes]. intros H. apply andb_prop in H as [Hc Hf].
  destruct (c =? QUOTE); cbn [forallb]; rewrite ?Pq, ?Hc, IH by exact Hf; reflexivity.
Qed.

Lemma all_write_field f : forallb P f = true -> forallb P (write_field d f) = true.
Proof.
  intros H. unfold write_field. destruct (needs_quotes d f); [|exact H].
  cbn [forallb]. rewrite Pq, forallb_app, all_double_quotes by exact H. cbn [forallb]. rewrite Pq. reflexivity.
Qed.

Lemma all_join : forall fs, forallb (forallb P) fs = true -> forallb P (join d fs) = true.
Proof.
  induction fs as [|f fs IH]; [reflexivity|]. cbn [forallb]. intros H. apply andb_prop in H as [Hf Hfs].
  destruct fs as [|g t]; [exact Hf|]. rewrite join_cons2, forallb_app, Hf. cbn [forallb andb].
  rewrite Pd. apply IH. exact Hfs.
Qed.

Lemma all_row_body r : forallb (forallb P) r = true -> forallb P (row_body d r) = true.
Proof.
  intros H. assert (Hj : forallb P (join d (map (write_field d) r)) = true).
  { apply all_join. rewrite forallb_forall in *. intros x Hx. apply in_map_iff in Hx as (f & <- & Hf).
    apply all_write_field, H, Hf. }
  unfold row_body. destruct r; [reflexivity|]. destruct (join d _); [cbn [forallb]; rewrite Pq; reflexivity|exact Hj].
Qed.

Hypothesis Pcr : P CR = true.
Hypothesis Plf : P LF = true.

Lemma all_csv_write T : forallb (forallb (forallb P)) T = true -> forallb P (csv_write d T) = true.
Proof.
  unfold csv_write. induction T as [|r T IH]; [reflexivity|]. cbn [forallb map concat]. intros H.
  apply andb_prop in H as [Hr HT]. rewrite forallb_app, write_row_body, forallb_app, all_row_body, IH by assumption.
  cbn [forallb]. rewrite Pcr, Plf. reflexivity.
Qed.
End Chars.

Lemma row_limit_of (r : list text) : forallb cell_ok r = true -> row_limit r = true.
Proof. apply WorkbookP.forallb_imp. intros c H. apply andb_prop in H. apply H. Qed.

Lemma table_limit_of (T : list (list text)) : table_ok T = true -> table_limit T = true.
Proof. apply WorkbookP.forallb_imp, row_limit_of. Qed.

Lemma csv_write_rows d T : csv_write d T = concat (map (fun r => row_body d r ++ [CR; LF]) T).
Proof. unfold csv_write. f_equal. apply map_ext. intros r. apply write_row_body. Qed.

Lemma lf_is_nl c (t : text) : (c =? LF) = true -> is_nl c = true.
Proof. unfold is_nl. intros ->. reflexivity. Qed.

(* CR LF arrives as LF *)
Lemma universal_row : forall a b, no_cr a = true ->
  Workbook.universal_newlines (a ++ CR :: LF :: b) = a ++ LF :: Workbook.universal_newlines b.
Proof.
  induction a as [|c a IH]; intros b H; [reflexivity|].
  cbn [no_cr forallb] in H. apply andb_prop in H as [Hc Ha]. apply negb_true_iff in Hc.
  cbn [app Workbook.universal_newlines]. change 13 with CR. rewrite Hc. f_equal. apply IH. exact Ha.
Qed.

Lemma universal_written d : delim_ok d = true -> forall T, forallb (forallb no_cr) T = true ->
  Workbook.universal_newlines (csv_write d T) = concat (map (fun x => x ++ [LF]) (map (row_body d) T)).
Proof.
  intros Hd T. rewrite csv_write_rows. induction T as [|r T IH]; [reflexivity|].
  cbn [forallb]. intros H. apply andb_prop in H as [Hr HT].
  cbn [map concat]. rewrite <- !app_assoc. cbn [app].
  rewrite universal_row; [rewrite (IH HT); reflexivity|].
  destruct (delim_ok_inv d Hd) as (_ & H2 & _).
  apply (all_row_body (fun x => negb (x =? CR)) d); [rewrite H2; reflexivity|reflexivity|exact Hr].
Qed.

Lemma table_no_cr T : table_ok T = true -> forallb (forallb no_cr) T = true.
Proof. apply WorkbookP.forallb_imp. intros r. apply WorkbookP.forallb_imp. intros c H. apply andb_prop in H. apply H. Qed.

Lemma csv_reader_written d T : delim_ok d = true -> table_ok T = true ->
  csv_reader d (csv_write d T) = (T, None).
Proof.
  intros Hd HT. unfold csv_reader, text_lines.
  rewrite read_records_run, (universal_written d Hd T (table_no_cr T HT)), map_map.
  apply (run_table d Hd [LF] (or_introl eq_refl) (fun c _ => c =? LF) lines_from); try reflexivity.
  - exact lf_is_nl.
  - apply table_limit_of. exact HT.
Qed.

(* csv.reader over the file opened in mode r gives back exactly the rows csv.writer was given *)
Lemma csv_roundtrip d T : delim_ok d = true -> table_ok T = true -> csv_read d (csv_write d T) = Ok T.
Proof. intros Hd HT. unfold csv_read. rewrite csv_reader_written by assumption. reflexivity. Qed.

(* newline='', nothing translated: a line ends after LF, and after a CR that no LF follows *)
Definition line_end (c : N) (t : text) : bool :=
  (c =? LF) || ((c =? CR) && negb match t with c2 :: _ => c2 =? LF | [] => false end).

Lemma line_end_nl c t : line_end c t = true -> is_nl c = true.
Proof. unfold line_end, is_nl. destruct (c =? LF); [reflexivity|]. destruct (c =? CR); [reflexivity|discriminate]. Qed.

(* the CR of a CR LF stays on the line begun, and the LF ends it *)
Lemma raw_lines_step cur c t :
  raw_lines_from cur (c :: t) = if line_end c t then frev (c :: cur) :: raw_lines_from [] t else raw_lines_from (c :: cur) t.
Proof.
  cbn [raw_lines_from]. unfold line_end. destruct (c =? LF); [reflexivity|]. destruct (c =? CR); [|reflexivity].
  destruct t as [|c2 t2]; [reflexivity|]. destruct (c2 =? LF) eqn:E; [|reflexivity].
  cbn [raw_lines_from]. rewrite E. reflexivity.
Qed.

Lemma csv_reader_raw_written d T : delim_ok d = true -> table_ok_raw T = true ->
  csv_reader_raw d (csv_write d T) = (T, None).
Proof.
  intros Hd HT. unfold csv_reader_raw, raw_lines.
  rewrite read_records_run, csv_write_rows.
  apply (run_table d Hd [CR; LF] (or_intror eq_refl) line_end raw_lines_from); try reflexivity.
  - exact raw_lines_step.
  - exact line_end_nl.
  - exact HT.
Qed.

(* with newline='' every cell comes back, carriage returns included *)
Lemma csv_roundtrip_raw d T : delim_ok d = true -> table_ok_raw T = true -> csv_read_raw d (csv_write d T) = Ok T.
Proof. intros Hd HT. unfold csv_read_raw. rewrite csv_reader_raw_written by assumption. reflexivity. Qed.

(* the text layer of Model/Csv.v is Model/Workbook.v's *)
Lemma lines_from_same : forall s cur, lines_from cur s = Workbook.lines_from cur s.
Proof.
  induction s as [|c s IH]; intros cur.
  - cbn [lines_from Workbook.lines_from]. destruct cur; [reflexivity|]. rewrite frev_rev. reflexivity.
  - cbn [lines_from Workbook.lines_from]. change 10 with LF. destruct (c =? LF); [rewrite frev_rev, IH; reflexivity|apply IH].
Qed.

Lemma text_lines_same s : text_lines s = Workbook.text_lines s.
Proof. apply lines_from_same. Qed.

Lemma plain_no_cr d s : existsb (special d) s = false -> no_cr s = true.
Proof.
  induction s as [|c s IH]; [reflexivity|]. cbn [existsb]. intros H. apply orb_false_elim in H as [Hc Hs].
  destruct (special_inv d c Hc) as (_ & _ & H3 & _). cbn [no_cr forallb]. rewrite H3. exact (IH Hs).
Qed.

Lemma run_infield_over d : forall cs f fs rest,
  existsb (special d) cs = false -> N.of_nat (length f) <= field_limit -> field_limit < N.of_nat (length f + length cs) ->
  run d (Sf IN_FIELD f fs) (map Some cs ++ rest) = ([], Some OtherError).
Proof.
  induction cs as [|c cs IH]; intros f fs rest Hs Hn Hl; [cbn [length] in Hl; lia|].
  cbn [existsb] in Hs. apply orb_false_elim in Hs as [Hc Hcs]. cbn [length] in Hl.
  cbn [map app]. destruct (N.eq_dec (N.of_nat (length f)) field_limit) as [E|Hne].
  - cbn [run]. unfold process_char. cbn [Sf r_state]. rewrite (special_not_nl d c Hc).
    destruct (special_inv d c Hc) as (-> & _). unfold add_char. cbn [Sf r_len]. rewrite E, N.leb_refl. reflexivity.
  - rewrite (run_some d _ _ _ _ (pc_if_plain d f fs c Hc ltac:(lia))). apply IH; [exact Hcs|cbn [length]; lia..].
Qed.

(* an unquoted cell one character longer than the limit (or more): the reader raises csv.Error *)
Lemma csv_over_limit d cs : delim_ok d = true -> existsb (special d) cs = false ->
  field_limit < N.of_nat (length cs) -> csv_read d (csv_write d [[cs]]) = Err OtherError.
Proof.
  intros Hd Hp Hlen. destruct cs as [|c cs]; [cbn [length N.of_nat] in Hlen; lia|].
  pose proof (unquoted_no_nl d _ Hp) as Hnonl. pose proof (plain_no_cr d _ Hp) as Hnocr.
  assert (Hw : write_row d [c :: cs] = (c :: cs) ++ CR :: LF :: []).
  { unfold write_row. cbn [map join]. unfold write_field, needs_quotes. rewrite Hp. reflexivity. }
  cbn [existsb] in Hp. apply orb_false_elim in Hp as [Hc Hcs].
  unfold csv_read, csv_reader, text_lines, csv_write. cbn [map concat]. rewrite app_nil_r, Hw.
  rewrite universal_row by exact Hnocr. cbn [Workbook.universal_newlines].
  rewrite read_records_run.
  rewrite (cut_row [LF] (fun c _ => c =? LF) lines_from (fun _ _ _ => eq_refl) (fun _ _ => eq_refl) (c :: cs) [] []
           : flat_map line_events (lines_from [] ((c :: cs) ++ [LF])) = _).
  rewrite (plain_events _ _ Hnonl (evl_strip _ _ _) (evl_nones _ lf_is_nl _ _ false)). cbn [rev map app]. change reset with (Sf START_RECORD [] []).
  rewrite run_sr_other by exact (special_not_nl d c Hc).
  rewrite (run_some d _ _ _ _ (pc_sf_plain d [] [] c Hc eq_refl)), run_infield_over; [reflexivity|exact Hcs|discriminate|exact Hlen].
Qed.

(* Gen/CsvOpenParams.csv_newline_raw is read from CSVUnpacker.open on every run.  The two lemmas below need it to be
   true (the file is opened with newline=''): with the text-mode open of the tree before commit aa3b8fc the parameter
   is false, [change] fails and this file does not compile - a cell with a carriage return is then not read back
   (Props/C03.v C03_csv_text_mode_refuted). *)
Lemma lib_reader_written d T : delim_ok d = true -> table_ok_raw T = true ->
  lib_reader d (csv_write d T) = (T, None).
Proof.
  intros Hd HT. unfold lib_reader. change SR.Gen.CsvOpenParams.csv_newline_raw with true. cbn iota.
  apply csv_reader_raw_written; assumption.
Qed.

Lemma lib_roundtrip d T : delim_ok d = true -> table_ok_raw T = true -> lib_read d (csv_write d T) = Ok T.
Proof. intros Hd HT. unfold lib_read. rewrite lib_reader_written by assumption. reflexivity. Qed.

(* a text without carriage return is cut into the same lines by both text layers *)
Lemma raw_lines_no_cr : forall s cur, no_cr s = true -> raw_lines_from cur s = lines_from cur s.
Proof.
  induction s as [|c s IH]; intros cur H; [reflexivity|].
  cbn [no_cr forallb] in H. apply andb_prop in H as [Hc Hs]. apply negb_true_iff in Hc.
  cbn [raw_lines_from lines_from]. rewrite Hc. destruct (c =? LF); rewrite IH by exact Hs; reflexivity.
Qed.

Lemma raw_lines_text_lines s : no_cr s = true -> raw_lines s = Workbook.text_lines s.
Proof.
  intros H. rewrite <- text_lines_same. unfold raw_lines, text_lines.
  rewrite SR.Proofs.WorkbookP.universal_newlines_id by exact H. apply raw_lines_no_cr. exact H.
Qed.
