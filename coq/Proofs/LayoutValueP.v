(* Lemmas for C10 (value level of NDNav navigation).  Three invariants of navigators carry the results; each is
   established by a walk (walkv_ind: induction over successful walks) and therefore kept by name and by index:
     inv        the parts of the location tree lie end to end, and a table remembers the walk of its first occurrence;
     J          in a cobol_like schema a name has one location, and every $ref placeholder resolves to a location
                inside the object that holds it;
     ofree_nav  no table has OCCURS DEPENDING ON in its items, so an occurrence is the first occurrence moved.
   The results: commute_name, commute_index_J (value() commutes with name() and index()), lazy_value, atom_value,
   foot_inside_J; walkv_erase relates this navigator to C01's; J_cobol gives J and ofree_nav for what cobol_parser
   emits.  For schemas without $ref (simple_loc) the invariant J is not needed: commute_index_simple,
   foot_inside_simple. *)
From Coq Require Import List ZArith Bool Lia.
Import ListNotations.
Require Import SR.Base.Res SR.Spec.Layout SR.Model.Layout SR.Model.LayoutValue SR.Spec.Coherence.
(* key_eqb; Location.__init__ and NDNav of C01's model under the rules read from the source (Gen/LayoutParams.v):
   loc_size_plus, walk_*, nav_*_unf; it loads Proofs/ListFactsP.v (NoDup of an append, skipn of a sum) *)
Require SR.Proofs.LayoutP.
Open Scope nat_scope.

(* Model/LayoutValue.v evaluates the rules harness/t1_layout.py read in schema_instance.py; these equations give NDNav
   under those rules in the form the proofs below use and are proved by computation from the generated parameters. *)
Lemma vnav_of_unf {B} (dcount : list B -> nat) r s :
  vnav_of dcount r s = match walkv dcount r s 0 [] with Ok (l, an) => Ok (mkvnav l an) | Err e => Err e end.
Proof. reflexivity. Qed.
Lemma vnav_name_unf v k :
  vnav_name v k =
  match vn_loc v with
  | WObj _ _ ps =>
      match wfind k ps with
      | None => Err KeyError
      | Some (WRef _ t) => match wlookup t (vn_an v) with Some l => Ok (mkvnav l (vn_an v)) | None => Err KeyError end
      | Some l => Ok (mkvnav l (vn_an v))
      end
  | _ => Err TypeError
  end.
Proof. reflexivity. Qed.
Lemma vnav_index_unf {B} (dcount : list B -> nat) r v i :
  vnav_index dcount r v i =
  match vn_loc v with
  | WArr st _ isz cnt _ sch =>
      if cnt <=? i then Err IndexError
      else match walkv dcount r sch (st + isz * i) [] with
           | Ok (l, an) => Ok (mkvnav l an)
           | Err e => Err e
           end
  | _ => Err TypeError
  end.
Proof. reflexivity. Qed.
Lemma index_start_z_unf v z :
  index_start_z v z =
  match vn_loc v with
  | WArr st _ isz cnt _ _ =>
      if ((z <? 0) || (Z.of_nat cnt <=? z))%Z then Err IndexError else Ok (Z.of_nat st + Z.of_nat isz * z)%Z
  | _ => Err TypeError
  end.
Proof. reflexivity. Qed.
(* the same with the tests of the source before fix 08e8809: no test against 0 *)
Lemma index_start_old_unf v z :
  index_start_with None (Some LayoutRule.CmpGe) v z =
  match vn_loc v with
  | WArr st _ isz cnt _ _ =>
      if (Z.of_nat cnt <=? z)%Z then Err IndexError else Ok (Z.of_nat st + Z.of_nat isz * z)%Z
  | _ => Err TypeError
  end.
Proof. reflexivity. Qed.
Lemma vnav_raw_unf {B} (r : list B) v : vnav_raw r v = slice r (wstart (vn_loc v)) (wend (vn_loc v)).
Proof. reflexivity. Qed.
Lemma wsize_ref s k : wsize (WRef s k) = 0.
Proof. reflexivity. Qed.
(* NDNav.value is location.value(instance) with the default offset, 0 *)
Lemma vnav_value_unf {B A} (r : list B) (dec : option key -> list B -> res A) v :
  vnav_value r dec v = wvalue r dec (length (vn_an v)) (vn_an v) (vn_loc v) 0.
Proof. reflexivity. Qed.
Lemma vnav_foot_unf v : vnav_foot v = wfoot (length (vn_an v)) (vn_an v) (vn_loc v) 0.
Proof. reflexivity. Qed.

Lemma foot_inside_iff v :
  foot_inside v = true <->
  forall a b, In (a, b) (vnav_foot v) -> wstart (vn_loc v) <= a /\ b <= wend (vn_loc v).
Proof.
  unfold foot_inside. rewrite forallb_forall. split.
  - intros H a b Hab. apply H in Hab. cbn [fst snd] in Hab. apply andb_prop in Hab. destruct Hab as [H1 H2].
    split; now apply Nat.leb_le.
  - intros H [a b] Hab. cbn [fst snd]. destruct (H a b Hab) as [H1 H2]. apply andb_true_intro. split; now apply Nat.leb_le.
Qed.

Lemma vnav_name_ok : forall v k v', vnav_name v k = Ok v' ->
  exists st sz ps c, vn_loc v = WObj st sz ps /\ wfind k ps = Some c /\ vn_an v' = vn_an v /\
    match c with
    | WRef _ t => wlookup t (vn_an v) = Some (vn_loc v')
    | _ => vn_loc v' = c
    end.
Proof.
  intros v k v' E. rewrite vnav_name_unf in E. destruct (vn_loc v) as [| |st sz ps| |]; try discriminate.
  exists st, sz, ps. destruct (wfind k ps) as [c|]; [|discriminate]. exists c. split; [reflexivity|]. split; [reflexivity|].
  destruct c as [| | | |st' t]; try (injection E as <-; now split).
  destruct (wlookup t (vn_an v)) as [l|]; [|discriminate]. injection E as <-. now split.
Qed.

Lemma vnav_index_ok {B} (dcount : list B -> nat) r : forall v i v', vnav_index dcount r v i = Ok v' ->
  exists st sz isz cnt it sch, vn_loc v = WArr st sz isz cnt it sch /\ i < cnt /\
    walkv dcount r sch (st + isz * i) [] = Ok (vn_loc v', vn_an v').
Proof.
  intros v i v' E. rewrite vnav_index_unf in E. destruct (vn_loc v) as [|st sz isz cnt it sch| | |]; try discriminate.
  exists st, sz, isz, cnt, it, sch. split; [reflexivity|].
  destruct (cnt <=? i) eqn:Ec; [discriminate|]. apply Nat.leb_gt in Ec. split; [exact Ec|].
  destruct (walkv dcount r sch (st + isz * i) []) as [[l an]|e]; [|discriminate]. now injection E as <-.
Qed.

Lemma vnav_of_ok {B} (dcount : list B -> nat) r : forall s v, vnav_of dcount r s = Ok v ->
  walkv dcount r s 0 [] = Ok (vn_loc v, vn_an v).
Proof.
  intros s v E. rewrite vnav_of_unf in E. destruct (walkv dcount r s 0 []) as [[l an]|e]; [|discriminate]. now injection E as <-.
Qed.

Lemma vnav_path_inv {B} (dcount : list B -> nat) r (I : vnav -> Prop) :
  (forall v k v', I v -> vnav_name v k = Ok v' -> I v') ->
  (forall v i v', I v -> vnav_index dcount r v i = Ok v' -> I v') ->
  forall p v v', I v -> vnav_path dcount r v p = Ok v' -> I v'.
Proof.
  intros Hn Hi. induction p as [|s p IH]; intros v v' Hv E; cbn [vnav_path] in E; [now injection E as <-|].
  destruct (vnav_step dcount r v s) as [v1|e] eqn:Es; [|discriminate]. apply (IH v1); [|exact E].
  destruct s as [k|i]; [exact (Hn _ _ _ Hv Es)|exact (Hi _ _ _ Hv Es)].
Qed.

Lemma vnav_path_app {B} (dcount : list B -> nat) (r : list B) : forall a b v,
  vnav_path dcount r v (a ++ b) = match vnav_path dcount r v a with Ok v1 => vnav_path dcount r v1 b | Err ex => Err ex end.
Proof.
  induction a as [|s a IH]; intros b v; [reflexivity|]. cbn [app vnav_path].
  destruct (vnav_step dcount r v s); [apply IH|reflexivity].
Qed.

Lemma slice_slice : forall {T} (l : list T) s e a b,
  s <= a -> b <= e -> slice (slice l s e) (a - s) (b - s) = slice l a b.
Proof.
  intros T l s e a b Hs He. unfold slice.
  rewrite skipn_firstn_comm, <- ListFactsP.skipn_add, firstn_firstn, <- !Nat.sub_add_distr.
  replace (s + (a - s)) with a by lia.
  now rewrite Nat.min_l by lia.
Qed.

Lemma occ_le : forall isz cnt j, j < cnt -> isz * j + isz <= isz * cnt.
Proof. intros isz cnt j H. rewrite <- Nat.mul_succ_r. now apply Nat.mul_le_mono_l. Qed.

Lemma seq_values_ext : forall {T} (f g : nat -> vres T) n i,
  (forall j, i <= j < i + n -> f j = g j) -> seq_values f n i = seq_values g n i.
Proof.
  intros T f g n. induction n as [|n IH]; intros i H; [reflexivity|].
  cbn [seq_values]. rewrite (H i) by lia. rewrite (IH (S i)); [reflexivity|]. intros j Hj. apply H. lia.
Qed.

Lemma seq_values_mono : forall {T} (f g : nat -> vres T) n i x,
  (forall j y, f j = Some y -> g j = Some y) -> seq_values f n i = Some x -> seq_values g n i = Some x.
Proof.
  intros T f g n. induction n as [|n IH]; intros i x H E; [exact E|].
  cbn [seq_values] in *.
  destruct (f i) as [y|] eqn:Ef; [|discriminate]. rewrite (H _ _ Ef).
  destruct y as [y|e]; [|exact E].
  destruct (seq_values f n (S i)) as [ys|] eqn:Es; [|discriminate].
  now rewrite (IH _ _ H Es).
Qed.

Lemma seq_values_nth : forall {T} (f : nat -> vres T) n i xs,
  seq_values f n i = Some (Ok xs) -> forall j, j < n -> exists x, nth_error xs j = Some x /\ f (i + j) = Some (Ok x).
Proof.
  intros T f n. induction n as [|n IH]; intros i xs E j Hj; [inversion Hj|]. cbn [seq_values] in E.
  destruct (f i) as [[y|e]|] eqn:Ef; try discriminate.
  destruct (seq_values f n (S i)) as [[ys|e]|] eqn:Es; try discriminate.
  injection E as <-. destruct j as [|j].
  - exists y. split; [reflexivity|]. now rewrite Nat.add_0_r.
  - destruct (IH _ _ Es j (le_S_n _ _ Hj)) as [x [H1 H2]]. exists x. split; [exact H1|]. now rewrite Nat.add_succ_r.
Qed.

Definition keysof (an : wanchors) : list key := map fst an.

Lemma memk_In : forall k l, memk k l = true <-> In k l.
Proof.
  intros k l. unfold memk. rewrite existsb_exists. split.
  - intros [x [H1 H2]]. apply LayoutP.key_eqb_eq in H2. now subst.
  - intros H. exists k. split; [exact H|apply LayoutP.key_eqb_refl].
Qed.

Lemma nodupk_iff : forall l, nodupk l = true <-> NoDup l.
Proof.
  induction l as [|k t IH]; cbn [nodupk]; [split; [constructor|reflexivity]|].
  rewrite andb_true_iff, negb_true_iff, IH, <- not_true_iff_false, memk_In. split.
  - intros [H1 H2]. now constructor.
  - intros H. inversion H. now split.
Qed.
Lemma nodupk_NoDup : forall l, nodupk l = true -> NoDup l.
Proof. apply nodupk_iff. Qed.
Lemma nodupk_of_NoDup : forall l, NoDup l -> nodupk l = true.
Proof. apply nodupk_iff. Qed.

Lemma keysof_wreg : forall a l an, keysof (wreg a l an) = okey a ++ keysof an.
Proof. intros [k|] l an; reflexivity. Qed.
Lemma keysof_app : forall a b, keysof (a ++ b) = keysof a ++ keysof b.
Proof. intros. apply map_app. Qed.
Lemma in_keysof : forall k l (an : wanchors), In (k, l) an -> In k (keysof an).
Proof. intros k l an H. exact (in_map fst _ _ H). Qed.
Lemma keysof_in : forall k (an : wanchors), In k (keysof an) -> exists l, In (k, l) an.
Proof. intros k an H. apply in_map_iff in H. destruct H as [[k' l] [E H]]. cbn [fst] in E. subst k'. now exists l. Qed.
Lemma wreg_app : forall a l new an, wreg a l (new ++ an) = wreg a l new ++ an.
Proof. intros a l new an. destruct a; reflexivity. Qed.
Lemma incl_wreg : forall a l (an : wanchors), incl an (wreg a l an).
Proof. intros [k|] l an; [apply incl_tl|]; apply incl_refl. Qed.

Lemma wlookup_in_key : forall k an l, wlookup k an = Some l -> In (k, l) an.
Proof.
  intros k an. induction an as [|[k' l'] an IH]; intros l H; [discriminate|]. cbn [wlookup] in H.
  destruct (key_eqb k k') eqn:E.
  - injection H as ->. apply LayoutP.key_eqb_eq in E. subst. now left.
  - right. now apply IH.
Qed.

Definition all_an (P : wloc -> Prop) (an : wanchors) : Prop := forall k l, In (k, l) an -> P l.

Lemma all_an_wreg : forall (P : wloc -> Prop) a l an, P l -> all_an P an -> all_an P (wreg a l an).
Proof.
  intros P a l an Hl Han. destruct a as [k|]; [|exact Han]. intros k' l' [H|H]; [injection H as _ <-; exact Hl|eauto].
Qed.
Lemma all_an_app : forall (P : wloc -> Prop) a b, all_an P a -> all_an P b -> all_an P (a ++ b).
Proof. intros P a b Ha Hb k l H. apply in_app_or in H. destruct H; eauto. Qed.
Lemma all_an_nil : forall P, all_an P [].
Proof. intros P k l []. Qed.

Definition coherent (an : wanchors) : Prop := forall k l1 l2, In (k, l1) an -> In (k, l2) an -> l1 = l2.

Lemma coherent_incl : forall a b, incl a b -> coherent b -> coherent a.
Proof. intros a b Hi Hc k l1 l2 H1 H2. apply (Hc k); auto. Qed.

Lemma wlookup_coherent : forall an k l, coherent an -> In (k, l) an -> wlookup k an = Some l.
Proof.
  induction an as [|[k' x] an IH]; intros k l Hc Hin; [destruct Hin|]. cbn [wlookup].
  destruct (key_eqb k k') eqn:Ek.
  - apply LayoutP.key_eqb_eq in Ek. subst k'. f_equal. apply (Hc k); [now left|exact Hin].
  - destruct Hin as [H|H]; [injection H as -> _; now rewrite LayoutP.key_eqb_refl in Ek|].
    apply IH; [|exact H]. exact (coherent_incl _ _ (incl_tl _ (incl_refl _)) Hc).
Qed.

Lemma coherent_app : forall a b, coherent a -> coherent b ->
  (forall k, In k (keysof a) -> In k (keysof b) -> False) -> coherent (a ++ b).
Proof.
  intros a b Ha Hb Hd k l1 l2 H1 H2. apply in_app_or in H1. apply in_app_or in H2.
  destruct H1 as [H1|H1], H2 as [H2|H2]; [now apply (Ha k)| | |now apply (Hb k)]; exfalso; apply (Hd k); eauto using in_keysof.
Qed.

(* registering a location under a new name, or once more under the name it has *)
Lemma coherent_wreg : forall a l an, coherent an ->
  (forall k, a = Some k -> ~ In k (keysof an) \/ In (k, l) an) -> coherent (wreg a l an).
Proof.
  intros a l an Hc Ha. destruct a as [k|]; [|exact Hc]. specialize (Ha k eq_refl).
  assert (Hl : forall l', In (k, l') an -> l' = l).
  { intros l' H. destruct Ha as [Ha|Ha]; [elim Ha; eauto using in_keysof|now apply (Hc k)]. }
  intros k0 l1 l2 [H1|H1] [H2|H2].
  - congruence.
  - injection H1 as <- <-. symmetry. auto.
  - injection H2 as <- <-. auto.
  - now apply (Hc k0).
Qed.

(* ranked anchors: a registered location only refers to names registered before it *)
Fixpoint rankedF (an : wanchors) : Prop :=
  match an with
  | [] => True
  | (k, l) :: suf => (forall st t, sub_ref l st t -> In t (keysof suf)) /\ rankedF suf
  end.

Lemma rankedF_app : forall a b, rankedF a -> rankedF b -> rankedF (a ++ b).
Proof.
  induction a as [|[k l] a IH]; intros b Ha Hb; [exact Hb|]. cbn [app rankedF] in *. destruct Ha as [H1 H2].
  split; [|auto]. intros st t Hs. rewrite keysof_app. apply in_or_app. left. eauto.
Qed.

Lemma rankedF_wreg : forall a l new, (forall st t, sub_ref l st t -> In t (keysof new)) -> rankedF new -> rankedF (wreg a l new).
Proof. intros [k|] l new H1 H2; [split; assumption|exact H2]. Qed.

Lemma rankedF_closed : forall an k l, rankedF an -> In (k, l) an -> forall st t, sub_ref l st t -> In t (keysof an).
Proof.
  induction an as [|[k0 l0] an IH]; intros k l Hr Hin st t Hs; [destruct Hin|]. destruct Hr as [H1 H2]. right.
  destruct Hin as [E|Hin]; [injection E as _ <-|]; eauto.
Qed.

Definition shift_an (d : nat) (an : wanchors) : wanchors := map (fun p => (fst p, wshift d (snd p))) an.

Lemma wsize_shift : forall d l, wsize (wshift d l) = wsize l.
Proof. intros d l. destruct l; reflexivity. Qed.
Lemma wstart_shift : forall d l, wstart (wshift d l) = wstart l + d.
Proof. intros d l. destruct l; reflexivity. Qed.
Lemma wmax_shift : forall d ls, wmax_size (wshift_alts d ls) = wmax_size ls.
Proof. intros d ls. induction ls as [|l r IH]; [reflexivity|]. cbn [wshift_alts wmax_size]. now rewrite wsize_shift, IH. Qed.
Lemma wreg_shift : forall d a l new an0,
  shift_an d (wreg a l new) ++ an0 = wreg a (wshift d l) (shift_an d new ++ an0).
Proof. intros d a l new an0. destruct a; reflexivity. Qed.
Lemma shift_an_app : forall d a b, shift_an d (a ++ b) = shift_an d a ++ shift_an d b.
Proof. intros. apply map_app. Qed.
Lemma wshift_0 :
  (forall l, wshift 0 l = l) /\ (forall ps, wshift_props 0 ps = ps) /\ (forall ls, wshift_alts 0 ls = ls).
Proof.
  apply wloc_wprops_walts_ind; intros; cbn [wshift wshift_props wshift_alts]; rewrite ?Nat.add_0_r; congruence.
Qed.

Lemma wlookup_shift_an : forall D t an, wlookup t (shift_an D an) = option_map (wshift D) (wlookup t an).
Proof.
  intros D t an. induction an as [|[k l] an IH]; [reflexivity|]. cbn [shift_an map wlookup fst snd].
  destruct (key_eqb t k); [reflexivity|exact IH].
Qed.

Lemma keysof_shift_an : forall D an, keysof (shift_an D an) = keysof an.
Proof. intros D an. unfold keysof, shift_an. rewrite map_map. reflexivity. Qed.

Lemma coherent_shift_an : forall D an, coherent an -> coherent (shift_an D an).
Proof.
  intros D an Hc k l1 l2 H1 H2. unfold shift_an in *. apply in_map_iff in H1. apply in_map_iff in H2.
  destruct H1 as [[k1 x1] [E1 I1]]. destruct H2 as [[k2 x2] [E2 I2]]. cbn [fst snd] in *.
  injection E1 as -> <-. injection E2 as -> <-. f_equal. now apply (Hc k).
Qed.

Definition is_wref (l : wloc) : bool := match l with WRef _ _ => true | _ => false end.
Definition is_jref (s : js) : bool := match s with JRef _ => true | _ => false end.

Section Value.
  Variable B : Type.
  Variable dcount : list B -> nat.
  Variable A : Type.
  Variable dec : option key -> list B -> res A.

  Notation pvA := (pv A).

  Lemma vb_atom : forall r an d a st sz o,
    value_body r dec an d (WAtom a st sz) o =
    match dec a (slice r (st + o) (st + sz + o)) with Ok x => Some (Ok (PAtom x)) | Err e => Some (Err e) end.
  Proof. reflexivity. Qed.
  Lemma vb_arr : forall r an d st sz isz cnt it sch o,
    value_body r dec an d (WArr st sz isz cnt it sch) o =
    match seq_values (fun i => value_body r dec an d it (o + i * isz)) cnt 0 with
    | None => None | Some (Err e) => Some (Err e) | Some (Ok xs) => Some (Ok (PList xs)) end.
  Proof. reflexivity. Qed.
  Lemma vb_obj : forall r an d st sz ps o,
    value_body r dec an d (WObj st sz ps) o =
    match props_body r dec an d ps o with
    | None => None | Some (Err e) => Some (Err e) | Some (Ok dd) => Some (Ok (PDict dd)) end.
  Proof. reflexivity. Qed.
  Lemma vb_one : forall r an d st sz alts o,
    value_body r dec an d (WOne st sz alts) o =
    match alts with WANil => Some (Err ValueError) | WACons first _ => value_body r dec an d first o end.
  Proof. reflexivity. Qed.
  Lemma vb_ref : forall r an d st t o,
    value_body r dec an d (WRef st t) o =
    match wlookup t an with None => Some (Err KeyError) | Some target => d target o end.
  Proof. reflexivity. Qed.
  Lemma pb_nil : forall r an d o, props_body r dec an d WPNil o = Some (Ok []).
  Proof. reflexivity. Qed.
  Lemma pb_cons : forall r an d k l rest o,
    props_body r dec an d (WPCons k l rest) o =
    match value_body r dec an d l o with
    | None => None
    | Some (Err e) => Some (Err e)
    | Some (Ok x) =>
        match props_body r dec an d rest o with
        | None => None | Some (Err e) => Some (Err e) | Some (Ok dd) => Some (Ok ((k, x) :: dd)) end
    end.
  Proof. reflexivity. Qed.
  Lemma wvalue_0 : forall r an, wvalue r dec 0 an = value_body r dec an (fun _ _ => None).
  Proof. reflexivity. Qed.
  Lemma wvalue_S : forall r an f, wvalue r dec (S f) an = value_body r dec an (wvalue r dec f an).
  Proof. reflexivity. Qed.

  (* value() of a oneOf looks at its first alternative only *)
  Definition first_alt (P : wloc -> Prop) (ls : walts) : Prop :=
    match ls with WANil => True | WACons l _ => P l end.

  Lemma body_mono : forall (r : list B) (an : wanchors) (d1 d2 : wloc -> nat -> vres pvA),
    (forall l o x, d1 l o = Some x -> d2 l o = Some x) ->
    (forall l o x, value_body r dec an d1 l o = Some x -> value_body r dec an d2 l o = Some x)
    /\ (forall ps o x, props_body r dec an d1 ps o = Some x -> props_body r dec an d2 ps o = Some x)
    /\ (forall ls, first_alt (fun l => forall o x, value_body r dec an d1 l o = Some x -> value_body r dec an d2 l o = Some x) ls).
  Proof.
    intros r an d1 d2 Hd. apply wloc_wprops_walts_ind.
    - intros a st sz o x E. exact E.
    - intros st sz isz cnt it IH sch o x. rewrite !vb_arr.
      destruct (seq_values (fun i => value_body r dec an d1 it (o + i * isz)) cnt 0) as [y|] eqn:Es; [|discriminate].
      now rewrite (seq_values_mono _ (fun i => value_body r dec an d2 it (o + i * isz)) _ _ _ (fun j => IH (o + j * isz)) Es).
    - intros st sz ps IH o x. rewrite !vb_obj.
      destruct (props_body r dec an d1 ps o) as [y|] eqn:Ep; [|discriminate].
      now rewrite (IH _ _ Ep).
    - intros st sz alts IH o x. rewrite !vb_one. destruct alts as [|first rest]; [auto|]. apply IH.
    - intros st t o x. rewrite !vb_ref. destruct (wlookup t an); [|auto]. apply Hd.
    - intros o x E. exact E.
    - intros k l IHl rest IHr o x. rewrite !pb_cons.
      destruct (value_body r dec an d1 l o) as [y|] eqn:El; [|discriminate]. rewrite (IHl _ _ El).
      destruct y as [y|e]; [|auto].
      destruct (props_body r dec an d1 rest o) as [z|] eqn:Er; [|discriminate].
      now rewrite (IHr _ _ Er).
    - exact I.
    - intros l IHl rest _. exact IHl.
  Qed.

  Lemma wvalue_mono_S : forall r an f l o x,
    wvalue r dec f an l o = Some x -> wvalue r dec (S f) an l o = Some x.
  Proof.
    intros r an f. induction f as [|f IH]; intros l o x E; rewrite wvalue_S.
    - rewrite wvalue_0 in E. revert E. apply body_mono. discriminate.
    - rewrite wvalue_S in E. revert E. apply body_mono. exact IH.
  Qed.

  Lemma wvalue_mono : forall r an f f' l o x,
    f <= f' -> wvalue r dec f an l o = Some x -> wvalue r dec f' an l o = Some x.
  Proof.
    intros r an f f' l o x Hle E. induction Hle as [|m _ IH]; [exact E|]. now apply wvalue_mono_S.
  Qed.

  (* one layer of fuel: references are treated by a function that wvalue itself bounds *)
  Lemma wvalue_step : forall r an f, exists dr,
    wvalue r dec f an = value_body r dec an dr /\ forall l o x, dr l o = Some x -> wvalue r dec f an l o = Some x.
  Proof.
    intros r an [|f].
    - exists (fun _ _ => None). split; [apply wvalue_0|discriminate].
    - exists (wvalue r dec f an). split; [apply wvalue_S|apply wvalue_mono_S].
  Qed.

  Lemma props_body_lookup : forall r an d ps o dd,
    props_body r dec an d ps o = Some (Ok dd) ->
    map fst dd = wkeys ps /\
    forall k l, wfind k ps = Some l -> exists x, value_body r dec an d l o = Some (Ok x) /\ dlookup k dd = Some x.
  Proof.
    intros r an d ps. induction ps as [|k0 l0 rest IH]; intros o dd E.
    - rewrite pb_nil in E. injection E as <-. split; [reflexivity|discriminate].
    - rewrite pb_cons in E.
      destruct (value_body r dec an d l0 o) as [[x0|e]|] eqn:El; try discriminate.
      destruct (props_body r dec an d rest o) as [[dr|e]|] eqn:Er; try discriminate.
      injection E as <-. destruct (IH _ _ Er) as [Hk Hf]. split; [cbn; now rewrite Hk|].
      intros k l. cbn [wfind dlookup]. destruct (key_eqb k k0); [|apply Hf].
      intros H. injection H as <-. exists x0. split; [exact El|reflexivity].
  Qed.

  (* the whole value of an object: one entry per property, in schema order, and the entry of a property is the
     value of the navigator that name() gives for it (the location a $ref placeholder resolves to included) *)
  Lemma name_value : forall (r : list B) (v : vnav) st sz ps (d : list (key * pvA)),
    vn_loc v = WObj st sz ps ->
    vnav_value r dec v = Some (Ok (PDict d)) ->
    map fst d = wkeys ps /\
    forall k c, wfind k ps = Some c ->
      exists v' x, vnav_name v k = Ok v' /\ dlookup k d = Some x /\ vnav_value r dec v' = Some (Ok x).
  Proof.
    intros r [l an] st sz ps d Hl Hv. cbn [vn_loc] in Hl. subst l. rewrite vnav_value_unf in Hv. cbn [vn_loc vn_an] in Hv.
    destruct (wvalue_step r an (length an)) as [dr [Hw Hdr]]. rewrite Hw, vb_obj in Hv.
    destruct (props_body r dec an dr ps 0) as [[dd|e]|] eqn:Ep; try discriminate.
    injection Hv as ->. destruct (props_body_lookup _ _ _ _ _ _ Ep) as [Hk Hf]. split; [exact Hk|].
    intros k c Hc. destruct (Hf k c Hc) as [x [Hx Hd]]. rewrite vnav_name_unf. cbn [vn_loc vn_an]. rewrite Hc.
    destruct c as [a' st' sz'|st' sz' isz' cnt' it' sch'|st' sz' ps'|st' sz' alts'|st' t'];
      try (eexists; exists x; split; [reflexivity|]; split; [exact Hd|]; rewrite vnav_value_unf; cbn [vn_loc vn_an];
           rewrite Hw; exact Hx).
    rewrite vb_ref in Hx. destruct (wlookup t' an) as [target|]; [|discriminate].
    eexists. exists x. split; [reflexivity|]. split; [exact Hd|]. rewrite vnav_value_unf. apply Hdr, Hx.
  Qed.

  Theorem commute_name : forall (r : list B) (v v' : vnav) (k : key) (d : list (key * pvA)),
    vnav_value r dec v = Some (Ok (PDict d)) ->
    vnav_name v k = Ok v' ->
    exists x, dlookup k d = Some x /\ vnav_value r dec v' = Some (Ok x).
  Proof.
    intros r v v' k d Hv Hn. destruct (vnav_name_ok v k v' Hn) as (st & sz & ps & c & Hl & Hf & _).
    destruct (proj2 (name_value r v st sz ps d Hl Hv) k c Hf) as [v'' [x [Hn' H]]].
    rewrite Hn in Hn'. injection Hn' as <-. now exists x.
  Qed.

  Lemma wfind_keys : forall ps k, In k (wkeys ps) -> exists c, wfind k ps = Some c.
  Proof.
    induction ps as [|k0 l0 rest IH]; intros k Hin; [destruct Hin|]. cbn [wfind wkeys] in *.
    destruct (key_eqb k k0) eqn:E; [now exists l0|]. destruct Hin as [->|H]; [|now apply IH].
    now rewrite LayoutP.key_eqb_refl in E.
  Qed.

  (* Row.values: the values of the top-level properties, in schema order *)
  Theorem row_values_whole : forall (r : list B) (v : vnav) st sz ps (d : list (key * pvA)),
    vn_loc v = WObj st sz ps ->
    vnav_value r dec v = Some (Ok (PDict d)) ->
    map fst d = wkeys ps /\
    exists vs, row_values r dec v = Some (Ok vs) /\ Forall2 (fun k x => dlookup k d = Some x) (wkeys ps) vs.
  Proof.
    intros r v st sz ps d Hl Hv. destruct (name_value r v st sz ps d Hl Hv) as [Hk Hf]. split; [exact Hk|].
    unfold row_values. rewrite Hl.
    enough (Hall : forall ks, incl ks (wkeys ps) ->
              exists vs, values_of r dec v ks = Some (Ok vs) /\ Forall2 (fun k x => dlookup k d = Some x) ks vs)
      by apply Hall, incl_refl.
    induction ks as [|k ks IH]; intros Hsub.
    - exists []. split; [reflexivity|constructor].
    - apply incl_cons_inv in Hsub. destruct Hsub as [Hin Hsub]. destruct (wfind_keys _ _ Hin) as [c Hc].
      destruct (Hf k c Hc) as [v' [x [Hn [Hd Hx]]]]. destruct (IH Hsub) as [vs [Hvs HF]].
      exists (x :: vs). split; [|constructor; assumption]. cbn [values_of]. now rewrite Hn, Hx, Hvs.
  Qed.

  Lemma dlookup_in : forall (d : list (key * pvA)) k x, NoDup (map fst d) -> In (k, x) d -> dlookup k d = Some x.
  Proof.
    induction d as [|[k0 x0] d IH]; intros k x Hnd Hin; [destruct Hin|]. inversion Hnd as [|? ? Hk0 Hnd']; subst. cbn [dlookup].
    destruct Hin as [E|Hin]; [injection E as -> ->; now rewrite LayoutP.key_eqb_refl|].
    rewrite LayoutP.key_eqb_neq; [now apply IH|]. intros ->. apply Hk0. exact (in_map fst _ _ Hin).
  Qed.

  Lemma dlookup_nodup : forall (d : list (key * pvA)) vs,
    NoDup (map fst d) -> Forall2 (fun k x => dlookup k d = Some x) (map fst d) vs -> vs = map snd d.
  Proof.
    intros d vs Hnd.
    enough (H : forall d0 vs, (forall k x, In (k, x) d0 -> dlookup k d = Some x) ->
              Forall2 (fun k x => dlookup k d = Some x) (map fst d0) vs -> vs = map snd d0)
      by (apply H; intros; now apply dlookup_in).
    induction d0 as [|[k x] d0 IH]; intros vs0 Hd HF; inversion HF as [|? y ? ys Hy HF']; subst; [reflexivity|].
    cbn [fst] in Hy. rewrite (Hd k x) in Hy by now left. injection Hy as <-.
    cbn [map snd]. f_equal. apply IH; [|exact HF']. intros k' x' H. apply Hd. now right.
  Qed.

  Lemma fb_atom : forall an df a st sz o, foot_body an df (WAtom a st sz) o = [(st + o, st + sz + o)].
  Proof. reflexivity. Qed.
  Lemma fb_arr : forall an df st sz isz cnt it sch o,
    foot_body an df (WArr st sz isz cnt it sch) o = flat_map (fun i => foot_body an df it (o + i * isz)) (seq 0 cnt).
  Proof. reflexivity. Qed.
  Lemma fb_obj : forall an df st sz ps o, foot_body an df (WObj st sz ps) o = foot_props an df ps o.
  Proof. reflexivity. Qed.
  Lemma fb_one : forall an df st sz alts o,
    foot_body an df (WOne st sz alts) o = match alts with WANil => [] | WACons first _ => foot_body an df first o end.
  Proof. reflexivity. Qed.
  Lemma fb_ref : forall an df st t o,
    foot_body an df (WRef st t) o = match wlookup t an with None => [] | Some target => df target o end.
  Proof. reflexivity. Qed.
  Lemma fp_cons : forall an df k l rest o,
    foot_props an df (WPCons k l rest) o = foot_body an df l o ++ foot_props an df rest o.
  Proof. reflexivity. Qed.
  Lemma wfoot_0 : forall an, wfoot 0 an = foot_body an (fun _ _ => []).
  Proof. reflexivity. Qed.
  Lemma wfoot_S : forall an f, wfoot (S f) an = foot_body an (wfoot f an).
  Proof. reflexivity. Qed.

  Definition agree_on (r r' : list B) (fp : list (nat * nat)) : Prop :=
    forall a b, In (a, b) fp -> slice r a b = slice r' a b.

  Lemma agree_on_app : forall r r' fp fp', agree_on r r' (fp ++ fp') -> agree_on r r' fp /\ agree_on r r' fp'.
  Proof. intros r r' fp fp' H. split; intros a b Hab; apply H, in_or_app; auto. Qed.

  Lemma frame_body : forall (r r' : list B) (an : wanchors) (d d' : wloc -> nat -> vres pvA) df,
    (forall l o, agree_on r r' (df l o) -> d l o = d' l o) ->
    (forall l o, agree_on r r' (foot_body an df l o) -> value_body r dec an d l o = value_body r' dec an d' l o)
    /\ (forall ps o, agree_on r r' (foot_props an df ps o) -> props_body r dec an d ps o = props_body r' dec an d' ps o)
    /\ (forall ls, first_alt (fun l => forall o, agree_on r r' (foot_body an df l o) ->
                                        value_body r dec an d l o = value_body r' dec an d' l o) ls).
  Proof.
    intros r r' an d d' df Hd. apply wloc_wprops_walts_ind.
    - intros a st sz o H. rewrite !vb_atom. rewrite (H (st + o) (st + sz + o)); [reflexivity|]. rewrite fb_atom. now left.
    - intros st sz isz cnt it IH sch o H. rewrite !vb_arr.
      rewrite (seq_values_ext _ (fun i => value_body r' dec an d' it (o + i * isz))); [reflexivity|].
      intros j Hj. apply IH. intros a b Hab. apply H. rewrite fb_arr. apply in_flat_map.
      exists j. split; [apply in_seq; lia|exact Hab].
    - intros st sz ps IH o H. rewrite !vb_obj. now rewrite IH.
    - intros st sz alts IH o H. rewrite !vb_one. destruct alts as [|first rest]; [reflexivity|]. now apply IH.
    - intros st t o H. rewrite !vb_ref. rewrite fb_ref in H. destruct (wlookup t an); [|reflexivity]. now apply Hd.
    - intros o _. reflexivity.
    - intros k l IHl rest IHr o H. rewrite !pb_cons. rewrite fp_cons in H. apply agree_on_app in H. destruct H as [H1 H2].
      now rewrite (IHl _ H1), (IHr _ H2).
    - exact I.
    - intros l IHl rest _. exact IHl.
  Qed.

  Lemma frame_wvalue : forall (r r' : list B) an f l o,
    agree_on r r' (wfoot f an l o) -> wvalue r dec f an l o = wvalue r' dec f an l o.
  Proof.
    intros r r' an f. induction f as [|f IH]; intros l o.
    - rewrite !wvalue_0, wfoot_0. now apply frame_body.
    - rewrite !wvalue_S, wfoot_S. now apply frame_body.
  Qed.

  Theorem lazy_value : forall (r r' : list B) (v : vnav),
    foot_inside v = true ->
    vnav_raw r v = vnav_raw r' v ->
    vnav_value r dec v = vnav_value r' dec v.
  Proof.
    intros r r' v Hin Hraw. rewrite !vnav_value_unf. apply frame_wvalue. intros a b Hab.
    destruct (proj1 (foot_inside_iff v) Hin a b Hab) as [H1 H2].
    rewrite <- (slice_slice r _ _ a b H1 H2), <- (slice_slice r' _ _ a b H1 H2).
    rewrite !vnav_raw_unf in Hraw. now rewrite Hraw.
  Qed.

  Theorem atom_value : forall (r : list B) (v : vnav) a st sz,
    vn_loc v = WAtom a st sz ->
    vnav_value r dec v = match dec a (vnav_raw r v) with Ok x => Some (Ok (PAtom x)) | Err e => Some (Err e) end.
  Proof.
    intros r [l an] a st sz Hl. cbn [vn_loc] in Hl. subst l. rewrite vnav_value_unf, vnav_raw_unf. unfold wend. cbn [vn_loc vn_an wstart wsize].
    destruct (wvalue_step r an (length an)) as [dr [-> _]]. rewrite vb_atom. now rewrite !Nat.add_0_r.
  Qed.

  Theorem raw_slice : forall (r : list B) (v v' : vnav),
    wstart (vn_loc v) <= wstart (vn_loc v') -> wend (vn_loc v') <= wend (vn_loc v) ->
    vnav_raw r v' = slice (vnav_raw r v) (wstart (vn_loc v') - wstart (vn_loc v)) (wend (vn_loc v') - wstart (vn_loc v)).
  Proof. intros r v v' H1 H2. rewrite !vnav_raw_unf. symmetry. now apply slice_slice. Qed.

  (* the reference to t resolves, in the moved anchors an', to the moved location, treated by d' as d treats the original *)
  Definition moved (an an' : wanchors) (d d' : wloc -> nat -> vres pvA) (D : nat) (t : key) : Prop :=
    exists lt, wlookup t an = Some lt /\ wlookup t an' = Some (wshift D lt) /\ forall o, d' (wshift D lt) o = d lt (o + D).

  (* moving a location is the same as moving the offset *)
  Lemma shift_body : forall (r : list B) an an' d d' D,
    (forall l, (forall st t, sub_ref l st t -> moved an an' d d' D t) ->
       forall o, value_body r dec an' d' (wshift D l) o = value_body r dec an d l (o + D))
    /\ (forall ps, (forall st t, sub_ref_props ps st t -> moved an an' d d' D t) ->
       forall o, props_body r dec an' d' (wshift_props D ps) o = props_body r dec an d ps (o + D))
    /\ (forall ls, (forall st t, sub_ref_alts ls st t -> moved an an' d d' D t) ->
       first_alt (fun l => forall o, value_body r dec an' d' (wshift D l) o = value_body r dec an d l (o + D)) ls).
  Proof.
    intros r an an' d d' D. apply wloc_wprops_walts_ind.
    - intros a st sz _ o. cbn [wshift]. rewrite !vb_atom.
      replace (st + D + o) with (st + (o + D)) by lia. replace (st + D + sz + o) with (st + sz + (o + D)) by lia. reflexivity.
    - intros st sz isz cnt it IH sch H o. cbn [wshift]. rewrite !vb_arr.
      rewrite (seq_values_ext _ (fun i => value_body r dec an d it (o + D + i * isz))); [reflexivity|].
      intros j _. rewrite IH by exact H. f_equal. lia.
    - intros st sz ps IH H o. cbn [wshift]. rewrite !vb_obj. now rewrite IH.
    - intros st sz alts IH H o. cbn [wshift]. rewrite !vb_one.
      destruct alts as [|first rest]; [reflexivity|]. exact (IH H o).
    - intros st t H o. cbn [wshift]. rewrite !vb_ref.
      destruct (H st t (conj eq_refl eq_refl)) as [lt [H1 [H2 H3]]]. rewrite H1, H2. apply H3.
    - intros _ o. reflexivity.
    - intros k l IHl rest IHr H o. cbn [wshift_props]. rewrite !pb_cons.
      rewrite IHl by (intros st t Hs; apply (H st t); now left).
      rewrite IHr by (intros st t Hs; apply (H st t); now right). reflexivity.
    - intros _. exact I.
    - intros l IHl rest _ H. cbn [first_alt]. apply IHl. intros st t Hs. apply (H st t). now left.
  Qed.

  Lemma body_ext : forall (r : list B) an (d d' : wloc -> nat -> vres pvA) l,
    (forall st t, sub_ref l st t -> exists lt, wlookup t an = Some lt /\ forall o, d' lt o = d lt o) ->
    forall o, value_body r dec an d' l o = value_body r dec an d l o.
  Proof.
    intros r an d d' l H o.
    pose proof (proj1 (shift_body r an an d d' 0) l) as Hs.
    rewrite (proj1 wshift_0) in Hs. rewrite Hs; [now rewrite Nat.add_0_r|].
    intros st t Hr. destruct (H st t Hr) as [lt [H1 H2]]. exists lt. rewrite (proj1 wshift_0).
    repeat split; auto. intros o'. now rewrite Nat.add_0_r.
  Qed.

  (* fuel: with coherent anchors, the value of a location whose references fall among ranked registrations suf
     needs no more fuel than there are of them *)
  Lemma settled : forall (r : list B) an, coherent an -> forall suf, rankedF suf -> incl suf an ->
    forall l, (forall st t, sub_ref l st t -> In t (keysof suf)) ->
    forall f o, length suf <= f -> wvalue r dec f an l o = wvalue r dec (length suf) an l o.
  Proof.
    intros r an Hc. induction suf as [|[k lk] suf IH]; intros Hr Hin l Hl f o Hf.
    - destruct (wvalue_step r an f) as [d1 [-> _]]. destruct (wvalue_step r an 0) as [d2 [-> _]].
      apply body_ext. intros st t Hs. destruct (Hl st t Hs).
    - destruct Hr as [Hk Hr]. destruct f as [|f]; [inversion Hf|]. cbn [length]. rewrite !wvalue_S. apply body_ext.
      intros st t Hs. destruct (keysof_in _ _ (Hl st t Hs)) as [lt Hlt]. exists lt.
      split; [exact (wlookup_coherent an t lt Hc (Hin _ Hlt))|].
      (* the target is lk or was registered before it: its own references fall in suf *)
      intros o'. apply IH; [exact Hr|exact (fun x Hx => Hin x (or_intror Hx))| |now apply le_S_n].
      destruct Hlt as [E|Hlt]; [injection E as _ <-; exact Hk|exact (rankedF_closed suf t lt Hr Hlt)].
  Qed.

  (* the anchors of a re-walked item are those of the first occurrence, moved *)
  Lemma shift_wvalue : forall (r : list B) an new D, coherent an -> incl new an ->
    (forall k lk, In (k, lk) new -> forall st t, sub_ref lk st t -> In t (keysof new)) ->
    forall f l, (forall st t, sub_ref l st t -> In t (keysof new)) ->
    forall o, wvalue r dec f (shift_an D new) (wshift D l) o = wvalue r dec f an l (o + D).
  Proof.
    intros r an new D Hc Hin Hcl.
    assert (Hcn : coherent new) by (eapply coherent_incl; eauto).
    assert (Hlk : forall t, In t (keysof new) ->
              exists lt, In (t, lt) new /\ wlookup t an = Some lt /\ wlookup t (shift_an D new) = Some (wshift D lt)).
    { intros t Ht. destruct (keysof_in _ _ Ht) as [lt Hlt].
      exists lt. split; [exact Hlt|]. split; [apply wlookup_coherent; auto|].
      now rewrite wlookup_shift_an, (wlookup_coherent new _ lt Hcn Hlt). }
    induction f as [|f IH]; intros l Hl o.
    - rewrite !wvalue_0. apply shift_body.
      intros st t Hs. destruct (Hlk t (Hl st t Hs)) as [lt [_ [H1 H2]]]. exists lt. repeat split; auto.
    - rewrite !wvalue_S. apply shift_body.
      intros st t Hs. destruct (Hlk t (Hl st t Hs)) as [lt [H0 [H1 H2]]]. exists lt. repeat split; auto.
      intros o'. apply IH. exact (Hcl t lt H0).
  Qed.

  Section Rec.
    Variable r : list B.

    Lemma walkv_atom : forall a sz st an, walkv dcount r (JAtom a sz) st an = Ok (WAtom a st sz, wreg a (WAtom a st sz) an).
    Proof.
      intros a sz st an.
      change (walkv dcount r (JAtom a sz) st an)
        with (Ok (WAtom a st (loc_size st (st + sz)), wreg a (WAtom a st (loc_size st (st + sz))) an) : res (wloc * wanchors)).
      rewrite LayoutP.loc_size_plus. reflexivity.
    Qed.
    Lemma walkv_arr : forall a n its st an,
      walkv dcount r (JArr a n its) st an =
      match walkv dcount r its st an with
      | Err e => Err e
      | Ok (sub, an1) => Ok (WArr st (wsize sub * n) (wsize sub) n sub its, wreg a (WArr st (wsize sub * n) (wsize sub) n sub its) an1)
      end.
    Proof.
      intros a n its st an.
      change (walkv dcount r (JArr a n its) st an)
        with (match walkv dcount r its st an with
              | Err e => Err e
              | Ok (sub, an1) =>
                  Ok (WArr st (loc_size st (st + wsize sub * n)) (wsize sub) n sub its,
                      wreg a (WArr st (loc_size st (st + wsize sub * n)) (wsize sub) n sub its) an1)
              end).
      destruct (walkv dcount r its st an) as [[sub an1]|ex]; [|reflexivity]. rewrite LayoutP.loc_size_plus. reflexivity.
    Qed.
    Lemma walkv_odo : forall a c its st an,
      walkv dcount r (JOdo a c its) st an =
      match wlookup (KName c) an with
      | None => Err KeyError
      | Some (WAtom _ cst csz) =>
          match walkv dcount r its st an with
          | Err e => Err e
          | Ok (sub, an1) =>
              Ok (WArr st (wsize sub * dcount (slice r cst (cst + csz))) (wsize sub) (dcount (slice r cst (cst + csz))) sub its,
                  wreg a (WArr st (wsize sub * dcount (slice r cst (cst + csz))) (wsize sub) (dcount (slice r cst (cst + csz))) sub its) an1)
          end
      | Some _ => Err TypeError
      end.
    Proof.
      intros a c its st an.
      change (walkv dcount r (JOdo a c its) st an)
        with (match wodo_count dcount r c an with
              | Err e => Err e
              | Ok cnt =>
                  match walkv dcount r its st an with
                  | Err e => Err e
                  | Ok (sub, an1) =>
                      Ok (WArr st (loc_size st (st + wsize sub * cnt)) (wsize sub) cnt sub its,
                          wreg a (WArr st (loc_size st (st + wsize sub * cnt)) (wsize sub) cnt sub its) an1)
                  end
              end).
      change (wodo_count dcount r c an)
        with (match wlookup (KName c) an with
              | None => Err KeyError
              | Some (WAtom _ cst csz) => Ok (dcount (slice r cst (cst + csz)))
              | Some _ => Err TypeError
              end).
      destruct (wlookup (KName c) an) as [[ca cst csz| | | |]|]; try reflexivity.
      destruct (walkv dcount r its st an) as [[sub an1]|ex]; [|reflexivity]. rewrite LayoutP.loc_size_plus. reflexivity.
    Qed.
    Lemma walkv_one : forall a s0 rest st an,
      walkv dcount r (JOne a (ACons s0 rest)) st an =
      match walkv_alts dcount r (ACons s0 rest) st an with
      | Err e => Err e
      | Ok (als, an1) => Ok (WOne st (wmax_size als) als, wreg a (WOne st (wmax_size als) als) an1)
      end.
    Proof.
      intros a s0 rest st an.
      change (walkv dcount r (JOne a (ACons s0 rest)) st an)
        with (match walkv_alts dcount r (ACons s0 rest) st an with
              | Err e => Err e
              | Ok (als, an1) =>
                  Ok (WOne st (loc_size st (st + wmax_size als)) als, wreg a (WOne st (loc_size st (st + wmax_size als)) als) an1)
              end).
      destruct (walkv_alts dcount r (ACons s0 rest) st an) as [[als an1]|ex]; [|reflexivity].
      rewrite LayoutP.loc_size_plus. reflexivity.
    Qed.
    Lemma walkv_one_nil : forall a st an, walkv dcount r (JOne a ANil) st an = Err ValueError.
    Proof. reflexivity. Qed.
    Lemma walkv_ref : forall t st an, walkv dcount r (JRef t) st an = Ok (WRef st t, an).
    Proof. reflexivity. Qed.
    Lemma walkv_props_nil : forall off an, walkv_props dcount r PNil off an = Ok (WPNil, off, an).
    Proof. reflexivity. Qed.
    Lemma walkv_props_cons : forall k p rest off an,
      walkv_props dcount r (PCons k p rest) off an =
      match walkv dcount r p off an with
      | Err e => Err e
      | Ok (pl, an1) =>
          match walkv_props dcount r rest (off + wsize pl) (wreg (js_anchor p) pl an1) with
          | Err e => Err e
          | Ok (rl, off', an2) => Ok (WPCons k pl rl, off', an2)
          end
      end.
    Proof. reflexivity. Qed.
    Lemma walkv_alts_nil : forall st an, walkv_alts dcount r ANil st an = Ok (WANil, an).
    Proof. reflexivity. Qed.
    Lemma walkv_alts_cons : forall s rest st an,
      walkv_alts dcount r (ACons s rest) st an =
      match walkv dcount r s st an with
      | Err e => Err e
      | Ok (l, an1) =>
          match walkv_alts dcount r rest st an1 with
          | Err e => Err e
          | Ok (ls, an2) => Ok (WACons l ls, an2)
          end
      end.
    Proof. reflexivity. Qed.
    (* the running offset ends at start + the sum of the property sizes: the size ObjectLocation.__init__ stores *)
    Lemma walkv_props_offset :
      forall ps off an pls off' an', walkv_props dcount r ps off an = Ok (pls, off', an') -> off' = off + wsum_props pls.
    Proof.
      induction ps as [|k p rest IH]; intros off an pls off' an' H.
      - rewrite walkv_props_nil in H. injection H as <- <- <-. cbn [wsum_props]. lia.
      - rewrite walkv_props_cons in H. destruct (walkv dcount r p off an) as [[pl an1]|ex]; [|discriminate].
        destruct (walkv_props dcount r rest (off + wsize pl) (wreg (js_anchor p) pl an1)) as [[[rl o2] an2]|ex] eqn:E; [|discriminate].
        injection H as <- <- <-. apply IH in E. cbn [wsum_props]. lia.
    Qed.
    (* either spelling of ObjectLocation.__init__ is accepted, as in LayoutP.obj_size_eq *)
    Lemma wobj_size_eq : forall ps st an pls off an1,
      walkv_props dcount r ps st an = Ok (pls, off, an1) -> wobj_size st off pls = off - st.
    Proof.
      intros ps st an pls off an1 E. apply walkv_props_offset in E.
      first
        [ change (wobj_size st off pls) with (wsum_props pls); lia
        | change (wobj_size st off pls) with (loc_size st off); subst off; rewrite LayoutP.loc_size_plus; lia ].
    Qed.
    Lemma walkv_obj : forall a ps st an,
      walkv dcount r (JObj a ps) st an =
      match walkv_props dcount r ps st an with
      | Err e => Err e
      | Ok (pls, off, an1) => Ok (WObj st (off - st) pls, wreg a (WObj st (off - st) pls) an1)
      end.
    Proof.
      intros a ps st an.
      change (walkv dcount r (JObj a ps) st an)
        with (match walkv_props dcount r ps st an with
              | Err e => Err e
              | Ok (pls, off, an1) => Ok (WObj st (wobj_size st off pls) pls, wreg a (WObj st (wobj_size st off pls) pls) an1)
              end).
      destruct (walkv_props dcount r ps st an) as [[[pls off] an1]|ex] eqn:E; [|reflexivity].
      rewrite (wobj_size_eq _ _ _ _ _ _ E). reflexivity.
    Qed.

    (* induction over successful walks: one case for each equation above, with the parts walked and what holds of them *)
    Section WalkInd.
      Variable P : js -> nat -> wanchors -> wloc -> wanchors -> Prop.
      Variable Pp : props -> nat -> wanchors -> wprops -> nat -> wanchors -> Prop.
      Variable Pa : jalts -> nat -> wanchors -> walts -> wanchors -> Prop.
      Hypothesis Hatom : forall a sz st an, P (JAtom a sz) st an (WAtom a st sz) (wreg a (WAtom a st sz) an).
      Hypothesis Harr : forall a n its st an sub an1,
        walkv dcount r its st an = Ok (sub, an1) -> P its st an sub an1 ->
        P (JArr a n its) st an (WArr st (wsize sub * n) (wsize sub) n sub its)
          (wreg a (WArr st (wsize sub * n) (wsize sub) n sub its) an1).
      Hypothesis Hodo : forall a c its st an ca cst csz sub an1,
        wlookup (KName c) an = Some (WAtom ca cst csz) ->
        walkv dcount r its st an = Ok (sub, an1) -> P its st an sub an1 ->
        P (JOdo a c its) st an (WArr st (wsize sub * dcount (slice r cst (cst + csz))) (wsize sub) (dcount (slice r cst (cst + csz))) sub its)
          (wreg a (WArr st (wsize sub * dcount (slice r cst (cst + csz))) (wsize sub) (dcount (slice r cst (cst + csz))) sub its) an1).
      Hypothesis Hobj : forall a ps st an pls off an1,
        walkv_props dcount r ps st an = Ok (pls, off, an1) -> Pp ps st an pls off an1 ->
        P (JObj a ps) st an (WObj st (off - st) pls) (wreg a (WObj st (off - st) pls) an1).
      Hypothesis Hone : forall a s0 rest st an als an1,
        walkv_alts dcount r (ACons s0 rest) st an = Ok (als, an1) -> Pa (ACons s0 rest) st an als an1 ->
        P (JOne a (ACons s0 rest)) st an (WOne st (wmax_size als) als) (wreg a (WOne st (wmax_size als) als) an1).
      Hypothesis Href : forall t st an, P (JRef t) st an (WRef st t) an.
      Hypothesis Hpnil : forall off an, Pp PNil off an WPNil off an.
      Hypothesis Hpcons : forall k p rest off an pl an1 rl off' an2,
        walkv dcount r p off an = Ok (pl, an1) -> P p off an pl an1 ->
        walkv_props dcount r rest (off + wsize pl) (wreg (js_anchor p) pl an1) = Ok (rl, off', an2) ->
        Pp rest (off + wsize pl) (wreg (js_anchor p) pl an1) rl off' an2 ->
        Pp (PCons k p rest) off an (WPCons k pl rl) off' an2.
      Hypothesis Hanil : forall st an, Pa ANil st an WANil an.
      Hypothesis Hacons : forall s rest st an l an1 ls an2,
        walkv dcount r s st an = Ok (l, an1) -> P s st an l an1 ->
        walkv_alts dcount r rest st an1 = Ok (ls, an2) -> Pa rest st an1 ls an2 ->
        Pa (ACons s rest) st an (WACons l ls) an2.

      Lemma walkv_ind :
        (forall s st an l an', walkv dcount r s st an = Ok (l, an') -> P s st an l an')
        /\ (forall ps off an pls off' an', walkv_props dcount r ps off an = Ok (pls, off', an') -> Pp ps off an pls off' an')
        /\ (forall alts st an als an', walkv_alts dcount r alts st an = Ok (als, an') -> Pa alts st an als an').
      Proof.
        apply js_props_alts_ind.
        - intros a sz st an l an' E. rewrite walkv_atom in E. injection E as <- <-. apply Hatom.
        - intros a n its IH st an l an' E. rewrite walkv_arr in E.
          destruct (walkv dcount r its st an) as [[sub an1]|e] eqn:Es; [|discriminate].
          injection E as <- <-. apply Harr; auto.
        - intros a c its IH st an l an' E. rewrite walkv_odo in E.
          destruct (wlookup (KName c) an) as [[ca cst csz| | | |]|] eqn:El; try discriminate.
          destruct (walkv dcount r its st an) as [[sub an1]|e] eqn:Es; [|discriminate].
          injection E as <- <-. apply (Hodo _ _ _ _ _ ca); auto.
        - intros a ps IH st an l an' E. rewrite walkv_obj in E.
          destruct (walkv_props dcount r ps st an) as [[[pls off] an1]|e] eqn:Es; [|discriminate].
          injection E as <- <-. apply Hobj; auto.
        - intros a alts IH st an l an' E. destruct alts as [|s0 rest]; [discriminate|]. rewrite walkv_one in E.
          destruct (walkv_alts dcount r (ACons s0 rest) st an) as [[als an1]|e] eqn:Es; [|discriminate].
          injection E as <- <-. apply Hone; auto.
        - intros t st an l an' E. rewrite walkv_ref in E. injection E as <- <-. apply Href.
        - intros off an pls off' an' E. rewrite walkv_props_nil in E. injection E as <- <- <-. apply Hpnil.
        - intros k p IHp rest IHr off an pls off' an' E. rewrite walkv_props_cons in E.
          destruct (walkv dcount r p off an) as [[pl an1]|e] eqn:Es; [|discriminate].
          destruct (walkv_props dcount r rest (off + wsize pl) (wreg (js_anchor p) pl an1)) as [[[rl off1] an2]|e] eqn:Er; [|discriminate].
          injection E as <- <- <-. eapply Hpcons; eauto.
        - intros st an als an' E. rewrite walkv_alts_nil in E. injection E as <- <-. apply Hanil.
        - intros s IHs rest IHr st an als an' E. rewrite walkv_alts_cons in E.
          destruct (walkv dcount r s st an) as [[l an1]|e] eqn:Es; [|discriminate].
          destruct (walkv_alts dcount r rest st an1) as [[ls an2]|e] eqn:Er; [|discriminate].
          injection E as <- <-. eapply Hacons; eauto.
      Qed.
    End WalkInd.

    Lemma walkv_not_ref : forall s st an l an', is_jref s = false -> walkv dcount r s st an = Ok (l, an') -> is_wref l = false.
    Proof.
      intros s st an l an' Hs E. revert Hs.
      refine (proj1 (walkv_ind (fun s _ _ l _ => is_jref s = false -> is_wref l = false)
                       (fun _ _ _ _ _ _ => True) (fun _ _ _ _ _ => True) _ _ _ _ _ _ _ _ _ _) s st an l an' E); easy.
    Qed.

    (* a schema without OCCURS DEPENDING ON walked somewhere else, with other anchors, gives the same tree moved *)
    Lemma walkv_shift :
      (forall s st an l an', walkv dcount r s st an = Ok (l, an') -> odo_free s = true ->
         exists new, an' = new ++ an /\
           forall d an0, walkv dcount r s (st + d) an0 = Ok (wshift d l, shift_an d new ++ an0))
      /\ (forall ps off an pls off' an', walkv_props dcount r ps off an = Ok (pls, off', an') -> odo_free_props ps = true ->
         exists new, an' = new ++ an /\
           forall d an0, walkv_props dcount r ps (off + d) an0 = Ok (wshift_props d pls, off' + d, shift_an d new ++ an0))
      /\ (forall alts st an als an', walkv_alts dcount r alts st an = Ok (als, an') -> odo_free_alts alts = true ->
         exists new, an' = new ++ an /\
           forall d an0, walkv_alts dcount r alts (st + d) an0 = Ok (wshift_alts d als, shift_an d new ++ an0)).
    Proof.
      apply walkv_ind.
      - intros a sz st an _. exists (wreg a (WAtom a st sz) []). split; [now rewrite <- wreg_app|].
        intros d an0. now rewrite walkv_atom, wreg_shift.
      - intros a n its st an sub an1 _ IH Hof. destruct (IH Hof) as [new [-> Hs]].
        eexists. split; [apply wreg_app|].
        intros d an0. rewrite walkv_arr, Hs, wreg_shift. cbn [wshift]. now rewrite wsize_shift.
      - discriminate.
      - intros a ps st an pls off an1 _ IH Hof. destruct (IH Hof) as [new [-> Hs]].
        eexists. split; [apply wreg_app|].
        intros d an0. rewrite walkv_obj, Hs, wreg_shift. cbn [wshift]. now replace (off + d - (st + d)) with (off - st) by lia.
      - intros a s0 rest st an als an1 _ IH Hof. destruct (IH Hof) as [new [-> Hs]].
        eexists. split; [apply wreg_app|].
        intros d an0. rewrite walkv_one, Hs, wreg_shift. cbn [wshift]. now rewrite wmax_shift.
      - intros t st an _. exists []. split; reflexivity.
      - intros off an _. exists []. split; reflexivity.
      - intros k p rest off an pl an1 rl off' an2 _ IHp _ IHr [Hp Hr]%andb_prop.
        destruct (IHp Hp) as [n1 [-> H1]]. destruct (IHr Hr) as [n2 [-> H2]].
        exists (n2 ++ wreg (js_anchor p) pl n1). split; [now rewrite <- app_assoc, wreg_app|].
        intros d an0. rewrite walkv_props_cons, H1, wsize_shift.
        replace (off + d + wsize pl) with (off + wsize pl + d) by lia.
        rewrite <- wreg_shift, H2. cbn [wshift_props]. now rewrite shift_an_app, <- app_assoc.
      - intros st an _. exists []. split; reflexivity.
      - intros s rest st an l an1 ls an2 _ IHs _ IHr [Hs Hr]%andb_prop.
        destruct (IHs Hs) as [n1 [-> H1]]. destruct (IHr Hr) as [n2 [-> H2]].
        exists (n2 ++ n1). split; [apply app_assoc|].
        intros d an0. rewrite walkv_alts_cons, H1, H2. cbn [wshift_alts]. now rewrite shift_an_app, <- app_assoc.
    Qed.

    (* the shape of walk-produced trees: parts lie end to end, alternatives start together, a table remembers the walk
       of its first occurrence *)
    Fixpoint wf (l : wloc) : Prop :=
      match l with
      | WAtom _ _ _ => True
      | WRef _ _ => True
      | WArr st sz isz cnt it sch =>
          wstart it = st /\ wsize it = isz /\ sz = isz * cnt /\ wf it
          /\ exists an0 an1, walkv dcount r sch st an0 = Ok (it, an1)
      | WObj st sz ps => wf_props ps st /\ sz = wsum_props ps
      | WOne st sz alts => wf_alts alts st sz
      end
    with wf_props (ps : wprops) (off : nat) : Prop :=
      match ps with
      | WPNil => True
      | WPCons _ l rest => wstart l = off /\ wf l /\ wf_props rest (off + wsize l)
      end
    with wf_alts (ls : walts) (st sz : nat) : Prop :=
      match ls with
      | WANil => True
      | WACons l rest => wstart l = st /\ wsize l <= sz /\ wf l /\ wf_alts rest st sz
      end.

    Lemma wf_alts_weaken : forall ls st sz sz', sz <= sz' -> wf_alts ls st sz -> wf_alts ls st sz'.
    Proof.
      induction ls as [|l rest IH]; intros st sz sz' Hle H; [exact I|]. cbn [wf_alts] in *.
      destruct H as [H1 [H2 [H3 H4]]]. repeat split; try assumption; [lia|eauto].
    Qed.

    Lemma wf_node : forall a l (an an1 : wanchors) st, wstart l = st -> wf l -> (all_an wf an -> all_an wf an1) ->
      wstart l = st /\ wf l /\ (all_an wf an -> all_an wf (wreg a l an1)).
    Proof. intros a l an an1 st H1 H2 H3. auto using all_an_wreg. Qed.

    Lemma walkv_wf :
      (forall s st an l an', walkv dcount r s st an = Ok (l, an') -> wstart l = st /\ wf l /\ (all_an wf an -> all_an wf an'))
      /\ (forall ps off an pls off' an', walkv_props dcount r ps off an = Ok (pls, off', an') ->
            wf_props pls off /\ (all_an wf an -> all_an wf an'))
      /\ (forall alts st an als an', walkv_alts dcount r alts st an = Ok (als, an') ->
            wf_alts als st (wmax_size als) /\ (all_an wf an -> all_an wf an')).
    Proof.
      apply walkv_ind.
      - intros a sz st an. now apply wf_node.
      - intros a n its st an sub an1 E [H1 [H2 H3]]. apply wf_node; [reflexivity| |exact H3]. cbn [wf]. eauto 8.
      - intros a c its st an ca cst csz sub an1 _ E [H1 [H2 H3]]. apply wf_node; [reflexivity| |exact H3]. cbn [wf]. eauto 8.
      - intros a ps st an pls off an1 E [H1 H3]. apply wf_node; [reflexivity| |exact H3].
        split; [exact H1|]. apply walkv_props_offset in E. lia.
      - intros a s0 rest st an als an1 _ [H1 H3]. now apply wf_node.
      - intros t st an. now repeat split.
      - intros off an. now split.
      - intros k p rest off an pl an1 rl off' an2 _ [H1 [H2 H3]] _ [G1 G3]. split; [now repeat split|].
        intros H. apply G3, all_an_wreg; auto.
      - intros st an. now split.
      - intros s rest st an l an1 ls an2 _ [H1 [H2 H3]] _ [G1 G3]. split; [|auto]. cbn [wf_alts wmax_size].
        repeat split; [exact H1|lia|exact H2|]. apply (wf_alts_weaken _ _ (wmax_size ls)); [lia|exact G1].
    Qed.

    Lemma wf_props_find : forall ps off k c,
      wf_props ps off -> wfind k ps = Some c -> wf c /\ off <= wstart c /\ wend c <= off + wsum_props ps.
    Proof.
      induction ps as [|k0 l rest IH]; intros off k c Hw Hf; [discriminate|]. cbn [wf_props wfind wsum_props] in *.
      destruct Hw as [H1 [H2 H3]]. destruct (key_eqb k k0).
      - injection Hf as <-. split; [exact H2|]. unfold wend. lia.
      - destruct (IH _ _ _ H3 Hf) as [G1 [G2 G3]]. split; [exact G1|]. lia.
    Qed.

    Definition inv (v : vnav) : Prop := wf (vn_loc v) /\ all_an wf (vn_an v).

    Lemma inv_walk : forall s st l an, walkv dcount r s st [] = Ok (l, an) -> inv (mkvnav l an).
    Proof.
      intros s st l an E. destruct (proj1 walkv_wf _ _ _ _ _ E) as [_ [H2 H3]]. split; [exact H2|]. apply H3, all_an_nil.
    Qed.

    Lemma inv_name : forall v k v', inv v -> vnav_name v k = Ok v' -> inv v'.
    Proof.
      intros v k v' [Hw Ha] E. destruct (vnav_name_ok _ _ _ E) as (st & sz & ps & c & Hl & Hf & Han & Hc).
      unfold inv. rewrite Han. split; [|exact Ha]. rewrite Hl in Hw.
      destruct (wf_props_find _ _ _ _ (proj1 Hw) Hf) as [Hwc _].
      destruct c; try (rewrite Hc; exact Hwc). apply wlookup_in_key in Hc. exact (Ha _ _ Hc).
    Qed.

    Lemma inv_reach : forall s p v0 v, vnav_of dcount r s = Ok v0 -> vnav_path dcount r v0 p = Ok v -> inv v.
    Proof.
      intros s p [l0 an0] v H0. apply vnav_path_inv; [exact inv_name| |exact (inv_walk _ _ _ _ (vnav_of_ok _ _ _ _ H0))].
      intros v1 i [l an] _ E. destruct (vnav_index_ok _ _ _ _ _ E) as (st & sz & isz & cnt & it & sch & _ & _ & Ew).
      exact (inv_walk _ _ _ _ Ew).
    Qed.

    Lemma name_inside : forall v k v', inv v -> vnav_name v k = Ok v' -> ref_prop v k = false ->
      wstart (vn_loc v) <= wstart (vn_loc v') /\ wend (vn_loc v') <= wend (vn_loc v).
    Proof.
      intros v k v' [Hw _] E Hr. destruct (vnav_name_ok _ _ _ E) as (st & sz & ps & c & Hl & Hf & _ & Hc).
      unfold ref_prop in Hr. rewrite Hl, Hf in Hr. rewrite Hl in *. destruct Hw as [Hp Hsz].
      destruct (wf_props_find _ _ _ _ Hp Hf) as [_ [G1 G2]].
      assert (Ec : vn_loc v' = c) by (destruct c; try discriminate; exact Hc).
      rewrite Ec. unfold wend in *. cbn [wstart wsize]. lia.
    Qed.

    Lemma index_shift : forall v st sz isz cnt it sch i,
      inv v -> vn_loc v = WArr st sz isz cnt it sch -> odo_free sch = true -> i < cnt ->
      exists an', vnav_index dcount r v i = Ok (mkvnav (wshift (isz * i) it) an').
    Proof.
      intros v st sz isz cnt it sch i [Hw _] Hl Hof Hi. rewrite Hl in Hw. destruct Hw as (_ & _ & _ & _ & an0 & an1 & Ew).
      destruct (proj1 walkv_shift _ _ _ _ _ Ew Hof) as [new [_ Hs]].
      rewrite vnav_index_unf, Hl. apply Nat.leb_gt in Hi. rewrite Hi, Hs. eauto.
    Qed.

    Lemma index_inside : forall v st sz isz cnt it sch i v',
      inv v -> vn_loc v = WArr st sz isz cnt it sch -> odo_free sch = true ->
      vnav_index dcount r v i = Ok v' ->
      wstart (vn_loc v') = st + isz * i /\ wsize (vn_loc v') = isz
      /\ wstart (vn_loc v) <= wstart (vn_loc v') /\ wend (vn_loc v') <= wend (vn_loc v).
    Proof.
      intros v st sz isz cnt it sch i v' Hinv Hl Hof E.
      destruct (vnav_index_ok _ _ _ _ _ E) as (st0 & sz0 & isz0 & cnt0 & it0 & sch0 & Hl0 & Hi & _).
      rewrite Hl in Hl0. injection Hl0 as <- <- <- <- <- <-.
      destruct (index_shift v _ _ _ _ _ _ i Hinv Hl Hof Hi) as [an' E']. rewrite E' in E. injection E as <-.
      destruct Hinv as [Hw _]. rewrite Hl in Hw. destruct Hw as (H1 & H2 & H3 & _).
      cbn [vn_loc]. rewrite Hl. unfold wend. rewrite wstart_shift, wsize_shift. cbn [wstart wsize]. subst sz.
      pose proof (occ_le isz cnt i Hi). repeat split; lia.
    Qed.

    (* the tree of a simple schema (no $ref, no ODO) holds no $ref placeholder, and every table in it remembers a
       simple items schema *)
    Fixpoint simple_loc (l : wloc) : bool :=
      match l with
      | WAtom _ _ _ => true
      | WArr _ _ _ _ it sch => simple sch && simple_loc it
      | WObj _ _ ps => simple_loc_props ps
      | WOne _ _ alts => simple_loc_alts alts
      | WRef _ _ => false
      end
    with simple_loc_props (ps : wprops) : bool :=
      match ps with WPNil => true | WPCons _ l r => simple_loc l && simple_loc_props r end
    with simple_loc_alts (ls : walts) : bool :=
      match ls with WANil => true | WACons l r => simple_loc l && simple_loc_alts r end.

    Lemma simple_odo_free :
      (forall s, simple s = true -> odo_free s = true)
      /\ (forall ps, simple_props ps = true -> odo_free_props ps = true)
      /\ (forall alts, simple_alts alts = true -> odo_free_alts alts = true).
    Proof.
      apply js_props_alts_ind; cbn [simple simple_props simple_alts odo_free odo_free_props odo_free_alts]; try discriminate; auto.
      - intros k s IHs rest IHr [H1 H2]%andb_prop. now rewrite IHs, IHr.
      - intros s IHs rest IHr [H1 H2]%andb_prop. now rewrite IHs, IHr.
    Qed.

    Lemma walkv_simple_loc :
      (forall s st an l an', walkv dcount r s st an = Ok (l, an') -> simple s = true -> simple_loc l = true)
      /\ (forall ps off an pls off' an', walkv_props dcount r ps off an = Ok (pls, off', an') ->
            simple_props ps = true -> simple_loc_props pls = true)
      /\ (forall alts st an als an', walkv_alts dcount r alts st an = Ok (als, an') ->
            simple_alts alts = true -> simple_loc_alts als = true).
    Proof.
      apply walkv_ind; cbn [simple_loc simple_loc_props simple_loc_alts]; try discriminate; auto.
      - intros a n its st an sub an1 _ IH Hs. cbn [simple] in Hs. now rewrite Hs, IH.
      - intros k p rest off an pl an1 rl off' an2 _ IHp _ IHr [H1 H2]%andb_prop. now rewrite IHp, IHr.
      - intros s rest st an l an1 ls an2 _ IHs _ IHr [H1 H2]%andb_prop. now rewrite IHs, IHr.
    Qed.

    Lemma simple_loc_refs :
      (forall l, simple_loc l = true -> forall st t, ~ sub_ref l st t)
      /\ (forall ps, simple_loc_props ps = true -> forall st t, ~ sub_ref_props ps st t)
      /\ (forall ls, simple_loc_alts ls = true -> forall st t, ~ sub_ref_alts ls st t).
    Proof.
      apply wloc_wprops_walts_ind; cbn [simple_loc simple_loc_props simple_loc_alts sub_ref sub_ref_props sub_ref_alts];
        try discriminate; auto.
      - intros st sz isz cnt it IH sch H. apply andb_prop in H. exact (IH (proj2 H)).
      - intros k l IHl rest IHr [H1 H2]%andb_prop st t [Hs|Hs]; [exact (IHl H1 _ _ Hs)|exact (IHr H2 _ _ Hs)].
      - intros l IHl rest IHr [H1 H2]%andb_prop st t [Hs|Hs]; [exact (IHl H1 _ _ Hs)|exact (IHr H2 _ _ Hs)].
    Qed.

    Lemma simple_loc_find : forall ps k c, simple_loc_props ps = true -> wfind k ps = Some c -> simple_loc c = true.
    Proof.
      induction ps as [|k0 l rest IH]; intros k c Hs Hf; [discriminate|]. cbn [simple_loc_props wfind] in *.
      apply andb_prop in Hs. destruct Hs as [H1 H2]. destruct (key_eqb k k0); [injection Hf as <-; exact H1|eauto].
    Qed.

    Lemma simple_path : forall p v v',
      simple_loc (vn_loc v) = true -> vnav_path dcount r v p = Ok v' -> simple_loc (vn_loc v') = true.
    Proof.
      apply (vnav_path_inv dcount r (fun v => simple_loc (vn_loc v) = true)).
      - intros v k v' Hs E. destruct (vnav_name_ok _ _ _ E) as (st & sz & ps & c & Hl & Hf & _ & Hc). rewrite Hl in Hs.
        pose proof (simple_loc_find _ _ _ Hs Hf) as Hsc. destruct c; try discriminate; now rewrite Hc.
      - intros v i v' Hs E. destruct (vnav_index_ok _ _ _ _ _ E) as (st & sz & isz & cnt & it & sch & Hl & _ & Ew).
        rewrite Hl in Hs. apply andb_prop in Hs. exact (proj1 walkv_simple_loc _ _ _ _ _ Ew (proj1 Hs)).
    Qed.

    Lemma elem_value : forall an st sz isz cnt it sch (xs : list pvA) i,
      wvalue r dec (length an) an (WArr st sz isz cnt it sch) 0 = Some (Ok (PList xs)) -> i < cnt ->
      exists x, nth_error xs i = Some x /\ wvalue r dec (length an) an it (isz * i) = Some (Ok x).
    Proof.
      intros an st sz isz cnt it sch xs i Hv Hi. destruct (wvalue_step r an (length an)) as [dr [Hw _]].
      rewrite Hw in *. rewrite vb_arr in Hv.
      destruct (seq_values (fun j => value_body r dec an dr it (0 + j * isz)) cnt 0) as [[ys|e]|] eqn:Es; try discriminate.
      injection Hv as ->. destruct (seq_values_nth _ _ _ _ Es i Hi) as [x [Hx1 Hx2]].
      exists x. split; [exact Hx1|]. rewrite <- Hx2. f_equal. lia.
    Qed.

    Theorem commute_index_simple : forall v st sz isz cnt it sch (xs : list pvA) i,
      inv v -> vn_loc v = WArr st sz isz cnt it sch -> simple sch = true ->
      vnav_value r dec v = Some (Ok (PList xs)) -> i < cnt ->
      exists v' x, vnav_index dcount r v i = Ok v' /\ nth_error xs i = Some x /\ vnav_value r dec v' = Some (Ok x).
    Proof.
      intros v st sz isz cnt it sch xs i Hinv Hl Hs Hv Hi.
      destruct (index_shift v _ _ _ _ _ _ i Hinv Hl (proj1 simple_odo_free _ Hs) Hi) as [an' E'].
      rewrite vnav_value_unf, Hl in Hv. destruct (elem_value _ _ _ _ _ _ _ _ _ Hv Hi) as [x [Hx1 Hx2]].
      eexists. exists x. split; [exact E'|]. split; [exact Hx1|]. rewrite vnav_value_unf. cbn [vn_loc vn_an].
      (* no $ref inside the item: neither the anchors nor the fuel matter *)
      destruct Hinv as [Hw _]. rewrite Hl in Hw. destruct Hw as (_ & _ & _ & _ & an0 & an1 & Ew).
      pose proof (proj1 simple_loc_refs _ (proj1 walkv_simple_loc _ _ _ _ _ Ew Hs)) as Hno.
      destruct (wvalue_step r (vn_an v) (length (vn_an v))) as [dr [Hw _]]. destruct (wvalue_step r an' (length an')) as [dr' [Hw' _]].
      rewrite Hw in Hx2. rewrite Hw', <- Hx2. apply shift_body. intros st' t Hr. elim (Hno _ _ Hr).
    Qed.

    Lemma foot_simple_inside : forall an df,
      (forall l, wf l -> simple_loc l = true -> forall o a b, In (a, b) (foot_body an df l o) ->
         wstart l + o <= a /\ b <= wend l + o)
      /\ (forall ps, forall off, wf_props ps off -> simple_loc_props ps = true -> forall o a b, In (a, b) (foot_props an df ps o) ->
         off + o <= a /\ b <= off + wsum_props ps + o)
      /\ (forall ls, forall st sz, wf_alts ls st sz -> simple_loc_alts ls = true ->
         first_alt (fun l => forall o a b, In (a, b) (foot_body an df l o) -> st + o <= a /\ b <= st + sz + o) ls).
    Proof.
      intros an df. apply wloc_wprops_walts_ind; unfold wend; cbn [wstart wsize wsum_props].
      - intros a st sz _ _ o x y H. rewrite fb_atom in H. destruct H as [H|[]]. injection H as <- <-. lia.
      - intros st sz isz cnt it IH sch (H1 & H2 & H3 & H4 & _) Hs o x y H. apply andb_prop in Hs.
        rewrite fb_arr in H. apply in_flat_map in H. destruct H as [j [Hj Hin]]. apply in_seq in Hj.
        destruct (IH H4 (proj2 Hs) _ _ _ Hin) as [G1 G2].
        pose proof (occ_le isz cnt j (proj2 Hj)). lia.
      - intros st sz ps IH [H1 H2] Hs o x y H. rewrite fb_obj in H. destruct (IH st H1 Hs _ _ _ H) as [G1 G2]. lia.
      - intros st sz alts IH Hw Hs o x y H. rewrite fb_one in H.
        destruct alts as [|first rest]; [destruct H|]. exact (IH st sz Hw Hs _ _ _ H).
      - discriminate.
      - intros off _ _ o x y [].
      - intros k l IHl rest IHr off (H1 & H2 & H3) [S1 S2]%andb_prop o x y H.
        rewrite fp_cons in H. apply in_app_or in H. destruct H as [H|H].
        + destruct (IHl H2 S1 _ _ _ H) as [G1 G2]. lia.
        + destruct (IHr _ H3 S2 _ _ _ H) as [G1 G2]. lia.
      - intros st sz _ _. exact I.
      - intros l IHl rest _ st sz (H1 & H2 & H3 & _) Hs o x y H. apply andb_prop in Hs.
        destruct (IHl H3 (proj1 Hs) _ _ _ H) as [G1 G2]. lia.
    Qed.

    Theorem foot_inside_simple : forall s p v0 v,
      simple s = true -> vnav_of dcount r s = Ok v0 -> vnav_path dcount r v0 p = Ok v -> foot_inside v = true.
    Proof.
      intros s p v0 v Hs H0 Hp. apply foot_inside_iff. intros a b Hab. rewrite vnav_foot_unf in Hab.
      assert (Hf : exists df, wfoot (length (vn_an v)) (vn_an v) = foot_body (vn_an v) df).
      { destruct (length (vn_an v)); eexists; [apply wfoot_0|apply wfoot_S]. }
      destruct Hf as [df Hf]. rewrite Hf in Hab.
      destruct (proj1 (foot_simple_inside (vn_an v) df) (vn_loc v)) with (3 := Hab) as [G1 G2].
      - exact (proj1 (inv_reach s p v0 v H0 Hp)).
      - apply (simple_path p v0 v); [|exact Hp]. exact (proj1 walkv_simple_loc _ _ _ _ _ (vnav_of_ok _ _ _ _ H0) Hs).
      - lia.
    Qed.

    (* what a walk registers: under the schema's own anchors only, and coherently when those are distinct *)
    Definition regs (ks : list key) (an an' new : wanchors) : Prop :=
      an' = new ++ an /\ incl (keysof new) ks /\ (NoDup ks -> coherent new).

    Lemma regs_nil : forall ks an, regs ks an an [].
    Proof. intros ks an. split; [reflexivity|]. split; [intros k []|intros _ k l1 l2 []]. Qed.

    Lemma regs_node : forall a l ks an an1, (exists new, regs ks an an1 new) ->
      exists new, regs (okey a ++ ks) an (wreg a l an1) new /\ forall a0, a = Some a0 -> In (a0, l) new.
    Proof.
      intros a l ks an an1 [new (-> & Hi & Hc)]. exists (wreg a l new). split; [|intros a0 ->; now left].
      split; [apply wreg_app|]. split.
      - rewrite keysof_wreg. apply incl_app_app; [apply incl_refl|exact Hi].
      - intros Hnd. apply coherent_wreg; [exact (Hc (ListFactsP.NoDup_app_r _ _ Hnd))|]. intros k ->. left.
        intros Hin. exact (ListFactsP.NoDup_app_disj _ _ k Hnd (or_introl eq_refl) (Hi _ Hin)).
    Qed.

    (* a property is registered a second time by the loop over the properties, under the anchor and with the location it has *)
    Lemma regs_again : forall a l ks an an1 new,
      regs ks an an1 new -> (forall k, a = Some k -> In (k, l) new) -> incl (okey a) ks -> regs ks an (wreg a l an1) (wreg a l new).
    Proof.
      intros a l ks an an1 new (-> & Hi & Hc) Ha Hk. split; [apply wreg_app|]. split.
      - rewrite keysof_wreg. now apply incl_app.
      - intros Hnd. apply coherent_wreg; auto.
    Qed.

    Lemma regs_app : forall ks1 ks2 an an1 an2 n1 n2,
      regs ks1 an an1 n1 -> regs ks2 an1 an2 n2 -> regs (ks1 ++ ks2) an an2 (n2 ++ n1).
    Proof.
      intros ks1 ks2 an an1 an2 n1 n2 (-> & Hi1 & Hc1) (-> & Hi2 & Hc2). split; [apply app_assoc|]. split.
      - rewrite keysof_app. apply incl_app; [now apply incl_appr|now apply incl_appl].
      - intros Hnd. apply coherent_app; [exact (Hc2 (ListFactsP.NoDup_app_r _ _ Hnd))|exact (Hc1 (ListFactsP.NoDup_app_l _ _ Hnd))|].
        intros k H2 H1. exact (ListFactsP.NoDup_app_disj _ _ k Hnd (Hi1 _ H1) (Hi2 _ H2)).
    Qed.

    Lemma anchor_jkeys : forall s, incl (okey (js_anchor s)) (jkeys s).
    Proof. intros s. destruct s; apply incl_appl, incl_refl. Qed.

    (* a node is registered under its own anchor; the direct alternatives of a oneOf start where it starts and are
       no longer than it *)
    Lemma walkv_keys :
      (forall s st an l an', walkv dcount r s st an = Ok (l, an') ->
         exists new, regs (jkeys s) an an' new /\ forall a, js_anchor s = Some a -> In (a, l) new)
      /\ (forall ps off an pls off' an', walkv_props dcount r ps off an = Ok (pls, off', an') ->
         exists new, regs (jkeys_props ps) an an' new)
      /\ (forall alts st an als an', walkv_alts dcount r alts st an = Ok (als, an') ->
         exists new, regs (jkeys_alts alts) an an' new /\
           forall t, In t (alt_anchors alts) -> exists lt, In (t, lt) new /\ wstart lt = st /\ wsize lt <= wmax_size als).
    Proof.
      apply walkv_ind.
      - intros a sz st an. apply (regs_node a _ []). exists []. apply regs_nil.
      - intros a n its st an sub an1 _ [new [H _]]. apply regs_node. now exists new.
      - intros a c its st an ca cst csz sub an1 _ _ [new [H _]]. apply regs_node. now exists new.
      - intros a ps st an pls off an1 _ H. now apply regs_node.
      - intros a s0 rest st an als an1 _ [new [H _]]. apply regs_node. now exists new.
      - intros t st an. exists []. split; [apply regs_nil|discriminate].
      - intros off an. exists []. apply regs_nil.
      - intros k p rest off an pl an1 rl off' an2 _ [n1 [H1 Ha]] _ [n2 H2]. eexists.
        eapply regs_app; [|exact H2]. apply regs_again; [exact H1|exact Ha|apply anchor_jkeys].
      - intros st an. exists []. split; [apply regs_nil|intros t []].
      - intros s rest st an l an1 ls an2 E [n1 [H1 Ha]] _ [n2 [H2 Hent]]. exists (n2 ++ n1).
        split; [exact (regs_app _ _ _ _ _ _ _ H1 H2)|]. cbn [alt_anchors wmax_size]. intros t [Ht|Ht]%in_app_or.
        + destruct (js_anchor s) as [a|]; [|destruct Ht]. destruct Ht as [<-|[]].
          exists l. split; [apply in_or_app; right; now apply Ha|]. split; [exact (proj1 (proj1 walkv_wf _ _ _ _ _ E))|lia].
        + destruct (Hent t Ht) as [lt [G1 [G2 G3]]]. exists lt. split; [apply in_or_app; now left|]. split; [exact G2|lia].
    Qed.

    Lemma walkv_extends :
      (forall s st an l an', walkv dcount r s st an = Ok (l, an') -> exists new, an' = new ++ an)
      /\ (forall ps off an pls off' an', walkv_props dcount r ps off an = Ok (pls, off', an') -> exists new, an' = new ++ an)
      /\ (forall alts st an als an', walkv_alts dcount r alts st an = Ok (als, an') -> exists new, an' = new ++ an).
    Proof.
      repeat split.
      - intros s st an l an' E. destruct (proj1 walkv_keys _ _ _ _ _ E) as [new [[-> _] _]]. now exists new.
      - intros ps off an pls off' an' E. destruct (proj1 (proj2 walkv_keys) _ _ _ _ _ _ E) as [new [-> _]]. now exists new.
      - intros alts st an als an' E. destruct (proj2 (proj2 walkv_keys) _ _ _ _ _ E) as [new [[-> _] _]]. now exists new.
    Qed.

    (* t is registered in anF at a location lying within [lo, hi) *)
    Definition inside (anF : wanchors) (lo hi : nat) (t : key) : Prop :=
      exists lt, In (t, lt) anF /\ lo <= wstart lt /\ wend lt <= hi.

    Lemma inside_mono : forall anF anF' lo lo' hi hi' t,
      incl anF anF' -> lo' <= lo -> hi <= hi' -> inside anF lo hi t -> inside anF' lo' hi' t.
    Proof. intros anF anF' lo lo' hi hi' t Hi Hlo Hhi [lt [H1 [H2 H3]]]. exists lt. repeat split; [auto|lia|lia]. Qed.

    (* in the tree of a cobol_like schema every $ref placeholder of an object resolves to a registered location lying
       inside that object, and every table remembers how its first occurrence was walked and that its registrations
       are still in force *)
    Fixpoint tidy (anF : wanchors) (l : wloc) : Prop :=
      match l with
      | WAtom _ _ _ => True
      | WRef _ _ => False
      | WArr st sz isz cnt it sch =>
          redef_ok sch = true /\ NoDup (jkeys sch) /\ tidy anF it /\
          exists an0 nw, walkv dcount r sch st an0 = Ok (it, nw ++ an0) /\ incl nw anF
      | WObj st sz ps => tidy_props anF st (st + sz) ps
      | WOne st sz alts => tidy_alts anF alts
      end
    with tidy_props (anF : wanchors) (lo hi : nat) (ps : wprops) : Prop :=
      match ps with
      | WPNil => True
      | WPCons _ l rest =>
          match l with
          | WRef _ t => inside anF lo hi t
          | _ => tidy anF l
          end /\ tidy_props anF lo hi rest
      end
    with tidy_alts (anF : wanchors) (ls : walts) : Prop :=
      match ls with WANil => True | WACons l rest => tidy anF l /\ tidy_alts anF rest end.

    Definition tidy_prop (anF : wanchors) (lo hi : nat) (l : wloc) : Prop :=
      match l with
      | WRef _ t => inside anF lo hi t
      | _ => tidy anF l
      end.

    Lemma tidy_prop_plain : forall anF lo hi l, tidy anF l -> tidy_prop anF lo hi l.
    Proof. intros anF lo hi l T. destruct l; try exact T. destruct T. Qed.
    Lemma tidy_prop_cases : forall anF lo hi l, tidy_prop anF lo hi l ->
      tidy anF l \/ exists st t, l = WRef st t /\ inside anF lo hi t.
    Proof. intros anF lo hi l T. destruct l; try (left; exact T). right. eauto. Qed.

    Lemma tidy_props_cons : forall anF lo hi k l rest,
      tidy_props anF lo hi (WPCons k l rest) <-> tidy_prop anF lo hi l /\ tidy_props anF lo hi rest.
    Proof. intros. destruct l; reflexivity. Qed.

    Lemma tidy_props_find : forall anF lo hi ps k c, tidy_props anF lo hi ps -> wfind k ps = Some c -> tidy_prop anF lo hi c.
    Proof.
      induction ps as [|k0 l rest IH]; intros k c Ht Hf; [discriminate|]. apply (proj1 (tidy_props_cons _ _ _ _ _ _)) in Ht. destruct Ht as [H1 H2].
      cbn [wfind] in Hf. destruct (key_eqb k k0); [injection Hf as <-; exact H1|eauto].
    Qed.

    Lemma tidy_refs : forall anF,
      (forall l, tidy anF l -> forall st t, sub_ref l st t -> In t (keysof anF))
      /\ (forall ps lo hi, tidy_props anF lo hi ps -> forall st t, sub_ref_props ps st t -> In t (keysof anF))
      /\ (forall ls, tidy_alts anF ls -> forall st t, sub_ref_alts ls st t -> In t (keysof anF)).
    Proof.
      intros anF. apply wloc_wprops_walts_ind; cbn [sub_ref sub_ref_props sub_ref_alts]; try contradiction.
      - intros st sz isz cnt it IH sch (_ & _ & T & _). exact (IH T).
      - intros st sz ps IH T. exact (IH _ _ T).
      - intros st sz alts IH T. exact (IH T).
      - intros k l IHl rest IHr lo hi T st t Hs. apply (proj1 (tidy_props_cons _ _ _ _ _ _)) in T. destruct T as [T1 T2].
        destruct Hs as [Hs|Hs]; [|exact (IHr _ _ T2 _ _ Hs)].
        destruct l; try exact (IHl T1 _ _ Hs). destruct Hs as [_ <-]. destruct T1 as [lt [Hin _]]. exact (in_keysof _ _ _ Hin).
      - intros l IHl rest IHr [T1 T2] st t [Hs|Hs]; eauto.
    Qed.

    (* a walk from an to an' registers ranked anchors, and T as well as the tidiness of what was registered hold
       relative to any anchors that keep the registrations *)
    Definition tidily (an an' : wanchors) (T : wanchors -> Prop) : Prop :=
      exists new, an' = new ++ an /\ rankedF new /\ forall anF, incl new anF -> T anF /\ all_an (tidy anF) new.

    Lemma tidily_nil : forall an (T : wanchors -> Prop), (forall anF, T anF) -> tidily an an T.
    Proof. intros an T H. exists []. repeat split; auto using all_an_nil. Qed.

    Lemma tidily_node : forall a l an an1,
      tidily an an1 (fun anF => tidy anF l) -> tidily an (wreg a l an1) (fun anF => tidy anF l).
    Proof.
      intros a l an an1 [new [-> [Hr Ht]]]. exists (wreg a l new). split; [apply wreg_app|]. split.
      - apply rankedF_wreg; [|exact Hr]. exact (proj1 (tidy_refs new) l (proj1 (Ht new (incl_refl _)))).
      - intros anF Hi. destruct (Ht anF (incl_tran (incl_wreg a l new) Hi)) as [T1 T2]. split; [exact T1|]. now apply all_an_wreg.
    Qed.

    Lemma tidily_app : forall an an1 an2 (T1 T2 : wanchors -> Prop),
      tidily an an1 T1 -> tidily an1 an2 T2 -> tidily an an2 (fun anF => T1 anF /\ T2 anF).
    Proof.
      intros an an1 an2 T1 T2 [n1 [-> [Hr1 H1]]] [n2 [-> [Hr2 H2]]]. exists (n2 ++ n1). split; [apply app_assoc|].
      split; [now apply rankedF_app|]. intros anF [Hi2 Hi1]%incl_app_inv.
      destruct (H1 anF Hi1) as [A1 B1]. destruct (H2 anF Hi2) as [A2 B2]. split; [now split|now apply all_an_app].
    Qed.

    (* the targets a later $ref property of the same object may name (Spec/Coherence.v redef_props) *)
    Definition seen_after (p : js) (seen : list key) : list key :=
      match p with JOne _ alts => alt_anchors alts ++ seen | _ => seen end.

    Lemma redef_props_ref : forall seen k t rest,
      redef_props seen (PCons k (JRef t) rest) = true -> In t seen /\ redef_props seen rest = true.
    Proof. intros seen k t rest H. apply andb_prop in H. now rewrite <- memk_In. Qed.

    Lemma redef_props_plain : forall seen k p rest, is_jref p = false ->
      redef_props seen (PCons k p rest) = true -> redef_ok p = true /\ redef_props (seen_after p seen) rest = true.
    Proof. intros seen k p rest Hp H. destruct p; try discriminate; cbn [redef_props] in H; now apply andb_prop in H. Qed.

    (* the alternatives of a oneOf property are registered and lie inside it *)
    Lemma seen_after_inside : forall p st an pl n1 anF lo seen,
      walkv dcount r p st an = Ok (pl, n1 ++ an) -> incl n1 anF -> lo <= st ->
      (forall t, In t seen -> inside anF lo st t) -> forall t, In t (seen_after p seen) -> inside anF lo (st + wsize pl) t.
    Proof.
      intros p st an pl n1 anF lo seen E Hi Hlo Hs t Ht.
      assert (Hold : In t seen -> inside anF lo (st + wsize pl) t).
      { intros H. apply (inside_mono anF anF lo lo st); auto using incl_refl. lia. }
      destruct p as [| | | |a alts|]; try exact (Hold Ht).
      apply in_app_or in Ht. destruct Ht as [Ht|Ht]; [|now apply Hold].
      destruct alts as [|s0 rest]; [destruct Ht|]. rewrite walkv_one in E.
      destruct (walkv_alts dcount r (ACons s0 rest) st an) as [[als ana]|e] eqn:Ea; [|discriminate]. injection E as <- E.
      destruct (proj2 (proj2 walkv_keys) _ _ _ _ _ Ea) as [na [[-> _] Hent]].
      rewrite wreg_app in E. apply app_inv_tail in E. subst n1.
      destruct (Hent t Ht) as [lt [G1 [G2 G3]]]. exists lt. split; [apply Hi, incl_wreg, G1|]. unfold wend. cbn [wsize]. lia.
    Qed.

    Lemma walkv_tidy :
      (forall s st an l an', walkv dcount r s st an = Ok (l, an') -> redef_ok s = true -> NoDup (jkeys s) ->
         tidily an an' (fun anF => tidy anF l))
      /\ (forall ps off an pls off' an', walkv_props dcount r ps off an = Ok (pls, off', an') ->
          forall seen, redef_props seen ps = true -> NoDup (jkeys_props ps) ->
          tidily an an' (fun anF => forall lo hi, lo <= off -> off' <= hi -> (forall t, In t seen -> inside anF lo off t) ->
                                     tidy_props anF lo hi pls))
      /\ (forall alts st an als an', walkv_alts dcount r alts st an = Ok (als, an') ->
          redef_alts alts = true -> NoDup (jkeys_alts alts) -> tidily an an' (fun anF => tidy_alts anF als)).
    Proof.
      (* a table: the walk of its first occurrence is the one at hand *)
      assert (Htab : forall a n its st an sub an1, walkv dcount r its st an = Ok (sub, an1) ->
                redef_ok its = true -> NoDup (jkeys its) -> tidily an an1 (fun anF => tidy anF sub) ->
                tidily an (wreg a (WArr st (wsize sub * n) (wsize sub) n sub its) an1)
                  (fun anF => tidy anF (WArr st (wsize sub * n) (wsize sub) n sub its))).
      { intros a n its st an sub an1 E Hok Hnd [new [-> [Hr Ht]]]. apply tidily_node. exists new.
        split; [reflexivity|]. split; [exact Hr|]. intros anF Hi. destruct (Ht anF Hi) as [T1 T2]. split; [|exact T2].
        repeat split; auto. exists an, new. now split. }
      apply walkv_ind.
      - intros a sz st an _ _. apply tidily_node, tidily_nil. now intros anF.
      - intros a n its st an sub an1 E IH Hok Hnd. apply ListFactsP.NoDup_app_r in Hnd. auto.
      - intros a c its st an ca cst csz sub an1 _ E IH Hok Hnd. apply ListFactsP.NoDup_app_r in Hnd. auto.
      - intros a ps st an pls off an1 E IH Hok Hnd. apply ListFactsP.NoDup_app_r in Hnd. apply walkv_props_offset in E.
        destruct (IH [] Hok Hnd) as [new [-> [Hr Ht]]]. apply tidily_node. exists new.
        split; [reflexivity|]. split; [exact Hr|]. intros anF Hi. destruct (Ht anF Hi) as [T1 T2]. split; [|exact T2].
        apply T1; [lia|lia|intros t []].
      - intros a s0 rest st an als an1 _ IH Hok Hnd. apply ListFactsP.NoDup_app_r in Hnd. apply tidily_node. exact (IH Hok Hnd).
      - discriminate.
      - intros off an seen _ _. apply tidily_nil. now intros anF.
      - intros k p rest off an pl an1 rl off' an2 E IHp Er IHr seen Hok Hnd.
        pose proof (ListFactsP.NoDup_app_l _ _ Hnd) as Hnd1. pose proof (ListFactsP.NoDup_app_r _ _ Hnd) as Hnd2.
        apply walkv_props_offset in Er. destruct (is_jref p) eqn:Ej.
        + (* a $ref placeholder: registers nothing and takes no room *)
          destruct p as [| | | | |t]; try discriminate. apply redef_props_ref in Hok. destruct Hok as [Hin Hok].
          rewrite walkv_ref in E. injection E as <- <-. rewrite wsize_ref, Nat.add_0_r in *.
          destruct (IHr seen Hok Hnd2) as [new [-> [Hr Ht]]]. exists new. split; [reflexivity|]. split; [exact Hr|].
          intros anF Hi. destruct (Ht anF Hi) as [T1 T2]. split; [|exact T2].
          intros lo hi Hlo Hhi Hsn. apply tidy_props_cons. split; [|now apply T1].
          apply (inside_mono anF anF lo lo off); auto using incl_refl. lia.
        + apply (redef_props_plain _ _ _ _ Ej) in Hok. destruct Hok as [Hp Hok].
          destruct (IHp Hp Hnd1) as [n1 [-> [Hr1 Ht1]]]. destruct (IHr _ Hok Hnd2) as [n2 [-> [Hr2 Ht2]]].
          exists (n2 ++ wreg (js_anchor p) pl n1). split; [now rewrite <- app_assoc, wreg_app|]. split.
          * apply rankedF_app; [exact Hr2|]. apply rankedF_wreg; [|exact Hr1].
            exact (proj1 (tidy_refs n1) pl (proj1 (Ht1 n1 (incl_refl _)))).
          * intros anF [Hi2 Hi1]%incl_app_inv.
            pose proof (incl_tran (incl_wreg _ _ _) Hi1) as Hi1'.
            destruct (Ht1 anF Hi1') as [T1 A1]. destruct (Ht2 anF Hi2) as [T2 A2].
            split; [|apply all_an_app; [exact A2|now apply all_an_wreg]].
            intros lo hi Hlo Hhi Hsn. apply tidy_props_cons. split; [now apply tidy_prop_plain|].
            apply T2; [lia|lia|]. exact (seen_after_inside _ _ _ _ _ _ _ _ E Hi1' Hlo Hsn).
      - intros st an _ _. apply tidily_nil. now intros anF.
      - intros s rest st an l an1 ls an2 _ IHs _ IHr [O1 O2]%andb_prop Hnd.
        exact (tidily_app _ _ _ _ _ (IHs O1 (ListFactsP.NoDup_app_l _ _ Hnd)) (IHr O2 (ListFactsP.NoDup_app_r _ _ Hnd))).
    Qed.

    (* what holds of every navigator obtained from unpacker.nav on a cobol_like schema by names and indices *)
    Definition J (v : vnav) : Prop :=
      inv v /\ coherent (vn_an v) /\ tidy (vn_an v) (vn_loc v)
      /\ (forall k l, In (k, l) (vn_an v) -> tidy (vn_an v) l).

    Lemma J_walk : forall s st l an, redef_ok s = true -> NoDup (jkeys s) ->
      walkv dcount r s st [] = Ok (l, an) -> J (mkvnav l an).
    Proof.
      intros s st l an Hok Hnd Ew. split; [exact (inv_walk _ _ _ _ Ew)|]. cbn [vn_an vn_loc].
      destruct (proj1 walkv_keys _ _ _ _ _ Ew) as [n1 [[E1 [_ Hc]] _]].
      destruct (proj1 walkv_tidy _ _ _ _ _ Ew Hok Hnd) as [n2 [E2 [_ Ht]]].
      rewrite app_nil_r in E1, E2. subst n1 n2. split; [now apply Hc|]. apply Ht, incl_refl.
    Qed.

    Lemma J_of : forall s v, cobol_like s = true -> vnav_of dcount r s = Ok v -> J v.
    Proof.
      intros s [l an] [H1 H2]%andb_prop E. apply nodupk_NoDup in H2.
      exact (J_walk _ _ _ _ H1 H2 (vnav_of_ok _ _ _ _ E)).
    Qed.

    Lemma J_path : forall p v v', J v -> vnav_path dcount r v p = Ok v' -> J v'.
    Proof.
      apply vnav_path_inv.
      - intros v k v' [Hinv [Hc [Ht Ha]]] E. pose proof (inv_name v k v' Hinv E) as Hinv'.
        destruct (vnav_name_ok _ _ _ E) as (st & sz & ps & c & Hl & Hf & Han & Hcc).
        unfold J. rewrite Han. split; [exact Hinv'|]. split; [exact Hc|]. split; [|exact Ha].
        rewrite Hl in Ht. pose proof (tidy_props_find _ _ _ _ _ _ Ht Hf) as Hp.
        destruct c; try (rewrite Hcc; exact Hp). apply wlookup_in_key in Hcc. exact (Ha _ _ Hcc).
      - intros v i [l an] [_ [_ [Ht _]]] E. destruct (vnav_index_ok _ _ _ _ _ E) as (st & sz & isz & cnt & it & sch & Hl & _ & Ew).
        rewrite Hl in Ht. destruct Ht as [Hok [Hnd _]]. exact (J_walk _ _ _ _ Hok Hnd Ew).
    Qed.

    Lemma J_reach : forall s p v0 v,
      cobol_like s = true -> vnav_of dcount r s = Ok v0 -> vnav_path dcount r v0 p = Ok v -> J v.
    Proof. intros s p v0 v Hc H0. apply J_path. exact (J_of s v0 Hc H0). Qed.

    Lemma name_inside_all : forall v k v', J v -> vnav_name v k = Ok v' ->
      wstart (vn_loc v) <= wstart (vn_loc v') /\ wend (vn_loc v') <= wend (vn_loc v).
    Proof.
      intros v k v' Hj E. destruct (ref_prop v k) eqn:Er; [|exact (name_inside v k v' (proj1 Hj) E Er)].
      destruct Hj as [_ [Hc [Ht _]]]. destruct (vnav_name_ok _ _ _ E) as (st & sz & ps & c & Hl & Hf & _ & Hcc).
      unfold ref_prop in Er. rewrite Hl, Hf in Er. rewrite Hl in *. pose proof (tidy_props_find _ _ _ _ _ _ Ht Hf) as Hp.
      destruct c; try discriminate. destruct Hp as [lt [Hin [H1 H2]]].
      rewrite (wlookup_coherent _ _ lt Hc Hin) in Hcc. injection Hcc as <-.
      unfold wend at 2. cbn [wstart wsize]. lia.
    Qed.

    (* value() reads nothing outside the location's own range *)
    Lemma foot_tidy : forall an, coherent an -> all_an wf an -> all_an (tidy an) an ->
      forall f l, wf l -> tidy an l -> forall o a b, In (a, b) (wfoot f an l o) -> wstart l + o <= a /\ b <= wend l + o.
    Proof.
      intros an Hc Hwf Hta.
      assert (Hbody : forall df,
        (forall k lt, In (k, lt) an -> forall o a b, In (a, b) (df lt o) -> wstart lt + o <= a /\ b <= wend lt + o) ->
        (forall l, wf l -> tidy an l -> forall o a b, In (a, b) (foot_body an df l o) -> wstart l + o <= a /\ b <= wend l + o)
        /\ (forall ps, forall off lo hi, wf_props ps off -> tidy_props an lo hi ps -> lo <= off -> off + wsum_props ps <= hi ->
              forall o a b, In (a, b) (foot_props an df ps o) -> lo + o <= a /\ b <= hi + o)
        /\ (forall ls, forall st sz, wf_alts ls st sz -> tidy_alts an ls ->
              first_alt (fun l => forall o a b, In (a, b) (foot_body an df l o) -> st + o <= a /\ b <= st + sz + o) ls)).
      { intros df Hdf. apply wloc_wprops_walts_ind; unfold wend; cbn [wstart wsize wsum_props].
        - intros a st sz _ _ o x y H. rewrite fb_atom in H. destruct H as [H|[]]. injection H as <- <-. lia.
        - intros st sz isz cnt it IH sch (H1 & H2 & H3 & H4 & _) (_ & _ & Ht & _) o x y H.
          rewrite fb_arr in H. apply in_flat_map in H. destruct H as [j [Hj Hin]]. apply in_seq in Hj.
          destruct (IH H4 Ht _ _ _ Hin) as [G1 G2].
          pose proof (occ_le isz cnt j (proj2 Hj)). lia.
        - intros st sz ps IH [H1 H2] Ht o x y H. rewrite fb_obj in H.
          apply (IH st st (st + sz) H1 Ht (le_n _)); [lia|exact H].
        - intros st sz alts IH Hw Ht o x y H. rewrite fb_one in H.
          destruct alts as [|first rest]; [destruct H|]. exact (IH st sz Hw Ht _ _ _ H).
        - intros st t _ [].
        - intros off lo hi _ _ _ _ o x y [].
        - intros k l IHl rest IHr off lo hi (H1 & H2 & H3) Ht Hlo Hhi o x y H.
          apply (proj1 (tidy_props_cons _ _ _ _ _ _)) in Ht. destruct Ht as [T1 T2].
          rewrite fp_cons in H. apply in_app_or in H. destruct H as [H|H]; [|apply (IHr (off + wsize l) lo hi H3 T2); [lia|lia|exact H]].
          destruct (tidy_prop_cases _ _ _ _ T1) as [T|(st' & t' & -> & lt & Hin & L1 & L2)].
          + destruct (IHl H2 T _ _ _ H) as [G1 G2]. lia.
          + (* a $ref placeholder reads what its target reads *)
            rewrite fb_ref, (wlookup_coherent an t' lt Hc Hin) in H.
            destruct (Hdf _ lt Hin _ _ _ H) as [G1 G2]. unfold wend in *. lia.
        - intros st sz _ _. exact I.
        - intros l IHl rest _ st sz (H1 & H2 & H3 & _) [T1 _] o x y H.
          destruct (IHl H3 T1 _ _ _ H) as [G1 G2]. lia. }
      induction f as [|f IH]; intros l Hw Ht o a b H.
      - rewrite wfoot_0 in H. apply (proj1 (Hbody (fun _ _ => []) (fun _ _ _ _ _ _ H0 => match H0 with end)) l Hw Ht o a b H).
      - rewrite wfoot_S in H. apply (proj1 (Hbody (wfoot f an) (fun k lt Hin => IH lt (Hwf _ _ Hin) (Hta _ _ Hin))) l Hw Ht o a b H).
    Qed.

    Lemma foot_inside_J : forall v, J v -> foot_inside v = true.
    Proof.
      intros v [[Hw Hwa] [Hc [Ht Ha]]]. apply foot_inside_iff. intros a b Hab. rewrite vnav_foot_unf in Hab.
      destruct (foot_tidy _ Hc Hwa Ha _ _ Hw Ht 0 a b Hab) as [G1 G2]. lia.
    Qed.

    Lemma commute_index_J : forall v st sz isz cnt it sch (xs : list pvA) i,
      J v -> vn_loc v = WArr st sz isz cnt it sch -> odo_free sch = true ->
      vnav_value r dec v = Some (Ok (PList xs)) -> i < cnt ->
      exists v' x, vnav_index dcount r v i = Ok v' /\ nth_error xs i = Some x /\ vnav_value r dec v' = Some (Ok x).
    Proof.
      intros [l an] st sz isz cnt it sch xs i [Hinv [Hc [Ht Ha]]] Hl Hof Hv Hi. cbn [vn_loc vn_an] in *. subst l.
      destruct Ht as (Hok & Hnd & _ & an0 & nw & Ew & Hsub).
      (* the first occurrence registered nw: ranked, and holding every target the item refers to *)
      destruct (proj1 walkv_tidy _ _ _ _ _ Ew Hok Hnd) as [n1 [E1 [Hrk Ht]]]. apply app_inv_tail in E1. subst n1.
      pose proof (proj1 (tidy_refs nw) it (proj1 (Ht nw (incl_refl _)))) as Hrefs.
      destruct (proj1 walkv_shift _ _ _ _ _ Ew Hof) as [n2 [E2 Hsh]]. apply app_inv_tail in E2. subst n2.
      set (D := isz * i).
      assert (Ei : vnav_index dcount r (mkvnav (WArr st sz isz cnt it sch) an) i = Ok (mkvnav (wshift D it) (shift_an D nw))).
      { rewrite vnav_index_unf. cbn [vn_loc]. apply Nat.leb_gt in Hi. now rewrite Hi, Hsh, app_nil_r. }
      rewrite vnav_value_unf in Hv. destruct (elem_value _ _ _ _ _ _ _ _ _ Hv Hi) as [x [Hx1 Hx2]].
      exists (mkvnav (wshift D it) (shift_an D nw)), x. split; [exact Ei|]. split; [exact Hx1|].
      rewrite vnav_value_unf. cbn [vn_loc vn_an]. unfold shift_an at 1. rewrite map_length.
      rewrite (shift_wvalue r an nw D Hc Hsub (fun k lk Hin => rankedF_closed nw k lk Hrk Hin) (length nw) it Hrefs 0).
      (* the fuel of the item's own anchors is enough, since they are ranked *)
      destruct (le_ge_dec (length nw) (length an)) as [Hle|Hge].
      - now rewrite <- (settled r an Hc nw Hrk Hsub it Hrefs (length an) (0 + D) Hle).
      - apply (wvalue_mono r an (length an)); [lia|exact Hx2].
    Qed.

    (* the items schema of every table, fixed or ODO, is free of ODO *)
    Fixpoint tabfree (s : js) : bool :=
      match s with
      | JAtom _ _ => true
      | JArr _ _ its => odo_free its
      | JOdo _ _ its => odo_free its
      | JObj _ ps => tabfree_props ps
      | JOne _ alts => tabfree_alts alts
      | JRef _ => true
      end
    with tabfree_props (ps : props) : bool :=
      match ps with PNil => true | PCons _ s r => tabfree s && tabfree_props r end
    with tabfree_alts (alts : jalts) : bool :=
      match alts with ANil => true | ACons s r => tabfree s && tabfree_alts r end.

    Lemma odo_free_tabfree :
      (forall s, odo_free s = true -> tabfree s = true)
      /\ (forall ps, odo_free_props ps = true -> tabfree_props ps = true)
      /\ (forall alts, odo_free_alts alts = true -> tabfree_alts alts = true).
    Proof.
      apply js_props_alts_ind; cbn [odo_free odo_free_props odo_free_alts tabfree tabfree_props tabfree_alts]; try discriminate; auto.
      - intros k s IHs rest IHr [H1 H2]%andb_prop. now rewrite IHs, IHr.
      - intros s IHs rest IHr [H1 H2]%andb_prop. now rewrite IHs, IHr.
    Qed.

    (* every table inside a location remembers an items schema without OCCURS DEPENDING ON *)
    Fixpoint ofree_loc (l : wloc) : bool :=
      match l with
      | WAtom _ _ _ => true
      | WArr _ _ _ _ it sch => odo_free sch && ofree_loc it
      | WObj _ _ ps => ofree_props ps
      | WOne _ _ alts => ofree_alts alts
      | WRef _ _ => true
      end
    with ofree_props (ps : wprops) : bool :=
      match ps with WPNil => true | WPCons _ l r => ofree_loc l && ofree_props r end
    with ofree_alts (ls : walts) : bool :=
      match ls with WANil => true | WACons l r => ofree_loc l && ofree_alts r end.

    Definition ofree_an (an : wanchors) : Prop := forall k l, In (k, l) an -> ofree_loc l = true.

    Lemma ofree_wreg : forall a l an, ofree_loc l = true -> ofree_an an -> ofree_an (wreg a l an).
    Proof. intros a l an. exact (all_an_wreg (fun l => ofree_loc l = true) a l an). Qed.

    Lemma walkv_tabfree :
      (forall s st an l an', walkv dcount r s st an = Ok (l, an') -> tabfree s = true ->
         ofree_loc l = true /\ (ofree_an an -> ofree_an an'))
      /\ (forall ps off an pls off' an', walkv_props dcount r ps off an = Ok (pls, off', an') -> tabfree_props ps = true ->
         ofree_props pls = true /\ (ofree_an an -> ofree_an an'))
      /\ (forall alts st an als an', walkv_alts dcount r alts st an = Ok (als, an') -> tabfree_alts alts = true ->
         ofree_alts als = true /\ (ofree_an an -> ofree_an an')).
    Proof.
      assert (Hnode : forall a l (an an1 : wanchors), ofree_loc l = true -> (ofree_an an -> ofree_an an1) ->
                ofree_loc l = true /\ (ofree_an an -> ofree_an (wreg a l an1))) by auto using ofree_wreg.
      apply walkv_ind; cbn [tabfree tabfree_props tabfree_alts]; auto.
      - intros a n its st an sub an1 _ IH Hof. destruct (IH (proj1 odo_free_tabfree its Hof)) as [H1 H2].
        apply Hnode; [cbn [ofree_loc]; now rewrite Hof, H1|exact H2].
      - intros a c its st an ca cst csz sub an1 _ _ IH Hof. destruct (IH (proj1 odo_free_tabfree its Hof)) as [H1 H2].
        apply Hnode; [cbn [ofree_loc]; now rewrite Hof, H1|exact H2].
      - intros a ps st an pls off an1 _ IH Hof. destruct (IH Hof). now apply Hnode.
      - intros a s0 rest st an als an1 _ IH Hof. destruct (IH Hof). now apply Hnode.
      - intros k p rest off an pl an1 rl off' an2 _ IHp _ IHr [O1 O2]%andb_prop.
        destruct (IHp O1) as [H1 H2]. destruct (IHr O2) as [G1 G2].
        split; [cbn [ofree_props]; now rewrite H1, G1|]. intros H. apply G2, ofree_wreg; auto.
      - intros s rest st an l an1 ls an2 _ IHs _ IHr [O1 O2]%andb_prop.
        destruct (IHs O1) as [H1 H2]. destruct (IHr O2) as [G1 G2].
        split; [cbn [ofree_alts]; now rewrite H1, G1|auto].
    Qed.

    Definition ofree_nav (v : vnav) : Prop := ofree_loc (vn_loc v) = true /\ ofree_an (vn_an v).

    Lemma ofree_find : forall ps k c, ofree_props ps = true -> wfind k ps = Some c -> ofree_loc c = true.
    Proof.
      induction ps as [|k0 l rest IH]; intros k c Hs Hf; [discriminate|]. cbn [ofree_props wfind] in *.
      apply andb_prop in Hs. destruct Hs as [H1 H2]. destruct (key_eqb k k0); [injection Hf as <-; exact H1|eauto].
    Qed.

    Lemma ofree_walk : forall s st l an, tabfree s = true -> walkv dcount r s st [] = Ok (l, an) -> ofree_nav (mkvnav l an).
    Proof.
      intros s st l an Hof Ew. destruct (proj1 walkv_tabfree _ _ _ _ _ Ew Hof) as [H1 H2]. split; [exact H1|]. apply H2. intros k l' [].
    Qed.

    Lemma ofree_of_tabfree : forall s v, tabfree s = true -> vnav_of dcount r s = Ok v -> ofree_nav v.
    Proof. intros s [l an] Hof E. exact (ofree_walk _ _ _ _ Hof (vnav_of_ok _ _ _ _ E)). Qed.

    Lemma ofree_path : forall p v v', ofree_nav v -> vnav_path dcount r v p = Ok v' -> ofree_nav v'.
    Proof.
      apply vnav_path_inv.
      - intros v k v' [Hl Ha] E. destruct (vnav_name_ok _ _ _ E) as (st & sz & ps & c & Hl' & Hf & Han & Hc).
        unfold ofree_nav. rewrite Han. split; [|exact Ha]. rewrite Hl' in Hl. pose proof (ofree_find _ _ _ Hl Hf) as Hc'.
        destruct c; try (rewrite Hc; exact Hc'). apply wlookup_in_key in Hc. exact (Ha _ _ Hc).
      - intros v i [l an] [Hl _] E. destruct (vnav_index_ok _ _ _ _ _ E) as (st & sz & isz & cnt & it & sch & Hl' & _ & Ew).
        rewrite Hl' in Hl. apply andb_prop in Hl. exact (ofree_walk _ _ _ _ (proj1 odo_free_tabfree _ (proj1 Hl)) Ew).
    Qed.
  End Rec.

  Lemma walkv_record_free : forall (r r' : list B),
    (forall s, odo_free s = true -> forall st an, walkv dcount r s st an = walkv dcount r' s st an)
    /\ (forall ps, odo_free_props ps = true -> forall off an, walkv_props dcount r ps off an = walkv_props dcount r' ps off an)
    /\ (forall alts, odo_free_alts alts = true -> forall st an, walkv_alts dcount r alts st an = walkv_alts dcount r' alts st an).
  Proof.
    intros r r'. apply js_props_alts_ind; cbn [odo_free odo_free_props odo_free_alts]; try discriminate; try reflexivity.
    - intros a n its IH Hof st an. rewrite !walkv_arr. now rewrite IH.
    - intros a ps IH Hof st an. rewrite !walkv_obj. now rewrite IH.
    - intros a alts IH Hof st an. destruct alts as [|s0 rest]; [reflexivity|]. rewrite !walkv_one. now rewrite IH.
    - intros k s IHs rest IHr [H1 H2]%andb_prop off an.
      rewrite !walkv_props_cons, IHs by exact H1.
      destruct (walkv dcount r' s off an) as [[pl an1]|e]; [|reflexivity]. now rewrite IHr.
    - intros s IHs rest IHr [H1 H2]%andb_prop st an.
      rewrite !walkv_alts_cons, IHs by exact H1.
      destruct (walkv dcount r' s st an) as [[l an1]|e]; [|reflexivity]. now rewrite IHr.
  Qed.

  (* two records that agree (as far as the count goes) on every counter field the walk registered
     give the same location tree and the same anchors *)
  Definition counters_agree (r r' : list B) (ks : list id) (an : wanchors) : Prop :=
    forall c a cst csz, In c ks -> In (KName c, WAtom a cst csz) an ->
      dcount (slice r cst (cst + csz)) = dcount (slice r' cst (cst + csz)).

  Lemma counters_agree_sub : forall r r' ks ks' an an',
    (forall c, In c ks' -> In c ks) -> (forall x, In x an' -> In x an) ->
    counters_agree r r' ks an -> counters_agree r r' ks' an'.
  Proof. intros r r' ks ks' an an' Hk Ha H c a cst csz Hc Hin. apply (H c a); auto. Qed.

  Lemma walkv_counters : forall (r r' : list B),
    (forall s st an l an', walkv dcount r s st an = Ok (l, an') -> counters_agree r r' (odo_keys s) an' ->
       walkv dcount r' s st an = Ok (l, an'))
    /\ (forall ps off an pls off' an', walkv_props dcount r ps off an = Ok (pls, off', an') -> counters_agree r r' (odo_keys_props ps) an' ->
       walkv_props dcount r' ps off an = Ok (pls, off', an'))
    /\ (forall alts st an als an', walkv_alts dcount r alts st an = Ok (als, an') -> counters_agree r r' (odo_keys_alts alts) an' ->
       walkv_alts dcount r' alts st an = Ok (als, an')).
  Proof.
    intros r r'.
    assert (Hnode : forall ks a l an1, counters_agree r r' ks (wreg a l an1) -> counters_agree r r' ks an1).
    { intros ks a l an1. apply counters_agree_sub; [auto|apply incl_wreg]. }
    apply (walkv_ind r).
    - intros a sz st an _. apply walkv_atom.
    - intros a n its st an sub an1 _ IH H. now rewrite walkv_arr, IH by eauto.
    - intros a c its st an ca cst csz sub an1 El Es IH H. rewrite walkv_odo, El, IH.
      + rewrite (H c ca cst csz); [reflexivity|now left|].
        destruct (proj1 (walkv_extends r) _ _ _ _ _ Es) as [new ->]. apply incl_wreg, in_or_app. right. now apply wlookup_in_key.
      + apply Hnode in H. revert H. apply counters_agree_sub; [intros c' Hc'; now right|auto].
    - intros a ps st an pls off an1 _ IH H. now rewrite walkv_obj, IH by eauto.
    - intros a s0 rest st an als an1 _ IH H. now rewrite walkv_one, IH by eauto.
    - reflexivity.
    - reflexivity.
    - intros k p rest off an pl an1 rl off' an2 _ IHp Er IHr H. rewrite walkv_props_cons, IHp, IHr; [reflexivity| |].
      + revert H. apply counters_agree_sub; [apply incl_appr|]; apply incl_refl.
      + destruct (proj1 (proj2 (walkv_extends r)) _ _ _ _ _ _ Er) as [n2 ->]. revert H.
        apply counters_agree_sub; [apply incl_appl, incl_refl|apply incl_appr, incl_wreg].
    - reflexivity.
    - intros s rest st an l an1 ls an2 _ IHs Er IHr H. rewrite walkv_alts_cons, IHs, IHr; [reflexivity| |].
      + revert H. apply counters_agree_sub; [apply incl_appr|]; apply incl_refl.
      + destruct (proj2 (proj2 (walkv_extends r)) _ _ _ _ _ Er) as [n2 ->]. revert H.
        apply counters_agree_sub; [apply incl_appl|apply incl_appr]; apply incl_refl.
  Qed.

  Theorem nav_counters : forall (r r' : list B) s v,
    vnav_of dcount r s = Ok v -> counters_agree r r' (odo_keys s) (vn_an v) -> vnav_of dcount r' s = Ok v.
  Proof.
    intros r r' s [l an] E H. apply vnav_of_ok in E. now rewrite vnav_of_unf, (proj1 (walkv_counters r r') _ _ _ _ _ E H).
  Qed.
End Value.

Section Erase.
  Variable B : Type.
  Variable dcount : list B -> nat.
  Variable r : list B.

  Lemma lsize_erase : forall l, lsize (erase l) = wsize l.
  Proof. destruct l; reflexivity. Qed.
  Lemma lstart_erase : forall l, lstart (erase l) = wstart l.
  Proof. destruct l; reflexivity. Qed.
  Lemma max_size_erase : forall ls, max_size (erase_alts ls) = wmax_size ls.
  Proof. induction ls as [|l rest IH]; [reflexivity|]. cbn [erase_alts max_size wmax_size]. now rewrite lsize_erase, IH. Qed.
  Lemma lookup_erase : forall k an, lookup k (erase_an an) = option_map erase (wlookup k an).
  Proof.
    intros k an. induction an as [|[k' l] an IH]; [reflexivity|]. cbn [erase_an map lookup wlookup fst snd].
    destruct (key_eqb k k'); [reflexivity|exact IH].
  Qed.
  Lemma reg_erase : forall a l an, reg a (erase l) (erase_an an) = erase_an (wreg a l an).
  Proof. intros a l an. destruct a; reflexivity. Qed.
  Lemma find_prop_erase : forall k ps, find_prop k (erase_props ps) = option_map erase (wfind k ps).
  Proof.
    intros k ps. induction ps as [|k' l rest IH]; [reflexivity|]. cbn [erase_props find_prop wfind].
    destruct (key_eqb k k'); [reflexivity|exact IH].
  Qed.

  Definition erase_res (x : res (wloc * wanchors)) : res (loc * anchors) :=
    match x with Ok (l, an) => Ok (erase l, erase_an an) | Err e => Err e end.

  (* LocationMaker.walk of Model/LayoutValue.v is LocationMaker.walk of Model/Layout.v (C01) with the atoms annotated *)
  Lemma walkv_erase :
    (forall s st an, walk dcount r s st (erase_an an) = erase_res (walkv dcount r s st an))
    /\ (forall ps off an, walk_props dcount r ps off (erase_an an) =
          match walkv_props dcount r ps off an with
          | Ok (pls, off', an') => Ok (erase_props pls, off', erase_an an') | Err e => Err e end)
    /\ (forall alts st an, walk_alts dcount r alts st (erase_an an) =
          match walkv_alts dcount r alts st an with
          | Ok (als, an') => Ok (erase_alts als, erase_an an') | Err e => Err e end).
  Proof.
    apply js_props_alts_ind.
    - intros a sz st an. rewrite walkv_atom, LayoutP.walk_atom. cbn [erase_res erase]. now rewrite <- reg_erase.
    - intros a n its IH st an. rewrite walkv_arr, LayoutP.walk_arr. rewrite IH.
      destruct (walkv dcount r its st an) as [[sub an1]|e]; [|reflexivity]. cbn [erase_res erase].
      rewrite lsize_erase. now rewrite <- reg_erase.
    - intros a c its IH st an. rewrite walkv_odo, LayoutP.walk_odo. rewrite lookup_erase.
      destruct (wlookup (KName c) an) as [[ca cst csz| | | |]|]; try reflexivity.
      cbn [option_map erase]. rewrite IH.
      destruct (walkv dcount r its st an) as [[sub an1]|e]; [|reflexivity]. cbn [erase_res erase].
      rewrite lsize_erase. now rewrite <- reg_erase.
    - intros a ps IH st an. rewrite walkv_obj, LayoutP.walk_obj. rewrite IH.
      destruct (walkv_props dcount r ps st an) as [[[pls off] an1]|e]; [|reflexivity]. cbn [erase_res erase].
      now rewrite <- reg_erase.
    - intros a alts IH st an. destruct alts as [|s0 rest]; [reflexivity|]. rewrite walkv_one.
      rewrite LayoutP.walk_one.
      rewrite IH.
      destruct (walkv_alts dcount r (ACons s0 rest) st an) as [[als an1]|e]; [|reflexivity]. cbn [erase_res erase].
      rewrite max_size_erase. now rewrite <- reg_erase.
    - intros t st an. reflexivity.
    - intros off an. reflexivity.
    - intros k s IHs rest IHr off an. rewrite walkv_props_cons, LayoutP.walk_props_cons, IHs.
      destruct (walkv dcount r s off an) as [[pl an1]|e]; [|reflexivity]. cbn [erase_res].
      rewrite lsize_erase, reg_erase, IHr.
      destruct (walkv_props dcount r rest (off + wsize pl) (wreg (js_anchor s) pl an1)) as [[[rl off1] an2]|e]; reflexivity.
    - intros st an. reflexivity.
    - intros s IHs rest IHr st an. rewrite walkv_alts_cons, LayoutP.walk_alts_cons, IHs.
      destruct (walkv dcount r s st an) as [[l an1]|e]; [|reflexivity]. cbn [erase_res].
      rewrite IHr. destruct (walkv_alts dcount r rest st an1) as [[ls an2]|e]; reflexivity.
  Qed.

  Lemma nav_of_erase : forall s, nav_of dcount r s = erase_rnav (vnav_of dcount r s).
  Proof.
    intros s. rewrite LayoutP.nav_of_unf, vnav_of_unf. change (@nil (key * loc)) with (erase_an []).
    rewrite (proj1 walkv_erase). destruct (walkv dcount r s 0 []) as [[l an]|e]; reflexivity.
  Qed.

  Lemma nav_name_erase : forall v k, nav_name (erase_nav v) k = erase_rnav (vnav_name v k).
  Proof.
    intros [l an] k. rewrite LayoutP.nav_name_unf, vnav_name_unf. unfold erase_nav. cbn [n_loc n_an vn_loc vn_an].
    destruct l as [a st sz|st sz isz cnt it sch|st sz ps|st sz alts|st t]; try reflexivity.
    cbn [erase]. rewrite find_prop_erase. destruct (wfind k ps) as [c|]; [|reflexivity]. cbn [option_map].
    destruct c as [a' st' sz'|st' sz' isz' cnt' it' sch'|st' sz' ps'|st' sz' alts'|st' t']; try reflexivity.
    cbn [erase]. rewrite lookup_erase. destruct (wlookup t' an); reflexivity.
  Qed.

  Lemma nav_index_erase : forall v i, nav_index dcount r (erase_nav v) i = erase_rnav (vnav_index dcount r v i).
  Proof.
    intros [l an] i. rewrite LayoutP.nav_index_unf, vnav_index_unf. unfold erase_nav. cbn [n_loc n_an vn_loc vn_an].
    destruct l as [a st sz|st sz isz cnt it sch|st sz ps|st sz alts|st t]; try reflexivity.
    cbn [erase]. destruct (cnt <=? i); [reflexivity|]. change (@nil (key * loc)) with (erase_an []).
    rewrite (proj1 walkv_erase). destruct (walkv dcount r sch (st + isz * i) []) as [[l' an']|e]; reflexivity.
  Qed.

  Lemma nav_raw_erase : forall v, nav_raw r (erase_nav v) = vnav_raw r v.
  Proof. intros [l an]. rewrite LayoutP.nav_raw_unf, vnav_raw_unf. unfold erase_nav, lend, wend. cbn [n_loc vn_loc]. now rewrite lstart_erase, lsize_erase. Qed.
End Erase.

(* What cobol_parser emits for a well-formed record description (distinct ids) is cobol_like and free of OCCURS
   DEPENDING ON.  From here on wf is LayoutP.wf, C01's well-formedness of record descriptions, not the wf of location
   trees above. *)
Require Import SR.Proofs.LayoutP.

Lemma jkeys_keys_js :
  (forall s, jkeys s = keys_js s) /\ (forall ps, jkeys_props ps = keys_props ps) /\ (forall alts, jkeys_alts alts = keys_alts alts).
Proof.
  apply js_props_alts_ind; intros; cbn [jkeys jkeys_props jkeys_alts keys_js keys_props keys_alts]; try congruence; try reflexivity.
Qed.

(* build_alt never yields a bare oneOf or $ref *)
Definition plainish (s : js) : bool := match s with JOne _ _ | JRef _ => false | _ => true end.
Lemma build_alt_plainish : forall x, plainish (build_alt x) = true.
Proof. intros [i sz [|n|c] rd|i [|n|c] rd ks]; reflexivity. Qed.

Lemma redef_props_plain_step : forall seen k p rest, plainish p = true ->
  redef_props seen (PCons k p rest) = redef_ok p && redef_props seen rest.
Proof. intros seen k p rest H. destruct p; try discriminate; reflexivity. Qed.

Lemma anchor_build : forall x, elem_table x = false -> js_anchor (build_alt x) = Some (KName (item_id x)).
Proof. intros x H. now rewrite build_alt_anchor, H. Qed.

Lemma redef_alts_red : forall u xs, (forall y, in_kids y xs -> redef_ok (build_alt y) = true) -> redef_alts (alts_red u xs) = true.
Proof.
  induction xs as [|x xs IH]; intros H; [reflexivity|]. cbn [alts_red].
  assert (Hxs : redef_alts (alts_red u xs) = true) by (apply IH; intros y Hy; apply H; now right).
  destruct (item_redef x) as [u'|]; [|exact Hxs]. destruct (N.eqb u u'); [|exact Hxs].
  cbn [redef_alts]. rewrite (H x (or_introl eq_refl)). exact Hxs.
Qed.

Lemma alt_anchors_red : forall u xs y, in_kids y xs -> item_redef y = Some u -> elem_table y = false ->
  In (KName (item_id y)) (alt_anchors (alts_red u xs)).
Proof.
  induction xs as [|x xs IH]; intros y Hy Er Het; [destruct Hy|]. cbn [alts_red]. destruct Hy as [->|Hy].
  - rewrite Er, N.eqb_refl. cbn [alt_anchors]. rewrite (anchor_build _ Het). now left.
  - specialize (IH y Hy Er Het). destruct (item_redef x) as [u'|]; [|exact IH]. destruct (N.eqb u u'); [|exact IH].
    cbn [alt_anchors]. apply in_or_app. now right.
Qed.

Lemma redef_plain : forall tg ks seen, (forall y, in_kids y ks -> redef_ok (build_alt y) = true) ->
  redef_props seen (plain (kid_alts tg ks)) = true.
Proof.
  induction ks as [|x xs IH]; intros seen H; [reflexivity|]. rewrite kid_alts_cons. cbn [plain].
  rewrite redef_props_plain_step by apply build_alt_plainish. rewrite (H x (or_introl eq_refl)). cbn [andb].
  apply IH. intros y Hy. apply H. now right.
Qed.

Lemma redefiner_not_table : forall e xs bs y u,
  unions_ok e bs xs = true -> in_kids y xs -> item_redef y = Some u -> elem_table y = false.
Proof.
  induction xs as [|z zs IH]; intros bs y u Hu Hy Er; [destruct Hy|]. cbn [unions_ok] in Hu. destruct Hy as [->|Hy].
  - rewrite Er in Hu. apply andb_true_iff in Hu. destruct Hu as [Hu _]. apply andb_true_iff in Hu. destruct Hu as [Hu _].
    now apply negb_true_iff in Hu.
  - destruct (item_redef z); apply andb_true_iff in Hu; destruct Hu as [_ Hu]; eapply IH; eauto.
Qed.

(* the children loop: every $ref placeholder names an alternative of an earlier REDEFINES-x entry *)
Lemma redef_assemble : forall e ks seen bases,
  unions_ok e bases ks = true ->
  (forall y, in_kids y ks -> redef_ok (build_alt y) = true) ->
  (forall y u, in_kids y ks -> item_redef y = Some u -> In u (map fst bases) -> In (KName (item_id y)) seen) ->
  redef_props seen (assemble_d ks) = true.
Proof.
  induction ks as [|x xs IH]; intros seen bases Hu Hk Hinv; [reflexivity|].
  cbn [unions_ok] in Hu. cbn [assemble_d].
  assert (Hkxs : forall y, in_kids y xs -> redef_ok (build_alt y) = true) by (intros y Hy; apply Hk; now right).
  destruct (item_redef x) as [u|] eqn:Er.
  - apply andb_true_iff in Hu. destruct Hu as [Hu Hxs]. apply andb_true_iff in Hu. destruct Hu as [_ Hf].
    destruct (find (fun p => N.eqb (fst p) u) bases) as [[u' ext]|] eqn:Ef; [|discriminate].
    destruct (find_fst_In u bases _ Ef) as [Hin Heq]. cbn [fst] in *. subst u'.
    cbn [redef_props]. rewrite (proj2 (memk_In _ _) (Hinv x u (or_introl eq_refl) Er Hin)). cbn [andb].
    apply (IH seen bases Hxs Hkxs). intros y u0 Hy. apply Hinv. now right.
  - apply andb_true_iff in Hu. destruct Hu as [Hel Hxs].
    destruct (existsb (N.eqb (item_id x)) (redef_targets xs)) eqn:Ex.
    + rewrite orb_false_r in Hel. apply negb_true_iff in Hel.
      cbn [redef_props redef_alts]. rewrite (Hk x (or_introl eq_refl)), (redef_alts_red _ _ Hkxs). cbn [andb].
      set (seen' := alt_anchors (ACons (build_alt x) (alts_red (item_id x) xs)) ++ seen).
      assert (Hx : In (KName (item_id x)) seen').
      { unfold seen'. apply in_or_app. left. cbn [alt_anchors]. rewrite (anchor_build _ Hel). now left. }
      rewrite (proj2 (memk_In _ _) Hx). cbn [andb].
      apply (IH seen' ((item_id x, extent e x) :: bases) Hxs Hkxs).
      intros y u0 Hy Ery Hin. cbn [map fst] in Hin. destruct Hin as [<-|Hin].
      * unfold seen'. apply in_or_app. left. cbn [alt_anchors]. apply in_or_app. right.
        apply alt_anchors_red; [exact Hy|exact Ery|exact (redefiner_not_table e xs _ y _ Hxs Hy Ery)].
      * unfold seen'. apply in_or_app. right. apply (Hinv y u0); [now right|exact Ery|exact Hin].
    + rewrite redef_props_plain_step by apply build_alt_plainish. rewrite (Hk x (or_introl eq_refl)). cbn [andb].
      apply (IH seen ((item_id x, extent e x) :: bases) Hxs Hkxs).
      intros y u0 Hy Ery Hin. cbn [map fst] in Hin. destruct Hin as [<-|Hin].
      * exfalso. pose proof (redef_targets_spec xs y (item_id x) Hy Ery) as Ht. apply existsb_eqb_In in Ht. congruence.
      * apply (Hinv y u0); [now right|exact Ery|exact Hin].
Qed.

(* induction over the items of a well-formed record description, the children of a group at hand *)
Lemma wf_build_ind : forall e (Q : item -> Prop),
  (forall i sz oc rd, no_odo oc = true -> Q (Elem i sz oc rd)) ->
  (forall i oc rd ks, wf e (Group i oc rd ks) = true -> NoDup (ids (Group i oc rd ks)) ->
     (forall y, in_kids y ks -> Q y) -> Q (Group i oc rd ks)) ->
  (forall x, wf e x = true -> NoDup (ids x) -> Q x) /\
  (forall ks, wf_kids e ks = true -> NoDup (ids_kids ks) -> forall y, in_kids y ks -> Q y).
Proof.
  intros e Q He Hg. apply item_items_ind.
  - intros i sz oc rd Hw _. apply He. cbn [wf item_oc] in Hw. exact (proj1 (andb_prop _ _ Hw)).
  - intros i oc rd ks IH Hw Hnd. apply Hg; [exact Hw|exact Hnd|]. apply IH; [exact (proj1 (wf_group e i oc rd ks Hw))|now inversion Hnd].
  - intros _ _ y [].
  - intros x IHx xs IHxs Hw Hnd y Hy. cbn [wf_kids] in Hw. apply andb_prop in Hw. destruct Hw as [Hwx Hwxs].
    cbn [ids_kids] in Hnd. destruct Hy as [->|Hy].
    + apply IHx; [exact Hwx|exact (NoDup_app_l _ _ Hnd)].
    + apply IHxs; [exact Hwxs|exact (NoDup_app_r _ _ Hnd)|exact Hy].
Qed.

(* a well-formed group becomes an object over the flattened children loop, or a table of plain objects *)
Lemma group_built : forall e i oc rd ks, wf e (Group i oc rd ks) = true -> NoDup (ids (Group i oc rd ks)) ->
  wf_kids e ks = true /\ NoDup (ids_kids ks) /\ ~ In i (ids_kids ks) /\
  (unions_ok e [] ks = true /\ build_alt (Group i oc rd ks) = JObj (Some (KName i)) (assemble_d ks)
   \/ exists n, build_alt (Group i oc rd ks) = JArr (Some (KName i)) n (JObj None (plain (kid_alts [] ks)))).
Proof.
  intros e i oc rd ks Hw Hnd. destruct (wf_group e i oc rd ks Hw) as [Hwk Hoc].
  inversion Hnd as [|? ? Hi Hndk]; subst. repeat split; try assumption.
  destruct oc as [|n|c]; [left|right; now exists n|destruct Hoc]. split; [exact Hoc|]. now apply (build_group_once e).
Qed.

Lemma redef_ok_build : forall e,
  (forall x, wf e x = true -> NoDup (ids x) -> redef_ok (build_alt x) = true) /\
  (forall ks, wf_kids e ks = true -> NoDup (ids_kids ks) -> forall y, in_kids y ks -> redef_ok (build_alt y) = true).
Proof.
  intros e. apply wf_build_ind.
  - intros i sz [|n|c] rd H; [reflexivity|reflexivity|discriminate].
  - intros i oc rd ks Hw Hnd IH. destruct (group_built e i oc rd ks Hw Hnd) as (_ & _ & _ & [[Hu ->]|[n ->]]).
    + apply (redef_assemble e ks [] [] Hu IH). intros y u _ _ [].
    + now apply redef_plain.
Qed.

Local Notation own y := (keys_js (build_alt y)).

(* KRedef i is registered by the parent of i, never inside the schema of i itself *)
Lemma no_own_redef : forall e x, wf e x = true -> NoDup (ids x) -> ~ In (KRedef (item_id x)) (own x).
Proof.
  intros e x Hw Hnd. destruct x as [i sz oc rd|i oc rd ks].
  - destruct oc as [|n|c]; cbn; intuition discriminate.
  - destruct (group_built e i oc rd ks Hw Hnd) as (Hwk & Hndk & Hi & Hb). pose proof (proj2 (keys_build e) ks Hwk Hndk) as Hkids.
    cbn [item_id]. destruct Hb as [[Hu ->]|[n ->]]; cbn [keys_js js_anchor opt_list app]; intros [H|H]; try discriminate.
    + apply (keys_assemble_d ks Hkids), K_redef in H. contradiction.
    + apply (keys_plain [] ks Hkids), K_redef in H. contradiction.
Qed.

Lemma nodup_build : forall e,
  (forall x, wf e x = true -> NoDup (ids x) -> NoDup (own x)) /\
  (forall ks, wf_kids e ks = true -> NoDup (ids_kids ks) -> forall y, in_kids y ks -> NoDup (own y)).
Proof.
  intros e. apply wf_build_ind.
  - intros i sz [|n|c] rd H; [| |discriminate]; cbn; repeat constructor; intuition.
  - intros i oc rd ks Hw Hnd IH. destruct (group_built e i oc rd ks Hw Hnd) as (Hwk & Hndk & Hi & Hb).
    pose proof (proj2 (keys_build e) ks Hwk Hndk) as Hkids.
    destruct Hb as [[Hu ->]|[n ->]]; cbn [keys_js js_anchor opt_list app]; constructor.
    + intros H. apply (keys_assemble_d ks Hkids), K_name in H. contradiction.
    + apply nodup_assemble_gen; auto.
      intros y Hy. apply (no_own_redef e); [eapply wf_kids_in; eauto|eapply NoDup_ids_kid; eauto].
    + intros H. apply (keys_plain [] ks Hkids), K_name in H. contradiction.
    + now apply nodup_plain.
Qed.

(* what cobol_parser emits for a well-formed record description is cobol_like *)
Theorem cobol_like_build : forall e t, wf e t = true -> NoDup (ids t) -> cobol_like (build t) = true.
Proof.
  intros e t Hw Hnd. unfold cobol_like, build, uniq_keys. rewrite (proj1 (redef_ok_build e) t Hw Hnd). cbn [andb].
  apply nodupk_of_NoDup. rewrite (proj1 jkeys_keys_js). exact (proj1 (nodup_build e) t Hw Hnd).
Qed.

Lemma odo_free_alts_red : forall u xs, (forall y, in_kids y xs -> odo_free (build_alt y) = true) -> odo_free_alts (alts_red u xs) = true.
Proof.
  induction xs as [|x xs IH]; intros H; [reflexivity|]. cbn [alts_red].
  assert (Hxs : odo_free_alts (alts_red u xs) = true) by (apply IH; intros y Hy; apply H; now right).
  destruct (item_redef x) as [u'|]; [|exact Hxs]. destruct (N.eqb u u'); [|exact Hxs].
  cbn [odo_free_alts]. now rewrite (H x (or_introl eq_refl)).
Qed.

Lemma odo_free_plain : forall tg ks, (forall y, in_kids y ks -> odo_free (build_alt y) = true) -> odo_free_props (plain (kid_alts tg ks)) = true.
Proof.
  induction ks as [|x xs IH]; intros H; [reflexivity|]. rewrite kid_alts_cons. cbn [plain odo_free_props].
  rewrite (H x (or_introl eq_refl)). apply IH. intros y Hy. apply H. now right.
Qed.

Lemma odo_free_assemble : forall ks, (forall y, in_kids y ks -> odo_free (build_alt y) = true) -> odo_free_props (assemble_d ks) = true.
Proof.
  induction ks as [|x xs IH]; intros H; [reflexivity|].
  assert (Hxs : odo_free_props (assemble_d xs) = true) by (apply IH; intros y Hy; apply H; now right).
  cbn [assemble_d]. destruct (item_redef x) as [u|].
  - cbn [odo_free_props odo_free]. exact Hxs.
  - destruct (existsb (N.eqb (item_id x)) (redef_targets xs)).
    + cbn [odo_free_props odo_free odo_free_alts]. rewrite (H x (or_introl eq_refl)), odo_free_alts_red; [exact Hxs|].
      intros y Hy. apply H. now right.
    + cbn [odo_free_props]. now rewrite (H x (or_introl eq_refl)).
Qed.

Lemma odo_free_build : forall e,
  (forall x, wf e x = true -> NoDup (ids x) -> odo_free (build_alt x) = true) /\
  (forall ks, wf_kids e ks = true -> NoDup (ids_kids ks) -> forall y, in_kids y ks -> odo_free (build_alt y) = true).
Proof.
  intros e. apply wf_build_ind.
  - intros i sz [|n|c] rd H; [reflexivity|reflexivity|discriminate].
  - intros i oc rd ks Hw Hnd IH. destruct (group_built e i oc rd ks Hw Hnd) as (_ & _ & _ & [[Hu ->]|[n ->]]).
    + now apply odo_free_assemble.
    + now apply odo_free_plain.
Qed.

(* every navigator reached from unpacker.nav on what cobol_parser emits has both invariants *)
Lemma J_cobol : forall B (dcount : list B -> nat) r e t p v0 v, wf e t = true -> NoDup (ids t) ->
  vnav_of dcount r (build t) = Ok v0 -> vnav_path dcount r v0 p = Ok v -> J B dcount r v /\ ofree_nav v.
Proof.
  intros B dcount r e t p v0 v Hw Hnd H0 Hp. split.
  - exact (J_reach B dcount r _ p v0 v (cobol_like_build e t Hw Hnd) H0 Hp).
  - exact (ofree_path B dcount r p v0 v (ofree_of_tabfree B dcount r _ v0 (proj1 odo_free_tabfree _ (proj1 (odo_free_build e) t Hw Hnd)) H0) Hp).
Qed.
