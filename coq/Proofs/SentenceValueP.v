(* Property C07, known finding 5, on the text-layer model (Model/RefFormat.v reference_format,
   dde_sentences, compact): the sentence pattern of dde_sentences ends a data description entry at
   the FIRST period that is followed by white space, wherever it stands - also inside a VALUE
   literal.  The entry then carries only the clause text before that period; the rest of the
   literal is dropped (the scan resumes behind it and finds the next two digits).

   sentence_cut     for every entry  d1 d2 blank a . w b  whose text a holds no period-white-space pair:
                    the first sentence returned is (d1 d2, a), whatever b is;
   refuted_5        the witness copybook, evaluated. *)
From Coq Require Import NArith List.
Import ListNotations.
Require Import SR.Base.Res SR.Model.RefFormat SR.Spec.RefFormat SR.Proofs.RefFormatP.
(* Spec/SentenceValueWitness.v holds the definitions that theorem statements (Props/) mention; the parsing-only
   abbreviations let other files write them SentenceValueP.name as well. *)
Require Export SR.Spec.SentenceValueWitness.
Notation witness5 := SR.Spec.SentenceValueWitness.witness5 (only parsing).
Notation w5_written := SR.Spec.SentenceValueWitness.w5_written (only parsing).
Notation w5_got := SR.Spec.SentenceValueWitness.w5_got (only parsing).
Notation entry_texts := SR.Spec.SentenceValueWitness.entry_texts (only parsing).
Open Scope N_scope.

Lemma sentence_cut : forall (d1 d2 c : N) (a : line) (w : N) (b : line),
  is_digit d1 = true -> is_digit d2 = true -> is_ws c = false ->
  has_term (c :: a) = false -> is_ws w = true ->
  exists more, dde_sentences [[d1; d2; 32] ++ (c :: a) ++ 46 :: w :: b] = ([d1; d2], c :: a) :: more.
Proof.
  intros d1 d2 c a w b H1 H2 Hc Ha Hw. exists (scan 0 b).
  pose (e := {| e_lead := []; e_d1 := d1; e_d2 := d2; e_gap := [32]; e_body := c :: a; e_term := w |}).
  assert (W : forallb wf_entry [e] = true) by (unfold e, wf_entry; cbn [forallb e_lead e_d1 e_d2 e_gap e_body e_term]; rewrite H1, H2, Hc, Ha, Hw; reflexivity).
  unfold dde_sentences. transitivity (scan 0 (concat (map print_entry [e]) ++ b)); [|exact (sentences [e] b W)]. f_equal.
  cbn [concat map print_entry e_lead e_d1 e_d2 e_gap e_body e_term e app]. rewrite !app_nil_r, <- app_assoc. reflexivity.
Qed.

Lemma refuted_5 :
  entry_texts witness5 = Ok [([48; 49], [82]); ([48; 53], w5_got); ([48; 53], [70; 76; 68; 45; 66; 32; 80; 73; 67; 32; 88])]
  /\ w5_got <> w5_written
  /\ (forall got, entry_texts witness5 = Ok got -> ~ In w5_written (map snd got)).
Proof.
  assert (E : entry_texts witness5 =
              Ok [([48; 49], [82]); ([48; 53], w5_got); ([48; 53], [70; 76; 68; 45; 66; 32; 80; 73; 67; 32; 88])])
    by (vm_compute; reflexivity).
  split; [exact E|]. split; [discriminate|].
  intros got Hg. rewrite E in Hg. inversion Hg; subst got. cbn [map snd In].
  intros [H|[H|[H|[]]]]; discriminate.
Qed.

(* non-vacuity of sentence_cut: the witness entry is an instance *)
Example sentence_cut_example :
  is_digit 48 = true /\ is_digit 53 = true /\ is_ws 70 = false /\ has_term w5_got = false /\ is_ws 32 = true
  /\ [48; 53; 32] ++ w5_got ++ 46 :: 32 :: [66; 39; 46; 10] = skipn 9 w5_line2.
Proof. repeat split. Qed.
