(* Lemmas for C03c: EBCDIC files in RECFM V and VB read through the workbook facade (Model/WorkbookV.v).
   The framing is C05's (Proofs/RecfmP.v: V_record_iter_ok, VB_iters_any), the decoding of a record is
   the one already proved for RECFM N / F (Proofs/WorkbookP.v: records_decode). *)
From Coq Require Import NArith List Lia.
Import ListNotations.
Require Import SR.Base.Res SR.Spec.Transparency SR.Spec.TransparencyV SR.Spec.Recfm.
Require Import SR.Gen.Cp037.
Require Import SR.Model.Workbook SR.Model.WorkbookV.
Require SR.Model.Recfm.
Require Import SR.Proofs.RecfmP SR.Proofs.WorkbookP.
Open Scope nat_scope.

(* the facade run, given that the reader delivers exactly the encoded padded rows *)
Lemma read_v_ok (r : recfm_v) (kind : N) (wb_lrecl : option nat) (file : list N) (T : table) (widths : list nat) :
  NoDup (t_header T) -> fits widths T = true -> repertoire_ok T = true ->
  ebcdic_records_v r kind (sheet_lrecl wb_lrecl (layout_of (t_header T) widths)) file
    = Ok (map (write_ebcdic_row widths) (t_rows T)) ->
  read_ebcdic_v r kind wb_lrecl file (layout_of (t_header T) widths) (t_header T) = expected [([], pad_table widths T)].
Proof.
  intros Hnd Hfit Hrep Hrec. unfold read_ebcdic_v, expected, expected_rows. cbn [map fst snd pad_table t_rows].
  rewrite Hrec. cbn [bind]. rewrite rows_plain_some. cbn [bind]. do 3 f_equal.
  exact (records_decode T widths Hnd Hfit Hrep _ _ (incl_refl _) (prefixed_exact widths (t_rows T))).
Qed.

Lemma ebcdic_V_ok (kind : N) (wb_lrecl : option nat) (T : table) (widths : list nat) :
  NoDup (t_header T) -> fits widths T = true -> repertoire_ok T = true ->
  read_ebcdic_v RECFM_V kind wb_lrecl (write_ebcdic_V T widths) (layout_of (t_header T) widths) (t_header T)
  = expected [([], pad_table widths T)].
Proof.
  intros Hnd Hfit Hrep. apply read_v_ok; try assumption.
  unfold ebcdic_records_v, write_ebcdic_V. rewrite V_record_iter_ok. reflexivity.
Qed.

(* every grouping of the rows into blocks reads back; that the blocks fit their length words is what makes the image
   a file of bytes (image_VB_bytes) *)
Lemma ebcdic_VB_any (kind : N) (wb_lrecl : option nat) (T : table) (widths : list nat) (blocks : list (list (list text))) :
  NoDup (t_header T) -> fits widths T = true -> repertoire_ok T = true -> concat blocks = t_rows T ->
  read_ebcdic_v RECFM_VB kind wb_lrecl (write_ebcdic_VB blocks widths) (layout_of (t_header T) widths) (t_header T)
  = expected [([], pad_table widths T)].
Proof.
  intros Hnd Hfit Hrep Hcat. apply read_v_ok; try assumption.
  unfold ebcdic_records_v, write_ebcdic_VB. rewrite (proj1 (VB_iters_any kind _)), <- concat_map, Hcat. reflexivity.
Qed.

Lemma encode_char_byte c : (encode_char c <? 256)%N = true.
Proof.
  unfold encode_char, cp037_encode. destruct (index_in c cp037_table 0%N) as [b|] eqn:E; [|reflexivity].
  destruct (index_in_nth c _ _ _ E) as (j & -> & Hj).
  assert (Hlt : j < length cp037_table) by (apply nth_error_Some; congruence).
  change (length cp037_table) with 256 in Hlt. apply N.ltb_lt. lia.
Qed.

Lemma encode_text_bytes s : bytes_ok (encode_text s) = true.
Proof.
  unfold bytes_ok, encode_text. rewrite forallb_forall. intros b Hb.
  apply in_map_iff in Hb as (c & <- & _). apply encode_char_byte.
Qed.

Lemma rows_bytes widths (rows : list (list text)) : forallb bytes_ok (map (write_ebcdic_row widths) rows) = true.
Proof.
  rewrite forallb_forall. intros rec Hrec. apply in_map_iff in Hrec as (row & <- & _). apply encode_text_bytes.
Qed.

Lemma image_V_bytes (T : table) (widths : list nat) :
  fits widths T = true -> record_fits widths = true -> bytes_ok (write_ebcdic_V T widths) = true.
Proof.
  intros Hfit Hrf. unfold write_ebcdic_V. apply write_V_bytes; [|apply rows_bytes].
  unfold legal_V. rewrite forallb_forall. intros rec Hrec. apply in_map_iff in Hrec as (row & <- & Hrow).
  unfold fits_hdr, len4. change (write_ebcdic_row widths row) with (record_of widths row).
  rewrite (record_length widths T row Hfit Hrow). exact Hrf.
Qed.

Lemma sum_const {A} (f : A -> nat) (n : nat) (l : list A) :
  (forall x, In x l -> f x = n) -> list_sum (map f l) = length l * n.
Proof.
  induction l as [|x l IH]; intros H; [reflexivity|].
  cbn [map length]. change (list_sum (f x :: map f l)) with (f x + list_sum (map f l)).
  rewrite (H x (or_introl eq_refl)), IH by (intros y Hy; apply H; right; exact Hy). lia.
Qed.

(* Since fix eee0fb2 (Spec/Recfm.v) a legal block is one whose length word is representable; its records need not be
   non-empty, so a table without columns (records of no bytes) has legal blocks too. *)
Lemma legal_VB_table (T : table) (widths : list nat) (blocks : list (list (list text))) :
  fits widths T = true -> concat blocks = t_rows T ->
  forallb (block_fits widths) blocks = true ->
  legal_VB (map (map (write_ebcdic_row widths)) blocks) = true.
Proof.
  intros Hfit Hcat Hblk.
  assert (Hrl : forall b row, In b blocks -> In row b -> length (write_ebcdic_row widths row) = list_sum widths).
  { intros b row Hb Hrow. apply (record_length widths T row Hfit). rewrite <- Hcat. apply in_concat. exists b. split; assumption. }
  unfold legal_VB. rewrite forallb_forall. intros b' Hb'. apply in_map_iff in Hb' as (b & <- & Hb).
  (* as an equation between the two tests (a conversion from the hypothesis to its unfolded form is slow to check) *)
  rewrite forallb_forall in Hblk. rewrite <- (Hblk b Hb).
  unfold legal_block, block_fits, block_len. rewrite map_map, (sum_const _ (list_sum widths + 4)); [reflexivity|].
  intros row Hrow. rewrite (Hrl b row Hb Hrow). reflexivity.
Qed.

Lemma image_VB_bytes (T : table) (widths : list nat) (blocks : list (list (list text))) :
  fits widths T = true -> concat blocks = t_rows T ->
  forallb (block_fits widths) blocks = true -> bytes_ok (write_ebcdic_VB blocks widths) = true.
Proof.
  intros Hfit Hcat Hblk. unfold write_ebcdic_VB.
  apply write_VB_bytes; [apply (legal_VB_table T); assumption|].
  rewrite forallb_forall. intros b' Hb'. apply in_map_iff in Hb' as (b & <- & _). apply rows_bytes.
Qed.
