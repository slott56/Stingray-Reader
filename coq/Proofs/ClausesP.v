(* Model/Clauses.v (the clause recogniser as it is) against Spec/Clauses.v (entries, spellings, printer).
   A reserved word in any letter case is matched by its literal ([lit_cased]) and by no literal that differs from it
   ([lit_mismatch]).  An alternative fails on a text on which the literals it can begin with fail ([alt_no]), so on a
   printed clause every alternative before the right one fails ([token_at_clause]), and the right one returns that
   clause's groups and stops exactly at its end.  Induction over the clause list gives the scan of an entry; its merged
   groups are the expected dictionary ([clause_dict_printer]), whose content depends neither on the spelling
   ([expected_content]) nor on the order of the clauses ([abstract_perm]); [naming]: the name DDE.__init__ derives from it. *)
From Coq Require Import NArith List Bool Lia Arith ZifyBool Permutation.
Import ListNotations.
Require Import SR.Base.Res SR.Gen.ClausesParams SR.Spec.Clauses SR.Model.Clauses.
Require SR.Proofs.ListFactsP.
(* Spec/ClausesWf.v holds the definitions that theorem statements (Props/) mention; the parsing-only abbreviations
   let other files write them ClausesP.name as well. *)
Require Export SR.Spec.ClausesWf.
Notation gmap := SR.Spec.ClausesWf.gmap (only parsing).
Notation record_of := SR.Spec.ClausesWf.record_of (only parsing).
Notation result_for := SR.Spec.ClausesWf.result_for (only parsing).
Open Scope N_scope.
(* ZifyBool also installs a search for boolean constraints as lia's post-processing hook, for every file that loads it;
   the tests decided by lia in this file need only ZifyBool's instances *)
Ltac Zify.zify_post_hook ::= idtac.

(* ================================================================ 1. characters *)

Lemma sepc_cases c : sepc c = true -> c = 32 \/ c = 9 \/ c = 10 \/ c = 13 \/ c = 44 \/ c = 59.
Proof. unfold sepc, is_blank, s_mem, existsb. lia. Qed.

Lemma blank_sepc c : is_blank c = true -> sepc c = true.
Proof. unfold sepc. intros ->. reflexivity. Qed.

Lemma sepc_model c : sepc c = true ->
  is_sp c = true /\ is_name c = false /\ is_nd c = false /\ up c = c /\ kwc c = false.
Proof. intros H. destruct (sepc_cases c H) as [->|[->|[->|[->|[->| ->]]]]]; vm_compute; auto. Qed.

Lemma blank_is_ws c : is_blank c = true -> is_ws c = true.
Proof.
  intros H. destruct (sepc_cases c (blank_sepc c H)) as [->|[->|[->|[->|[->| ->]]]]]; (reflexivity || discriminate H).
Qed.

Definition printable_char (c : N) : bool := (33 <=? c) && (c <=? 126).

Lemma mem_outside lo hi c l : lo <= c <= hi -> forallb (fun x => (x <? lo) || (hi <? x)) l = true -> existsb (N.eqb c) l = false.
Proof.
  intros R. induction l as [|x l IH]; [reflexivity|]. cbn [forallb existsb]. intros F. apply andb_true_iff in F as [Fx F].
  rewrite (IH F), orb_false_r. apply N.eqb_neq. intros ->. apply orb_true_iff in Fx as [Fx|Fx]; apply N.ltb_lt in Fx; lia.
Qed.

Lemma printable_not_ws c : printable_char c = true -> is_ws c = false.
Proof.
  unfold printable_char. intros P. apply andb_true_iff in P as [P1 P2]. apply N.leb_le in P1, P2.
  apply (mem_outside 33 126); [split; assumption|reflexivity].
Qed.

Lemma printable_sp c : printable_char c = true -> is_sp c = s_mem c [124; 44; 59].
Proof.
  intros H. unfold is_sp. rewrite (printable_not_ws c H), andb_false_r. reflexivity.
Qed.

Lemma name_char_is_name c : name_char c = true -> is_name c = true.
Proof.
  unfold name_char, is_upper_letter, is_lower_letter, is_digit. intros H. unfold is_name, is_word.
  replace (c <? 128) with true by lia.
  unfold name_word, name_extra, word_lo, in_ranges, mem, existsb, fst, snd. lia.
Qed.

Lemma name_char_printable c : name_char c = true -> printable_char c = true.
Proof. unfold name_char, is_upper_letter, is_lower_letter, is_digit, printable_char. lia. Qed.

Lemma name_char_not_sp c : name_char c = true -> is_sp c = false.
Proof.
  intros H. rewrite (printable_sp c (name_char_printable c H)).
  unfold name_char, is_upper_letter, is_lower_letter, is_digit in H. unfold s_mem, existsb. lia.
Qed.

Lemma assoc_below b c l : c < b -> forallb (fun p => b <=? fst p) l = true -> assoc c l = None.
Proof.
  intros L. induction l as [|[a u] l IH]; [reflexivity|]. cbn [forallb fst assoc]. intros H.
  apply andb_true_iff in H as [Ha H]. destruct (N.eqb_spec a c); [lia|]. apply IH. exact H.
Qed.

(* the extra folding pairs of IGNORECASE all lie above ASCII *)
Lemma up_ascii c : c <? 128 = true -> up c = upper c.
Proof.
  intros H. unfold up, upper. change ignorecase with true. cbv iota.
  destruct ((97 <=? c) && (c <=? 122)); [reflexivity|].
  rewrite (assoc_below 128) by (lia || reflexivity). reflexivity.
Qed.

Lemma name_char_up c : name_char c = true -> up c = upper c.
Proof.
  intros H. apply up_ascii. unfold name_char, is_upper_letter, is_lower_letter, is_digit in H. lia.
Qed.

Lemma lower_kwc x : kwc x = true ->
  name_char x = true /\ is_lower_letter x = false /\ ((is_lower_letter (lower x) = true /\ lower x - 32 = x) \/ lower x = x).
Proof.
  unfold kwc, name_char, lower, is_upper_letter, is_lower_letter, is_digit. intros H.
  destruct ((65 <=? x) && (x <=? 90)) eqn:E; lia.
Qed.

Lemma kwc_cased_name (b : bool) x : kwc x = true -> name_char (if b then lower x else x) = true.
Proof.
  intros K. destruct (lower_kwc x K) as (Nx & _ & [[L _]|E]); destruct b; try exact Nx.
  - unfold name_char. rewrite L, orb_true_r. reflexivity.
  - rewrite E. exact Nx.
Qed.

Lemma kwc_cased_upper (b : bool) x : kwc x = true -> upper (if b then lower x else x) = x.
Proof.
  intros K. destruct (lower_kwc x K) as (_ & NL & C). unfold upper, is_lower_letter in *.
  destruct b; [|rewrite NL; reflexivity]. destruct C as [[L E]|E].
  - rewrite L. exact E.
  - rewrite E, NL. reflexivity.
Qed.

Lemma kwc_cased_up (b : bool) x : kwc x = true -> up (if b then lower x else x) = x.
Proof.
  intros H. rewrite name_char_up by (apply kwc_cased_name; exact H). apply kwc_cased_upper. exact H.
Qed.

Lemma kwc_cased_printable (b : bool) x : kwc x = true -> printable_char (if b then lower x else x) = true.
Proof. intros H. apply name_char_printable, kwc_cased_name, H. Qed.

(* ================================================================ 2. tokens *)

Definition stops (p : N -> bool) (r : list N) : Prop := r = [] \/ exists c t, r = c :: t /\ p c = false.

Lemma stops_cons (p : N -> bool) c t : p c = false -> stops p (c :: t).
Proof. intros H. right. exists c, t. split; [reflexivity|exact H]. Qed.

Lemma follow_stops (p : N -> bool) r : (forall c, sepc c = true -> p c = false) -> follow r -> stops p r.
Proof. intros H [->|(c & t & -> & S)]; [left; reflexivity|apply stops_cons, H, S]. Qed.

Lemma lit_nil_rest w : w <> [] -> lit w [] = None.
Proof. destruct w; [congruence|reflexivity]. Qed.

Lemma lit_follow w rest : kword w = true -> w <> [] -> follow rest -> lit w rest = None.
Proof.
  intros K N [->|(c & t & -> & S)]; [apply lit_nil_rest; exact N|].
  destruct w as [|x w]; [congruence|]. destruct (sepc_model c S) as (_ & _ & _ & U & Kc).
  cbn [lit]. rewrite U. apply andb_true_iff in K as [K _].
  destruct (N.eqb_spec c x); [congruence|reflexivity].
Qed.

(* the literal W on the printed word W' (any letter case) followed by rest *)
Fixpoint match_kw (w w' : str) (m : list bool) (rest : list N) : option (list N) :=
  match w with
  | [] => Some (cased m w' ++ rest)
  | x :: wt =>
      match w' with
      | [] => lit w rest
      | y :: wt' => if y =? x then match_kw wt wt' (tl m) rest else None
      end
  end.

Lemma lit_cased_gen : forall w w' m rest, kword w' = true -> lit w (cased m w' ++ rest) = match_kw w w' m rest.
Proof.
  induction w as [|x wt IH]; intros w' m rest K; [reflexivity|].
  destruct w' as [|y wt']; [reflexivity|].
  apply andb_true_iff in K as [Ky K].
  cbn [cased app lit match_kw]. rewrite (kwc_cased_up _ y Ky). destruct (y =? x); [apply IH; exact K|reflexivity].
Qed.

Lemma lit_cased w m rest : kword w = true -> lit w (cased m w ++ rest) = Some rest.
Proof.
  revert m. induction w as [|x wt IH]; intros m K; [reflexivity|].
  apply andb_true_iff in K as [Kx K].
  cbn [cased app lit]. rewrite (kwc_cased_up _ x Kx), N.eqb_refl. apply IH. exact K.
Qed.

Lemma cased_cons m x w : cased m (x :: w) = (if hd false m then lower x else x) :: cased (tl m) w.
Proof. reflexivity. Qed.

Lemma cased_length m w : length (cased m w) = length w.
Proof. revert m. induction w; intros; cbn [cased length]; [reflexivity|f_equal; apply IHw]. Qed.

Lemma cased_all_name m w : kword w = true -> forallb name_char (cased m w) = true.
Proof.
  revert m. induction w as [|x w IH]; intros m K; [reflexivity|].
  apply andb_true_iff in K as [Kx K].
  cbn [cased forallb]. rewrite (kwc_cased_name _ x Kx). apply IH. exact K.
Qed.

Lemma span_app p a r : forallb p a = true -> stops p r -> span p (a ++ r) = (a, r).
Proof.
  intros A R. induction a as [|x a IH]; cbn [app].
  - destruct R as [->|(c & t & -> & F)]; [reflexivity|]. cbn [span]. rewrite F. reflexivity.
  - apply andb_true_iff in A as [Ax A]. cbn [span]. rewrite Ax, (IH A). reflexivity.
Qed.

Lemma plus1_app p a r : a <> [] -> forallb p a = true -> stops p r -> plus1 p (a ++ r) = Some (a, r).
Proof. intros N A R. unfold plus1. rewrite (span_app p a r A R). destruct a; [congruence|reflexivity]. Qed.

Lemma plus1_stops p r : stops p r -> plus1 p r = None.
Proof. intros [->|(c & t & -> & F)]; [reflexivity|]. unfold plus1. cbn [span]. rewrite F. reflexivity. Qed.

Lemma plus_bt_app {R} p a r (k : list N -> option R) x :
  a <> [] -> forallb p a = true -> stops p r -> k r = Some x -> plus_bt p (a ++ r) k = Some x.
Proof.
  intros N A Rr K. induction a as [|c a IH]; [congruence|].
  apply andb_true_iff in A as [Ac A]. cbn [app plus_bt]. rewrite Ac.
  destruct a as [|c' a'].
  - cbn [app]. destruct Rr as [->|(d & t & -> & F)]; cbn [plus_bt]; [|rewrite F]; exact K.
  - rewrite IH; [reflexivity|congruence|exact A].
Qed.

Lemma plus_bt_stops {R} p r (k : list N -> option R) : stops p r -> plus_bt p r k = None.
Proof. intros [->|(c & t & -> & F)]; [reflexivity|]. cbn [plus_bt]. rewrite F. reflexivity. Qed.

Lemma forallb_impl {A} (p q : A -> bool) l : (forall x, p x = true -> q x = true) -> forallb p l = true -> forallb q l = true.
Proof.
  intros H. induction l as [|x l IH]; [reflexivity|]. cbn [forallb]. intros F. apply andb_true_iff in F as [F1 F2].
  rewrite (H x F1), (IH F2). reflexivity.
Qed.

Lemma all_blank_sepc s : all_blank s = true -> forallb sepc s = true.
Proof. apply forallb_impl, blank_sepc. Qed.

Lemma sep_ok_sepstr s : sep_ok s = true -> sepstr s.
Proof.
  destruct s as [|c t]; [discriminate|]. cbn [sep_ok]. intros H. split; [congruence|]. cbn [forallb].
  destruct (is_blank c) eqn:B.
  - apply andb_true_iff. split; [apply blank_sepc; exact B|apply all_blank_sepc; exact H].
  - apply andb_true_iff in H as [H _]. apply andb_true_iff in H as [H1 H2].
    apply andb_true_iff. split; [unfold sepc; rewrite H1; apply orb_true_r|apply all_blank_sepc; exact H2].
Qed.

Lemma sepc_all_sp s : forallb sepc s = true -> forallb is_sp s = true.
Proof. apply forallb_impl. intros c S. apply (sepc_model c S). Qed.

Lemma sepstr_follow s r : sepstr s -> follow (s ++ r).
Proof.
  intros [N H]. destruct s as [|c t]; [congruence|]. right. exists c, (t ++ r). split; [reflexivity|].
  apply andb_true_iff in H as [H _]. exact H.
Qed.

Lemma sp1_sep s r : sepstr s -> nsp r -> sp1 (s ++ r) = Some r.
Proof.
  intros S R. unfold sp1. rewrite (plus1_app is_sp s r); [reflexivity|apply S|apply sepc_all_sp, S|exact R].
Qed.

Lemma sp1_nsp r : nsp r -> sp1 r = None.
Proof. intros R. unfold sp1. rewrite (plus1_stops is_sp r R). reflexivity. Qed.

Lemma plus_bt_sep {R} s r (k : list N -> option R) x : sepstr s -> nsp r -> k r = Some x -> plus_bt is_sp (s ++ r) k = Some x.
Proof. intros S Rr K. apply plus_bt_app; [apply S|apply sepc_all_sp, S|exact Rr|exact K]. Qed.

Lemma name1_app n r : n <> [] -> forallb name_char n = true -> follow r -> name1 (n ++ r) = Some (n, r).
Proof.
  intros N A F. unfold name1. apply plus1_app; [exact N|revert A; apply forallb_impl, name_char_is_name|].
  apply follow_stops; [|exact F]. intros c S. apply (sepc_model c S).
Qed.

Lemma nsp_name n r : n <> [] -> forallb name_char n = true -> nsp (n ++ r).
Proof.
  intros N A. destruct n as [|c n]; [congruence|]. apply andb_true_iff in A as [A _].
  apply stops_cons, name_char_not_sp, A.
Qed.

Lemma nsp_cased m w r : w <> [] -> kword w = true -> nsp (cased m w ++ r).
Proof.
  intros N K. apply nsp_name; [destruct w; [congruence|discriminate]|apply cased_all_name; exact K].
Qed.

Fixpoint prefixb (w w' : str) : bool :=
  match w with
  | [] => true
  | x :: wt => match w' with [] => false | y :: wt' => (y =? x) && prefixb wt wt' end
  end.

(* w and w' differ at a position both have *)
Fixpoint mismatch (w w' : str) : bool :=
  match w, w' with
  | x :: wt, y :: wt' => if y =? x then mismatch wt wt' else true
  | _, _ => false
  end.

Lemma lit_mismatch : forall w w' m rest, kword w' = true -> mismatch w w' = true -> lit w (cased m w' ++ rest) = None.
Proof.
  induction w as [|x wt IH]; intros w' m rest K M; [discriminate|].
  destruct w' as [|y wt']; [discriminate|].
  apply andb_true_iff in K as [Ky K].
  cbn [cased app lit mismatch] in *. rewrite (kwc_cased_up _ y Ky). destruct (y =? x); [apply IH; assumption|reflexivity].
Qed.

(* the literal is no prefix of the printed word: it differs from it, or runs into what follows *)
Lemma lit_not_prefix : forall u w m rest, kword u = true -> kword w = true -> follow rest -> prefixb u w = false ->
  lit u (cased m w ++ rest) = None.
Proof.
  induction u as [|x u IH]; intros w m rest Ku Kw F P; [discriminate|].
  destruct w as [|y w]; [apply lit_follow; [exact Ku|discriminate|exact F]|].
  apply andb_true_iff in Ku as [_ Ku]. apply andb_true_iff in Kw as [Ky Kw].
  cbn [prefixb] in P. cbn [cased app lit]. rewrite (kwc_cased_up _ y Ky).
  destruct (y =? x); [apply IH; assumption|reflexivity].
Qed.

(* the literal is a proper prefix of the printed word: it matches, and the word goes on *)
Lemma lit_proper_prefix : forall u w m rest, kword w = true -> prefixb u w = true ->
  u = w \/ exists (b : bool) t, let c := nth (length u) w 0 in lit u (cased m w ++ rest) = Some ((if b then lower c else c) :: t).
Proof.
  induction u as [|x u IH]; intros w m rest K P.
  - destruct w as [|y w]; [left; reflexivity|right]. exists (hd false m), (cased (tl m) w ++ rest). reflexivity.
  - destruct w as [|y w]; [discriminate|]. cbn [prefixb] in P. apply andb_true_iff in P as [E P]. apply N.eqb_eq in E. subst y.
    apply andb_true_iff in K as [Kx K]. cbn [cased app lit length nth]. rewrite (kwc_cased_up _ x Kx), N.eqb_refl.
    destruct (IH w (tl m) rest K P) as [->|H]; [left; reflexivity|right; exact H].
Qed.

Lemma firstn_cased m w rest : firstn (length w) (cased m w ++ rest) = cased m w.
Proof. rewrite <- (cased_length m w). rewrite firstn_app, Nat.sub_diag, firstn_all. cbn [firstn]. apply app_nil_r. Qed.

Lemma consumed_app t e : consumed (t ++ e) e = t.
Proof.
  unfold consumed. rewrite app_length. replace (length t + length e - length e)%nat with (length t) by lia.
  rewrite firstn_app, Nat.sub_diag, firstn_all. cbn [firstn]. apply app_nil_r.
Qed.

(* membership of a given word in the lookahead list *)
Ltac look := unfold lookahead_words; cbn [In]; tauto.

Lemma lookahead_kword w : In w lookahead_words -> kword w = true /\ w <> [].
Proof. unfold lookahead_words. cbn [In]. intuition (subst; (reflexivity || discriminate)). Qed.

Lemma clean_next_nil : clean_next [].
Proof. intros w H. apply lit_nil_rest, (lookahead_kword w H). Qed.

Lemma tail_ok_follow rest : tail_ok rest -> follow rest.
Proof. intros [->|(s & r & -> & S & _)]; [left; reflexivity|apply sepstr_follow; exact S]. Qed.

Lemma clean_next_kw m w' x : kword w' = true -> forallb (fun w => mismatch w w') lookahead_words = true -> clean_next (cased m w' ++ x).
Proof.
  intros K A w H. apply lit_mismatch; [exact K|]. rewrite forallb_forall in A. apply A. exact H.
Qed.

Lemma lit_tail w a r : In w lookahead_words -> forallb sepc a = true -> clean_next r -> lit w (a ++ r) = None.
Proof.
  intros I A C. destruct a as [|c a]; [apply C; exact I|]. destruct (lookahead_kword w I) as [K N].
  apply andb_true_iff in A as [A _]. apply lit_follow; [exact K|exact N|].
  right. exists c, (a ++ r). split; [reflexivity|exact A].
Qed.

Lemma plus_bt_sp_none {R} a r (k : list N -> option R) :
  forallb sepc a = true -> nsp r -> (forall a', forallb sepc a' = true -> k (a' ++ r) = None) -> plus_bt is_sp (a ++ r) k = None.
Proof.
  intros A Rr K. induction a as [|c a IH].
  - apply plus_bt_stops. exact Rr.
  - apply andb_true_iff in A as [Ac A]. cbn [app plus_bt].
    rewrite (proj1 (sepc_model c Ac)), (IH A). apply K. exact A.
Qed.

Lemma key_tail_clean rest : tail_ok rest -> key_tail rest = Some rest.
Proof.
  intros [->|(s & r & -> & S & Rn & C)]; [reflexivity|].
  unfold key_tail. rewrite plus_bt_sp_none; [reflexivity|apply S|exact Rn|].
  intros a' A'. cbn [star_A]. unfold key_A.
  rewrite (lit_tail W_ASCENDING a' r), (lit_tail W_DESCENDING a' r) by (assumption || look).
  unfold key_B. apply plus_bt_sp_none; [exact A'|exact Rn|].
  intros a'' A''. rewrite (lit_tail W_INDEXED a'' r) by (assumption || look). reflexivity.
Qed.

Lemma with_key_tail_clean g rest : tail_ok rest -> with_key_tail g rest = AYes g rest.
Proof. intros T. unfold with_key_tail. rewrite (key_tail_clean rest T). reflexivity. Qed.

Definition spell_ok (sp : cspell) : Prop := forallb sep_ok (seps sp) = true.

Lemma sep_sepstr sp i : spell_ok sp -> sepstr (sep sp i).
Proof.
  intros H. apply sep_ok_sepstr. unfold sep. unfold spell_ok in H. rewrite forallb_forall in H.
  destruct (nth_in_or_default i (seps sp) [32]) as [I| ->]; [apply H; exact I|reflexivity].
Qed.

Lemma kw_unfold sp i w : kw sp i w = cased (nth i (masks sp) []) w.
Proof. reflexivity. Qed.

Lemma digits_name n : digits_ok n = true -> n <> [] /\ forallb name_char n = true.
Proof.
  unfold digits_ok. intros D. apply andb_true_iff in D as [D0 D1]. split; [destruct n; [discriminate|congruence]|].
  revert D1. apply forallb_impl. intros c D. unfold name_char. rewrite D, orb_true_r. reflexivity.
Qed.

Lemma digits1_app n r : digits_ok n = true -> follow r -> digits1 (n ++ r) = Some (n, r).
Proof.
  unfold digits_ok. intros H F. apply andb_true_iff in H as [N A]. unfold digits1. apply plus1_app.
  - destruct n; [discriminate|congruence].
  - (* the model's digit class: ASCII digits, or a digit of another script *)
    revert A. apply forallb_impl. intros c A. apply orb_true_iff. left. exact A.
  - apply follow_stops; [|exact F]. intros c S. apply (sepc_model c S).
Qed.

Lemma word_sp_printed sp i m w x : spell_ok sp -> kword w = true -> nsp x ->
  word_sp w (cased m w ++ sep sp i ++ x) = Some x.
Proof.
  intros S K N. unfold word_sp. rewrite lit_cased by exact K. apply sp1_sep; [apply sep_sepstr; exact S|exact N].
Qed.

Lemma word_sp_mismatch w w' m r : kword w' = true -> mismatch w w' = true -> word_sp w (cased m w' ++ r) = None.
Proof. intros K M. unfold word_sp. rewrite (lit_mismatch w w' m r K M). reflexivity. Qed.

Lemma sp_word_printed sp i m w rest : spell_ok sp -> kword w = true -> w <> [] ->
  sp_word w (sep sp i ++ cased m w ++ rest) = Some rest.
Proof.
  intros S K N. unfold sp_word. rewrite (sp1_sep _ _ (sep_sepstr sp i S)) by (apply nsp_cased; assumption).
  apply lit_cased. exact K.
Qed.

Lemma sp_word_mismatch sp i w m w' rest : spell_ok sp -> kword w' = true -> w' <> [] -> mismatch w w' = true ->
  sp_word w (sep sp i ++ cased m w' ++ rest) = None.
Proof.
  intros S K N M. unfold sp_word. rewrite (sp1_sep _ _ (sep_sepstr sp i S)) by (apply nsp_cased; assumption).
  apply lit_mismatch; assumption.
Qed.

Lemma sp_word_tail w rest : In w lookahead_words -> tail_ok rest -> sp_word w rest = None.
Proof.
  intros I [->|(s & r & -> & S & Rn & C)]; [reflexivity|]. unfold sp_word. rewrite (sp1_sep s r S Rn). apply C. exact I.
Qed.

Lemma forallb_nth {A} (p : A -> bool) n l d : forallb p (d :: l) = true -> p (nth n l d) = true.
Proof.
  intros H. rewrite forallb_forall in H. apply H. destruct (nth_in_or_default n l d) as [I| ->]; [right; exact I|left; reflexivity].
Qed.

Lemma first_some_none {A B} (f : A -> option B) l : (forall x, In x l -> f x = None) -> first_some f l = None.
Proof.
  induction l as [|x l IH]; intros H; [reflexivity|]. cbn [first_some]. rewrite (H x (or_introl eq_refl)).
  apply IH. intros y I. apply H. right. exact I.
Qed.

Lemma spec_str_eqb_eq a b : SR.Spec.Clauses.str_eqb a b = true -> a = b.
Proof.
  revert b. induction a as [|x a IH]; intros [|y b] H; try discriminate; [reflexivity|].
  cbn [SR.Spec.Clauses.str_eqb] in H. apply andb_true_iff in H as [H1 H2]. apply N.eqb_eq in H1. subst. f_equal. apply IH. exact H2.
Qed.

Lemma spec_str_eqb_refl a : SR.Spec.Clauses.str_eqb a a = true.
Proof. induction a as [|x a IH]; [reflexivity|]. cbn [SR.Spec.Clauses.str_eqb]. rewrite N.eqb_refl, IH. reflexivity. Qed.

(* the alternation ws, each member followed by a continuation, comes to try the word w itself: every member before it
   is no prefix of w, or is one and the continuation [stop]s at the character of w that follows it *)
Fixpoint takes (stop : N -> bool) (ws : list str) (w : str) : bool :=
  match ws with
  | [] => false
  | u :: r => if SR.Spec.Clauses.str_eqb u w then true
              else if prefixb u w && negb (stop (nth (length u) w 0)) then false
              else takes stop r w
  end.

Lemma first_some_takes {B} (stop : N -> bool) (k : str -> list N -> option B) : forall ws m w rest y,
  kword w = true -> forallb kword ws = true -> follow rest ->
  (forall u (b : bool) c t, stop c = true -> k u ((if b then lower c else c) :: t) = None) ->
  takes stop ws w = true -> k w rest = Some y ->
  first_some (fun u => match lit u (cased m w ++ rest) with Some r => k u r | None => None end) ws = Some y.
Proof.
  induction ws as [|u ws IH]; intros m w rest y K A F Hk T Y; [discriminate|].
  apply andb_true_iff in A as [Ku A]. cbn [takes first_some] in *.
  destruct (SR.Spec.Clauses.str_eqb u w) eqn:E.
  - apply spec_str_eqb_eq in E. subst u. rewrite lit_cased by exact K. rewrite Y. reflexivity.
  - destruct (prefixb u w) eqn:P.
    + destruct (lit_proper_prefix u w m rest K P) as [->|(b & t & L)]; [rewrite spec_str_eqb_refl in E; discriminate|].
      cbn [andb] in T. destruct (stop (nth (length u) w 0)) eqn:Sc; [|discriminate].
      cbv zeta in L. rewrite L, (Hk u b _ t Sc). apply IH; assumption.
    + rewrite (lit_not_prefix u w m rest Ku K F P). apply IH; assumption.
Qed.

(* ================================================================ 3. clauses *)
(* the printed text as  piece ++ (piece ++ ...) *)
Ltac assoc := rewrite <- ?app_assoc.

Lemma try_alts_no id ids s : alt id s = ANo -> try_alts (id :: ids) s = try_alts ids s.
Proof. intros H. cbn [try_alts]. rewrite H. reflexivity. Qed.

Lemma try_alts_yes id ids s g r : alt id s = AYes g r -> try_alts (id :: ids) s = Some (Tok id g, r).
Proof. intros H. cbn [try_alts]. rewrite H. reflexivity. Qed.

(* the literals a keyword alternative can begin with: those after which SPACE must come, and the others *)
Definition heads_sp (id : N) : list str :=
  match id with
  | 1 => [W_REDEFINES] | 2 => [W_BLANK] | 5 => just_words | 6 | 7 => [W_OCCURS] | 8 => pic_words
  | 9 => [W_SIGN; W_IS; W_LEADING; W_TRAILING] | 11 => [W_USAGE; W_IS] | 12 => [W_VALUE]
  | _ => []
  end.

Definition heads_glued (id : N) : list str :=
  match id with
  | 3 => [W_EXTERNAL] | 4 => [W_GLOBAL] | 10 => sync_words | 11 => usage_words | 13 => [W_FILLER]
  | _ => []
  end.

Lemma prefix2_none w1 w2 s : word_sp w1 s = None -> word_sp w2 s = None -> prefix2 true w1 true w2 s = [s].
Proof. intros H1 H2. unfold prefix2, opt_word_sp. rewrite H1. cbn [flat_map app]. rewrite H2. reflexivity. Qed.

(* a keyword alternative fails where each of its first literals fails, or is not followed by SPACE when it must be *)
Lemma alt_no id s : In id keyword_alts -> nsp s ->
  (forall u r, In u (heads_sp id) -> lit u s = Some r -> nsp r) ->
  (forall u, In u (heads_glued id) -> lit u s = None) ->
  alt id s = ANo.
Proof.
  intros I Ns Hs Hg.
  assert (WS : forall u, In u (heads_sp id) -> word_sp u s = None).
  { intros u Iu. unfold word_sp. destruct (lit u s) as [r|] eqn:L; [apply sp1_nsp, (Hs u r Iu L)|reflexivity]. }
  assert (BT : forall R u (k : list N -> option R), In u (heads_sp id) ->
               match lit u s with Some r => plus_bt is_sp r k | None => None end = None).
  { intros R u k Iu. destruct (lit u s) as [r|] eqn:L; [apply plus_bt_stops, (Hs u r Iu L)|reflexivity]. }
  unfold keyword_alts in I. cbn [In] in I.
  repeat destruct I as [I|I]; try contradiction; subst id; cbn [alt heads_sp heads_glued In] in *.
  - unfold alt_space. rewrite (sp1_nsp s Ns). reflexivity.
  - unfold alt_redefines. rewrite WS by tauto. reflexivity.
  - unfold alt_blank. rewrite WS by tauto. reflexivity.
  - unfold alt_word. rewrite Hg by tauto. reflexivity.
  - unfold alt_word. rewrite Hg by tauto. reflexivity.
  - unfold alt_justified. rewrite first_some_none; [reflexivity|exact WS].
  - unfold alt_odo. rewrite WS by tauto. reflexivity.
  - unfold alt_occurs. rewrite WS by tauto. reflexivity.
  - unfold alt_picture. rewrite first_some_none; [reflexivity|]. intros w Iw. apply BT. exact Iw.
  - unfold alt_sign, sign_word_opt, sign_is_opt. rewrite prefix2_none by (apply WS; tauto). cbn [first_some].
    unfold sign_at. rewrite first_some_none; [reflexivity|]. intros w Iw.
    destruct (lit w s) as [r|] eqn:L; [|reflexivity].
    unfold sign_sep_end, sp_word. rewrite (sp1_nsp r); [reflexivity|]. apply (Hs w r); [cbn [In] in Iw; tauto|exact L].
  - unfold alt_sync. rewrite first_some_none; [reflexivity|exact Hg].
  - unfold alt_usage, usage_word_opt, usage_is_opt. rewrite prefix2_none by (apply WS; tauto). cbn [first_some].
    unfold usage_at. rewrite first_some_none; [reflexivity|]. intros u Iu. rewrite (Hg u Iu). reflexivity.
  - unfold alt_value. destruct (lit W_VALUE s) as [r|] eqn:L; [|reflexivity].
    rewrite plus_bt_stops; [reflexivity|]. apply (Hs W_VALUE r); [tauto|exact L].
  - unfold alt_filler. rewrite Hg by tauto. reflexivity.
Qed.

(* on a printed reserved word: the alternative has no first literal that agrees with the word as far as both go *)
Definition unlike (w : str) (id : N) : bool :=
  s_mem id keyword_alts && forallb (fun u => mismatch u w) (heads_sp id ++ heads_glued id).

Lemma alt_unlike id m w r : kword w = true -> w <> [] -> unlike w id = true -> alt id (cased m w ++ r) = ANo.
Proof.
  intros K N U. apply andb_true_iff in U as [I M]. rewrite forallb_forall in M.
  apply existsb_exists in I as (x & I & E). apply N.eqb_eq in E. subst x.
  apply alt_no; [exact I|apply nsp_cased; assumption| |].
  - intros u r' Iu L. rewrite (lit_mismatch u w m r K) in L; [discriminate|]. apply M, in_or_app. left. exact Iu.
  - intros u Iu. apply lit_mismatch; [exact K|]. apply M, in_or_app. right. exact Iu.
Qed.

Lemma try_alts_app pre post s : (forall j, In j pre -> alt j s = ANo) -> try_alts (pre ++ post) s = try_alts post s.
Proof.
  induction pre as [|j pre IH]; intros H; [reflexivity|]. cbn [app]. rewrite try_alts_no by (apply H; left; reflexivity).
  apply IH. intros i Ii. apply H. right. exact Ii.
Qed.

Lemma token_at_kw n m w r : kword w = true -> w <> [] -> forallb (unlike w) (firstn n alt_order) = true ->
  token_at (cased m w ++ r) = try_alts (skipn n alt_order) (cased m w ++ r).
Proof.
  intros K N U. unfold token_at. rewrite <- (firstn_skipn n alt_order) at 1. apply try_alts_app.
  intros j I. apply alt_unlike; [exact K|exact N|]. rewrite forallb_forall in U. apply U. exact I.
Qed.

Definition all_usage_words : list str := concat usage_table.

Lemma usage_word_in fam i : In (usage_word fam i) all_usage_words.
Proof.
  unfold usage_word, usage_rep, all_usage_words.
  assert (I : In (usage_family fam) usage_table).
  { unfold usage_family. destruct (nth_in_or_default (N.to_nat fam) usage_table [K_DISPLAY]) as [I|E]; [exact I|rewrite E; left; reflexivity]. }
  apply in_concat. exists (usage_family fam). split; [exact I|].
  destruct (nth_in_or_default (N.to_nat i) (usage_family fam) (hd K_DISPLAY (usage_family fam))) as [J|E]; [exact J|rewrite E].
  unfold usage_table in I. cbn [In] in I. repeat destruct I as [I|I]; try contradiction; rewrite <- I; left; reflexivity.
Qed.

Definition nonnil (w : str) : bool := match w with [] => false | _ => true end.

Lemma nonnil_ne w : nonnil w = true -> w <> [].
Proof. destruct w; [discriminate|congruence]. Qed.

(* w can be the first word of a clause that alternative id is to recognise: a reserved word unlike every alternative
   before id, and none of the words the matcher looks for behind a finished clause *)
Definition first_ok (id : N) (w : str) : bool :=
  kword w && nonnil w && forallb (unlike w) (firstn (N.to_nat id) alt_order) && forallb (fun u => mismatch u w) lookahead_words.

(* w can stand behind the optional introduction W [IS] *)
Definition after_intro (W w : str) : bool := kword w && nonnil w && mismatch W w && mismatch W_IS w.

Lemma usage_words_checked :
  forallb (fun w => kword w && first_ok 11 w && after_intro W_USAGE w && takes (N.eqb 45) usage_words w) all_usage_words = true.
Proof. vm_compute. reflexivity. Qed.

Lemma usage_word_facts w : In w all_usage_words ->
  kword w = true /\ first_ok 11 w = true /\ after_intro W_USAGE w = true /\ takes (N.eqb 45) usage_words w = true.
Proof.
  intros I. pose proof usage_words_checked as C. rewrite forallb_forall in C. specialize (C w I).
  apply andb_true_iff in C as [C T]. apply andb_true_iff in C as [C A]. apply andb_true_iff in C as [K F]. auto.
Qed.

Lemma usage_word_kword fam i : kword (usage_word fam i) = true.
Proof. apply (usage_word_facts _ (usage_word_in fam i)). Qed.

Lemma intro_cases sp w :
  intro sp w = [] \/ intro sp w = kw sp 0 w ++ sep sp 0 \/ intro sp w = kw sp 0 w ++ sep sp 0 ++ kw sp 1 K_IS ++ sep sp 1.
Proof. unfold intro. destruct (chN sp 0) as [|[p|p|]]; tauto. Qed.

(* the alternative at which the search arrives on a printed clause (for OCCURS: the first of its two) *)
Definition first_alt (c : clause) : N :=
  match c with
  | CName _ => 14 | CFiller => 13 | CRedefines _ => 1 | COccurs _ _ | COdo _ _ _ _ => 6 | CPicture _ => 8 | CUsage _ => 11
  | CValue _ => 12 | CBlank => 2 | CJust _ => 5 | CSync _ => 10 | CSign _ _ => 9 | CExternal => 3 | CGlobal => 4
  end.

Lemma first_ok_parts id w : first_ok id w = true ->
  kword w = true /\ w <> [] /\ forallb (unlike w) (firstn (N.to_nat id) alt_order) = true
  /\ forallb (fun u => mismatch u w) lookahead_words = true.
Proof.
  unfold first_ok. intros F. apply andb_true_iff in F as [F M]. apply andb_true_iff in F as [F U]. apply andb_true_iff in F as [K N].
  apply nonnil_ne in N. auto.
Qed.

Lemma clause_first c sp : is_name_clause c = false ->
  exists i w x, print_clause c sp = kw sp i w ++ x /\ first_ok (first_alt c) w = true.
Proof.
  intros Nn. destruct c; try discriminate; cbn [print_clause first_alt];
    try (eexists _, _, _; split; reflexivity).
  - eexists _, _, _. split; [reflexivity|]. apply (forallb_nth (first_ok 8)). reflexivity.
  - rewrite <- (app_nil_r (kw sp 2 _)). destruct (intro_cases sp K_USAGE) as [-> |[-> | ->]]; assoc; eexists _, _, _; (split; [reflexivity|]).
    + apply (usage_word_facts _ (usage_word_in fam (chN sp 1))).
    + reflexivity.
    + reflexivity.
  - eexists _, _, _. split; [reflexivity|]. apply (forallb_nth (first_ok 5)). reflexivity.
  - eexists _, _, _. split; [reflexivity|]. apply (forallb_nth (first_ok 10)). reflexivity.
  - destruct (intro_cases sp K_SIGN) as [-> |[-> | ->]]; assoc; eexists _, _, _; (split; [reflexivity|]).
    + destruct leading; reflexivity.
    + reflexivity.
    + reflexivity.
  - exists 0%nat, K_EXTERNAL, []. split; [symmetry; apply app_nil_r|reflexivity].
  - exists 0%nat, K_GLOBAL, []. split; [symmetry; apply app_nil_r|reflexivity].
Qed.

Lemma token_at_clause c sp rest : is_name_clause c = false ->
  token_at (print_clause c sp ++ rest) = try_alts (skipn (N.to_nat (first_alt c)) alt_order) (print_clause c sp ++ rest).
Proof.
  intros Nn. destruct (clause_first c sp Nn) as (i & w & x & -> & F). destruct (first_ok_parts _ _ F) as (K & N & U & _).
  assoc. apply token_at_kw; assumption.
Qed.

(* the first word of a clause that is not the data name: not a separator, none of the lookahead words *)
Definition starts_ok (t : list N) : Prop := nsp t /\ clean_next t /\ t <> [].

Lemma clause_head c sp x : is_name_clause c = false -> starts_ok (print_clause c sp ++ x).
Proof.
  intros Nn. destruct (clause_first c sp Nn) as (i & w & y & -> & F). destruct (first_ok_parts _ _ F) as (K & N & _ & M).
  assoc. split; [apply nsp_cased; assumption|]. split; [apply clean_next_kw; assumption|].
  unfold kw. destruct w; [congruence|discriminate].
Qed.

Lemma tok_external sp rest : token_at (print_clause CExternal sp ++ rest) = Some (Tok 3 (gmap (bindings CExternal sp)), rest).
Proof.
  rewrite token_at_clause by reflexivity. apply try_alts_yes. cbn [alt print_clause]. unfold alt_word, kw.
  rewrite lit_cased by reflexivity. reflexivity.
Qed.

Lemma tok_global sp rest : token_at (print_clause CGlobal sp ++ rest) = Some (Tok 4 (gmap (bindings CGlobal sp)), rest).
Proof.
  rewrite token_at_clause by reflexivity. apply try_alts_yes. cbn [alt print_clause]. unfold alt_word, kw.
  rewrite lit_cased by reflexivity. reflexivity.
Qed.

Lemma tok_filler sp rest : token_at (print_clause CFiller sp ++ rest) = Some (Tok 13 (gmap (bindings CFiller sp)), rest).
Proof.
  cbn [print_clause bindings gmap map fst snd]. unfold kw. rewrite (token_at_kw 13) by (reflexivity || discriminate).
  apply try_alts_yes. cbn [alt]. unfold alt_filler. rewrite lit_cased by reflexivity.
  change 6%nat with (length W_FILLER). rewrite firstn_cased. reflexivity.
Qed.

Lemma name_ok_parts n : name_ok n = true -> n <> [] /\ forallb name_char n = true /\ is_reserved n = false /\ keyword_prefixed n = false.
Proof.
  unfold name_ok. intros H. apply andb_true_iff in H as [H H4]. apply andb_true_iff in H as [H H3]. apply andb_true_iff in H as [H1 H2].
  repeat split; [destruct n; [discriminate|congruence]|exact H2|destruct (is_reserved n); [discriminate|reflexivity]|
                 destruct (keyword_prefixed n); [discriminate|reflexivity]].
Qed.

Lemma tok_redefines sp t rest : spell_ok sp -> name_ok t = true -> follow rest ->
  token_at (print_clause (CRedefines t) sp ++ rest) = Some (Tok 1 (gmap (bindings (CRedefines t) sp)), rest).
Proof.
  intros S N F. destruct (name_ok_parts t N) as (N0 & A & _).
  rewrite token_at_clause by reflexivity. apply try_alts_yes. cbn [alt print_clause]. unfold alt_redefines, kw. assoc.
  rewrite word_sp_printed by (exact S || reflexivity || (apply nsp_name; assumption)).
  rewrite name1_app by assumption. reflexivity.
Qed.

Lemma tok_blank sp rest : spell_ok sp -> (chN sp 1 =? 0) = true ->
  token_at (print_clause CBlank sp ++ rest) = Some (Tok 2 (gmap (bindings CBlank sp)), rest).
Proof.
  intros S Z. apply N.eqb_eq in Z. rewrite token_at_clause by reflexivity. apply try_alts_yes.
  cbn [alt print_clause bindings gmap map fst snd]. rewrite Z. change (zero_word 0) with K_ZERO. unfold alt_blank, kw. assoc.
  assert (Z4 : forall m, zero_at (cased m K_ZERO ++ rest) = Some ([(KBlank, cased m K_ZERO)], rest)).
  { intros m. unfold zero_at, zero_words. cbn [first_some]. change [90; 69; 82; 79] with K_ZERO.
    rewrite lit_cased by reflexivity. rewrite firstn_cased. reflexivity. }
  assert (NZ : forall m, nsp (cased m K_ZERO ++ rest)) by (intros m; apply nsp_cased; [discriminate|reflexivity]).
  unfold opt_word_sp, when_opt. destruct (chb sp 0); cbn [opt app]; assoc.
  - rewrite word_sp_printed by (exact S || reflexivity || (apply nsp_cased; [discriminate|reflexivity])).
    rewrite word_sp_printed by (exact S || reflexivity || apply NZ).
    cbn [first_some]. rewrite Z4. reflexivity.
  - rewrite word_sp_printed by (exact S || reflexivity || apply NZ).
    rewrite (word_sp_mismatch W_WHEN K_ZERO) by reflexivity. cbn [first_some]. rewrite Z4. reflexivity.
Qed.

(* the synonym lists against the words the printer chooses from *)
Lemma just_word_ok i : kword (just_word i) && takes kwc just_words (just_word i) = true.
Proof. apply (forallb_nth (fun w => kword w && takes kwc just_words w)). reflexivity. Qed.

Lemma pic_word_ok i : kword (pic_word i) && takes kwc pic_words (pic_word i) = true.
Proof. apply (forallb_nth (fun w => kword w && takes kwc pic_words w)). reflexivity. Qed.

Lemma sync_word_ok i : kword (sync_word i) && takes (fun _ => false) sync_words (sync_word i) = true.
Proof. apply (forallb_nth (fun w => kword w && takes (fun _ => false) sync_words w)). reflexivity. Qed.

Lemma nsp_mid_word (b : bool) c t : kwc c = true -> nsp ((if b then lower c else c) :: t).
Proof. intros K. apply stops_cons, name_char_not_sp, kwc_cased_name, K. Qed.

Lemma just_word_sp sp m s x : sepstr s -> nsp x ->
  first_some (fun w => word_sp w (cased m (just_word (chN sp 0)) ++ s ++ x)) just_words = Some x.
Proof.
  intros S Nx. destruct (andb_prop _ _ (just_word_ok (chN sp 0))) as [K T]. unfold word_sp.
  apply (first_some_takes kwc (fun _ r => sp1 r)); [exact K|reflexivity|apply sepstr_follow; exact S| |exact T|apply sp1_sep; assumption].
  intros _ b c t Kc. apply sp1_nsp, nsp_mid_word, Kc.
Qed.

(* JUSTIFIED RIGHT stops at its end; JUSTIFIED alone also takes the separator that follows it *)
Lemma tok_just_right sp rest : spell_ok sp ->
  token_at (print_clause (CJust true) sp ++ rest) = Some (Tok 5 (gmap (bindings (CJust true) sp)), rest).
Proof.
  intros S. rewrite token_at_clause by reflexivity. apply try_alts_yes.
  cbn [alt print_clause bindings gmap map fst snd opt]. unfold alt_justified, kw. assoc.
  rewrite just_word_sp by ((apply sep_sepstr; exact S) || (apply nsp_cased; [discriminate|reflexivity])).
  rewrite lit_cased by reflexivity. change 5%nat with (length W_RIGHT). rewrite firstn_cased. reflexivity.
Qed.

Lemma tok_just_plain sp s r : sepstr s -> nsp r -> clean_next r ->
  token_at (print_clause (CJust false) sp ++ s ++ r) = Some (Tok 5 (gmap (bindings (CJust false) sp)), r).
Proof.
  intros S Rn C. rewrite token_at_clause by reflexivity. apply try_alts_yes.
  cbn [alt print_clause opt]. rewrite app_nil_r. unfold alt_justified, kw. rewrite just_word_sp by assumption.
  rewrite (C W_RIGHT) by look. reflexivity.
Qed.

Lemma first_some_ext {A B} (f g : A -> option B) l : (forall x, f x = g x) -> first_some f l = first_some g l.
Proof. intros H. induction l as [|x l IH]; [reflexivity|]. cbn [first_some]. rewrite H, IH. reflexivity. Qed.

Lemma side_printed sp m side rest : spell_ok sp -> tail_ok rest ->
  first_some (fun w => sp_word w (opt (negb (side =? 0)) (sep sp 0 ++ cased m (side_word side)) ++ rest)) [W_LEFT; W_RIGHT]
  = if side =? 0 then None else Some rest.
Proof.
  intros S T. destruct (side =? 0); cbn [negb opt app first_some].
  - rewrite (sp_word_tail W_LEFT rest), (sp_word_tail W_RIGHT rest) by (look || exact T). reflexivity.
  - assoc. unfold side_word. destruct (side =? 1).
    + rewrite sp_word_printed by (exact S || reflexivity || discriminate). reflexivity.
    + rewrite sp_word_mismatch by (exact S || reflexivity || discriminate).
      rewrite sp_word_printed by (exact S || reflexivity || discriminate). reflexivity.
Qed.

Lemma sync_word_lit sp m x : follow x ->
  first_some (fun w => lit w (cased m (sync_word (chN sp 0)) ++ x)) sync_words = Some x.
Proof.
  intros F. destruct (andb_prop _ _ (sync_word_ok (chN sp 0))) as [K T].
  rewrite (first_some_ext _ (fun w => match lit w (cased m (sync_word (chN sp 0)) ++ x) with Some r => Some r | None => None end))
    by (intros w; destruct (lit w _); reflexivity).
  apply (first_some_takes (fun _ => false) (fun _ r => Some r)); [exact K|reflexivity|exact F|discriminate|exact T|reflexivity].
Qed.

Lemma tok_sync sp side rest : spell_ok sp -> tail_ok rest ->
  token_at (print_clause (CSync side) sp ++ rest) = Some (Tok 10 (gmap (bindings (CSync side) sp)), rest).
Proof.
  intros S T. rewrite token_at_clause by reflexivity. apply try_alts_yes.
  cbn [alt print_clause bindings]. unfold alt_sync, side_text, kw. assoc.
  rewrite sync_word_lit.
  - rewrite side_printed by assumption. destruct (side =? 0); cbn [negb opt app gmap map fst snd]; [reflexivity|].
    rewrite consumed_app. reflexivity.
  - destruct (side =? 0); cbn [negb opt app]; [apply tail_ok_follow; exact T|]. assoc. apply sepstr_follow, sep_sepstr, S.
Qed.

(* the optional introduction W [IS] in front of the word w of the clause: the first place from which the matcher tries
   the rest of the alternative is the start of w *)
Lemma prefix2_intro sp W m w r : spell_ok sp -> kword W = true -> after_intro W w = true ->
  exists l, prefix2 true W true W_IS (intro sp W ++ cased m w ++ r) = (cased m w ++ r) :: l.
Proof.
  intros S KW A. unfold after_intro in A. apply andb_true_iff in A as [A MI]. apply andb_true_iff in A as [A MW].
  apply andb_true_iff in A as [K N]. apply nonnil_ne in N.
  assert (Nx : nsp (cased m w ++ r)) by (apply nsp_cased; assumption).
  assert (I0 : opt_word_sp true W_IS (cased m w ++ r) = [cased m w ++ r])
    by (unfold opt_word_sp; rewrite word_sp_mismatch by assumption; reflexivity).
  unfold prefix2. destruct (intro_cases sp W) as [-> |[-> | ->]]; unfold kw; cbn [app]; assoc.
  - unfold opt_word_sp at 2. rewrite word_sp_mismatch by assumption. cbn [flat_map]. rewrite I0. eexists. reflexivity.
  - unfold opt_word_sp at 2. rewrite word_sp_printed by assumption. cbn [flat_map]. rewrite I0. eexists. reflexivity.
  - unfold opt_word_sp at 2. rewrite word_sp_printed by (assumption || (apply nsp_cased; [discriminate|reflexivity])).
    cbn [flat_map]. unfold opt_word_sp at 1. rewrite word_sp_printed by (assumption || reflexivity).
    eexists. reflexivity.
Qed.

Lemma sign_at_printed sp m leading rest : spell_ok sp -> tail_ok rest ->
  sign_at (cased m (sign_word leading) ++ separate_text sp ++ rest)
  = Some ([(KSign, cased m (sign_word leading)); (KSignSep, separate_text sp)], rest).
Proof.
  intros S T. unfold sign_at.
  apply (first_some_takes (fun _ => false) (fun u r1 =>
    match sign_sep_end r1 with
    | None => None
    | Some e => Some ([(KSign, firstn (length u) (cased m (sign_word leading) ++ separate_text sp ++ rest)); (KSignSep, consumed r1 e)], e)
    end)); [destruct leading; reflexivity|reflexivity| |discriminate|destruct leading; reflexivity|].
  - unfold separate_text. assoc. apply sepstr_follow, sep_sepstr, S.
  - rewrite firstn_cased. unfold separate_text, sign_sep_end, kw. assoc.
    rewrite sp_word_printed by (exact S || reflexivity || discriminate).
    destruct (chb sp 1); cbn [opt app]; assoc.
    + rewrite sp_word_printed by (exact S || reflexivity || discriminate).
      rewrite !app_assoc, consumed_app. reflexivity.
    + rewrite (sp_word_tail W_CHARACTER rest) by (look || exact T).
      rewrite !app_assoc, consumed_app. rewrite ?app_nil_r. reflexivity.
Qed.

Lemma tok_sign sp leading rest : spell_ok sp -> tail_ok rest ->
  token_at (print_clause (CSign leading true) sp ++ rest) = Some (Tok 9 (gmap (bindings (CSign leading true) sp)), rest).
Proof.
  intros S T. rewrite token_at_clause by reflexivity. apply try_alts_yes.
  cbn [alt print_clause bindings opt gmap map fst snd]. unfold alt_sign, sign_word_opt, sign_is_opt, kw. assoc.
  change K_SIGN with W_SIGN.
  destruct (prefix2_intro sp W_SIGN (nth 2 (masks sp) []) (sign_word leading) (separate_text sp ++ rest) S eq_refl) as [l ->];
    [destruct leading; reflexivity|].
  cbn [first_some]. rewrite sign_at_printed by assumption. reflexivity.
Qed.

Lemma follow_opt sp i (b : bool) x Y : spell_ok sp -> follow Y -> follow (opt b (sep sp i ++ x) ++ Y).
Proof. intros S F. destruct b; cbn [opt app]; [assoc; apply sepstr_follow, sep_sepstr, S|exact F]. Qed.

Lemma sp_word_opt sp i w m w' (b : bool) Y : spell_ok sp -> kword w' = true -> w' <> [] -> mismatch w w' = true ->
  sp_word w Y = None -> sp_word w (opt b (sep sp i ++ cased m w') ++ Y) = None.
Proof. intros S K N M H. destruct b; cbn [opt app]; [assoc; apply sp_word_mismatch; assumption|exact H]. Qed.

Lemma times_part_opt sp i m (b : bool) Y : spell_ok sp -> sp_word W_TIMES Y = None ->
  times_part true (opt b (sep sp i ++ cased m K_TIMES) ++ Y) = Some Y.
Proof.
  intros S H. unfold times_part. fold (sp_word W_TIMES (opt b (sep sp i ++ cased m K_TIMES) ++ Y)).
  destruct b; cbn [opt app]; [assoc; rewrite sp_word_printed by (exact S || reflexivity || discriminate)|rewrite H];
    reflexivity.
Qed.

(* the matcher's nested form of the test for SPACE and the word w *)
Lemma sp_word_none w Y r : sp1 Y = Some r -> sp_word w Y = None -> word_sp w r = None.
Proof. unfold sp_word, word_sp. intros E H. rewrite E in H. rewrite H. reflexivity. Qed.

(* the form with a minimum fails after a number that [TIMES] and something other than TO follow *)
Lemma odo_with_min_no_to sp i m (b : bool) n Y : spell_ok sp -> digits_ok n = true -> follow Y -> sp_word W_TO Y = None ->
  odo_with_min (n ++ opt b (sep sp i ++ cased m K_TIMES) ++ Y) = None.
Proof.
  intros S D F H. unfold odo_with_min. rewrite (digits1_app n _ D (follow_opt sp i b _ Y S F)). cbv beta iota.
  destruct (sp1 _) as [r1|] eqn:E1; [|reflexivity]. rewrite (sp_word_none W_TO _ r1 E1); [reflexivity|].
  apply sp_word_opt; [exact S|reflexivity|discriminate|reflexivity|exact H].
Qed.

(* the OCCURS DEPENDING alternative, tried first, fails on a plain OCCURS clause: no TO, no DEPENDING *)
Lemma alt_odo_plain sp m m' n rest : spell_ok sp -> digits_ok n = true -> tail_ok rest ->
  alt 6 (cased m K_OCCURS ++ sep sp 0 ++ n ++ opt (chb sp 0) (sep sp 1 ++ cased m' K_TIMES) ++ rest) = ANo.
Proof.
  intros S D T. destruct (digits_name n D) as [N0 N1].
  set (X := opt (chb sp 0) (sep sp 1 ++ cased m' K_TIMES) ++ rest).
  assert (F : follow X) by (apply follow_opt, tail_ok_follow; assumption).
  cbn [alt]. unfold alt_odo.
  rewrite word_sp_printed by (exact S || reflexivity || (apply nsp_name; assumption)).
  assert (W : odo_with_min (n ++ X) = None)
    by (apply odo_with_min_no_to; [exact S|exact D|apply tail_ok_follow, T|apply sp_word_tail; [look|exact T]]).
  assert (M : odo_from_max [] (n ++ X) = None).
  { unfold odo_from_max, times_odo_opt. rewrite (digits1_app n X D F). cbv beta iota.
    unfold X. rewrite times_part_opt by (exact S || (apply sp_word_tail; [look|exact T])).
    destruct (sp1 rest) as [r2|] eqn:E2; [|reflexivity].
    rewrite (sp_word_none W_DEPENDING rest r2 E2); [reflexivity|apply sp_word_tail; [look|exact T]]. }
  rewrite W, M. reflexivity.
Qed.

Lemma tok_occurs sp n rest : spell_ok sp -> digits_ok n = true -> tail_ok rest ->
  token_at (print_clause (COccurs n None) sp ++ rest) = Some (Tok 7 (gmap (bindings (COccurs n None) sp)), rest).
Proof.
  intros S D T. rewrite token_at_clause by reflexivity. cbn [print_clause print_ix first_alt]. rewrite app_nil_r. unfold kw. assoc.
  change (skipn (N.to_nat 6) alt_order) with (6 :: skipn 7 alt_order).
  rewrite try_alts_no by (apply alt_odo_plain; assumption). apply try_alts_yes.
  destruct (digits_name n D) as [N0 N1].
  cbn [alt]. unfold alt_occurs, times_occ_opt.
  rewrite word_sp_printed by (exact S || reflexivity || (apply nsp_name; assumption)).
  rewrite (digits1_app n) by (exact D || (apply follow_opt, tail_ok_follow; assumption)). cbv beta iota.
  rewrite times_part_opt by (exact S || (apply sp_word_tail; [look|exact T])). apply with_key_tail_clean. exact T.
Qed.

Lemma lit_name_split : forall w n rest r, kword w = true -> forallb name_char n = true -> follow rest ->
  lit w (n ++ rest) = Some r -> ci_prefix w n = true /\ r = skipn (length w) n ++ rest /\ (length w <= length n)%nat.
Proof.
  induction w as [|x w IH]; intros n rest r K A F L.
  - cbn [lit] in L. injection L as <-. repeat split. apply Nat.le_0_l.
  - destruct n as [|c n].
    + cbn [app] in L. rewrite lit_follow in L; [discriminate|exact K|discriminate|exact F].
    + apply andb_true_iff in K as [_ K]. apply andb_true_iff in A as [Ac A].
      cbn [app lit] in L. rewrite (name_char_up c Ac) in L. destruct (upper c =? x) eqn:E; [|discriminate].
      destruct (IH n rest r K A F L) as (P & R & Ln). cbn [ci_prefix skipn length]. rewrite E, P. repeat split; [exact R|apply le_n_S, Ln].
Qed.

Lemma forallb_skipn {A} (p : A -> bool) k l : forallb p l = true -> forallb p (skipn k l) = true.
Proof.
  revert l. induction k as [|k IH]; intros l H; [exact H|]. destruct l as [|a l]; [reflexivity|].
  cbn [skipn]. apply andb_true_iff in H as [_ H]. apply IH. exact H.
Qed.

(* after a reserved word matched at the start of a data name, the name goes on: no separator can follow *)
Lemma lit_name_goes_on w n rest r : kword w = true -> existsb (SR.Spec.Clauses.str_eqb w) reserved_words = true ->
  name_ok n = true -> follow rest -> lit w (n ++ rest) = Some r -> nsp r.
Proof.
  intros K I N F L. destruct (name_ok_parts n N) as (N0 & A & R & _).
  apply existsb_exists in I as (w' & I & E). apply spec_str_eqb_eq in E. subst w'.
  destruct (lit_name_split w n rest r K A F L) as (P & -> & Ln).
  apply nsp_name; [|apply forallb_skipn; exact A]. intros E.
  assert (Le : length (skipn (length w) n) = 0%nat) by (rewrite E; reflexivity). rewrite skipn_length in Le.
  assert (Q : is_reserved n = true); [|congruence].
  apply existsb_exists. exists w. split; [exact I|]. unfold ci_equal. rewrite P. apply Nat.eqb_eq. clear - Ln Le. lia.
Qed.

Lemma word_sp_name_none w n rest : kword w = true -> existsb (SR.Spec.Clauses.str_eqb w) reserved_words = true ->
  name_ok n = true -> follow rest -> word_sp w (n ++ rest) = None.
Proof.
  intros K I N F. unfold word_sp. destruct (lit w (n ++ rest)) as [r|] eqn:L; [|reflexivity].
  apply sp1_nsp, (lit_name_goes_on w n rest r K I N F L).
Qed.

Lemma dep_name_printed sp dep rest : spell_ok sp -> name_ok dep = true -> follow rest ->
  dep_name (opt (chb sp 1) (kw sp 4 K_ON ++ sep sp 6) ++ dep ++ rest) = Some (dep, rest).
Proof.
  intros S N F. destruct (name_ok_parts dep N) as (N0 & A & _ & _). unfold dep_name, kw.
  destruct (chb sp 1); cbn [opt app]; assoc.
  - rewrite word_sp_printed by (exact S || reflexivity || (apply nsp_name; assumption)).
    rewrite name1_app by assumption. reflexivity.
  - rewrite (word_sp_name_none W_ON dep rest) by (reflexivity || assumption).
    unfold on_opt. apply name1_app; assumption.
Qed.

(* OCCURS [m TO] mx [TIMES] DEPENDING [ON] dep, from mx on *)
Definition odo_text (sp : cspell) (mx dep rest : list N) : list N :=
  mx ++ opt (chb sp 0) (sep sp 3 ++ kw sp 2 K_TIMES) ++ sep sp 4 ++ kw sp 3 K_DEPENDING ++ sep sp 5
     ++ opt (chb sp 1) (kw sp 4 K_ON ++ sep sp 6) ++ dep ++ rest.

Lemma odo_from_max_printed sp g mx dep rest : spell_ok sp -> digits_ok mx = true -> name_ok dep = true -> follow rest ->
  odo_from_max g (odo_text sp mx dep rest) = Some (g ++ [(KOdoMax, mx); (KDepending, dep)], rest).
Proof.
  intros S D N F. destruct (name_ok_parts dep N) as (N0 & A & _ & _).
  unfold odo_from_max, odo_text, times_odo_opt.
  rewrite (digits1_app mx) by (exact D || (apply follow_opt; [exact S|apply sepstr_follow, sep_sepstr, S])). cbv beta iota.
  unfold kw. rewrite times_part_opt by (exact S || (apply sp_word_mismatch; (exact S || reflexivity || discriminate))).
  rewrite (sp1_sep _ _ (sep_sepstr sp 4 S)) by (apply nsp_cased; [discriminate|reflexivity]).
  rewrite word_sp_printed.
  - fold (kw sp 4 K_ON). rewrite (dep_name_printed sp dep rest S N F). reflexivity.
  - exact S.
  - reflexivity.
  - destruct (chb sp 1); cbn [opt app]; assoc; [apply nsp_cased; [discriminate|reflexivity]|apply nsp_name; assumption].
Qed.

(* without a minimum, the form with a minimum fails after the number: TIMES or DEPENDING stands where TO would *)
Lemma odo_with_min_none sp mx dep rest : spell_ok sp -> digits_ok mx = true -> odo_with_min (odo_text sp mx dep rest) = None.
Proof.
  intros S D. unfold odo_text, kw. apply odo_with_min_no_to; [exact S|exact D|apply sepstr_follow, sep_sepstr, S|].
  apply sp_word_mismatch; (exact S || reflexivity || discriminate).
Qed.

Lemma tok_odo sp mn mx dep rest : spell_ok sp -> (match mn with Some m => digits_ok m | None => true end) = true ->
  digits_ok mx = true -> name_ok dep = true -> tail_ok rest ->
  token_at (print_clause (COdo mn mx dep None) sp ++ rest) = Some (Tok 6 (gmap (bindings (COdo mn mx dep None) sp)), rest).
Proof.
  intros S Dm D N T. pose proof (tail_ok_follow rest T) as F.
  rewrite token_at_clause by reflexivity. apply try_alts_yes.
  cbn [alt print_clause print_ix bindings]. rewrite app_nil_r. unfold alt_odo, kw at 1. assoc.
  change (mx ++ _) with (odo_text sp mx dep rest).
  assert (NM : nsp (odo_text sp mx dep rest)) by (apply nsp_name; apply (digits_name mx D)).
  destruct mn as [m|]; assoc.
  - destruct (digits_name m Dm) as [M0 M1].
    rewrite word_sp_printed by (exact S || reflexivity || (apply nsp_name; assumption)).
    unfold odo_with_min. rewrite (digits1_app m) by (assumption || (apply sepstr_follow, sep_sepstr, S)). cbv beta iota.
    rewrite (sp1_sep _ _ (sep_sepstr sp 1 S)) by (apply nsp_cased; [discriminate|reflexivity]).
    unfold kw at 1. rewrite word_sp_printed by (exact S || reflexivity || exact NM).
    rewrite odo_from_max_printed by assumption. cbn [gmap map app fst snd]. apply with_key_tail_clean. exact T.
  - cbn [app]. rewrite word_sp_printed by (exact S || reflexivity || exact NM).
    rewrite odo_with_min_none, odo_from_max_printed by assumption. cbn [gmap map app fst snd]. apply with_key_tail_clean. exact T.
Qed.

Definition blank_tail (rest : list N) : Prop := rest = [] \/ exists c t, rest = c :: t /\ is_blank c = true.

Lemma nonws1_word p rest : p <> [] -> forallb printable_char p = true -> blank_tail rest -> nonws1 (p ++ rest) = Some (p, rest).
Proof.
  intros N A B. unfold nonws1. apply plus1_app; [exact N| |].
  - revert A. apply forallb_impl. intros c A. unfold non_ws. rewrite (printable_not_ws c A). reflexivity.
  - destruct B as [->|(c & t & -> & B)]; [left; reflexivity|]. apply stops_cons. unfold non_ws. rewrite (blank_is_ws c B). reflexivity.
Qed.

Lemma word_start c t x : printable_char c = true -> (upper c =? 73) = false -> s_mem c [124; 44; 59] = false ->
  nsp ((c :: t) ++ x) /\ lit W_IS ((c :: t) ++ x) = None.
Proof.
  intros P U M. cbn [app]. split.
  - apply stops_cons. rewrite (printable_sp c P). exact M.
  - unfold W_IS. cbn [lit]. rewrite up_ascii by (unfold printable_char in P; lia). rewrite U. reflexivity.
Qed.

Lemma is_then_printed sp m (b : bool) body v rest x : spell_ok sp -> nsp (v ++ rest) -> lit W_IS (v ++ rest) = None ->
  body (v ++ rest) = Some x ->
  is_then true body (opt b (cased m K_IS ++ sep sp 1) ++ v ++ rest) = Some x /\ nsp (opt b (cased m K_IS ++ sep sp 1) ++ v ++ rest).
Proof.
  intros S Nv L B. unfold is_then. destruct b; cbn [opt app]; assoc.
  - rewrite lit_cased by reflexivity. rewrite (plus_bt_sep _ _ body x (sep_sepstr sp 1 S) Nv B).
    split; [reflexivity|apply nsp_cased; [discriminate|reflexivity]].
  - rewrite L. split; assumption.
Qed.

Lemma pic_ok_parts p : pic_ok p = true ->
  p <> [] /\ forallb printable_char p = true /\ forall x, nsp (p ++ x) /\ lit W_IS (p ++ x) = None.
Proof.
  destruct p as [|c t]; [discriminate|]. cbn [pic_ok]. intros H. apply andb_true_iff in H as [H A]. apply andb_true_iff in H as [H1 H2].
  assert (AP : forallb printable_char (c :: t) = true).
  { revert A. apply forallb_impl. intros d D. apply andb_true_iff in D as [D _]. exact D. }
  split; [congruence|]. split; [exact AP|]. intros x. apply andb_true_iff in A as [A1 _]. apply andb_true_iff in AP as [P1 _].
  apply word_start; [exact P1|apply negb_true_iff, H1|].
  clear - A1 H2. unfold pic_char, s_mem, existsb in *. lia.
Qed.

Lemma tok_picture sp p rest : spell_ok sp -> pic_ok p = true -> blank_tail rest ->
  token_at (print_clause (CPicture p) sp ++ rest) = Some (Tok 8 (gmap (bindings (CPicture p) sp)), rest).
Proof.
  intros S P B. destruct (pic_ok_parts p P) as (P0 & PA & PW). destruct (PW rest) as [Np Lp].
  rewrite token_at_clause by reflexivity. apply try_alts_yes.
  cbn [alt print_clause bindings gmap map fst snd]. unfold alt_picture, pic_is_opt, kw. assoc.
  destruct (is_then_printed sp (nth 1 (masks sp) []) (chb sp 1) nonws1 p rest (p, rest) S Np Lp (nonws1_word p rest P0 PA B)) as [IT NI].
  destruct (andb_prop _ _ (pic_word_ok (chN sp 0))) as [K T].
  rewrite (first_some_takes kwc (fun _ r => plus_bt is_sp r (is_then true nonws1)) pic_words _ _ _ (p, rest) K eq_refl);
    [reflexivity|apply sepstr_follow, sep_sepstr, S| |exact T|apply plus_bt_sep; [apply sep_sepstr, S|exact NI|exact IT]].
  intros _ b c t Kc. apply plus_bt_stops, nsp_mid_word, Kc.
Qed.

Definition plainc (c : N) : bool := negb (s_mem c [39; 34]).
Definition noq (s : list N) : Prop := forallb plainc s = true.

Lemma last_q_none q l : forallb (fun c => negb (c =? q)) l = true -> last_q q l = None.
Proof.
  induction l as [|c l IH]; [reflexivity|]. cbn [forallb last_q]. intros H. apply andb_true_iff in H as [H1 H2].
  rewrite (IH H2). destruct (c =? q); [discriminate|reflexivity].
Qed.

Lemma last_q_app q body l : last_q q l = None -> last_q q (body ++ q :: l) = Some (length (body ++ [q])).
Proof.
  intros H. induction body as [|c body IH]; cbn [app last_q length].
  - rewrite H, N.eqb_refl. reflexivity.
  - rewrite IH. reflexivity.
Qed.

Lemma span_app_all p a r : forallb p a = true -> span p (a ++ r) = (a ++ fst (span p r), snd (span p r)).
Proof.
  intros A. induction a as [|c a IH]; cbn [app]; [destruct (span p r); reflexivity|].
  apply andb_true_iff in A as [A1 A2]. cbn [span]. rewrite A1, (IH A2). reflexivity.
Qed.

Lemma forallb_span_fst {p q : N -> bool} l : forallb q l = true -> forallb q (fst (span p l)) = true.
Proof.
  induction l as [|c l IH]; [reflexivity|]. cbn [forallb span]. intros H. apply andb_true_iff in H as [H1 H2].
  destruct (p c); [|reflexivity]. destruct (span p l) eqn:E. cbn [fst forallb] in *. rewrite H1, (IH H2). reflexivity.
Qed.

Lemma quoted_printed q body rest : s_mem q [39; 34] = true -> forallb (fun c => negb (c =? 10)) body = true -> noq rest ->
  quoted q ((q :: body ++ [q]) ++ rest) = Some (q :: body ++ [q], rest).
Proof.
  intros Q B NQ. cbn [app]. assoc. cbn [app quoted]. rewrite N.eqb_refl.
  assert (Qn : not_nl q = true) by (apply negb_true_iff, N.eqb_neq; intros ->; discriminate Q).
  rewrite (span_app_all not_nl body (q :: rest)) by exact B. cbn [fst span]. rewrite Qn.
  destruct (span not_nl rest) as [l1 l2] eqn:E. cbn [fst].
  assert (L1 : last_q q l1 = None).
  { apply last_q_none. pose proof (@forallb_span_fst not_nl plainc rest NQ) as F. rewrite E in F. cbn [fst] in F.
    revert F. apply forallb_impl. intros c P. apply negb_true_iff, N.eqb_neq. intros ->. unfold plainc in P. rewrite Q in P. discriminate P. }
  rewrite (last_q_app q body l1 L1). change (q :: rest) with ([q] ++ rest). rewrite app_assoc.
  rewrite firstn_app, skipn_app, Nat.sub_diag, firstn_all, skipn_all. cbn [firstn skipn app]. rewrite app_nil_r. reflexivity.
Qed.

Lemma quoted_ok_shape v : quoted_ok v = true ->
  exists q body, v = q :: body ++ [q] /\ s_mem q [39; 34] = true /\ forallb (fun c => negb (c =? 10)) body = true.
Proof.
  destruct v as [|q t]; [discriminate|]. cbn [quoted_ok]. intros H. apply andb_true_iff in H as [Q H].
  destruct (rev t) as [|q' rb] eqn:E; [discriminate|]. apply andb_true_iff in H as [H1 H2]. apply N.eqb_eq in H1. subst q'.
  exists q, (rev rb). split; [|split; [exact Q|]].
  - f_equal. rewrite <- (rev_involutive t), E. reflexivity.
  - rewrite forallb_forall in *. intros x I. apply H2. apply in_rev. exact I.
Qed.

Lemma value_body_printed v rest : value_ok v = true -> (if is_quoted v then noq rest else blank_tail rest) ->
  value_body (v ++ rest) = Some (v, rest) /\ nsp (v ++ rest) /\ lit W_IS (v ++ rest) = None.
Proof.
  unfold value_ok. destruct (is_quoted v) eqn:IQ; intros V T.
  - destruct (quoted_ok_shape v V) as (q & body & -> & Q & B).
    assert (q = 39 \/ q = 34) as [-> | ->] by (unfold s_mem, existsb in Q; lia);
      (split; [unfold value_body; rewrite quoted_printed by assumption; reflexivity|apply word_start; reflexivity]).
  - destruct v as [|c t]; [discriminate|]. cbn [word_ok] in V. apply andb_true_iff in V as [U A].
    cbn [is_quoted s_mem existsb] in IQ. apply orb_false_iff in IQ as [Q1 Q2]. apply orb_false_iff in Q2 as [Q2 _].
    assert (AP : forallb printable_char (c :: t) = true).
    { revert A. apply forallb_impl. intros d D. apply andb_true_iff in D as [D _]. exact D. }
    split.
    + unfold value_body, quoted. cbn [app]. rewrite Q1, Q2. apply (nonws1_word (c :: t) rest); [discriminate|exact AP|exact T].
    + apply andb_true_iff in A as [A1 _]. apply andb_true_iff in AP as [P1 _].
      apply word_start; [exact P1|apply negb_true_iff, U|].
      clear - A1. unfold word_char, s_mem, existsb in *. lia.
Qed.

Lemma tok_value sp v rest : spell_ok sp -> value_ok v = true -> (if is_quoted v then noq rest else blank_tail rest) ->
  token_at (print_clause (CValue v) sp ++ rest) = Some (Tok 12 (gmap (bindings (CValue v) sp)), rest).
Proof.
  intros S V T. destruct (value_body_printed v rest V T) as (VB & Nv & Lv).
  rewrite token_at_clause by reflexivity. apply try_alts_yes.
  cbn [alt print_clause bindings gmap map fst snd]. unfold alt_value, value_is_opt, kw. assoc.
  destruct (is_then_printed sp (nth 1 (masks sp) []) (chb sp 0) value_body v rest (v, rest) S Nv Lv VB) as [IT NI].
  rewrite lit_cased by reflexivity.
  rewrite (plus_bt_sep (sep sp 0) _ (is_then true value_body) (v, rest) (sep_sepstr sp 0 S) NI IT). reflexivity.
Qed.

Lemma guard_follow rest : follow rest -> guard_ok rest = true.
Proof.
  intros [->|(c & t & -> & S)]; [reflexivity|]. unfold guard_ok, usage_guard. destruct (sepc_cases c S) as [->|[->|[->|[->|[->| ->]]]]]; reflexivity.
Qed.

Lemma usage_at_printed m w rest : In w all_usage_words -> follow rest -> usage_at (cased m w ++ rest) = Some ([(KUsage, cased m w)], rest).
Proof.
  intros I F. destruct (usage_word_facts w I) as (K & _ & _ & T). unfold usage_at.
  apply (first_some_takes (N.eqb 45) (fun u r1 =>
    if guard_ok r1 then Some ([(KUsage, firstn (length u) (cased m w ++ rest))], r1) else None)); [exact K|reflexivity|exact F| |exact T|].
  - intros u b c t E. apply N.eqb_eq in E. subst c. destruct b; reflexivity.
  - rewrite (guard_follow rest F), firstn_cased. reflexivity.
Qed.

Lemma tok_usage sp fam rest : spell_ok sp -> follow rest ->
  token_at (print_clause (CUsage fam) sp ++ rest) = Some (Tok 11 (gmap (bindings (CUsage fam) sp)), rest).
Proof.
  intros S F. rewrite token_at_clause by reflexivity. apply try_alts_yes.
  cbn [alt print_clause bindings gmap map fst snd]. unfold alt_usage, usage_word_opt, usage_is_opt, kw. assoc.
  pose proof (usage_word_in fam (chN sp 1)) as I. destruct (usage_word_facts _ I) as (_ & _ & A & _).
  change K_USAGE with W_USAGE.
  destruct (prefix2_intro sp W_USAGE (nth 2 (masks sp) []) _ rest S eq_refl A) as [l ->].
  cbn [first_some]. rewrite usage_at_printed by assumption. reflexivity.
Qed.

Lemma ci_prefix_prefixb : forall g u n, prefixb g u = true -> ci_prefix u n = true -> ci_prefix g n = true.
Proof.
  induction g as [|x g IH]; intros u n P C; [reflexivity|].
  destruct u as [|y u]; [discriminate|]. cbn [prefixb] in P. apply andb_true_iff in P as [E P]. apply N.eqb_eq in E. subst y.
  destruct n as [|c n]; [discriminate|]. cbn [ci_prefix] in *. apply andb_true_iff in C as [C1 C2]. rewrite C1. apply (IH u n P C2).
Qed.

Lemma lit_glued_none u n rest : kword u = true -> existsb (fun g => prefixb g u) glued_words = true -> name_ok n = true -> follow rest ->
  lit u (n ++ rest) = None.
Proof.
  intros K G N F. destruct (name_ok_parts n N) as (_ & A & _ & KP).
  destruct (lit u (n ++ rest)) as [r|] eqn:L; [|reflexivity].
  destruct (lit_name_split u n rest r K A F L) as (P & _ & _).
  apply existsb_exists in G as (g & I & Pg).
  assert (keyword_prefixed n = true); [|congruence].
  unfold keyword_prefixed. apply existsb_exists. exists g. split; [exact I|apply (ci_prefix_prefixb g u n Pg P)].
Qed.

(* the first literals of the keyword alternatives: reserved words, and those that SPACE need not follow are among the
   words a data name may not begin with *)
Lemma heads_checked :
  forallb (fun id => forallb (fun u => kword u && existsb (SR.Spec.Clauses.str_eqb u) reserved_words) (heads_sp id)
                     && forallb (fun u => kword u && existsb (fun g => prefixb g u) glued_words) (heads_glued id)) keyword_alts = true.
Proof. vm_compute. reflexivity. Qed.

Lemma name_alts n rest : name_ok n = true -> follow rest -> forall id, In id keyword_alts -> alt id (n ++ rest) = ANo.
Proof.
  intros N F id I. destruct (name_ok_parts n N) as (N0 & A & _ & _).
  pose proof heads_checked as H. rewrite forallb_forall in H. specialize (H id I).
  apply andb_true_iff in H as [Hs Hg]. rewrite forallb_forall in Hs, Hg.
  apply alt_no; [exact I|apply nsp_name; assumption| |].
  - intros u r Iu L. specialize (Hs u Iu). apply andb_true_iff in Hs as [K R].
    apply (lit_name_goes_on u n rest r K R N F L).
  - intros u Iu. specialize (Hg u Iu). apply andb_true_iff in Hg as [K G]. apply lit_glued_none; assumption.
Qed.

Lemma tok_name sp n rest : name_ok n = true -> follow rest ->
  token_at (print_clause (CName n) sp ++ rest) = Some (Tok 14 (gmap (bindings (CName n) sp)), rest).
Proof.
  intros N F. destruct (name_ok_parts n N) as (N0 & A & _ & _). cbn [print_clause bindings gmap map fst snd].
  unfold token_at. change alt_order with (keyword_alts ++ [14]). rewrite try_alts_app by (apply name_alts; assumption).
  apply try_alts_yes. cbn [alt]. unfold alt_name. rewrite name1_app by assumption. reflexivity.
Qed.

(* ================================================================ 4. entries *)
Lemma scan_skip : forall w r, scan (length w) (w ++ r) = scan 0 r.
Proof. induction w as [|c w IH]; intros r; [reflexivity|]. cbn [length app scan]. apply IH. Qed.

Lemma scan_tok w rest i : w <> [] -> token_at (w ++ rest) = Some (i, rest) -> scan 0 (w ++ rest) = i :: scan 0 rest.
Proof.
  intros N T. destruct w as [|c w]; [congruence|]. cbn [app] in *. cbn [scan]. rewrite T. f_equal.
  rewrite app_length. replace (length w + length rest - length rest)%nat with (length w) by lia. apply scan_skip.
Qed.

(* the scan of the text t yields the groups g, and no item that ran out of fuel *)
Definition scanned (t : list N) (g : groups) : Prop := merged (scan 0 t) = g /\ existsb is_fuel (scan 0 t) = false.

Lemma scanned_tok w rest id g g' : w <> [] -> token_at (w ++ rest) = Some (Tok id g, rest) -> scanned rest g' ->
  scanned (w ++ rest) (g ++ g').
Proof.
  intros N T [M F]. unfold scanned. rewrite (scan_tok w rest _ N T). split; [|exact F].
  unfold merged in *. cbn [flat_map]. rewrite M. reflexivity.
Qed.

Lemma scanned_sep s r g : forallb sepc s = true -> nsp r -> scanned r g -> scanned (s ++ r) g.
Proof.
  intros S Rn. destruct s as [|c s]; [trivial|]. apply (scanned_tok (c :: s) r 0 []); [discriminate|].
  unfold token_at. apply try_alts_yes. cbn [alt]. unfold alt_space. rewrite sp1_sep; [reflexivity|split; [discriminate|exact S]|exact Rn].
Qed.

(* no quote characters in what is printed outside a VALUE clause: a quoted literal runs to the last quote *)
Lemma noq_nil : noq [].
Proof. reflexivity. Qed.

Lemma noq_app a b : noq a -> noq b -> noq (a ++ b).
Proof. unfold noq. intros A B. rewrite forallb_app, A, B. reflexivity. Qed.

Lemma noq_opt b s : noq s -> noq (opt b s).
Proof. destruct b; [trivial|reflexivity]. Qed.

Lemma noq_name n : forallb name_char n = true -> noq n.
Proof. apply forallb_impl. intros c. unfold name_char, is_upper_letter, is_lower_letter, is_digit, plainc, s_mem, existsb. lia. Qed.

Lemma noq_sepstr s : forallb sepc s = true -> noq s.
Proof. apply forallb_impl. intros c. unfold sepc, is_blank, plainc, s_mem, existsb. lia. Qed.

Lemma noq_sep sp i : spell_ok sp -> noq (sep sp i).
Proof. intros S. apply noq_sepstr, (sep_sepstr sp i S). Qed.

Lemma noq_kw sp i w : kword w = true -> noq (kw sp i w).
Proof. intros K. apply noq_name, cased_all_name, K. Qed.

Lemma noq_kw_nth sp i n l d : forallb kword (d :: l) = true -> noq (kw sp i (nth n l d)).
Proof. intros H. apply noq_kw, (forallb_nth kword), H. Qed.

Lemma noq_kw_if sp i (b : bool) w1 w2 : kword w1 = true -> kword w2 = true -> noq (kw sp i (if b then w1 else w2)).
Proof. intros K1 K2. apply noq_kw. destruct b; assumption. Qed.

Lemma noq_name_ok n : name_ok n = true -> noq n.
Proof. intros H. apply noq_name, (name_ok_parts n H). Qed.

Lemma noq_digits n : digits_ok n = true -> noq n.
Proof. intros H. apply noq_name, (digits_name n H). Qed.

Lemma noq_pic p : pic_ok p = true -> noq p.
Proof.
  destruct p as [|c t]; [discriminate|]. cbn [pic_ok]. intros H. apply andb_true_iff in H as [_ A].
  revert A. apply forallb_impl. intros d. unfold pic_char, plainc, s_mem, existsb. lia.
Qed.

Create HintDb noq.
#[local] Hint Resolve noq_nil noq_app noq_opt noq_sep noq_kw noq_kw_nth noq_kw_if usage_word_kword : noq.
(* these fit every text: tried last *)
#[local] Hint Resolve noq_name_ok noq_digits noq_pic | 9 : noq.

Lemma noq_intro sp w : spell_ok sp -> kword w = true -> noq (intro sp w).
Proof. intros S K. destruct (intro_cases sp w) as [-> |[-> | ->]]; auto 10 with noq. Qed.
#[local] Hint Resolve noq_intro : noq.

Lemma clause_ok_spell c sp : clause_ok c sp = true -> spell_ok sp.
Proof. unfold clause_ok, spell_ok. intros H. apply andb_true_iff in H as [H _]. exact H. Qed.

Lemma noq_clause c sp : clause_ok c sp = true -> kind c <> 5 -> noq (print_clause c sp).
Proof.
  intros C K. pose proof (clause_ok_spell c sp C) as S. unfold clause_ok in C. apply andb_true_iff in C as [_ C].
  destruct c; cbn [print_clause kind] in *; try congruence;
    unfold pic_word, just_word, sync_word, zero_word, side_text, side_word, sign_word, separate_text.
  (* the two forms of OCCURS first: on them the search fails until the condition is taken apart, and fails slowly *)
  4: { apply andb_true_iff in C as [D I]. destruct ix; [discriminate|]. cbn [print_ix]. auto 20 with noq. }
  4: { apply andb_true_iff in C as [C I]. apply andb_true_iff in C as [C Nd]. apply andb_true_iff in C as [Dm Dx].
       destruct ix; [discriminate|]. destruct mn; cbn [print_ix]; auto 20 with noq. }
  all: auto 20 with noq.
Qed.

Lemma items_ok_cons c cs sps : items_ok (c :: cs) sps = true ->
  clause_ok c (fst (hd sp_default sps)) = true
  /\ after_ok c (match cs with [] => true | _ => false end) (snd (hd sp_default sps)) = true
  /\ existsb is_name_clause cs = false /\ items_ok cs (tl sps) = true.
Proof.
  cbn [items_ok]. intros I. apply andb_true_iff in I as [I I4]. apply andb_true_iff in I as [I I3]. apply andb_true_iff in I as [I1 I2].
  apply negb_true_iff in I3. auto.
Qed.

Lemma after_sepc c last a : after_ok c last a = true -> forallb sepc a = true.
Proof.
  unfold after_ok. intros H. apply andb_true_iff in H as [H _]. destruct last; [apply all_blank_sepc|apply sep_ok_sepstr]; exact H.
Qed.

Lemma noq_items : forall cs sps, items_ok cs sps = true -> s_mem 5 (map kind cs) = false -> noq (print_items cs sps).
Proof.
  induction cs as [|c cs IH]; intros sps I K; [apply noq_nil|]. destruct (items_ok_cons c cs sps I) as (I1 & I2 & _ & I4).
  cbn [map s_mem existsb] in K. apply orb_false_iff in K as [K1 K2].
  cbn [print_items]. apply noq_app; [apply noq_clause; [exact I1|intros E; rewrite E in K1; discriminate]|].
  apply noq_app; [apply noq_sepstr, (after_sepc _ _ _ I2)|apply IH; assumption].
Qed.

Lemma items_head c cs sps : existsb is_name_clause (c :: cs) = false -> starts_ok (print_items (c :: cs) sps).
Proof. intros H. cbn [existsb] in H. apply orb_false_iff in H as [H _]. cbn [print_items]. apply clause_head. exact H. Qed.

Lemma items_nonempty c cs sps : existsb is_name_clause (c :: cs) = false -> print_items (c :: cs) sps <> [].
Proof. intros H. apply (items_head c cs sps H). Qed.

Lemma items_start cs sps : existsb is_name_clause cs = false -> nsp (print_items cs sps) /\ clean_next (print_items cs sps).
Proof.
  destruct cs as [|c cs]; intros H; [split; [left; reflexivity|apply clean_next_nil]|].
  destruct (items_head c cs sps H) as (H1 & H2 & _). split; assumption.
Qed.

Lemma print_clause_nonempty c sp : clause_ok c sp = true -> print_clause c sp <> [].
Proof.
  intros C. destruct (is_name_clause c) eqn:Nn.
  - unfold clause_ok in C. apply andb_true_iff in C as [_ C]. destruct c; try discriminate.
    apply (name_ok_parts n C).
  - intros E. destruct (clause_head c sp [] Nn) as (_ & _ & N). rewrite app_nil_r in N. apply N. exact E.
Qed.

Lemma tail_ok_app a r : forallb sepc a = true -> (a = [] -> r = []) -> nsp r -> clean_next r -> tail_ok (a ++ r).
Proof.
  intros A E Rn C. destruct a as [|c t]; [rewrite (E eq_refl); left; reflexivity|right].
  exists (c :: t), r. split; [reflexivity|]. split; [split; [discriminate|exact A]|]. split; assumption.
Qed.

Lemma blank_tail_app a r : all_blank a = true -> (a = [] -> r = []) -> blank_tail (a ++ r).
Proof.
  intros A H. destruct a as [|c t]; [rewrite (H eq_refl); left; reflexivity|right]. exists c, (t ++ r). split; [reflexivity|].
  unfold all_blank in A. apply andb_true_iff in A as [A _]. exact A.
Qed.

Lemma gmap_app a b : gmap (a ++ b) = gmap a ++ gmap b.
Proof. apply map_app. Qed.

Lemma items_scan : forall cs sps, nodup_N (map kind cs) = true -> items_ok cs sps = true ->
  scanned (print_items cs sps) (gmap (all_bindings cs sps)).
Proof.
  induction cs as [|c cs IH]; intros sps ND I; [split; reflexivity|]. destruct (items_ok_cons c cs sps I) as (I1 & I2 & I3 & I4).
  cbn [map nodup_N] in ND. apply andb_true_iff in ND as [ND1 ND2]. apply negb_true_iff in ND1.
  specialize (IH (tl sps) ND2 I4).
  cbn [print_items all_bindings]. rewrite gmap_app.
  remember (fst (hd sp_default sps)) as sp eqn:Hsp. remember (snd (hd sp_default sps)) as a eqn:Ha.
  remember (print_items cs (tl sps)) as R eqn:HR.
  pose proof (clause_ok_spell c sp I1) as S. pose proof (print_clause_nonempty c sp I1) as Ne.
  (* what follows the clause: separator characters, none only at the very end; then nothing, or a clause that is no data name *)
  pose proof (after_sepc _ _ _ I2) as Sa. unfold after_ok in I2. apply andb_true_iff in I2 as [A1 A2].
  destruct (items_start cs (tl sps) I3) as [Rn Cn]. rewrite <- HR in Rn, Cn.
  assert (E : a = [] -> R = []) by (destruct cs; [intros _; exact HR|intros Ea; rewrite Ea in A1; discriminate]).
  pose proof (tail_ok_app a R Sa E Rn Cn) as T.
  assert (BT : all_blank a = true -> blank_tail (a ++ R)) by (intros B; apply blank_tail_app; assumption).
  pose proof (scanned_sep a R _ Sa Rn IH) as SC.
  pose proof (tail_ok_follow _ T) as F.
  unfold clause_ok in I1. apply andb_true_iff in I1 as [_ I1].
  (* but for JUSTIFIED alone, the clause's token stops at its end *)
  assert (COMMON : forall id, token_at (print_clause c sp ++ a ++ R) = Some (Tok id (gmap (bindings c sp)), a ++ R) ->
            scanned (print_clause c sp ++ a ++ R) (gmap (bindings c sp) ++ gmap (all_bindings cs (tl sps))))
    by (intros id Tk; exact (scanned_tok _ _ _ _ _ Ne Tk SC)).
  destruct c.
  - eapply COMMON, tok_name; assumption.
  - eapply COMMON, tok_filler.
  - eapply COMMON, tok_redefines; assumption.
  - apply andb_true_iff in I1 as [D Ix]. destruct ix; [discriminate|]. eapply COMMON, tok_occurs; assumption.
  - apply andb_true_iff in I1 as [I1 Ix]. apply andb_true_iff in I1 as [I1 Nd]. apply andb_true_iff in I1 as [Dm Dx].
    destruct ix; [discriminate|]. eapply COMMON, tok_odo; assumption.
  - eapply COMMON, tok_picture; [exact S|exact I1|apply BT; exact A2].
  - eapply COMMON, tok_usage; assumption.
  - eapply COMMON, tok_value; [exact S|exact I1|]. destruct (is_quoted v); [|apply BT; exact A2].
    apply noq_app; [apply noq_sepstr, Sa|rewrite HR; apply noq_items; [exact I4|exact ND1]].
  - eapply COMMON, tok_blank; assumption.
  - destruct rt; [eapply COMMON, tok_just_right; exact S|].
    assert (Sa' : sepstr a) by (split; [intros Ea; rewrite Ea in A2; discriminate|exact Sa]).
    assert (Ne2 : print_clause (CJust false) sp ++ a <> []) by (intros Q; apply app_eq_nil in Q as [Q _]; exact (Ne Q)).
    pose proof (tok_just_plain sp a R Sa' Rn Cn) as Tk. rewrite app_assoc in Tk |- *. exact (scanned_tok _ R _ _ _ Ne2 Tk IH).
  - eapply COMMON, tok_sync; assumption.
  - destruct separate; [|discriminate]. eapply COMMON, tok_sign; assumption.
  - eapply COMMON, tok_external.
  - eapply COMMON, tok_global.
Qed.

(* ================================================================ 5. dictionaries *)
(* a later binding of a key replaces an earlier one *)
Lemma lookup_app k a b : lookup k (a ++ b) = match lookup k b with Some v => Some v | None => lookup k a end.
Proof.
  unfold lookup. rewrite fold_left_app. generalize (fold_left (fun acc kv => if fst kv =? k then Some (snd kv) else acc) a None).
  induction b as [|kv b IH]; intros acc; cbn [fold_left].
  - destruct acc; reflexivity.
  - rewrite IH. rewrite (IH (if fst kv =? k then Some (snd kv) else None)). destruct (fold_left _ b None); [reflexivity|].
    destruct (fst kv =? k); [reflexivity|]. destruct acc; reflexivity.
Qed.

Lemma lookup_cons k kv d :
  lookup k (kv :: d) = match lookup k d with Some v => Some v | None => if fst kv =? k then Some (snd kv) else None end.
Proof. exact (lookup_app k [kv] d). Qed.

Lemma lookup_piece k i d :
  lookup k (match lookup i d with Some v => [(i, v)] | None => [] end) = if i =? k then lookup i d else None.
Proof. destruct (lookup i d); unfold lookup; cbn [fold_left fst snd]; destruct (i =? k); reflexivity. Qed.

Lemma lookup_sorted k d : lookup k (sorted d) = if s_mem k key_codes then lookup k d else None.
Proof.
  unfold sorted. induction key_codes as [|i l IH]; [reflexivity|].
  cbn [flat_map]. change (s_mem k (i :: l)) with ((k =? i) || s_mem k l). rewrite lookup_app, lookup_piece, IH, (N.eqb_sym k i).
  destruct (i =? k) eqn:E; [apply N.eqb_eq in E; subst i|]; destruct (s_mem k l); destruct (lookup k d); reflexivity.
Qed.

Lemma lookup_sorted_7 d : lookup 7 (sorted d) = lookup 7 d.
Proof. exact (lookup_sorted 7 d). Qed.

Lemma lookup_sorted_13 d : lookup 13 (sorted d) = lookup 13 d.
Proof. exact (lookup_sorted 13 d). Qed.

Lemma lookup_notin k d : ~ In k (map fst d) -> lookup k d = None.
Proof.
  induction d as [|kv d IH]; intros H; [reflexivity|]. cbn [map In] in H. rewrite lookup_cons, IH by tauto.
  destruct (N.eqb_spec (fst kv) k); [exfalso; apply H; left; assumption|reflexivity].
Qed.

Lemma lookup_in_nodup k v d : NoDup (map fst d) -> In (k, v) d -> lookup k d = Some v.
Proof.
  induction d as [|kv d IH]; intros ND I; [destruct I|]. rewrite lookup_cons.
  cbn [map] in ND. inversion ND as [|x l Nx ND']. subst. destruct I as [->|I].
  - cbn [fst snd] in *. rewrite (lookup_notin k d Nx), N.eqb_refl. reflexivity.
  - rewrite (IH ND' I). reflexivity.
Qed.

Lemma lookup_some_in k v d : lookup k d = Some v -> In (k, v) d.
Proof.
  induction d as [|kv d IH]; [discriminate|]. rewrite lookup_cons.
  destruct (lookup k d) as [v'|] eqn:E.
  - intros H. injection H as ->. right. apply IH. reflexivity.
  - destruct (N.eqb_spec (fst kv) k); [|discriminate]. intros H. injection H as <-. left. destruct kv. cbn [fst snd] in *. subst. reflexivity.
Qed.

Lemma lookup_perm k d d' : Permutation d d' -> NoDup (map fst d) -> lookup k d = lookup k d'.
Proof.
  intros P ND. assert (ND' : NoDup (map fst d')) by (apply (Permutation_NoDup (Permutation_map fst P)); exact ND).
  destruct (lookup k d) as [v|] eqn:E.
  - symmetry. apply lookup_in_nodup; [exact ND'|]. apply (Permutation_in _ P). apply lookup_some_in. exact E.
  - destruct (lookup k d') as [v'|] eqn:E'; [|reflexivity].
    apply lookup_some_in in E'. apply (Permutation_in _ (Permutation_sym P)) in E'. rewrite (lookup_in_nodup k v' d ND E') in E. discriminate.
Qed.

Definition codes_ok (d : dict) : Prop := forall kv, In kv d -> In (fst kv) key_codes.

Lemma code_key_code k : code_key (key_code k) = k.
Proof. destruct k; reflexivity. Qed.

Lemma key_code_key c : In c key_codes -> key_code (code_key c) = c.
Proof. unfold key_codes. cbn [In]. intros H. repeat (destruct H as [<-|H]; [reflexivity|]). destruct H. Qed.

Lemma get_gmap k d : codes_ok d -> get k (gmap d) = lookup (key_code k) d.
Proof.
  unfold get, lookup, gmap. change (list N) with str. generalize (@None str). induction d as [|kv d IH]; intros acc C; [reflexivity|].
  cbn [map fold_left fst snd]. unfold key_eqb at 2. rewrite key_code_key by (apply C; left; reflexivity).
  apply IH. intros x I. apply C. right. exact I.
Qed.

Lemma canon_gmap d : codes_ok d -> canon (gmap d) = gmap (sorted d).
Proof.
  intros C. unfold canon, sorted, gmap. change key_codes with (map key_code all_keys).
  rewrite flat_map_concat_map, flat_map_concat_map, concat_map, map_map, map_map. f_equal. apply map_ext_in.
  intros k _. fold (gmap d). rewrite (get_gmap k d C). destruct (lookup (key_code k) d); [|reflexivity].
  cbn [map fst snd]. rewrite code_key_code. reflexivity.
Qed.

Lemma codes_gmap d : codes_ok d -> codes (gmap d) = d.
Proof.
  intros C. induction d as [|kv d IH]; [reflexivity|]. unfold codes, gmap in *. cbn [map fst snd].
  rewrite key_code_key by (apply C; left; reflexivity). rewrite IH by (intros x I; apply C; right; exact I). destruct kv; reflexivity.
Qed.

Lemma sorted_codes d : codes_ok (sorted d).
Proof.
  intros kv I. unfold sorted in I. apply in_flat_map in I as (k & Ik & I). destruct (lookup k d); [|destruct I].
  destruct I as [<-|[]]. exact Ik.
Qed.

Definition kind_of_key (k : N) : N :=
  match k with
  | 13 | 14 => 0 | 0 => 1 | 3 | 4 | 5 | 6 => 2 | 7 => 3 | 11 => 4 | 12 => 5 | 1 => 6 | 2 => 7 | 10 => 8 | 8 | 9 => 9
  | _ => 99
  end.

(* the keys a clause binds do not depend on its spelling; they are distinct key numbers of the clause's kind *)
Lemma bindings_keys c sp : map fst (bindings c sp) = map fst (abs_bindings c).
Proof.
  destruct c as [n| |t|n ix|mn mx dep ix|p|fam|v| |rt|side|leading separate| | ]; cbn [bindings abs_bindings];
    try destruct mn; try destruct rt; try destruct (side =? 0); try destruct separate; reflexivity.
Qed.

Lemma abs_keys c :
  nodup_N (map fst (abs_bindings c)) && forallb (fun k => s_mem k key_codes && (kind_of_key k =? kind c)) (map fst (abs_bindings c)) = true.
Proof.
  destruct c as [n| |t|n ix|mn mx dep ix|p|fam|v| |rt|side|leading separate| | ]; cbn [abs_bindings];
    try destruct mn; try destruct rt; try destruct (side =? 0); try destruct separate; reflexivity.
Qed.

Lemma abs_key_kind c k : In k (map fst (abs_bindings c)) -> In k key_codes /\ kind_of_key k = kind c.
Proof.
  intros I. destruct (andb_prop _ _ (abs_keys c)) as [_ A]. rewrite forallb_forall in A. apply A in I.
  apply andb_true_iff in I as [I1 I2]. split; [|apply N.eqb_eq, I2].
  apply existsb_exists in I1 as (x & Ix & E). apply N.eqb_eq in E. subst x. exact Ix.
Qed.

Lemma bindings_key_kind c sp kv : In kv (bindings c sp) -> In (fst kv) key_codes /\ kind_of_key (fst kv) = kind c.
Proof. intros I. apply (in_map fst) in I. rewrite bindings_keys in I. apply abs_key_kind, I. Qed.

Lemma all_bindings_codes : forall cs sps, codes_ok (all_bindings cs sps).
Proof.
  induction cs as [|c cs IH]; intros sps kv I; [destruct I|]. cbn [all_bindings] in I. apply in_app_or in I as [I|I];
    [apply (bindings_key_kind c _ kv I)|apply (IH _ kv I)].
Qed.

Theorem clause_dict_printer : forall cs sps, printable cs sps = true ->
  clause_dict (print_items cs sps) = result_for (expected cs sps).
Proof.
  intros cs sps P. unfold printable in P. apply andb_true_iff in P as [ND I].
  destruct (items_scan cs sps ND I) as [M F].
  unfold clause_dict, items. rewrite F, M.
  pose proof (all_bindings_codes cs sps) as C.
  rewrite (get_gmap KPicture _ C). change (key_code KPicture) with 7.
  unfold result_for, expected. rewrite lookup_sorted_7, (canon_gmap _ C). reflexivity.
Qed.

(* ---- the content of the expected dictionary does not depend on the spelling ---- *)
Definition letters (w : str) : bool := forallb is_upper_letter w.

Lemma upper_cased m w : kword w = true -> map upper (cased m w) = w.
Proof.
  revert m. induction w as [|x w IH]; intros m K; [reflexivity|]. apply andb_true_iff in K as [Kx K].
  cbn [cased map]. rewrite (IH (tl m) K), (kwc_cased_upper _ x Kx). reflexivity.
Qed.

Lemma letters_kword w : letters w = true -> kword w = true.
Proof. apply forallb_impl. intros x H. unfold kwc. rewrite H. reflexivity. Qed.

Lemma letters_of_app a b : letters_of (a ++ b) = letters_of a ++ letters_of b.
Proof. unfold letters_of. rewrite map_app, filter_app. reflexivity. Qed.

Lemma letters_of_sep s : forallb sepc s = true -> letters_of s = [].
Proof.
  unfold letters_of. induction s as [|c s IH]; [reflexivity|]. cbn [forallb map filter]. intros H. apply andb_true_iff in H as [H1 H2].
  rewrite (IH H2). destruct (sepc_cases c H1) as [->|[->|[->|[->|[->| ->]]]]]; reflexivity.
Qed.

Lemma letters_of_cased m w : letters w = true -> letters_of (cased m w) = w.
Proof.
  intros L. unfold letters_of. rewrite (upper_cased m w (letters_kword w L)). unfold letters in L.
  induction w as [|x w IH]; [reflexivity|]. cbn [forallb filter] in *. apply andb_true_iff in L as [L1 L2]. rewrite L1, (IH L2). reflexivity.
Qed.

Lemma usage_norm fam i m :
  match family_of (map upper (cased m (usage_word fam i))) with Some f => usage_rep f | None => map upper (cased m (usage_word fam i)) end
  = usage_rep fam.
Proof.
  rewrite upper_cased by apply usage_word_kword. apply spec_str_eqb_eq.
  set (norm w := match family_of w with Some f => usage_rep f | None => w end).
  apply (forallb_nth (fun w => SR.Spec.Clauses.str_eqb (norm w) (usage_rep fam))).
  exact (forallb_nth (fun f => forallb (fun w => SR.Spec.Clauses.str_eqb (norm w) (hd K_DISPLAY f)) (hd K_DISPLAY f :: f))
           (N.to_nat fam) usage_table [K_DISPLAY] eq_refl).
Qed.

Lemma zero_norm i m : norm_zero (map upper (cased m (zero_word i))) = K_ZERO.
Proof.
  unfold zero_word. rewrite upper_cased by (apply (forallb_nth kword); reflexivity).
  apply spec_str_eqb_eq, (forallb_nth (fun w => SR.Spec.Clauses.str_eqb (norm_zero w) K_ZERO)). reflexivity.
Qed.

Lemma normal_bindings c sp : spell_ok sp -> normal (bindings c sp) = abs_bindings c.
Proof.
  intros S. destruct c; cbn [bindings abs_bindings normal map fst snd norm_value]; unfold kw; try reflexivity.
  - rewrite upper_cased by reflexivity. reflexivity.
  - destruct mn; reflexivity.
  - rewrite usage_norm. reflexivity.
  - rewrite zero_norm. reflexivity.
  - destruct rt; cbn [map fst snd norm_value]; [|reflexivity]. rewrite upper_cased by reflexivity. reflexivity.
  - destruct (side =? 0); cbn [map fst snd norm_value]; [reflexivity|]. unfold side_text, kw. rewrite letters_of_app.
    rewrite (letters_of_sep _ (proj2 (sep_sepstr sp 0 S))). unfold side_word. destruct (side =? 1); rewrite letters_of_cased by reflexivity; reflexivity.
  - rewrite upper_cased by (destruct leading; reflexivity). destruct separate; cbn [map fst snd norm_value]; [|reflexivity].
    unfold separate_text, kw. rewrite !letters_of_app, (letters_of_sep _ (proj2 (sep_sepstr sp 2 S))).
    rewrite letters_of_cased by reflexivity. cbn [app]. destruct (chb sp 1); reflexivity.
Qed.

Lemma normal_app a b : normal (a ++ b) = normal a ++ normal b.
Proof. apply map_app. Qed.

Lemma normal_all : forall cs sps, items_ok cs sps = true -> normal (all_bindings cs sps) = flat_map abs_bindings cs.
Proof.
  induction cs as [|c cs IH]; intros sps I; [reflexivity|]. destruct (items_ok_cons c cs sps I) as (I1 & _ & _ & I4).
  cbn [all_bindings flat_map]. rewrite normal_app, (normal_bindings c _ (clause_ok_spell c _ I1)), (IH _ I4). reflexivity.
Qed.

Lemma lookup_normal k d : lookup k (normal d) = option_map (norm_value k) (lookup k d).
Proof.
  unfold lookup, normal. change (@None str) with (option_map (norm_value k) (@None str)) at 1.
  generalize (@None str). induction d as [|kv d IH]; intros acc; [reflexivity|].
  cbn [map fold_left fst snd]. destruct (fst kv =? k) eqn:E.
  - apply N.eqb_eq in E. rewrite <- IH. rewrite E. reflexivity.
  - apply IH.
Qed.

Lemma normal_sorted d : normal (sorted d) = sorted (normal d).
Proof.
  unfold sorted. unfold normal at 1. rewrite flat_map_concat_map, flat_map_concat_map, concat_map, map_map. f_equal. apply map_ext.
  intros k. rewrite lookup_normal. destruct (lookup k d); reflexivity.
Qed.

Theorem expected_content : forall cs sps, items_ok cs sps = true -> normal (expected cs sps) = abstract cs.
Proof. intros cs sps I. unfold expected, abstract. rewrite normal_sorted, (normal_all cs sps I). reflexivity. Qed.

Definition parsed_of (o : option str) : option (list SR.Model.Picture.elt) :=
  match o with
  | Some p => match SR.Model.Picture.gen_normalize p with Some (Ok es) => Some es | _ => None end
  | None => None
  end.

Lemma result_for_ok d r : result_for d = Some (Ok r) -> cr_dict r = gmap d /\ cr_parsed r = parsed_of (lookup 7 d).
Proof.
  unfold result_for, parsed_of. destruct (lookup 7 d) as [p|].
  - destruct (SR.Model.Picture.gen_normalize p) as [[es|e]|]; try discriminate. intros H. injection H as <-. split; reflexivity.
  - intros H. injection H as <-. split; reflexivity.
Qed.

Lemma recognised_content cs sps r : printable cs sps = true -> clause_dict (print_items cs sps) = Some (Ok r) ->
  normal (codes (cr_dict r)) = abstract cs /\ cr_parsed r = parsed_of (lookup 7 (abstract cs)).
Proof.
  intros P H. rewrite (clause_dict_printer cs sps P) in H. destruct (result_for_ok _ _ H) as [D Q].
  unfold printable in P. apply andb_true_iff in P as [_ I].
  rewrite D, codes_gmap by apply sorted_codes. pose proof (expected_content cs sps I) as E. split; [exact E|].
  rewrite Q, <- E, lookup_normal. destruct (lookup 7 (expected cs sps)); reflexivity.
Qed.

(* ---- nor on the order of the clauses ---- *)
Lemma s_mem_in x l : In x l -> s_mem x l = true.
Proof. intros I. unfold s_mem. apply existsb_exists. exists x. split; [exact I|apply N.eqb_refl]. Qed.

Lemma nodup_N_NoDup l : nodup_N l = true -> NoDup l.
Proof.
  induction l as [|x l IH]; [constructor|]. cbn [nodup_N]. intros H. apply andb_true_iff in H as [H1 H2].
  constructor; [|apply IH, H2]. intros I. rewrite (s_mem_in x l I) in H1. discriminate.
Qed.

Lemma abs_keys_nodup : forall cs, nodup_N (map kind cs) = true -> NoDup (map fst (flat_map abs_bindings cs)).
Proof.
  induction cs as [|c cs IH]; intros ND; [constructor|]. cbn [map nodup_N] in ND. apply andb_true_iff in ND as [N1 N2].
  cbn [flat_map]. rewrite map_app. apply ListFactsP.NoDup_app_intro; [apply nodup_N_NoDup, (andb_prop _ _ (abs_keys c))|apply IH, N2|].
  intros k Ia Ib. apply in_map_iff in Ib as (kv' & E & Ib). apply in_flat_map in Ib as (c' & Ic & Ib).
  apply (in_map fst) in Ib. rewrite E in Ib.
  apply negb_true_iff in N1. rewrite s_mem_in in N1; [discriminate|].
  destruct (abs_key_kind c k Ia) as [_ <-]. rewrite (proj2 (abs_key_kind c' k Ib)). apply in_map. exact Ic.
Qed.

Theorem abstract_perm : forall cs cs', Permutation cs cs' -> nodup_N (map kind cs) = true -> abstract cs = abstract cs'.
Proof.
  intros cs cs' P ND. unfold abstract, sorted. apply flat_map_ext. intros k.
  rewrite (lookup_perm k _ _ (Permutation_flat_map abs_bindings P) (abs_keys_nodup cs ND)). reflexivity.
Qed.

Theorem respelling : forall cs cs' sps sps' r r', Permutation cs cs' -> printable cs sps = true -> printable cs' sps' = true ->
  clause_dict (print_items cs sps) = Some (Ok r) -> clause_dict (print_items cs' sps') = Some (Ok r') ->
  normal (codes (cr_dict r)) = normal (codes (cr_dict r')) /\ cr_parsed r = cr_parsed r'.
Proof.
  intros cs cs' sps sps' r r' Pm P P' H H'.
  destruct (recognised_content cs sps r P H) as [E Q]. destruct (recognised_content cs' sps' r' P' H') as [E' Q'].
  unfold printable in P. apply andb_true_iff in P as [ND _].
  rewrite E, E', Q, Q', (abstract_perm cs cs' Pm ND). split; reflexivity.
Qed.

Lemma all_bindings_no_name : forall cs sps k, existsb is_name_clause cs = false -> kind_of_key k = 0 -> lookup k (all_bindings cs sps) = None.
Proof.
  intros cs sps k E K. apply lookup_notin. intros I. apply in_map_iff in I as (kv & Ek & I).
  revert sps I. induction cs as [|c cs IH]; intros sps I; [destruct I|]. cbn [existsb] in E. apply orb_false_iff in E as [E1 E2].
  cbn [all_bindings] in I. apply in_app_or in I as [I|I]; [|apply (IH E2 _ I)].
  destruct (bindings_key_kind c _ kv I) as [_ Kc]. rewrite Ek, K in Kc. destruct c; discriminate.
Qed.

Lemma cased_upper : forall w m, existsb (fun b : bool => b) (firstn (length w) m) = false -> cased m w = w.
Proof.
  induction w as [|x w IH]; intros m H; [reflexivity|]. destruct m as [|b m]; cbn [cased hd tl].
  - f_equal. apply IH. destruct (length w); reflexivity.
  - cbn [length firstn existsb] in H. apply orb_false_iff in H as [-> H]. f_equal. apply IH. exact H.
Qed.

Theorem naming : forall cs sps r, in_domain cs sps = true -> clause_dict (print_items cs sps) = Some (Ok r) ->
  dde_unique (cr_dict r) = spec_unique_name cs.
Proof.
  intros cs sps r Dm H. unfold in_domain in Dm. apply andb_true_iff in Dm as [P FU].
  rewrite (clause_dict_printer cs sps P) in H. destruct (result_for_ok _ _ H) as [D _]. rewrite D.
  unfold printable in P. apply andb_true_iff in P as [_ I].
  unfold dde_unique, dde_name. rewrite !get_gmap by apply sorted_codes.
  change (key_code KName) with 14. change (key_code KFiller) with 13. unfold expected. rewrite (lookup_sorted 14), lookup_sorted_13.
  change (s_mem 14 key_codes) with true. cbv iota.
  destruct cs as [|c cs]; [reflexivity|].
  destruct (items_ok_cons c cs sps I) as (I1 & _ & I3 & _). destruct (is_name_clause c) eqn:Nc.
  - cbn [all_bindings]. rewrite !lookup_app, !(all_bindings_no_name cs (tl sps)) by (exact I3 || reflexivity).
    unfold clause_ok in I1. apply andb_true_iff in I1 as [_ I1].
    destruct c; try discriminate; cbn [bindings spec_unique_name]; unfold lookup; cbn [fold_left fst snd N.eqb Pos.eqb].
    + destruct (name_ok_parts n I1) as (_ & _ & Rn & _).
      destruct (SR.Model.Clauses.str_eqb n W_FILLER) eqn:E; [|reflexivity].
      (* the model's str_eqb is the specification's, written again *)
      apply (spec_str_eqb_eq n W_FILLER) in E. subst n. vm_compute in Rn. discriminate.
    + cbn [filler_upper] in FU. apply negb_true_iff in FU. unfold kw. rewrite (cased_upper K_FILLER _ FU). reflexivity.
  - rewrite !(all_bindings_no_name (c :: cs) sps) by (reflexivity || (cbn [existsb]; rewrite Nc; exact I3)).
    destruct c; try discriminate; reflexivity.
Qed.
