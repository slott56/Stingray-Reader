(* Model/RefFormat.v (reference_format, dde_sentences, compact_source) against Spec/RefFormat.v, for C12.
   The four line filters of reference_format are one partial map from lines to cards (pre, fmap: cards_fmap), so a change of
   the source that pre does not see changes nothing (seq_area, comments); the join loop is checked (groups ..) (continuation),
   REPLACING a map over the cards (replacing, refformat_spec).  The sentence scanner is followed one printed entry at a time
   (scan_match, sentences, sentences_lines); re-breaking an entry is invisible after compact (line_breaks). *)
From Coq Require Import NArith List Bool Lia Arith.
Import ListNotations.
Require Import SR.Base.Res SR.Model.RefFormat SR.Spec.RefFormat.
Require Import SR.Gen.RefFormatParams.
Require SR.Proofs.ListFactsP.
(* Spec/RefFormatWf.v holds the definition that theorem statements (Props/) mention. *)
Require Export SR.Spec.RefFormatWf.
Open Scope N_scope.

(* ================================================================ what the source says (T1)

   Model/RefFormat.v interprets Gen/RefFormatParams.v, which harness/t1_text.py regenerates from
   src/stingray/cobol_parser.py on every run.  The lemmas of this section state, in closed form, what the
   model is for the parameter values the proofs below were written for; each is proved by computation,
   so it stops compiling when the source changes the stage list (which filters, in which order, on which
   expression; the slice line[7:72], the indicator column line[6], the length test, the comment
   indicators, the directive words, where REPLACING sits and which pairs it applies), the join loop
   (continuation indicator, how the texts are joined, the COPY test) or the sentence pattern (number of
   level digits, lazy clause text, terminator, DOTALL).  Everything after this section uses only these
   lemmas, never the parameters. *)

Definition f_non_empty (l : line) : bool := nonempty (rstrip l).
Definition is_directive_word (w : line) : bool := existsb (leqb w) [w_EJECT; w_SKIP1; w_SKIP2; w_SKIP3].
Definition f_non_directive (l : line) : bool := negb (is_directive_word (strip l)).
Definition f_long (l : line) : bool := (7 <=? length l)%nat.
Definition indicator (l : line) : N := nth 6 l 0.
Definition area (l : line) : line := firstn 65 (skipn 7 l).       (* line[7:72] *)
Definition to_card (l : line) : card := (indicator l, area l).
Definition f_non_comment (c : card) : bool := negb (existsb (N.eqb (fst c)) [42; 68]).

(* the stages in front of the join loop, REPLACING excluded: four filters and the column split, in this order *)
Lemma cards_eq : forall src,
  cards src = filter f_non_comment (map to_card (filter f_long (filter f_non_directive (filter f_non_empty src)))).
Proof. reflexivity. Qed.

(* REPLACING is the last stage (slice, then replace), applied to the text of every pair ... *)
Lemma rf_eq : forall src repl, reference_format src repl = join_all (replace_cards repl (cards src)).
Proof. reflexivity. Qed.

(* ... and goes through all pairs in list order *)
Lemma replace_all_eq : forall repl s,
  replace_all repl s = fold_left (fun acc p => replace (fst p) (snd p) acc) repl s.
Proof. reflexivity. Qed.

Lemma directives_eq : directives = [w_EJECT; w_SKIP1; w_SKIP2; w_SKIP3].
Proof. reflexivity. Qed.

(* the join loop: indicator minus continues, plain concatenation, COPY test on the stripped pending line *)
Lemma join_eq : forall cur i t r,
  join cur ((i, t) :: r) =
  if i =? 45 then join (cur ++ t) r
  else if starts_copy cur then Err ValueError
       else match join t r with Ok out => Ok (cur :: out) | Err e => Err e end.
Proof. reflexivity. Qed.

(* the sentence pattern: lazy clause text, any character (DOTALL), period + one white-space character *)
Lemma find_term_eq : forall c t,
  find_term (c :: t) =
  if (c =? 46) && (match t with w :: _ => is_ws w | [] => false end) then Some ([], tl t)
  else match find_term t with
       | Some (a, r) => Some (c :: a, r)
       | None => None
       end.
Proof. reflexivity. Qed.

(* ... after optional white space, exactly two digits and optional white space *)
Lemma try_match_eq : forall s,
  try_match s =
  match lstrip s with
  | d1 :: d2 :: r =>
      if is_digit d1 && is_digit d2 then
        match find_term (lstrip r) with
        | Some (cl, rest) => Some ([d1; d2], cl, rest)
        | None => None
        end
      else None
  | _ => None
  end.
Proof.
  intro s. unfold try_match. change sent_level_digits with 2%nat. unfold find_body. change sent_lazy with true.
  destruct (lstrip s) as [|d1 [|d2 r]]; cbn [take_digits].
  - reflexivity.
  - destruct (is_digit d1); reflexivity.
  - destruct (is_digit d1); [|reflexivity]. destruct (is_digit d2); cbn [andb]; [|reflexivity].
    destruct (find_term (lstrip r)) as [[cl rest]|]; reflexivity.
Qed.

(* ================================================================ string helpers *)

Lemma leqb_eq : forall a b, leqb a b = true <-> a = b.
Proof.
  induction a as [|x a IH]; destruct b as [|y b]; simpl; split; intro H; try reflexivity; try discriminate.
  - apply andb_true_iff in H as [H1 H2]. apply N.eqb_eq in H1. apply IH in H2. subst. reflexivity.
  - inversion H; subst. rewrite N.eqb_refl. simpl. apply IH. reflexivity.
Qed.

Lemma leqb_refl : forall a, leqb a a = true.
Proof. intro a. apply leqb_eq. reflexivity. Qed.

Lemma is_ws_In : forall c, is_ws c = true -> In c ws_points.
Proof.
  intros c H. unfold is_ws in H. apply existsb_exists in H. destruct H as [x [Hin Hx]].
  apply N.eqb_eq in Hx. subst. exact Hin.
Qed.

Lemma digit_not_ws : forall c, is_digit c = true -> is_ws c = false.
Proof.
  intros c Hd. destruct (is_ws c) eqn:E; [|reflexivity]. apply is_ws_In in E.
  assert (T : forallb (fun x => negb (is_digit x)) ws_points = true) by (vm_compute; reflexivity).
  rewrite forallb_forall in T. specialize (T c E). rewrite Hd in T. discriminate.
Qed.

Lemma lstrip_ws_app : forall a x, forallb is_ws a = true -> lstrip (a ++ x) = lstrip x.
Proof.
  induction a as [|c a IH]; intros x H; simpl in *; [reflexivity|].
  apply andb_true_iff in H as [H1 H2]. rewrite H1. apply IH. exact H2.
Qed.

Lemma lstrip_all_ws : forall a, forallb is_ws a = true -> lstrip a = [].
Proof.
  intros a H. rewrite <- (app_nil_r a). rewrite lstrip_ws_app by exact H. reflexivity.
Qed.

Lemma lstrip_nil_ws : forall a, lstrip a = [] -> forallb is_ws a = true.
Proof.
  induction a as [|c a IH]; simpl; intro H; [reflexivity|].
  destruct (is_ws c); [simpl; apply IH; exact H|discriminate].
Qed.

Lemma forallb_rev : forall (f : N -> bool) l, forallb f (rev l) = forallb f l.
Proof.
  intros f l. induction l as [|c l IH]; simpl; [reflexivity|].
  rewrite forallb_app. simpl. rewrite IH. rewrite andb_true_r. apply andb_comm.
Qed.

Lemma non_empty_blank : forall l, f_non_empty l = negb (blank l).
Proof.
  intro l. unfold f_non_empty, rstrip, blank.
  destruct (forallb is_ws l) eqn:E.
  - rewrite lstrip_all_ws by (rewrite forallb_rev; exact E). reflexivity.
  - destruct (lstrip (rev l)) eqn:F.
    + apply lstrip_nil_ws in F. rewrite forallb_rev in F. congruence.
    + simpl. destruct (rev l0 ++ [n]) eqn:G; [destruct (rev l0); discriminate|reflexivity].
Qed.

Lemma directive_word_eq : forall w, is_directive_word w = directive_word w.
Proof. intro w. unfold is_directive_word, directive_word. simpl. rewrite orb_false_r. rewrite !orb_assoc. reflexivity. Qed.

(* ================================================================ the four filters as one partial map *)

Definition pre (l : line) : option card :=
  if f_non_empty l && f_non_directive l && f_long l && f_non_comment (to_card l) then Some (to_card l) else None.

Fixpoint fmap (src : list line) : list card :=
  match src with
  | [] => []
  | l :: r => match pre l with Some c => c :: fmap r | None => fmap r end
  end.

Lemma cards_fmap : forall src, cards src = fmap src.
Proof.
  intro src. rewrite cards_eq. induction src as [|l r IH]; [reflexivity|].
  cbn [filter fmap]. unfold pre.
  destruct (f_non_empty l); cbn [filter andb]; [|exact IH].
  destruct (f_non_directive l); cbn [filter andb]; [|exact IH].
  destruct (f_long l); cbn [filter map andb]; [|exact IH].
  destruct (f_non_comment (to_card l)); cbn [filter]; [|exact IH].
  f_equal. exact IH.
Qed.

Lemma col7_indicator : forall l, f_long l = true -> col7 l = indicator l.
Proof.
  intros l H. unfold f_long in H. apply Nat.leb_le in H. unfold col7, indicator. apply nth_indep. lia.
Qed.

Lemma short_long : forall l, short l = negb (f_long l).
Proof.
  intro l. unfold short, f_long. destruct (7 <=? length l)%nat eqn:E.
  - apply Nat.leb_le in E. apply Nat.ltb_ge. exact E.
  - apply Nat.leb_gt in E. apply Nat.ltb_lt. exact E.
Qed.

Lemma pre_plain_noise : forall l, pre l = if plain_noise l then None else Some (col7 l, code_area l).
Proof.
  intro l. unfold pre, plain_noise. rewrite non_empty_blank. unfold f_non_directive.
  rewrite directive_word_eq. rewrite short_long.
  destruct (blank l); simpl; [reflexivity|].
  destruct (f_long l) eqn:L; simpl.
  2:{ destruct (directive_word (strip l)); reflexivity. }
  destruct (directive_word (strip l)); simpl; [reflexivity|].
  rewrite (col7_indicator l L). unfold f_non_comment, to_card. cbn [existsb fst]. rewrite orb_false_r.
  destruct ((indicator l =? 42) || (indicator l =? 68)); reflexivity.
Qed.

(* ================================================================ C12_seq_area_partial *)

Lemma card_of s i mid t : length s = 6%nat ->
  to_card (s ++ (i :: mid) ++ t) = (i, firstn 65 (mid ++ t)) /\ f_long (s ++ (i :: mid) ++ t) = true.
Proof.
  intros Hs. unfold to_card, indicator, area, f_long.
  rewrite app_nth2, skipn_app, app_length, Hs, skipn_all2 by (rewrite Hs; repeat constructor). split; reflexivity.
Qed.

Lemma same_code_card : forall l l', same_code l l' ->
  to_card l = to_card l' /\ f_long l = true /\ f_long l' = true.
Proof.
  intros l l' (s & s' & mid & t & t' & -> & -> & Hs & Hs' & Hm & Hlen).
  destruct mid as [|i mid]; [contradiction|].
  destruct (card_of s i mid t Hs) as [-> ->]. destruct (card_of s' i mid t' Hs') as [-> ->].
  split; [|split; reflexivity]. f_equal.
  destruct Hlen as [H66 | [-> ->]]; [|reflexivity].
  injection H66 as H65. rewrite <- H65, !ListFactsP.firstn_exact. reflexivity.
Qed.

Lemma seq_variant_pre : forall l l', seq_variant l l' -> pre l = pre l'.
Proof.
  intros l l' [H | [[H1 H2] | [Hc [Hb Hd]]]].
  - subst. reflexivity.
  - unfold pre, f_long.
    assert (E1 : (7 <=? length l)%nat = false) by (apply Nat.leb_gt; exact H1).
    assert (E2 : (7 <=? length l')%nat = false) by (apply Nat.leb_gt; exact H2).
    rewrite E1, E2. rewrite !andb_false_r. reflexivity.
  - destruct (same_code_card l l' Hc) as [Hcard [L1 L2]].
    unfold pre. rewrite !non_empty_blank. unfold f_non_directive. rewrite !directive_word_eq.
    rewrite Hb, Hd, L1, L2, Hcard. reflexivity.
Qed.

Lemma seq_area_fmap : forall src src', Forall2 seq_variant src src' -> fmap src = fmap src'.
Proof.
  induction 1 as [|l l' r r' H _ IH]; [reflexivity|].
  simpl. rewrite (seq_variant_pre l l' H). rewrite IH. reflexivity.
Qed.

Lemma seq_area : forall src src' repl, Forall2 seq_variant src src' ->
  reference_format src repl = reference_format src' repl.
Proof.
  intros src src' repl H. rewrite !rf_eq. rewrite !cards_fmap.
  rewrite (seq_area_fmap src src' H). reflexivity.
Qed.

(* ================================================================ C12_comments_partial, C12_noise_* *)

Lemma inserted_fmap : forall s s', inserted plain_noise s s' -> fmap s' = fmap s.
Proof.
  induction 1 as [|l s s' _ IH|l s s' Hn _ IH]; [reflexivity| |].
  - simpl. rewrite IH. reflexivity.
  - simpl. rewrite pre_plain_noise. rewrite Hn. exact IH.
Qed.

Lemma comments : forall s s' repl, inserted plain_noise s s' ->
  reference_format s' repl = reference_format s repl.
Proof.
  intros s s' repl H. rewrite !rf_eq. rewrite !cards_fmap.
  rewrite (inserted_fmap s s' H). reflexivity.
Qed.

Lemma rstrip_ws_app : forall x b, forallb is_ws b = true -> rstrip (x ++ b) = rstrip x.
Proof.
  intros x b H. unfold rstrip. rewrite rev_app_distr. rewrite lstrip_ws_app; [reflexivity|].
  rewrite forallb_rev. exact H.
Qed.

Lemma strip_padded : forall a w b, forallb is_ws a = true -> forallb is_ws b = true ->
  strip (a ++ w ++ b) = strip w.
Proof.
  intros a w b Ha Hb. unfold strip. rewrite lstrip_ws_app by exact Ha.
  induction w as [|d y IH]; simpl.
  - rewrite (lstrip_all_ws b Hb). reflexivity.
  - destruct (is_ws d); [exact IH|].
    change (d :: y ++ b) with ((d :: y) ++ b). apply rstrip_ws_app. exact Hb.
Qed.

(* ================================================================ C12_continuation *)

Lemma groups_nonempty : forall c r, groups (c :: r) <> [].
Proof.
  intros c r. simpl. destruct (groups r); [discriminate|]. destruct (next_is_cont r); discriminate.
Qed.

Lemma join_groups : forall r i cur, join cur r = checked (groups ((i, cur) :: r)).
Proof.
  induction r as [|[i' t] r' IH]; intros i cur; unfold card in *.
  - reflexivity.
  - rewrite join_eq.
    destruct (i' =? 45) eqn:E.
    + rewrite (IH i (cur ++ t)). f_equal.
      simpl. rewrite E.
      destruct (groups r') as [|g gs].
      * reflexivity.
      * destruct (next_is_cont r'); simpl; rewrite ?app_assoc; reflexivity.
    + rewrite (IH i' t).
      assert (G : groups ((i, cur) :: (i', t) :: r') = cur :: groups ((i', t) :: r')).
      { change (groups ((i, cur) :: (i', t) :: r')) with
          (match groups ((i', t) :: r') with
           | g :: gs => if next_is_cont ((i', t) :: r') then (cur ++ g) :: gs else cur :: g :: gs
           | [] => [cur]
           end).
        destruct (groups ((i', t) :: r')) eqn:F; [exfalso; eapply groups_nonempty; exact F|].
        simpl. rewrite E. reflexivity. }
      rewrite G.
      destruct (groups ((i', t) :: r')) as [|g gs] eqn:F; [exfalso; eapply groups_nonempty; exact F|].
      unfold checked.
      change (removelast (cur :: g :: gs)) with (cur :: removelast (g :: gs)).
      cbn [existsb]. destruct (starts_copy cur); cbn [orb]; [reflexivity|].
      destruct (existsb starts_copy (removelast (g :: gs))); reflexivity.
Qed.

Lemma join_all_groups : forall cs, join_all cs = checked (groups cs).
Proof.
  intros [|[i t] r]; [reflexivity|]. unfold join_all. apply join_groups.
Qed.

Lemma continuation : forall src repl,
  reference_format src repl = checked (groups (replace_cards repl (cards src))).
Proof. intros. rewrite rf_eq. apply join_all_groups. Qed.

(* ================================================================ C12_replacing *)

Lemma replace_go_skip : forall old new p r, replace_go old new (length p) (p ++ r) = replace_go old new 0 r.
Proof.
  induction p as [|c p IH]; intro r; [reflexivity|]. simpl. apply IH.
Qed.

Lemma is_prefix_split : forall p s, is_prefix p s = true -> s = p ++ skipn (length p) s.
Proof.
  induction p as [|a p IH]; intros s H; [reflexivity|].
  destruct s as [|b s]; simpl in H; [discriminate|].
  apply andb_true_iff in H as [H1 H2]. apply N.eqb_eq in H1. subst b.
  simpl. f_equal. apply IH. exact H2.
Qed.

Lemma replace_go_unfold : forall old new c t,
  replace_go old new 0 (c :: t) =
  if is_prefix old (c :: t) then new ++ replace_go old new (pred (length old)) t
  else c :: replace_go old new 0 t.
Proof. reflexivity. Qed.

Lemma subst_replace_go : forall old new, old <> [] ->
  forall fuel s, (length s < fuel)%nat -> subst fuel old new s = replace_go old new 0 s.
Proof.
  intros old new Hold. induction fuel as [|f IH]; intros s Hlen; [lia|].
  destruct s as [|c t]; [reflexivity|].
  rewrite replace_go_unfold. cbn [subst].
  destruct (is_prefix old (c :: t)) eqn:E.
  - f_equal.
    pose proof (is_prefix_split old (c :: t) E) as Hs.
    destruct old as [|o old']; [contradiction|].
    set (rest := skipn (length (o :: old')) (c :: t)) in *.
    simpl in Hs. injection Hs as Hc Ht.
    rewrite Ht. simpl pred. rewrite replace_go_skip.
    apply IH.
    assert (length t = (length old' + length rest)%nat) by (rewrite Ht at 1; apply app_length).
    simpl in Hlen. lia.
  - f_equal. apply IH. simpl in Hlen. lia.
Qed.

Lemma subst_replace : forall old new s, old <> [] -> subst (S (length s)) old new s = replace old new s.
Proof.
  intros old new s H. rewrite (subst_replace_go old new H) by lia.
  destruct old; [contradiction|reflexivity].
Qed.

Lemma subst_all_replace_all : forall repl s, repl_ok repl = true -> subst_all repl s = replace_all repl s.
Proof.
  induction repl as [|[old new] r IH]; intros s H; [reflexivity|].
  unfold repl_ok in H. simpl in H. apply andb_true_iff in H as [H1 H2].
  unfold subst_all. rewrite replace_all_eq. cbn [fold_left fst snd].
  rewrite subst_replace by (destruct old; [discriminate|discriminate]).
  rewrite <- replace_all_eq. apply (IH (replace old new s) H2).
Qed.

Lemma replacing : forall src repl, repl_ok repl = true ->
  map fst (replace_cards repl (cards src)) = map fst (cards src) /\
  map snd (replace_cards repl (cards src)) = map (subst_all repl) (map snd (cards src)) /\
  reference_format src repl = join_all (map (fun c => (fst c, subst_all repl (snd c))) (cards src)).
Proof.
  intros src repl H. rewrite rf_eq. unfold replace_cards. rewrite !map_map. simpl.
  split; [reflexivity|]. split.
  - apply map_ext. intro c. symmetry. apply subst_all_replace_all. exact H.
  - f_equal. apply map_ext. intro c. rewrite subst_all_replace_all by exact H. reflexivity.
Qed.

(* ================================================================ model = spec outside the known findings *)

Lemma noise_plain : forall l, known_bad_line l = false -> noise l = plain_noise l.
Proof.
  intros l H. unfold known_bad_line in H. apply orb_false_iff in H as [H1 H2].
  unfold noise. rewrite H1, H2. rewrite !orb_false_r. reflexivity.
Qed.

Lemma spec_cards_fmap : forall src, known_bad src = false -> spec_cards src = fmap src.
Proof.
  unfold spec_cards, known_bad. induction src as [|l r IH]; intro H; [reflexivity|].
  simpl in H. apply orb_false_iff in H as [H1 H2].
  simpl. rewrite (noise_plain l H1). rewrite pre_plain_noise.
  destruct (plain_noise l); simpl; rewrite (IH H2); reflexivity.
Qed.

Lemma existsb_removelast : forall (f : line -> bool) l, existsb f l = false -> existsb f (removelast l) = false.
Proof.
  intros f l. induction l as [|x l IH]; intro H; [reflexivity|].
  simpl in H. apply orb_false_iff in H as [H1 H2].
  destruct l as [|y l]; [reflexivity|].
  change (removelast (x :: y :: l)) with (x :: removelast (y :: l)).
  simpl existsb. rewrite H1. simpl. apply IH. exact H2.
Qed.

Definition spec_gs (src : list line) (repl : list (line * line)) : list line :=
  groups (map (fun c => (fst c, subst_all repl (snd c))) (spec_cards src)).

Lemma spec_rf_unfold : forall src repl, repl_ok repl = true ->
  spec_reference_format src repl =
  match spec_gs src repl with
  | [] => None
  | g :: gs => if existsb starts_copy (g :: gs) then None else Some (g :: gs)
  end.
Proof.
  intros src repl R. unfold spec_reference_format, spec_gs. rewrite R. cbn [negb]. cbv iota zeta.
  destruct (groups _); reflexivity.
Qed.

Lemma spec_groups_eq : forall src repl, known_bad src = false -> repl_ok repl = true ->
  spec_gs src repl = groups (replace_cards repl (cards src)).
Proof.
  intros src repl Hk R. unfold spec_gs. rewrite (spec_cards_fmap src Hk). rewrite <- cards_fmap. f_equal.
  unfold replace_cards. apply map_ext. intro c. rewrite subst_all_replace_all by exact R. reflexivity.
Qed.

Lemma refformat_spec : forall src repl out,
  known_bad src = false -> spec_reference_format src repl = Some out ->
  reference_format src repl = Ok out.
Proof.
  intros src repl out Hk Hs.
  destruct (repl_ok repl) eqn:R.
  2:{ unfold spec_reference_format in Hs. rewrite R in Hs. discriminate. }
  rewrite (spec_rf_unfold src repl R) in Hs.
  rewrite (spec_groups_eq src repl Hk R) in Hs.
  rewrite continuation.
  destruct (groups (replace_cards repl (cards src))) as [|g gs]; [discriminate|].
  destruct (existsb starts_copy (g :: gs)) eqn:C; [discriminate|].
  injection Hs as Hs. subst out.
  unfold checked. rewrite (existsb_removelast starts_copy (g :: gs) C). reflexivity.
Qed.

(* ================================================================ C12_sentences *)

Lemma find_term_body : forall body w rest, has_term body = false -> is_ws w = true ->
  find_term (body ++ 46 :: w :: rest) = Some (body, rest).
Proof.
  induction body as [|c b IH]; intros w rest Hb Hw.
  - cbn [app]. rewrite find_term_eq. rewrite Hw. reflexivity.
  - simpl in Hb. apply orb_false_iff in Hb as [H1 H2].
    change ((c :: b) ++ 46 :: w :: rest) with (c :: (b ++ 46 :: w :: rest)).
    rewrite find_term_eq.
    assert (E : (c =? 46) && match b ++ 46 :: w :: rest with w' :: _ => is_ws w' | [] => false end = false).
    { destruct b as [|c' b']; simpl.
      - change (is_ws 46) with false. apply andb_false_r.
      - exact H1. }
    rewrite E. rewrite (IH w rest H2 Hw). reflexivity.
Qed.

Lemma lstrip_head : forall c x, is_ws c = false -> lstrip (c :: x) = c :: x.
Proof. intros c x H. simpl. rewrite H. reflexivity. Qed.

Lemma try_match_entry : forall e rest, wf_entry e = true ->
  try_match (print_entry e ++ rest) = Some ([e_d1 e; e_d2 e], e_body e, rest).
Proof.
  intros e rest H. unfold wf_entry in H.
  repeat (apply andb_true_iff in H; destruct H as [H ?]).
  rename H into Hlead, H0 into Hw, H1 into Hterm, H2 into Hhead, H3 into Hgap, H4 into Hd2, H5 into Hd1.
  apply negb_true_iff in Hterm.
  rewrite try_match_eq. unfold print_entry. rewrite <- app_assoc. rewrite lstrip_ws_app by exact Hlead.
  simpl app. rewrite lstrip_head by (apply digit_not_ws; exact Hd1).
  rewrite Hd1, Hd2. simpl andb. cbv iota.
  rewrite <- !app_assoc. rewrite lstrip_ws_app by exact Hgap.
  assert (L : lstrip (e_body e ++ [46; e_term e] ++ rest) = e_body e ++ [46; e_term e] ++ rest).
  { destruct (e_body e) as [|c b]; simpl.
    - change (is_ws 46) with false. reflexivity.
    - apply negb_true_iff in Hhead. rewrite Hhead. reflexivity. }
  rewrite L. simpl app.
  rewrite (find_term_body (e_body e) (e_term e) rest Hterm Hw). reflexivity.
Qed.

Lemma scan_skip : forall p r, scan (length p) (p ++ r) = scan 0 r.
Proof. induction p as [|c p IH]; intro r; [reflexivity|]. simpl. apply IH. Qed.

Lemma scan_match : forall p rest lv cl, p <> [] -> try_match (p ++ rest) = Some (lv, cl, rest) ->
  scan 0 (p ++ rest) = (lv, cl) :: scan 0 rest.
Proof.
  intros p rest lv cl Hp Hm. destruct p as [|c p']; [contradiction|].
  change ((c :: p') ++ rest) with (c :: (p' ++ rest)) in *.
  cbn [scan]. rewrite Hm. f_equal.
  assert (E : (length (p' ++ rest) - length rest)%nat = length p') by (rewrite app_length; lia).
  rewrite E. apply scan_skip.
Qed.

Lemma print_entry_nonempty : forall e, print_entry e <> [].
Proof. intro e. unfold print_entry. destruct (e_lead e); discriminate. Qed.

Lemma sentences : forall es tail, forallb wf_entry es = true ->
  scan 0 (concat (map print_entry es) ++ tail) = spec_sentences es ++ scan 0 tail.
Proof.
  induction es as [|e es IH]; intros tail H; [reflexivity|].
  simpl in H. apply andb_true_iff in H as [H1 H2].
  simpl. rewrite <- app_assoc.
  rewrite (scan_match (print_entry e) _ [e_d1 e; e_d2 e] (e_body e) (print_entry_nonempty e)
             (try_match_entry e _ H1)).
  f_equal. apply IH. exact H2.
Qed.

Lemma scan_ws : forall tail, forallb is_ws tail = true -> scan 0 tail = [].
Proof.
  induction tail as [|c t IH]; intro H; [reflexivity|].
  simpl in H. apply andb_true_iff in H as [H1 H2].
  cbn [scan]. rewrite try_match_eq.
  assert (E : lstrip (c :: t) = []) by (apply lstrip_all_ws; simpl; rewrite H1, H2; reflexivity).
  rewrite E. apply IH. exact H2.
Qed.

(* ================================================================ C12_line_breaks *)

Lemma split_go_word : forall w cur s, forallb (fun c => negb (is_ws c)) w = true ->
  split_go cur (w ++ s) = split_go (rev w ++ cur) s.
Proof.
  induction w as [|c w IH]; intros cur s H; [reflexivity|].
  simpl in H. apply andb_true_iff in H as [H1 H2]. apply negb_true_iff in H1.
  simpl. rewrite H1. rewrite IH by exact H2. rewrite <- app_assoc. reflexivity.
Qed.

Lemma split_go_ws : forall sep s, forallb is_ws sep = true -> split_go [] (sep ++ s) = split_go [] s.
Proof.
  induction sep as [|c sep IH]; intros s H; [reflexivity|].
  simpl in H. apply andb_true_iff in H as [H1 H2].
  simpl. rewrite H1. apply IH. exact H2.
Qed.

Lemma split_go_sep : forall sep cur s, wf_sep sep = true -> cur <> [] ->
  split_go cur (sep ++ s) = rev cur :: split_go [] s.
Proof.
  intros sep cur s H Hc. unfold wf_sep in H. apply andb_true_iff in H as [Hn Hw].
  destruct sep as [|c sep]; [discriminate|].
  simpl in Hw. apply andb_true_iff in Hw as [H1 H2].
  simpl. rewrite H1. destruct cur; [contradiction|].
  f_equal. apply split_go_ws. exact H2.
Qed.

Lemma split_layout : forall rest w, wf_word w = true -> wf_rest rest ->
  split (layout w rest) = w :: map snd rest.
Proof.
  unfold split. induction rest as [|[sep w'] r IH]; intros w Hw Hr.
  - simpl. unfold wf_word in Hw. apply andb_true_iff in Hw as [Hn Hc].
    rewrite <- (app_nil_r w) at 1. rewrite split_go_word by exact Hc. simpl. rewrite app_nil_r.
    destruct (rev w) eqn:E.
    + apply (f_equal (@rev N)) in E. rewrite rev_involutive in E. subst w. discriminate.
    + rewrite <- E. rewrite rev_involutive. reflexivity.
  - inversion Hr as [|p q [Hs Hw'] Hr']; subst. simpl in Hs, Hw'.
    simpl. pose proof Hw as Hw0. unfold wf_word in Hw. apply andb_true_iff in Hw as [Hn Hc].
    rewrite split_go_word by exact Hc. rewrite app_nil_r.
    rewrite split_go_sep; [| exact Hs |].
    + rewrite rev_involutive. f_equal. apply IH; assumption.
    + intro E. apply (f_equal (@rev N)) in E. rewrite rev_involutive in E. subst w. discriminate.
Qed.

Lemma line_breaks : forall w rest rest', wf_word w = true -> wf_rest rest -> wf_rest rest' ->
  map snd rest = map snd rest' -> compact (layout w rest) = compact (layout w rest').
Proof.
  intros w rest rest' Hw Hr Hr' E. unfold compact.
  rewrite (split_layout rest w Hw Hr), (split_layout rest' w Hw Hr'). rewrite E. reflexivity.
Qed.

Lemma has_term_cons : forall c t,
  has_term (c :: t) = ((c =? 46) && match t with w :: _ => is_ws w | [] => false end) || has_term t.
Proof. reflexivity. Qed.

Lemma has_term_app_word : forall w x, forallb (fun c => negb (is_ws c)) w = true -> w <> [] ->
  has_term (w ++ x) = ((last w 0 =? 46) && match x with c :: _ => is_ws c | [] => false end) || has_term x.
Proof.
  induction w as [|c w IH]; intros x Hc Hn; [contradiction|].
  cbn [forallb] in Hc. apply andb_true_iff in Hc as [H1 H2].
  destruct w as [|d w'].
  - reflexivity.
  - change ((c :: d :: w') ++ x) with (c :: ((d :: w') ++ x)).
    rewrite has_term_cons.
    rewrite (IH x H2) by discriminate.
    change (last (c :: d :: w') 0) with (last (d :: w') 0).
    cbn [forallb] in H2. apply andb_true_iff in H2 as [Hd _]. apply negb_true_iff in Hd.
    cbn [app]. rewrite Hd. rewrite andb_false_r. reflexivity.
Qed.

Lemma has_term_ws : forall s x, forallb is_ws s = true -> has_term (s ++ x) = has_term x.
Proof.
  induction s as [|c s IH]; intros x H; [reflexivity|].
  simpl in H. apply andb_true_iff in H as [H1 H2].
  change ((c :: s) ++ x) with (c :: (s ++ x)). cbn [has_term].
  assert (E : (c =? 46) = false).
  { destruct (c =? 46) eqn:E; [|reflexivity]. apply N.eqb_eq in E. subst c. vm_compute in H1. discriminate. }
  rewrite E. simpl. apply IH. exact H2.
Qed.

Lemma has_term_word_only : forall w, forallb (fun c => negb (is_ws c)) w = true -> has_term w = false.
Proof.
  intros [|c w] H; [reflexivity|]. rewrite <- (app_nil_r (c :: w)), has_term_app_word by (exact H || discriminate).
  cbn [has_term]. rewrite andb_false_r. reflexivity.
Qed.

Lemma layout_no_term : forall rest w, wf_word w = true -> wf_rest rest ->
  forallb no_dot_end (removelast (w :: map snd rest)) = true ->
  has_term (layout w rest) = false.
Proof.
  induction rest as [|[sep w'] r IH]; intros w Hw Hr Hd.
  - simpl. unfold wf_word in Hw. apply andb_true_iff in Hw as [_ Hc].
    apply has_term_word_only. exact Hc.
  - inversion Hr as [|p q [Hs Hw'] Hr']; subst. simpl in Hs, Hw'.
    change (removelast (w :: map snd ((sep, w') :: r))) with (w :: removelast (w' :: map snd r)) in Hd.
    simpl in Hd. apply andb_true_iff in Hd as [Hd1 Hd2].
    pose proof Hw as Hw0. unfold wf_word in Hw. apply andb_true_iff in Hw as [Hn Hc].
    simpl. rewrite has_term_app_word; [| exact Hc | destruct w; [discriminate|discriminate]].
    unfold no_dot_end in Hd1. apply negb_true_iff in Hd1. rewrite Hd1. simpl.
    unfold wf_sep in Hs. apply andb_true_iff in Hs as [_ Hs].
    rewrite has_term_ws by exact Hs. apply IH; assumption.
Qed.

(* ================================================================ statements at the level of dde_sentences *)

Lemma sentences_lines : forall lines es tail, forallb wf_entry es = true -> forallb is_ws tail = true ->
  concat lines = concat (map print_entry es) ++ tail -> dde_sentences lines = spec_sentences es.
Proof.
  intros lines es tail H Ht E. unfold dde_sentences. rewrite E. rewrite (sentences es tail H).
  rewrite (scan_ws tail Ht). apply app_nil_r.
Qed.

Lemma wf_entry_body : forall e, wf_entry e = true -> forall b,
  (match b with c :: _ => negb (is_ws c) | [] => true end) = true -> has_term b = false ->
  wf_entry {| e_lead := e_lead e; e_d1 := e_d1 e; e_d2 := e_d2 e; e_gap := e_gap e; e_body := b; e_term := e_term e |} = true.
Proof.
  intros e H b Hh Ht. unfold wf_entry in *. simpl.
  repeat (apply andb_true_iff in H; destruct H as [H ?]).
  rewrite H, H0, Hh, Ht, H3, H4, H5. reflexivity.
Qed.

Lemma layout_head : forall w rest, wf_word w = true ->
  (match layout w rest with c :: _ => negb (is_ws c) | [] => true end) = true.
Proof.
  intros w rest H. unfold wf_word in H. apply andb_true_iff in H as [Hn Hc].
  destruct w as [|c w]; [discriminate|]. simpl in Hc. apply andb_true_iff in Hc as [Hc _].
  destruct rest as [|[sep w'] r]; simpl; exact Hc.
Qed.

Lemma line_breaks_sentences : forall e e' w rest rest' tail tail',
  wf_entry e = true -> wf_entry e' = true -> e_d1 e = e_d1 e' -> e_d2 e = e_d2 e' ->
  wf_word w = true -> wf_rest rest -> wf_rest rest' -> map snd rest = map snd rest' ->
  forallb no_dot_end (removelast (w :: map snd rest)) = true ->
  forallb is_ws tail = true -> forallb is_ws tail' = true ->
  exists lv b b',
    dde_sentences [print_entry (with_body e (layout w rest)) ++ tail] = [(lv, b)] /\
    dde_sentences [print_entry (with_body e' (layout w rest')) ++ tail'] = [(lv, b')] /\
    compact b = compact b' /\ compact b = join_sp (w :: map snd rest).
Proof.
  intros e e' w rest rest' tail tail' He He' Hd1 Hd2 Hw Hr Hr' Em Hdot Ht Ht'.
  assert (Hdot' : forallb no_dot_end (removelast (w :: map snd rest')) = true) by (rewrite <- Em; exact Hdot).
  pose proof (wf_entry_body e He (layout w rest) (layout_head w rest Hw) (layout_no_term rest w Hw Hr Hdot)) as W.
  pose proof (wf_entry_body e' He' (layout w rest') (layout_head w rest' Hw) (layout_no_term rest' w Hw Hr' Hdot')) as W'.
  exists [e_d1 e; e_d2 e], (layout w rest), (layout w rest').
  split; [|split; [|split]].
  - apply (sentences_lines _ [with_body e (layout w rest)] tail).
    + simpl. rewrite andb_true_r. exact W.
    + exact Ht.
    + simpl. rewrite !app_nil_r. reflexivity.
  - rewrite Hd1, Hd2. apply (sentences_lines _ [with_body e' (layout w rest')] tail').
    + simpl. rewrite andb_true_r. exact W'.
    + exact Ht'.
    + simpl. rewrite !app_nil_r. reflexivity.
  - apply line_breaks; assumption.
  - unfold compact. rewrite (split_layout rest w Hw Hr). reflexivity.
Qed.

(* ================================================================ witnesses for the two findings *)

Definition str_01X : line := [32;32;32;32;32;32;32;48;49;32;88;10].             (* "       01 X\n" *)
Definition str_picx : line := [32;32;32;32;32;32;32;32;32;32;32;80;73;67;32;88;46;10].  (* "           PIC X.\n" *)
Definition str_num_eject : line := [48;48;48;51;48;48;32;69;74;69;67;84;10].    (* "000300 EJECT\n" *)
Definition str_slash : line := [32;32;32;32;32;32;47;32;72;10].                 (* "      / H\n" *)

Definition src_plain : list line := [str_01X; str_picx].
Definition src_blank_eject : list line := [str_01X; [32;32;32;32;32;32;32;69;74;69;67;84;10]; str_picx].
Definition src_num_eject : list line := [str_01X; str_num_eject; str_picx].
Definition src_slash : list line := [str_01X; str_slash; str_picx].

(* the sequence area of a directive line matters to the code *)
Lemma seq_area_directive_witness :
  Forall2 (fun l l' => l = l' \/ only_seq_area l l' \/ same_code l l') src_blank_eject src_num_eject /\
  reference_format src_blank_eject [] <> reference_format src_num_eject [].
Proof.
  split.
  - unfold src_blank_eject, src_num_eject.
    constructor; [left; reflexivity|]. constructor; [|constructor; [left; reflexivity|constructor]].
    right. right. exists [32;32;32;32;32;32], [48;48;48;51;48;48], [32;69;74;69;67;84;10], [], [].
    repeat split; try reflexivity; try discriminate. right. split; reflexivity.
  - vm_compute. discriminate.
Qed.

Lemma numbered_directive_witness :
  inserted noise src_plain src_num_eject /\ reference_format src_num_eject [] <> reference_format src_plain [].
Proof.
  split.
  - unfold src_plain, src_num_eject. apply ins_keep. apply ins_add; [vm_compute; reflexivity|].
    apply ins_keep. apply ins_nil.
  - vm_compute. discriminate.
Qed.

Lemma slash_comment_witness :
  inserted noise src_plain src_slash /\ reference_format src_slash [] <> reference_format src_plain [].
Proof.
  split.
  - unfold src_plain, src_slash. apply ins_keep. apply ins_add; [vm_compute; reflexivity|].
    apply ins_keep. apply ins_nil.
  - vm_compute. discriminate.
Qed.
