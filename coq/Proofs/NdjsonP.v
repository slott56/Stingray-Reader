(* json.loads of every line gives back the dict json.dumps was given (Model/Ndjson.v).  An escaped character has one of
   four shapes ([shape]); scanstring on an escaped string gives the string back ([scan_escape]) - with ensure_ascii only
   for a string without an adjacent surrogate pair, since scanstring joins the escapes of a pair into one code point.
   Then one object ([loads_object]), the characters json.dumps writes, and the lines of the file ([ndjson_roundtrip]),
   which holds Unicode scalar values. *)
(* ZifyBool: the model tests code points with booleans (<=?, <?, &&), which lia then reads *)
From Coq Require Import NArith List Bool Lia ZifyBool Arith.
Import ListNotations.
Require Import SR.Base.Res SR.Model.Ndjson SR.Model.Utf8.
Require SR.Model.Workbook SR.Proofs.WorkbookP SR.Model.Csv SR.Proofs.CsvP.
Require Import SR.Gen.CsvOpenParams SR.Proofs.Utf8P.
(* scalar_text, scalar_pair occur in theorem statements (Props/) and live in Spec/NdjsonWf.v.  Props/C03b.v writes
   NdjsonP.scalar_pair: the parsing-only abbreviation gives that name. *)
Require Export SR.Spec.NdjsonWf.
Notation scalar_pair := SR.Spec.NdjsonWf.scalar_pair (only parsing).
Open Scope N_scope.

Lemma hex_digit_ascii k : k < 16 -> 32 <= hex_digit k < 128.
Proof. unfold hex_digit. destruct (k <? 10); lia. Qed.

Lemma hex_val_digit k : k < 16 -> hex_val (hex_digit k) = Some k.
Proof.
  intros Hk. unfold hex_digit, hex_val. destruct (k <? 10) eqn:E.
  - replace ((48 <=? 48 + k) && (48 + k <=? 57)) with true by lia. f_equal. lia.
  - replace ((48 <=? 87 + k) && (87 + k <=? 57)) with false by lia.
    replace ((97 <=? 87 + k) && (87 + k <=? 102)) with true by lia. f_equal. lia.
Qed.

Lemma hex4_val_hex4 n : n < 65536 ->
  hex4_val (hex_digit ((n / 4096) mod 16)) (hex_digit ((n / 256) mod 16)) (hex_digit ((n / 16) mod 16)) (hex_digit (n mod 16))
  = Some n.
Proof.
  intros Hn. unfold hex4_val. rewrite !hex_val_digit by (apply N.mod_lt; discriminate). f_equal.
  rewrite (N.mod_small (n / 4096) 16) by (apply N.div_lt_upper_bound; [discriminate|exact Hn]).
  change 4096 with (16 * 16 * 16). change 256 with (16 * 16). rewrite <- !N.div_div by discriminate.
  assert (H16 : 16 <> 0) by discriminate.
  destruct (N_digit 16 n H16) as [_ E0], (N_digit 16 (n / 16) H16) as [_ E1], (N_digit 16 (n / 16 / 16) H16) as [_ E2].
  (* the digits put together again: n = ((n/16/16/16 * 16 + d2) * 16 + d1) * 16 + d0 *)
  rewrite <- E2, <- E1, <- E0. reflexivity.
Qed.

Lemma surrogates_join c : 65536 <= c -> c <= 1114111 ->
  let v := c - 65536 in
  let hi := 55296 + (v / 1024) mod 1024 in
  let lo := 56320 + v mod 1024 in
  is_high hi = true /\ is_low lo = true /\ hi < 65536 /\ lo < 65536 /\ join_surrogates hi lo = c.
Proof.
  intros H1 H2 v. assert (Hv : v < 1024 * 1024 /\ c = 65536 + v) by (subst v; lia).
  clearbody v. destruct Hv as [Hv ->]. clear H1 H2.
  assert (Hb : 1024 <> 0) by discriminate.
  destruct (N_digit 1024 v Hb) as [H0 E0]. pose proof (N.div_lt_upper_bound v 1024 1024 Hb Hv) as Hq.
  rewrite (N.mod_small _ _ Hq).
  (* two digits q, r below 1024 of v = q * 1024 + r *)
  set (q := v / 1024) in *. set (r := v mod 1024) in *. clearbody q r. subst v.
  unfold is_high, is_low, join_surrogates. lia.
Qed.

Inductive shape (ea : bool) (c : N) : text -> Prop :=
| sh_short x : (x =? 117) = false -> unescape x = Some c -> 32 <= x < 128 -> shape ea c [92; x]
| sh_u : c < 65536 -> (c < 32 \/ (ea = true /\ 126 < c)) -> shape ea c (u_escape c)
| sh_pair : ea = true -> 65536 <= c ->
    shape ea c (u_escape (55296 + ((c - 65536) / 1024) mod 1024) ++ u_escape (56320 + (c - 65536) mod 1024))
| sh_plain : (c =? 34) = false -> (c =? 92) = false -> 32 <= c -> (ea = true -> c <= 126) -> shape ea c [c].

(* one link of the chain of short escapes *)
Lemma shape_if ea c k x rest : (x =? 117) = false -> unescape x = Some k -> 32 <= x < 128 ->
  ((c =? k) = false -> shape ea c rest) -> shape ea c (if c =? k then [92; x] else rest).
Proof.
  intros Hx Hu Hr H. destruct (c =? k) eqn:E; [|exact (H eq_refl)].
  apply N.eqb_eq in E. subst c. apply (sh_short ea k x); assumption.
Qed.

Lemma escape_char_shape ea c : shape ea c (escape_char ea c).
Proof.
  unfold escape_char.
  apply (shape_if ea c 34 34); [reflexivity|reflexivity|now split|intros N1].
  apply (shape_if ea c 92 92); [reflexivity|reflexivity|now split|intros N2].
  apply (shape_if ea c 10 110); [reflexivity|reflexivity|now split|intros _].
  apply (shape_if ea c 13 114); [reflexivity|reflexivity|now split|intros _].
  apply (shape_if ea c 9 116); [reflexivity|reflexivity|now split|intros _].
  apply (shape_if ea c 8 98); [reflexivity|reflexivity|now split|intros _].
  apply (shape_if ea c 12 102); [reflexivity|reflexivity|now split|intros _].
  destruct (c <? 32) eqn:E8; [apply sh_u; lia|].
  destruct (ea && (126 <? c)) eqn:E9.
  - apply andb_prop in E9 as [-> E9]. destruct (c <? 65536) eqn:E10; [apply sh_u|apply sh_pair]; lia.
  - apply sh_plain; try assumption; try lia. intros ->. cbn [andb] in E9. lia.
Qed.

Lemma scan_quote t acc : scan_string (34 :: t) acc = Ok (rev acc, t).
Proof. reflexivity. Qed.

Lemma scan_plain c t acc : (c =? 34) = false -> (c =? 92) = false -> (c <=? 31) = false ->
  scan_string (c :: t) acc = scan_string t (c :: acc).
Proof. intros H1 H2 H3. cbn [scan_string]. rewrite H1, H2, H3. reflexivity. Qed.

Lemma scan_short x t acc c : (x =? 117) = false -> unescape x = Some c ->
  scan_string (92 :: x :: t) acc = scan_string t (c :: acc).
Proof. intros H1 H2. cbn [scan_string]. change (92 =? 34) with false. change (92 =? 92) with true. cbn iota. rewrite H1, H2. reflexivity. Qed.

(* one unfolding of scan_string at a backslash-u escape that something follows *)
Lemma scan_u h1 h2 h3 h4 b t2a acc :
  scan_string (92 :: 117 :: h1 :: h2 :: h3 :: h4 :: b :: t2a) acc
  = match hex4_val h1 h2 h3 h4 with
    | None => Err ValueError
    | Some v =>
        let alone := scan_string (b :: t2a) (v :: acc) in
        if is_high v && (7 <=? length (b :: t2a))%nat then
          if b =? 92 then
            match t2a with
            | u :: t2b =>
                if u =? 117 then
                  match t2b with
                  | g1 :: g2 :: g3 :: g4 :: t3 =>
                      match hex4_val g1 g2 g3 g4 with
                      | None => Err ValueError
                      | Some v2 => if is_low v2 then scan_string t3 (join_surrogates v v2 :: acc) else alone
                      end
                  | _ => alone
                  end
                else alone
            | [] => alone
            end
          else alone
        else alone
    end.
Proof. reflexivity. Qed.

(* what stands after a first escape does not begin with the escape of a low surrogate *)
Definition ahead_ok (t2 : text) : bool :=
  match t2 with
  | b :: t2a =>
      if b =? 92 then
        match t2a with
        | u :: t2b =>
            if u =? 117 then
              match t2b with
              | g1 :: g2 :: g3 :: g4 :: _ =>
                  match hex4_val g1 g2 g3 g4 with Some v2 => negb (is_low v2) | None => false end
              | _ => true
              end
            else true
        | [] => true
        end
      else true
  | [] => true
  end.

Lemma scan_u_alone h1 h2 h3 h4 v b t2a acc :
  hex4_val h1 h2 h3 h4 = Some v -> is_high v = false \/ ahead_ok (b :: t2a) = true ->
  scan_string (92 :: 117 :: h1 :: h2 :: h3 :: h4 :: b :: t2a) acc = scan_string (b :: t2a) (v :: acc).
Proof.
  intros Hv H. rewrite scan_u, Hv. cbn zeta.
  destruct (is_high v && (7 <=? length (b :: t2a))%nat) eqn:Eh; [|reflexivity].
  apply andb_prop in Eh as [Eh _]. destruct H as [H|H]; [congruence|].
  unfold ahead_ok in H. destruct (b =? 92); [|reflexivity].
  destruct t2a as [|u t2b]; [reflexivity|]. destruct (u =? 117); [|reflexivity].
  destruct t2b as [|g1 [|g2 [|g3 [|g4 t3]]]]; try reflexivity.
  destruct (hex4_val g1 g2 g3 g4) as [v2|]; [|discriminate H].
  destruct (is_low v2); [discriminate H|reflexivity].
Qed.

Lemma scan_u_pair h1 h2 h3 h4 v g1 g2 g3 g4 v2 x t3 acc :
  hex4_val h1 h2 h3 h4 = Some v -> is_high v = true -> hex4_val g1 g2 g3 g4 = Some v2 -> is_low v2 = true ->
  scan_string (92 :: 117 :: h1 :: h2 :: h3 :: h4 :: 92 :: 117 :: g1 :: g2 :: g3 :: g4 :: x :: t3) acc
  = scan_string (x :: t3) (join_surrogates v v2 :: acc).
Proof.
  intros Hv Hh Hv2 Hl. rewrite scan_u, Hv, Hh, Hv2, Hl. reflexivity.
Qed.

Lemma escape_cons ea c s : escape ea (c :: s) = escape_char ea c ++ escape ea s.
Proof. reflexivity. Qed.

Lemma text_ok_tail ea c s : text_ok ea (c :: s) = true -> text_ok ea s = true.
Proof.
  unfold text_ok. destruct ea; [|reflexivity]. cbn [code_points forallb no_pair]. intros H.
  apply andb_prop in H as [H1 H2]. apply andb_prop in H1 as [_ H1]. apply andb_prop in H2 as [_ H2].
  unfold code_points. rewrite H1, H2. reflexivity.
Qed.

Lemma text_ok_head c s : text_ok true (c :: s) = true ->
  c <= 1114111 /\ (is_high c = true -> match s with c2 :: _ => is_low c2 = false | [] => True end).
Proof.
  unfold text_ok. cbn [code_points forallb no_pair]. intros H.
  apply andb_prop in H as [H1 H2]. apply andb_prop in H1 as [H1 _]. apply andb_prop in H2 as [H2 _].
  split; [apply N.leb_le; exact H1|]. intros Hh. rewrite Hh in H2. cbn [andb] in H2.
  destruct s as [|c2 s]; [exact I|]. apply negb_true_iff in H2. exact H2.
Qed.

Lemma high_not_low v : is_high v = true -> is_low v = false.
Proof. unfold is_high, is_low. lia. Qed.

Lemma ahead_ok_u n rest : n < 65536 -> is_low n = false -> ahead_ok (u_escape n ++ rest) = true.
Proof.
  intros Hn Hl. unfold u_escape, hex4. cbn [app ahead_ok]. change (92 =? 92) with true. change (117 =? 117) with true.
  cbn iota. rewrite hex4_val_hex4 by exact Hn. rewrite Hl. reflexivity.
Qed.

(* the text after an escape, when the next code point (if any) is not a low surrogate *)
Lemma ahead_ok_escape ea s rest : text_ok ea s = true ->
  match s with c2 :: _ => is_low c2 = false | [] => True end ->
  ahead_ok (escape ea s ++ 34 :: rest) = true.
Proof.
  intros Hok Hhead. destruct s as [|c s]; [reflexivity|].
  rewrite escape_cons, <- app_assoc. destruct (escape_char_shape ea c) as [x Hx _ _| Hc _ | -> Hc | H1 H2 _ _].
  - cbn [app ahead_ok]. change (92 =? 92) with true. cbn iota. rewrite Hx. reflexivity.
  - apply ahead_ok_u; assumption.
  - destruct (text_ok_head c s Hok) as [Hle _].
    destruct (surrogates_join c Hc Hle) as (Hh & _ & Hhi & _). cbn zeta in Hh, Hhi.
    rewrite <- app_assoc. apply ahead_ok_u; [exact Hhi|apply high_not_low; exact Hh].
  - cbn [app ahead_ok]. rewrite H2. reflexivity.
Qed.

Lemma escape_tail_cons ea s rest : exists b t, escape ea s ++ 34 :: rest = b :: t.
Proof. destruct (escape ea s) as [|b t]; [exists 34, rest|exists b, (t ++ 34 :: rest)]; reflexivity. Qed.

Lemma scan_escape ea : forall s acc rest, text_ok ea s = true ->
  scan_string (escape ea s ++ 34 :: rest) acc = Ok (rev acc ++ s, rest).
Proof.
  induction s as [|c s IH]; intros acc rest Hok.
  - cbn [escape flat_map app]. rewrite scan_quote, app_nil_r. reflexivity.
  - pose proof (text_ok_tail ea c s Hok) as Hs.
    assert (Hgoal : scan_string (escape ea s ++ 34 :: rest) (c :: acc) = Ok (rev acc ++ c :: s, rest)).
    { rewrite IH by exact Hs. cbn [rev]. rewrite <- app_assoc. reflexivity. }
    rewrite escape_cons, <- app_assoc.
    destruct (escape_char_shape ea c) as [x Hx Hu _| Hc Hr | -> Hc | H1 H2 H3 _].
    + cbn [app]. rewrite (scan_short x _ acc c Hx Hu). exact Hgoal.
    + destruct (escape_tail_cons ea s rest) as (b & t & Et). unfold u_escape, hex4. cbn [app].
      rewrite Et, (scan_u_alone _ _ _ _ c b t acc (hex4_val_hex4 c Hc)); [rewrite <- Et; exact Hgoal|].
      destruct (is_high c) eqn:Eh; [right|left; reflexivity].
      rewrite <- Et. destruct Hr as [Hr|[-> _]]; [unfold is_high in Eh; lia|].
      apply ahead_ok_escape; [exact Hs|]. apply (text_ok_head c s Hok). exact Eh.
    + destruct (text_ok_head c s Hok) as [Hle _].
      destruct (surrogates_join c Hc Hle) as (Hh & Hl & Hhi & Hlo & Hj). cbn zeta in *.
      destruct (escape_tail_cons true s rest) as (b & t & Et). rewrite <- app_assoc.
      unfold u_escape at 1 2, hex4. cbn [app]. rewrite Et.
      rewrite (scan_u_pair _ _ _ _ _ _ _ _ _ _ b t acc (hex4_val_hex4 _ Hhi) Hh (hex4_val_hex4 _ Hlo) Hl).
      rewrite Hj, <- Et. exact Hgoal.
    + cbn [app]. rewrite scan_plain by (assumption || lia). exact Hgoal.
Qed.

Lemma scan_json_string ea s rest : text_ok ea s = true ->
  scan_string (escape ea s ++ 34 :: rest) [] = Ok (s, rest).
Proof. intros H. rewrite scan_escape by exact H. reflexivity. Qed.

Lemma text_eqb_eq : forall a b, text_eqb a b = true <-> a = b.
Proof.
  induction a as [|x a IH]; destruct b as [|y b]; cbn [text_eqb]; split; intros H; try reflexivity; try discriminate.
  - apply andb_prop in H as [H1 H2]. apply N.eqb_eq in H1. apply IH in H2. subst. reflexivity.
  - injection H as -> ->. rewrite N.eqb_refl. apply IH. reflexivity.
Qed.

Lemma text_eqb_neq a b : a <> b -> text_eqb a b = false.
Proof. intros H. destruct (text_eqb a b) eqn:E; [apply text_eqb_eq in E; contradiction|reflexivity]. Qed.

Lemma dict_set_fresh : forall (d : doc) k v, ~ In k (map fst d) -> dict_set d k v = d ++ [(k, v)].
Proof.
  induction d as [|[k' v'] d IH]; intros k v H; [reflexivity|].
  cbn [dict_set map fst In] in *. rewrite text_eqb_neq by (intros ->; apply H; left; reflexivity).
  cbn [app]. f_equal. apply IH. intros Hin. apply H. right. exact Hin.
Qed.

Definition set_all (d acc : doc) : doc := fold_left (fun a kv => dict_set a (fst kv) (snd kv)) d acc.

Lemma distinct_inv k ks : distinct (k :: ks) = true -> ~ In k ks /\ distinct ks = true.
Proof.
  cbn [distinct]. intros H. apply andb_prop in H as [H1 H2]. split; [|exact H2].
  apply negb_true_iff in H1. intros Hin. assert (existsb (text_eqb k) ks = true); [|congruence].
  apply existsb_exists. exists k. split; [exact Hin|apply text_eqb_eq; reflexivity].
Qed.

Lemma set_all_fresh : forall (d acc : doc),
  distinct (map fst d) = true -> (forall k, In k (map fst d) -> ~ In k (map fst acc)) -> set_all d acc = acc ++ d.
Proof.
  induction d as [|[k v] d IH]; intros acc Hd Hfresh; [symmetry; apply app_nil_r|].
  cbn [map fst] in Hd. destruct (distinct_inv _ _ Hd) as [Hk Hd'].
  unfold set_all. cbn [fold_left fst snd]. fold (set_all d (dict_set acc k v)).
  rewrite dict_set_fresh by (apply Hfresh; left; reflexivity).
  rewrite IH; [rewrite <- app_assoc; reflexivity|exact Hd'|].
  intros k' Hin. rewrite map_app, in_app_iff. cbn [map fst In]. intros [H|[H|[]]].
  - apply (Hfresh k'); [right; exact Hin|exact H].
  - subst k'. contradiction.
Qed.

Lemma skip_ws_id c t : is_ws c = false -> skip_ws (c :: t) = c :: t.
Proof. intros H. cbn [skip_ws]. rewrite H. reflexivity. Qed.

Definition pair_ok (ea : bool) (kv : text * text) : bool := text_ok ea (fst kv) && text_ok ea (snd kv).

Lemma json_pair_text ea kv tail :
  json_pair ea kv ++ tail
  = 34 :: escape ea (fst kv) ++ 34 :: 58 :: 32 :: 34 :: escape ea (snd kv) ++ 34 :: tail.
Proof. unfold json_pair, json_string. cbn [app]. rewrite <- !app_assoc. cbn [app]. rewrite <- !app_assoc. reflexivity. Qed.

Lemma parse_members_step ea fuel kv acc tail : pair_ok ea kv = true ->
  parse_members (S fuel) (json_pair ea kv ++ tail) acc
  = let acc' := dict_set acc (fst kv) (snd kv) in
    match skip_ws tail with
    | c3 :: r4 =>
        if c3 =? 125 then Done (acc', r4)
        else if c3 =? 44 then parse_members fuel (skip_ws r4) acc'
        else Raise ValueError
    | [] => Raise ValueError
    end.
Proof.
  intros H. apply andb_prop in H as [Hk Hv]. rewrite json_pair_text. cbn [parse_members].
  change (34 =? 34) with true. cbn iota. rewrite (scan_json_string ea _ _ Hk).
  rewrite skip_ws_id by reflexivity. change (58 =? 58) with true. cbn iota.
  change (skip_ws (32 :: 34 :: escape ea (snd kv) ++ 34 :: tail)) with (34 :: escape ea (snd kv) ++ 34 :: tail).
  cbn [parse_value]. change (34 =? 34) with true. cbn iota. rewrite (scan_json_string ea _ _ Hv). reflexivity.
Qed.

Lemma json_pairs_cons2 ea kv kv2 t : json_pairs ea (kv :: kv2 :: t) = json_pair ea kv ++ 44 :: 32 :: json_pairs ea (kv2 :: t).
Proof. reflexivity. Qed.

Lemma json_pairs_head ea kv t tail : exists r, json_pairs ea (kv :: t) ++ tail = 34 :: r.
Proof.
  destruct t as [|kv2 t].
  - cbn [json_pairs]. rewrite json_pair_text. eexists. reflexivity.
  - rewrite json_pairs_cons2, <- app_assoc, json_pair_text. eexists. reflexivity.
Qed.

Lemma parse_members_pairs ea : forall (d : doc) acc fuel rest, d <> [] -> forallb (pair_ok ea) d = true ->
  (length d <= fuel)%nat ->
  parse_members fuel (json_pairs ea d ++ 125 :: rest) acc = Done (set_all d acc, rest).
Proof.
  induction d as [|kv d IH]; intros acc fuel rest Hne Hok Hf; [congruence|].
  cbn [forallb] in Hok. apply andb_prop in Hok as [Hkv Hd].
  destruct fuel as [|fuel]; [cbn [length] in Hf; lia|]. cbn [length] in Hf.
  unfold set_all. cbn [fold_left]. fold (set_all d (dict_set acc (fst kv) (snd kv))).
  destruct d as [|kv2 t].
  - cbn [json_pairs]. rewrite (parse_members_step ea fuel kv acc _ Hkv). reflexivity.
  - rewrite json_pairs_cons2, <- app_assoc, (parse_members_step ea fuel kv acc _ Hkv). cbn zeta.
    cbn [app]. rewrite skip_ws_id by reflexivity. change (44 =? 125) with false. change (44 =? 44) with true. cbn iota.
    destruct (json_pairs_head ea kv2 t (125 :: rest)) as (r & Er).
    change (skip_ws (32 :: json_pairs ea (kv2 :: t) ++ 125 :: rest)) with (skip_ws (json_pairs ea (kv2 :: t) ++ 125 :: rest)).
    rewrite Er, skip_ws_id by reflexivity. rewrite <- Er.
    apply IH; [discriminate|exact Hd|lia].
Qed.

Lemma pairs_length ea : forall d : doc, (length d <= length (json_pairs ea d))%nat.
Proof.
  induction d as [|kv d IH]; [apply Nat.le_refl|]. destruct d as [|kv2 t].
  - cbn [json_pairs length]. unfold json_pair, json_string. cbn [app length]. lia.
  - rewrite json_pairs_cons2, app_length. unfold json_pair at 1, json_string. cbn [app length] in *. lia.
Qed.

Lemma loads_object ea d : doc_ok ea d = true -> json_loads (json_object ea d ++ [10]) = Done d.
Proof.
  intros H. apply andb_prop in H as [Hd Hp].
  unfold json_object. cbn [app]. unfold json_loads. change (123 =? 65279) with false. cbn iota.
  rewrite skip_ws_id by reflexivity. change (123 =? 123) with true. cbn iota zeta. rewrite <- app_assoc. cbn [app].
  destruct d as [|kv t].
  - reflexivity.
  - destruct (json_pairs_head ea kv t [125; 10]) as (r & Er). rewrite Er, skip_ws_id by reflexivity.
    change (34 =? 125) with false. cbn iota. rewrite <- Er.
    rewrite (parse_members_pairs ea (kv :: t) [] _ [10]); [| discriminate | exact Hp |].
    + rewrite set_all_fresh; [reflexivity|exact Hd|intros k _ []].
    + rewrite app_length. pose proof (pairs_length ea (kv :: t)). lia.
Qed.

(* The characters json.dumps writes.  What json.dumps adds to the strings (quotes, punctuation, backslash escapes and their hex digits) is printable ASCII;
   a code point of a string is written as it is only when it is no control character and, with ensure_ascii, ASCII. *)
Section Chars.
Variable P : N -> bool.
Hypothesis P_ascii : forall x, 32 <= x < 128 -> P x = true.
Variable ea : bool.

Definition plain_ok (s : text) : Prop := forall c, In c s -> 32 <= c -> (ea = true -> c <= 126) -> P c = true.

Lemma all_u n : forallb P (u_escape n) = true.
Proof.
  unfold u_escape, hex4. cbn [forallb]. rewrite (P_ascii 92), (P_ascii 117) by lia.
  rewrite !P_ascii by (apply hex_digit_ascii, N.mod_lt; discriminate). reflexivity.
Qed.

Lemma all_escape s : plain_ok s -> forallb P (escape ea s) = true.
Proof.
  intros H. induction s as [|c s IH]; [reflexivity|].
  rewrite escape_cons, forallb_app, IH by (intros c' Hc'; apply H; right; exact Hc'). rewrite andb_true_r.
  destruct (escape_char_shape ea c) as [x _ _ Hx| _ _ | _ _ | _ _ H3 H4].
  - cbn [forallb]. rewrite (P_ascii 92), (P_ascii x) by lia. reflexivity.
  - apply all_u.
  - rewrite forallb_app, !all_u. reflexivity.
  - cbn [forallb]. rewrite (H c) by (assumption || left; reflexivity). reflexivity.
Qed.

Lemma all_string s : plain_ok s -> forallb P (json_string ea s) = true.
Proof.
  intros H. unfold json_string. cbn [forallb]. rewrite forallb_app, all_escape by exact H.
  cbn [forallb]. rewrite (P_ascii 34) by lia. reflexivity.
Qed.

Lemma all_pair kv : plain_ok (fst kv) /\ plain_ok (snd kv) -> forallb P (json_pair ea kv) = true.
Proof.
  intros [Hk Hv]. unfold json_pair. rewrite forallb_app. cbn [forallb]. rewrite !all_string by assumption.
  rewrite (P_ascii 58), (P_ascii 32) by lia. reflexivity.
Qed.

Lemma all_object d : Forall (fun kv => plain_ok (fst kv) /\ plain_ok (snd kv)) d -> forallb P (json_object ea d) = true.
Proof.
  intros H. unfold json_object. cbn [forallb]. rewrite forallb_app. cbn [forallb].
  rewrite (P_ascii 123), (P_ascii 125), andb_true_r by lia.
  induction H as [|kv d Hkv Hd IH]; [reflexivity|]. destruct d as [|kv2 t]; [apply all_pair; exact Hkv|].
  rewrite json_pairs_cons2, forallb_app, all_pair by exact Hkv. cbn [forallb].
  rewrite (P_ascii 44), (P_ascii 32) by lia. exact IH.
Qed.
End Chars.

(* a written line holds no line break: every LF and CR of a string is escaped *)
Lemma safe_object ea d : Spec.Transparency.line_safe_text (json_object ea d) = true.
Proof.
  unfold Spec.Transparency.line_safe_text, Spec.Transparency.nl, Spec.Transparency.cr. apply all_object; [lia|].
  apply Forall_forall. intros kv _. split; intros c _ Hc _; lia.
Qed.

Lemma written_lines ea docs :
  Workbook.text_lines (ndjson_write ea docs) = map (fun d => json_object ea d ++ [10]) docs.
Proof.
  unfold ndjson_write. apply (WorkbookP.text_lines_map (json_object ea) docs).
  apply Forall_forall. intros d _. apply safe_object.
Qed.

Lemma written_no_cr ea docs : Csv.no_cr (ndjson_write ea docs) = true.
Proof.
  unfold ndjson_write, Csv.no_cr. rewrite WorkbookP.forallb_concat. apply forallb_forall. intros l Hl.
  apply in_map_iff in Hl as (d & <- & _). rewrite forallb_app. apply andb_true_intro.
  split; [exact (WorkbookP.line_safe_no_cr _ (safe_object ea d))|reflexivity].
Qed.

(* the lines the unpacker iterates over, whichever way JSONUnpacker.open opens the file *)
Lemma written_lines_lib ea docs :
  ndjson_lines (ndjson_write ea docs) = map (fun d => json_object ea d ++ [10]) docs.
Proof.
  unfold ndjson_lines. destruct ndjson_newline_raw; [|apply written_lines].
  rewrite CsvP.raw_lines_text_lines by apply written_no_cr. apply written_lines.
Qed.

Lemma read_written ea : forall docs, forallb (doc_ok ea) docs = true ->
  read_lines (map (fun d => json_object ea d ++ [10]) docs) = (docs, Done tt).
Proof.
  induction docs as [|d docs IH]; intros H; [reflexivity|].
  cbn [forallb] in H. apply andb_prop in H as [Hd Hdocs].
  cbn [map read_lines]. rewrite (loads_object ea d Hd), (IH Hdocs). reflexivity.
Qed.

(* every line json.dumps wrote loads back to the dict it was given *)
Lemma ndjson_roundtrip ea docs : forallb (doc_ok ea) docs = true ->
  ndjson_read (ndjson_write ea docs) = Done docs.
Proof.
  intros H. unfold ndjson_read, ndjson_reader. rewrite written_lines_lib, (read_written ea docs H). reflexivity.
Qed.

(* the file holds Unicode scalar values: with ensure_ascii whatever the strings hold, without it when they do *)
Lemma scalar_plain ea s : scalar_text ea s = true -> plain_ok scalar ea s.
Proof.
  unfold scalar_text. intros H c Hc _ Hea. destruct ea; [unfold scalar; specialize (Hea eq_refl); lia|].
  cbn [orb] in H. rewrite forallb_forall in H. apply H. exact Hc.
Qed.

Lemma scalar_written ea docs : forallb (forallb (scalar_pair ea)) docs = true ->
  forallb scalar (ndjson_write ea docs) = true.
Proof.
  unfold ndjson_write. induction docs as [|d docs IH]; [reflexivity|]. cbn [forallb map concat]. intros H.
  apply andb_prop in H as [Hd Hdocs]. rewrite !forallb_app, IH by exact Hdocs.
  rewrite (all_object scalar); [reflexivity|unfold scalar; lia|].
  apply Forall_forall. intros kv Hkv. rewrite forallb_forall in Hd. specialize (Hd kv Hkv).
  apply andb_prop in Hd as [Hk Hv]. split; apply scalar_plain; assumption.
Qed.
