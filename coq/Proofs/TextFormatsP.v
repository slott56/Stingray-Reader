(* C03, text formats: the premise of the facade theorem (what the parser delivers for the file the writer wrote
   is the stored table) PROVED for CSV, tab-delimited text and NDJSON, from the models of csv.writer / csv.reader
   (Model/Csv.v, Proofs/CsvP.v) and of json.dumps / json.loads line by line (Model/Ndjson.v, Proofs/NdjsonP.v).

   [text_write ea f W]   the file harness/c03.py writes for a single-table workbook: the header row and the data rows
                         through csv.writer (comma / TAB), or one json.dumps(dict(zip(header, row)), ensure_ascii=ea)
                         per data row
   [text_parse f img]    what the library's unpacker delivers for a file: list(csv.reader(...)) over the file as
                         CSVUnpacker.open opens it (Csv.lib_read: with newline='' from commit aa3b8fc on, which the
                         model reads from the source on every run) as rows of str cells,
                         the json.loads of every line as dicts of str (an exception shows as no content; the theorems
                         prove there is none for a written file)
   [text_storable ea f W] the domain: CSV / TAB cells and column names of ANY code points (carriage returns included)
                         within the csv field size limit; NDJSON column names and cells, under ensure_ascii, code
                         points without an adjacent high/low surrogate pair (any text without ensure_ascii). *)
From Coq Require Import List Bool.
Import ListNotations.
Require Import SR.Base.Res SR.Spec.Transparency SR.Model.HeaderRow SR.Model.Workbook SR.Proofs.WorkbookP.
Require SR.Model.Csv SR.Model.Ndjson SR.Proofs.CsvP SR.Proofs.NdjsonP.
(* the definitions described above occur in theorem statements (Props/) and live in Spec/TextFormatsWf.v *)
Require Export SR.Spec.TextFormatsWf.

Lemma delimiter_ok f : Csv.delim_ok (delimiter_of f) = true.
Proof. destruct f; reflexivity. Qed.

(* NDJSON: the items of dict(zip(header, row)) *)
Lemma txt_doc_combine (h : list text) : forall r, txt_doc (combine h r) = combine h (map Txt r).
Proof.
  induction h as [|k h IH]; intros r; [reflexivity|]. destruct r as [|c r]; [reflexivity|].
  cbn [combine map txt_doc fst snd]. f_equal. apply IH.
Qed.

Lemma distinct_combine : forall (h r : list text), NoDup h -> Ndjson.distinct (map fst (combine h r)) = true.
Proof.
  induction h as [|k h IH]; intros r Hnd; [reflexivity|]. destruct r as [|c r]; [reflexivity|].
  inversion Hnd as [|? ? Hk Hh]; subst. cbn [combine map fst Ndjson.distinct]. rewrite IH by exact Hh.
  rewrite andb_true_r. apply negb_true_iff. destruct (existsb _ _) eqn:E; [|reflexivity].
  apply existsb_exists in E as (x & Hx & Ex). apply NdjsonP.text_eqb_eq in Ex. subst x.
  exfalso. apply Hk. apply in_map_iff in Hx as ([a b] & <- & Hab). apply in_combine_l in Hab. exact Hab.
Qed.

Lemma pairs_ok_combine ea : forall (h r : list text),
  forallb (Ndjson.text_ok ea) h = true -> forallb (Ndjson.text_ok ea) r = true ->
  forallb (fun kv => Ndjson.text_ok ea (fst kv) && Ndjson.text_ok ea (snd kv)) (combine h r) = true.
Proof.
  induction h as [|k h IH]; intros r Hh Hr; [reflexivity|]. destruct r as [|c r]; [reflexivity|].
  cbn [forallb] in Hh, Hr. apply andb_prop in Hh as [Hk Hh]. apply andb_prop in Hr as [Hc Hr].
  cbn [combine forallb fst snd]. rewrite Hk, Hc, IH by assumption. reflexivity.
Qed.

Lemma docs_ok ea T : NoDup (t_header T) -> ndjson_table_ok ea T = true ->
  forallb (Ndjson.doc_ok ea) (docs_of T) = true.
Proof.
  intros Hnd H. unfold ndjson_table_ok in H. apply andb_prop in H as [Hh Hr].
  unfold docs_of. rewrite forallb_forall in *. intros d Hd. apply in_map_iff in Hd as (r & <- & Hin).
  unfold Ndjson.doc_ok. rewrite distinct_combine by exact Hnd. cbn [andb].
  apply pairs_ok_combine; [apply forallb_forall; exact Hh|apply Hr, Hin].
Qed.

Lemma text_parse_write ea f W : text_format f = true -> storable f W = true -> wf_workbook W ->
  text_storable ea f W = true -> text_parse f (text_write ea f W) = phys f W.
Proof.
  intros Hf Hst Hwf Hok.
  assert (Hs : single_sheet f = true) by (destruct f; try discriminate Hf; reflexivity).
  destruct (storable_single_inv f W Hs Hst) as [T ->].
  destruct Hwf as [_ Hwf]. inversion Hwf as [|? ? [Hnd _] _]; subst. cbn [snd] in Hnd.
  destruct f; try discriminate Hf; cbn [text_write text_parse text_storable phys delimiter_of] in *.
  - rewrite (CsvP.lib_roundtrip Csv.COMMA _ eq_refl Hok). reflexivity.
  - rewrite (CsvP.lib_roundtrip Csv.TAB _ eq_refl Hok). reflexivity.
  - rewrite (NdjsonP.ndjson_roundtrip ea _ (docs_ok ea T Hnd Hok)). f_equal.
    unfold docs_of, phys_doc. rewrite map_map. apply map_ext. intros r. apply txt_doc_combine.
Qed.

(* the facade theorem for the three text formats, with no premise about a parser *)
Lemma facade_text ea f W : text_format f = true -> storable f W = true -> wf_workbook W ->
  text_storable ea f W = true ->
  open_read text_parse f (text_write ea f W) (headers W) = Ok (expected W).
Proof.
  intros Hf Hst Hwf Hok. unfold open_read. rewrite reader_for_ok. cbn [bind].
  rewrite (text_parse_write ea f W Hf Hst Hwf Hok).
  rewrite facade_phys; [reflexivity| |exact Hst|exact Hwf]. destruct f; try discriminate Hf; reflexivity.
Qed.
