(* C17: the name cleaner of Model/NameCleaner.v (replace the first character re.match rejects by an underscore, collapse
   runs of underscores, start again) ends with a legal name or the empty one.  scan_spec says what one scan finds; every
   round lowers [nu], the number of characters other than the underscore, so length s rounds are enough
   (clean_fuel_total).  The results used by Props/C17.v: clean_spec, and clean_fixed (a legal name is left alone). *)
From Coq Require Import NArith List Bool Lia.
Import ListNotations.
Require Import SR.Base.Res SR.Gen.NameCleanerParams SR.Spec.Anchor SR.Model.NameCleaner.
Open Scope N_scope.

(* the source's character classes and flags are the ones the specification needs *)
Lemma params_flags : dotall = true.
Proof. reflexivity. Qed.

Lemma in_point a c : (a <=? c) && (c <=? a) = (c =? a).
Proof.
  destruct (N.eqb_spec c a) as [->|H]; [rewrite N.leb_refl; reflexivity|].
  destruct (N.leb_spec a c), (N.leb_spec c a); try reflexivity. lia.
Qed.

Lemma m_start_spec c : m_start c = is_start c.
Proof.
  unfold m_start, in_ranges, start_ranges, is_start. cbn [existsb fst snd].
  rewrite in_point, orb_false_r. apply orb_assoc.
Qed.

(* the same ranges in another order: as a fact about six booleans, by cases *)
Lemma m_cont_spec c : m_cont c = is_cont c.
Proof.
  unfold m_cont, in_ranges, cont_ranges, is_cont, is_start, Anchor.us. cbn [existsb fst snd].
  rewrite !in_point.
  generalize ((65 <=? c) && (c <=? 90)), ((97 <=? c) && (c <=? 122)), ((48 <=? c) && (c <=? 57)),
    (c =? 45), (c =? 46), (c =? 95).
  intros a b d m p u.
  destruct m, a; try reflexivity.
  all: destruct b; try reflexivity.
  all: destruct u, d; try reflexivity.
  all: destruct p; reflexivity.
Qed.

(* one scan: what re.match finds *)
Lemma drop_cont_spec s :
  match drop_cont s with
  | [] => forallb is_cont s = true
  | b :: _ => is_cont b = false /\ In b s /\ forallb is_cont s = false
  end.
Proof.
  induction s as [|c t IH]; cbn [drop_cont forallb In]; [reflexivity|].
  rewrite m_cont_spec. destruct (is_cont c) eqn:Hc; cbn [andb].
  - destruct (drop_cont t) as [|b r]; [exact IH|].
    destruct IH as (Hb & Hin & Hall). auto.
  - auto.
Qed.

Lemma scan_eq s :
  scan s = match rest_of s with [] => NoBad | b :: _ => Bad b end.
Proof. unfold scan, group2. rewrite params_flags. reflexivity. Qed.

(* what is found is never the underscore, so replacing it by one makes progress; the pattern always matches *)
Lemma scan_spec s :
  match scan s with
  | NoBad => s = [] \/ legal s = true
  | Bad b => b <> us /\ In b s /\ legal s = false
  | NoMatch => False
  end.
Proof.
  rewrite scan_eq. destruct s as [|c t]; cbn [rest_of legal]; [left; reflexivity|].
  rewrite m_start_spec. destruct (is_start c) eqn:Hc; cbn [andb].
  - pose proof (drop_cont_spec t) as H. destruct (drop_cont t) as [|b r]; [right; exact H|].
    destruct H as (Hb & Hin & Hall). split; [|split; [right; exact Hin|exact Hall]].
    intros ->. discriminate Hb.
  - split; [|split; [left; reflexivity|reflexivity]].
    intros ->. discriminate Hc.
Qed.

(* the loop's measure: the number of characters other than the underscore *)
Fixpoint nu (s : list N) : nat :=
  match s with
  | [] => O
  | c :: t => if c =? us then nu t else S (nu t)
  end.

Lemma nu_le_length s : (nu s <= length s)%nat.
Proof. induction s as [|c t IH]; simpl; [lia|]. destruct (c =? us); lia. Qed.

Lemma nu_replace_le b s : (nu (replace_char b s) <= nu s)%nat.
Proof.
  induction s as [|c t IH]; cbn [replace_char map nu]; [lia|]. fold (replace_char b t).
  destruct (c =? b), (c =? us); cbn; lia.
Qed.

Lemma nu_replace_lt b s : b <> us -> In b s -> (nu (replace_char b s) < nu s)%nat.
Proof.
  intros Hb. induction s as [|c t IH]; intros Hin; [destruct Hin|].
  pose proof (nu_replace_le b t) as Hle. cbn [replace_char map nu]. fold (replace_char b t).
  destruct (N.eqb_spec c b) as [->|Hcb].
  - rewrite (proj2 (N.eqb_neq b us) Hb). cbn. lia.
  - destruct Hin as [E|Hin]; [contradiction|]. specialize (IH Hin). destruct (c =? us); lia.
Qed.

Lemma collapse_cons2 c d t :
  collapse (c :: d :: t) = if (c =? us) && (d =? us) then us :: collapse t else c :: collapse (d :: t).
Proof. reflexivity. Qed.

Lemma nu_collapse s : nu (collapse s) = nu s.
Proof.
  (* collapse looks two characters ahead: the claim for s and for c :: s together *)
  enough (forall c, nu (collapse (c :: s)) = nu (c :: s) /\ nu (collapse s) = nu s) as H by exact (proj2 (H us)).
  induction s as [|d t IH]; intros c; [split; reflexivity|].
  destruct (IH d) as [IHd IHt]. split; [|exact IHd].
  rewrite collapse_cons2. destruct ((c =? us) && (d =? us)) eqn:E.
  - apply andb_true_iff in E. destruct E as [Hc Hd]. cbn [nu]. rewrite Hc, Hd. exact IHt.
  - cbn [nu]. fold (nu (d :: t)). rewrite IHd. reflexivity.
Qed.

Lemma nu_step b s : b <> us -> In b s -> (nu (step b s) < nu s)%nat.
Proof. intros Hb Hin. unfold step. rewrite nu_collapse. apply nu_replace_lt; assumption. Qed.

Lemma step_nonempty b s : s <> [] -> step b s <> [].
Proof.
  destruct s as [|c [|d t]]; [congruence|discriminate|]. intros _.
  unfold step. cbn [replace_char map]. rewrite collapse_cons2. destruct (_ && _); discriminate.
Qed.

Lemma clean_fuel_total fuel : forall s k, (nu s <= fuel)%nat ->
  exists r n, clean_fuel fuel s k = Some (Ok r, n) /\ (r = [] \/ legal r = true) /\ (s <> [] -> r <> []).
Proof.
  induction fuel as [|f IH]; intros s k Hnu; cbn [clean_fuel].
  all: pose proof (scan_spec s) as H; destruct (scan s) as [|b|]; [exists s, k; auto| |destruct H].
  all: destruct H as (Hb & Hin & _).
  - (* no fuel left, yet s holds b, which is not the underscore *)
    pose proof (nu_replace_lt b s Hb Hin). lia.
  - destruct (IH (step b s) (S k)) as (r & n & Hr & Hl & Hne).
    + pose proof (nu_step b s Hb Hin). lia.
    + exists r, n. split; [exact Hr|]. split; [exact Hl|].
      intros Hs. apply Hne, step_nonempty, Hs.
Qed.

Lemma clean_spec s :
  exists r, clean s = Some (Ok r) /\ (r = [] \/ legal r = true) /\ (s <> [] -> r <> []).
Proof.
  destruct (clean_fuel_total (length s) s 0%nat (nu_le_length s)) as (r & n & H & Hr).
  exists r. split; [|exact Hr]. unfold clean, clean_iters. rewrite H. reflexivity.
Qed.

Lemma clean_fixed s : (s = [] \/ legal s = true) -> clean s = Some (Ok s).
Proof.
  intros H. assert (scan s = NoBad) as E.
  { pose proof (scan_spec s) as S. destruct (scan s) as [|b|]; [reflexivity| |destruct S].
    destruct S as (_ & Hin & Hl). destruct H as [->|H]; [destruct Hin|congruence]. }
  unfold clean, clean_iters. destruct (length s); cbn [clean_fuel]; rewrite E; reflexivity.
Qed.
