(* Lemmas for C08c: the document Model/SchemaDoc.v renders from the generated structure tree is valid under
   Spec/SchemaTruth.v valid_schema (the framework's model of the 2020-12 meta-schema) EXACTLY when every $anchor it
   bears is a legal anchor; for the tree build makes: exactly when every name of the record description is one
   (known finding K-digit-first-name: a COBOL data name may begin with a digit, a legal anchor may not). *)
From Coq Require Import ZArith List Bool Lia.
Import ListNotations.
Require Import SR.Base.Res SR.Gen.JsonTypeParams SR.Spec.Anchor SR.Spec.Layout SR.Model.Layout SR.Spec.SchemaTruth
  SR.Model.Estruct SR.Model.JsonType SR.Model.SchemaDoc SR.Spec.DigitNames SR.Proofs.JsonTypeP.
(* is_decimal_kw and atom_keys, which the statements of Props/C08c.v mention, are defined in Spec/SchemaDocWf.v *)
Require Export SR.Spec.SchemaDocWf.
Open Scope nat_scope.

(* valid_schema's test of one member of an object *)
Definition member_ok (f : nat) (kv : list N * jval) : bool :=
  let k := fst kv in
  let x := snd kv in
  if str_eqb k k_type then
    is_simple_type x
    || match x with VArr ((_ :: _) as l) => forallb is_simple_type l && nodup_texts l | _ => false end
  else if str_eqb k k_anchor then match x with VText s => legal s | _ => false end
  else if str_eqb k k_ref then is_text x
  else if str_eqb k k_oneOf then
    match x with VArr ((_ :: _) as l) => forallb (valid_schema f) l | _ => false end
  else if str_eqb k k_properties then
    match x with VMap ps => forallb (fun p => valid_schema f (snd p)) ps | _ => false end
  else if str_eqb k k_items then valid_schema f x
  else if str_eqb k k_maxItems || str_eqb k k_minLength || str_eqb k k_maxLength then nonneg_int x
  else if str_eqb k k_title || str_eqb k k_contentEncoding then is_text x
  else true.

Lemma valid_schema_S f d : valid_schema (S f) (VMap d) = forallb (member_ok f) d.
Proof. reflexivity. Qed.

Lemma ok_oneOf_empty f : member_ok f (k_oneOf, VArr []) = false.
Proof. reflexivity. Qed.

Lemma start_is_cont c : is_start c = true -> is_cont c = true.
Proof. intros H. unfold is_cont. rewrite H. reflexivity. Qed.

Lemma legal_redefines n : legal n = true -> legal (s_redefines ++ n) = true.
Proof.
  destruct n as [|c t]; [discriminate|]. cbn [legal]. intros H. apply andb_true_iff in H as [Hc Ht].
  change (legal (s_redefines ++ c :: t)) with (forallb is_cont ([69; 68; 69; 70; 73; 78; 69; 83; 45]%N ++ c :: t)).
  rewrite forallb_app. cbn [forallb]. rewrite (start_is_cont c Hc), Ht. reflexivity.
Qed.

Lemma chain_all (P : N * N * N -> bool) u : forall bs k,
  forallb (fun b => P (snd b)) bs = true -> chain u bs = Ok k -> P k = true.
Proof.
  induction bs as [|[names out] r IH]; intros k Hall H; [discriminate|].
  cbn [chain] in H. cbn [forallb snd] in Hall. apply andb_true_iff in Hall as [H1 H2].
  destruct (mem u names); [inversion H; subst; exact H1|exact (IH k H2 H)].
Qed.

(* by the tables regenerated from the source: every type json_type can emit is one of the meta-schema's simpleTypes *)
Lemma json_type_simple u txt k : json_type u txt = Ok k -> type_ok k = true.
Proof.
  unfold json_type. destruct (mem u jt_display); [|apply (chain_all type_ok); reflexivity].
  intros H. inversion H. destruct (numeric_text jt_numeric_chars jt_upper txt); reflexivity.
Qed.

(* ... and the extended vocabulary adds its decimal *)
Lemma json_type_ext_simple u txt k : json_type_ext u txt = Ok k -> is_decimal_kw k = false -> type_ok k = true.
Proof.
  intros H Hd. assert (type_ok k || is_decimal_kw k = true) as Hk; [|rewrite Hd, orb_false_r in Hk; exact Hk].
  revert H. unfold json_type_ext. destruct (mem u xt_display); [|apply (chain_all (fun k => type_ok k || is_decimal_kw k)); reflexivity].
  intros H. inversion H. destruct (numeric_text xt_numeric_chars xt_upper txt); reflexivity.
Qed.

Section Render.
  Variables name_of title_of cobol_of : id -> list N.
  Variable kw_of : id -> N * N * N.

  Notation D := (doc_of name_of title_of cobol_of kw_of).
  Notation DP := (docs_props name_of title_of cobol_of kw_of).
  Notation DA := (docs_alts name_of title_of cobol_of kw_of).
  Notation ktext := (key_text name_of).

  Definition anchor_ok (a : option key) : bool := match a with Some k => legal (ktext k) | None => true end.

  Lemma ok_m_title f i : member_ok f (m_title title_of i) = true.
  Proof. reflexivity. Qed.
  Lemma ok_m_cobol f i : member_ok f (m_cobol cobol_of i) = true.
  Proof. reflexivity. Qed.
  Lemma ok_m_anchor f k : member_ok f (m_anchor name_of k) = legal (ktext k).
  Proof. reflexivity. Qed.

  Lemma ok_anchor_members f a : forallb (member_ok f) (anchor_members name_of a) = anchor_ok a.
  Proof. destruct a; [apply andb_true_r|reflexivity]. Qed.

  Lemma ok_table_head f oi : forallb (member_ok f) (table_head title_of cobol_of oi) = true.
  Proof. destruct oi; reflexivity. Qed.

  Lemma ok_len f k n : In k [k_maxItems; k_minLength; k_maxLength] -> member_ok f (m_len k n) = true.
  Proof. intros [<-|[<-|[<-|[]]]]; apply Z.leb_le, Nat2Z.is_nonneg. Qed.

  Lemma ok_kw_members f i : forallb (member_ok f) (kw_members kw_of i) = type_ok (kw_of i).
  Proof.
    unfold kw_members, type_ok. destruct (kw_of i) as [[t e] c]. cbn [fst]. rewrite !forallb_app.
    assert (forallb (member_ok f) (opt_member k_contentEncoding (enc_text e)) = true) as -> by (destruct (enc_text e); reflexivity).
    assert (forallb (member_ok f) (opt_member k_conversion (conv_text c)) = true) as -> by (destruct (conv_text c); reflexivity).
    destruct (type_text t); [|reflexivity]. cbn [opt_member forallb]. rewrite !andb_true_r. apply orb_false_r.
  Qed.

  Lemma docs_props_cons inner k s r : DP inner (PCons k s r) = (ktext k, D inner s) :: DP inner r.
  Proof. reflexivity. Qed.
  Lemma docs_alts_cons s r : DA (ACons s r) = D false s :: DA r.
  Proof. reflexivity. Qed.

  Lemma valid_atom f inner a sz :
    valid_schema (S f) (D inner (JAtom a sz))
    = match a with Some k => legal (ktext k) && type_ok (kw_of (key_id k)) | None => true end.
  Proof.
    cbn [doc_of]. rewrite valid_schema_S, forallb_app.
    assert (forallb (member_ok f) (if inner then [] else [m_len k_maxLength sz; m_len k_minLength sz]) = true) as ->.
    { destruct inner; [reflexivity|]. cbn [forallb]. rewrite !ok_len by (cbn; auto). reflexivity. }
    rewrite andb_true_r. destruct a as [k|]; [|reflexivity].
    rewrite !forallb_app, ok_kw_members. cbn [forallb]. rewrite ok_m_anchor, ok_m_cobol.
    destruct inner; cbn [forallb]; rewrite ?ok_m_title, ?andb_true_r; reflexivity.
  Qed.

  Lemma valid_arr f inner a n its :
    valid_schema (S f) (D inner (JArr a n its)) = valid_schema f (D (is_none a) its) && anchor_ok a.
  Proof.
    cbn [doc_of]. rewrite valid_schema_S, !forallb_app, ok_table_head, ok_anchor_members. cbn [forallb].
    rewrite ok_len by (cbn; auto). rewrite andb_true_r. reflexivity.
  Qed.

  Lemma valid_odo f inner a c its :
    valid_schema (S f) (D inner (JOdo a c its)) = valid_schema f (D (is_none a) its) && anchor_ok a.
  Proof.
    cbn [doc_of]. rewrite valid_schema_S, !forallb_app, ok_table_head, ok_anchor_members. cbn [forallb].
    rewrite andb_true_r. reflexivity.
  Qed.

  Lemma valid_obj f inner a ps :
    valid_schema (S f) (D inner (JObj a ps))
    = anchor_ok a && forallb (fun p => valid_schema f (snd p)) (DP (match a with None => inner | Some _ => false end) ps).
  Proof.
    cbn [doc_of]. rewrite valid_schema_S, forallb_app. cbn [forallb]. rewrite andb_true_r.
    destruct a as [k|]; [|reflexivity]. cbn [forallb]. rewrite ok_m_title, ok_m_anchor, ok_m_cobol, andb_true_r. reflexivity.
  Qed.

  Lemma valid_one f inner a alts :
    valid_schema (S f) (D inner (JOne a alts))
    = match alts with ANil => false | ACons _ _ => forallb (valid_schema f) (DA alts) end && anchor_ok a.
  Proof. cbn [doc_of]. rewrite valid_schema_S. cbn [forallb]. rewrite ok_anchor_members. destruct alts; reflexivity. Qed.

  Lemma valid_ref f inner k : valid_schema (S f) (D inner (JRef k)) = true.
  Proof. reflexivity. Qed.

  Definition anchors_legal : list key -> Prop := Forall (fun k => legal (ktext k) = true).
  Definition types_simple : list key -> Prop := Forall (fun k => type_ok (kw_of (key_id k)) = true).

  Lemma anchors_legal_own a l :
    anchors_legal ((match a with Some k => [k] | None => [] end) ++ l) <-> anchor_ok a = true /\ anchors_legal l.
  Proof. destruct a as [k|]; [apply Forall_cons_iff|]. split; [intros H; split; [reflexivity|exact H]|intros [_ H]; exact H]. Qed.

  Lemma doc_valid_js :
    (forall s inner fuel,
        shape_ok s = true -> anchors_legal (anchors_of s) -> types_simple (atom_keys s) ->
        jdepth s <= fuel -> valid_schema fuel (D inner s) = true)
    /\ (forall ps inner f,
        shape_props ps = true -> anchors_legal (anchors_props ps) -> types_simple (atom_keys_props ps) ->
        jdepth_props ps <= f -> forallb (fun p => valid_schema f (snd p)) (DP inner ps) = true)
    /\ (forall alts f,
        shape_alts alts = true -> anchors_legal (anchors_alts alts) -> types_simple (atom_keys_alts alts) ->
        jdepth_alts alts <= f -> forallb (valid_schema f) (DA alts) = true).
  Proof.
    apply js_props_alts_ind.
    - intros a sz inner [|f] _ Ha Ht Hd; [inversion Hd|]. rewrite valid_atom. destruct a as [k|]; [|reflexivity].
      rewrite (Forall_inv Ha), (Forall_inv Ht). reflexivity.
    - intros a n its IH inner [|f] Hs Ha Ht Hd; [inversion Hd|]. apply (anchors_legal_own a) in Ha as [Ha1 Ha2].
      rewrite valid_arr, Ha1, (IH (is_none a) f Hs Ha2 Ht (le_S_n _ _ Hd)). reflexivity.
    - intros a c its IH inner [|f] Hs Ha Ht Hd; [inversion Hd|]. apply (anchors_legal_own a) in Ha as [Ha1 Ha2].
      rewrite valid_odo, Ha1, (IH (is_none a) f Hs Ha2 Ht (le_S_n _ _ Hd)). reflexivity.
    - intros a ps IH inner [|f] Hs Ha Ht Hd; [inversion Hd|]. apply (anchors_legal_own a) in Ha as [Ha1 Ha2].
      cbn [shape_ok] in Hs. apply andb_true_iff in Hs as [_ Hs].
      rewrite valid_obj, Ha1, (IH _ f Hs Ha2 Ht (le_S_n _ _ Hd)). reflexivity.
    - intros a alts IH inner [|f] Hs Ha Ht Hd; [inversion Hd|]. apply (anchors_legal_own a) in Ha as [Ha1 Ha2].
      cbn [shape_ok] in Hs. apply andb_true_iff in Hs as [Hne Hs].
      rewrite valid_one, Ha1, (IH f Hs Ha2 Ht (le_S_n _ _ Hd)). destruct alts; [discriminate|reflexivity].
    - intros k inner [|f] _ _ _ Hd; [inversion Hd|apply valid_ref].
    - reflexivity.
    - intros k s IHs r IHr inner f Hs Ha Ht Hd. cbn [shape_props] in Hs. apply andb_true_iff in Hs as [Hs1 Hs2].
      apply Forall_app in Ha as [Ha1 Ha2]. apply Forall_app in Ht as [Ht1 Ht2].
      cbn [jdepth_props] in Hd. apply Nat.max_lub_iff in Hd as [Hd1 Hd2]. rewrite docs_props_cons. cbn [forallb snd].
      rewrite (IHs inner f Hs1 Ha1 Ht1 Hd1), (IHr inner f Hs2 Ha2 Ht2 Hd2). reflexivity.
    - reflexivity.
    - intros s IHs r IHr f Hs Ha Ht Hd. cbn [shape_alts] in Hs. apply andb_true_iff in Hs as [Hs1 Hs2].
      apply Forall_app in Ha as [Ha1 Ha2]. apply Forall_app in Ht as [Ht1 Ht2].
      cbn [jdepth_alts] in Hd. apply Nat.max_lub_iff in Hd as [Hd1 Hd2]. rewrite docs_alts_cons. cbn [forallb].
      rewrite (IHs false f Hs1 Ha1 Ht1 Hd1), (IHr f Hs2 Ha2 Ht2 Hd2). reflexivity.
  Qed.

  Lemma valid_anchors_legal :
    (forall s inner fuel, valid_schema fuel (D inner s) = true -> anchors_legal (anchors_of s))
    /\ (forall ps inner f, forallb (fun p => valid_schema f (snd p)) (DP inner ps) = true -> anchors_legal (anchors_props ps))
    /\ (forall alts f, forallb (valid_schema f) (DA alts) = true -> anchors_legal (anchors_alts alts)).
  Proof.
    apply js_props_alts_ind.
    - intros a sz inner [|f] H; [discriminate|]. rewrite valid_atom in H. apply (anchors_legal_own a []). split; [|constructor].
      destruct a; [apply andb_true_iff in H as [H _]; exact H|reflexivity].
    - intros a n its IH inner [|f] H; [discriminate|]. rewrite valid_arr in H. apply andb_true_iff in H as [H1 H2].
      apply (anchors_legal_own a). split; [exact H2|exact (IH _ _ H1)].
    - intros a c its IH inner [|f] H; [discriminate|]. rewrite valid_odo in H. apply andb_true_iff in H as [H1 H2].
      apply (anchors_legal_own a). split; [exact H2|exact (IH _ _ H1)].
    - intros a ps IH inner [|f] H; [discriminate|]. rewrite valid_obj in H. apply andb_true_iff in H as [H1 H2].
      apply (anchors_legal_own a). split; [exact H1|exact (IH _ _ H2)].
    - intros a alts IH inner [|f] H; [discriminate|]. rewrite valid_one in H. apply andb_true_iff in H as [H1 H2].
      apply (anchors_legal_own a). split; [exact H2|]. destruct alts; [discriminate|exact (IH _ H1)].
    - constructor.
    - constructor.
    - intros k s IHs r IHr inner f H. rewrite docs_props_cons in H. cbn [forallb snd] in H. apply andb_true_iff in H as [H1 H2].
      apply Forall_app. split; [exact (IHs _ _ H1)|exact (IHr _ _ H2)].
    - constructor.
    - intros s IHs r IHr f H. rewrite docs_alts_cons in H. cbn [forallb] in H. apply andb_true_iff in H as [H1 H2].
      apply Forall_app. split; [exact (IHs _ _ H1)|exact (IHr _ H2)].
  Qed.
End Render.

Lemma atom_keys_props_members ps : atom_keys_props ps = flat_map (fun m => atom_keys (snd m)) (pmembers ps).
Proof. induction ps as [|k s r IH]; [reflexivity|]. cbn [atom_keys_props pmembers flat_map snd]. rewrite IH. reflexivity. Qed.
Lemma atom_keys_alts_members al : atom_keys_alts al = flat_map atom_keys (avals al).
Proof. induction al as [|s r IH]; [reflexivity|]. cbn [atom_keys_alts avals flat_map]. rewrite IH. reflexivity. Qed.

Lemma build_atoms :
  (forall x k, In k (atom_keys (build_alt x)) -> In k (map KName (elem_ids x)))
  /\ (forall ks targets b k, In b (kid_alts targets ks) -> In k (atom_keys (b_js b)) -> In k (map KName (elem_ids_kids ks))).
Proof.
  apply item_items_ind.
  - intros i sz oc rd k Hk. destruct oc; cbn in Hk |- *; tauto.
  - intros i oc rd ks IH k Hk. cbn [elem_ids].
    destruct oc as [|n|c]; cbn [build_alt atom_keys] in Hk; rewrite atom_keys_props_members in Hk; apply in_flat_map in Hk as [m [Hm Hk]].
    + apply In_assemble in Hm as [b [Hb Hm]]. destruct (b_union b) as [u|]; [|subst m; exact (IH _ b k Hb Hk)].
      destruct Hm as [->|[-> _]]; [destruct Hk|]. cbn [snd atom_keys] in Hk.
      rewrite atom_keys_alts_members in Hk. apply in_flat_map in Hk as [s [Hs Hk]]. apply In_alts_of in Hs as [i' Hs].
      exact (IH _ _ k Hs Hk).
    + rewrite pmembers_plain in Hm. apply in_map_iff in Hm as [b [<- Hb]]. exact (IH _ b k Hb Hk).
    + rewrite pmembers_plain in Hm. apply in_map_iff in Hm as [b [<- Hb]]. exact (IH _ b k Hb Hk).
  - intros targets b k [].
  - intros x IHx xs IHxs targets b k Hb Hk. rewrite L.kid_alts_cons in Hb. cbn [elem_ids_kids]. rewrite map_app.
    apply in_or_app. destruct Hb as [Heq|Hb].
    + subst b. left. apply IHx. exact Hk.
    + right. eapply IHxs; eauto.
Qed.

Lemma jdepth_props_le ps M : jdepth_props ps <= M <-> forall m, In m (pmembers ps) -> jdepth (snd m) <= M.
Proof.
  induction ps as [|k s r IH]; cbn [jdepth_props pmembers In]; [split; [intros _ m []|lia]|].
  rewrite Nat.max_lub_iff, IH. split; [intros [A B] m [<-|Hm]; auto|intros H; split; [apply (H (k, s)); left; reflexivity|intros m Hm; apply H; right; exact Hm]].
Qed.
Lemma jdepth_alts_le al M : jdepth_alts al <= M <-> forall s, In s (avals al) -> jdepth s <= M.
Proof.
  induction al as [|s r IH]; cbn [jdepth_alts avals In]; [split; [intros _ m []|lia]|].
  rewrite Nat.max_lub_iff, IH. split; [intros [A B] m [<-|Hm]; auto|intros H; split; [apply H; left; reflexivity|intros m Hm; apply H; right; exact Hm]].
Qed.

(* two levels of sub-schemas per level of the description, and one: the fuel 2 * idepth t + 1 of the theorems below *)
Lemma build_depth :
  (forall x, jdepth (build_alt x) <= 2 * idepth x + 1)
  /\ (forall ks targets b, In b (kid_alts targets ks) -> jdepth (b_js b) <= 2 * idepth_kids ks + 1).
Proof.
  apply item_items_ind.
  - intros i sz oc rd. destruct oc; cbn; lia.
  - intros i oc rd ks IH. cbn [idepth].
    assert (Hplain : jdepth_props (plain (kid_alts [] ks)) <= 2 * idepth_kids ks + 1).
    { apply jdepth_props_le. intros m Hm. rewrite pmembers_plain in Hm. apply in_map_iff in Hm as [b [<- Hb]]. exact (IH _ b Hb). }
    destruct oc as [|n|c]; cbn [build_alt jdepth]; [|lia|lia].
    (* a child, its placeholder, or the oneOf of a union over children: one level more *)
    set (bs := kid_alts (redef_targets ks) ks).
    assert (jdepth_props (assemble bs [] bs) <= 2 * idepth_kids ks + 2); [|lia].
    apply jdepth_props_le. intros m Hm. apply In_assemble in Hm as [b [Hb Hm]].
    pose proof (IH _ b Hb) as Hd. destruct (b_union b) as [u|]; [|subst m; cbn [snd]; lia].
    destruct Hm as [->|[-> _]]; cbn [snd jdepth]; [lia|].
    assert (jdepth_alts (alts_of u bs) <= 2 * idepth_kids ks + 1); [|lia].
    apply jdepth_alts_le. intros s Hs. apply In_alts_of in Hs as [i' Hs]. exact (IH _ _ Hs).
  - intros targets b [].
  - intros x IHx xs IHxs targets b Hb. rewrite L.kid_alts_cons in Hb. cbn [idepth_kids].
    destruct Hb as [Heq|Hb].
    + subst b. cbn [b_js snd]. lia.
    + specialize (IHxs targets b Hb). lia.
Qed.

Section Emitted.
  Variables name_of title_of cobol_of : id -> list N.
  Variable kw_of : id -> N * N * N.

  (* any choice of type keywords that the meta-schema accepts (both generators) *)
  Lemma emitted_valid_types (e : env) (t : item) (fuel : nat) :
    wf8 e t = true -> NoDup (ids_of t) ->
    (forall i, In i (ids_of t) -> legal (name_of i) = true) ->
    (forall i, In i (elem_ids t) -> type_ok (kw_of i) = true) ->
    2 * idepth t + 1 <= fuel ->
    valid_schema fuel (doc name_of title_of cobol_of kw_of (build t)) = true.
  Proof.
    intros Hw Hnd Hn Ht Hf. unfold doc, build.
    apply (proj1 (doc_valid_js name_of title_of cobol_of kw_of)).
    - exact (shape_build t Hnd).
    - apply Forall_forall. intros k Hk.
      assert (Hnd' : NoDup (L.ids t)) by (rewrite (proj1 ids_bridge); exact Hnd).
      destruct (proj1 (anchors_triple e) t Hw Hnd') as [_ [Hincl _]].
      apply Hincl in Hk. apply L.K_inv in Hk as [j [Hj Hk]]. rewrite (proj1 ids_bridge) in Hj.
      destruct Hk as [-> | ->]; cbn [key_text].
      + apply Hn. exact Hj.
      + apply legal_redefines. apply Hn. exact Hj.
    - apply Forall_forall. intros k Hk. apply (proj1 build_atoms) in Hk. apply in_map_iff in Hk as [i [<- Hi]]. cbn [key_id]. apply Ht. exact Hi.
    - pose proof (proj1 build_depth t). lia.
  Qed.

  (* the standard generator: the keywords of every elementary item are what json_type returns *)
  Lemma emitted_valid (e : env) (t : item) (fuel : nat) :
    wf8 e t = true -> NoDup (ids_of t) ->
    (forall i, In i (ids_of t) -> legal (name_of i) = true) ->
    (forall i, In i (elem_ids t) -> exists u txt, json_type u txt = Ok (kw_of i)) ->
    2 * idepth t + 1 <= fuel ->
    valid_schema fuel (doc name_of title_of cobol_of kw_of (build t)) = true.
  Proof.
    intros Hw Hnd Hn Ht Hf. apply (emitted_valid_types e); try assumption.
    intros i Hi. destruct (Ht i Hi) as [u [txt H]]. exact (json_type_simple u txt _ H).
  Qed.

  Lemma emitted_needs_legal (t : item) (fuel : nat) :
    valid_schema fuel (doc name_of title_of cobol_of kw_of (build t)) = true ->
    forall i, In i (ids_of t) -> legal (name_of i) = true.
  Proof.
    intros H i Hi. unfold doc in H.
    pose proof (proj1 (valid_anchors_legal name_of title_of cobol_of kw_of) (build t) false fuel H) as Ha.
    exact (proj1 (Forall_forall _ _) Ha (KName i) (names_anchored t i Hi)).
  Qed.
End Emitted.

(* both are comparisons of one code point with constants; lia reads the boolean tests through the ZifyBool
   instances that Proofs/EstructP.v brings in *)
Lemma name_char_cont c : name_char c = true -> is_cont c = true.
Proof. unfold name_char, is_letter_cp, is_digit_cp, is_hyphen_cp, is_cont, is_start, us. lia. Qed.

Lemma first_char_start c : name_char c = true -> is_hyphen_cp c = false -> is_start c = negb (is_digit_cp c).
Proof. unfold name_char, is_letter_cp, is_digit_cp, is_hyphen_cp, is_start, us. lia. Qed.

Lemma cobol_name_legal s : cobol_name s = true -> legal s = negb (digit_first s).
Proof.
  destruct s as [|c t]; [discriminate|]. unfold cobol_name. intros H.
  apply andb_true_iff in H as [H _]. apply andb_true_iff in H as [H _]. apply andb_true_iff in H as [H Hc].
  apply andb_true_iff in H as [_ Hall]. cbn [forallb] in Hall. apply andb_true_iff in Hall as [Hc0 Ht].
  apply negb_true_iff in Hc.
  cbn [legal digit_first]. rewrite (first_char_start c Hc0 Hc).
  assert (E : forallb is_cont t = true).
  { apply forallb_forall. intros x Hx. apply name_char_cont. exact (proj1 (forallb_forall _ _) Ht x Hx). }
  rewrite E, andb_true_r. reflexivity.
Qed.
