(* Lemmas for C06.  The schema walk on a record of the flat family is a closed form of the count vector (flat_nav,
   nav_flat); the closed form sits at the specification's offsets (kid_start / extent / count: layout_flat,
   layout_flat_occurrence); the walk reads the record only at its counters (counters_frame), so the flat family meets the
   file readers of Proofs/OdoStreamRowsP.v (framed_flat: RECFM N, V, VB, F). *)
From Coq Require Import NArith List Bool Lia Arith.
Import ListNotations.
Require Import SR.Base.Res SR.Spec.Recfm SR.Model.Recfm.
Require Import SR.Spec.Layout SR.Model.Layout SR.Spec.OdoStream SR.Model.OdoStream SR.Spec.OdoGeneralWf.
(* the unfolding equations of the walk under the rules read from the source (Gen/LayoutParams.v): Proofs/LayoutP.v *)
Require Import SR.Proofs.LayoutP.
Open Scope nat_scope.

Notation lwalk := SR.Model.Layout.walk.

Lemma key_eqb_name a b : key_eqb (KName a) (KName b) = N.eqb a b.
Proof. reflexivity. Qed.

Lemma plain_cons i u s bs : plain ((i, u, s) :: bs) = PCons (KName i) s (plain bs).
Proof. reflexivity. Qed.

Lemma own_ids_head x : In (item_id x) (own_ids x).
Proof. destruct x; left; reflexivity. Qed.

Lemma kid_ids_sub : forall ks k, In k (kid_ids ks) -> In k (all_ids ks).
Proof.
  induction ks as [|x xs IH]; intros k H; [destruct H|].
  cbn [kid_ids] in H. cbn [all_ids]. apply in_or_app. destruct H as [<-|H]; [left; apply own_ids_head|right; apply IH; exact H].
Qed.

Lemma plain_elem_inv x : plain_elem x = true -> exists i sz, x = Elem i sz Once None.
Proof.
  destruct x as [i sz oc rd|i oc rd ks]; cbn; [|discriminate].
  destruct oc; try discriminate. destruct rd; try discriminate. intros _. eauto.
Qed.

(* a child that is not a fixed elementary item is a table: its OCCURS clause over the items schema of one occurrence,
   anchored by the group's name when it is a group *)
Definition table_shape (x : item) : bool :=
  match x with Elem _ _ _ _ => true | Group _ _ _ gks => all_plain gks end.

Definition tab_anchor (x : item) : option key :=
  match x with Elem _ _ _ _ => None | Group g _ _ _ => Some (KName g) end.

Definition items_js (x : item) : js :=
  match x with
  | Elem i sz _ _ => elem_items i sz
  | Group _ _ _ gks => JObj None (plain (kid_alts [] gks))
  end.

Lemma flat_kid_shape earlier x : flat_kid earlier x = true -> table_shape x = true.
Proof.
  destruct x as [i sz oc rd|g oc [t|] gks]; cbn [flat_kid table_shape]; [reflexivity|discriminate|].
  intros H. apply andb_prop in H. apply H.
Qed.

Lemma flat_kid_noredef earlier x : flat_kid earlier x = true -> item_redef x = None.
Proof.
  destruct x as [i sz oc [t|]|g oc [t|] gks]; cbn [flat_kid item_redef]; (reflexivity || discriminate || idtac).
  destruct oc; discriminate.
Qed.

Lemma flat_kids_cons earlier x xs : flat_kids earlier (ICons x xs) = true ->
  flat_kid earlier x = true /\ flat_kids (if plain_elem x then item_id x :: earlier else earlier) xs = true.
Proof. apply andb_prop. Qed.

Lemma flat_table earlier x : flat_kid earlier x = true -> plain_elem x = false ->
  oc_ok earlier (item_oc x) = true
  /\ build_alt x = match item_oc x with
                   | Odo c => JOdo (tab_anchor x) c (items_js x)
                   | Times n => JArr (tab_anchor x) n (items_js x)
                   | Once => items_js x
                   end.
Proof.
  destruct x as [i sz oc [t|]|g oc [t|] gks]; cbn [flat_kid plain_elem item_oc]; intros Hf Hp.
  - destruct oc; discriminate.
  - destruct oc; [discriminate| |]; (split; [exact Hf|reflexivity]).
  - discriminate.
  - apply andb_prop in Hf as [Hoc _]. destruct oc; [discriminate| |]; (split; [exact Hoc|reflexivity]).
Qed.

Section Walk.
Context {B : Type}.
Variable dcount : list B -> nat.
Variable r : list B.

Definition atom_sz (x : item) : nat := match x with Elem _ sz _ _ => sz | Group _ _ _ _ => 0 end.

Fixpoint psize (ks : items) : nat :=
  match ks with INil => 0 | ICons x xs => atom_sz x + psize xs end.

Fixpoint pprops (ks : items) (off : nat) : lprops :=
  match ks with
  | INil => LPNil
  | ICons x xs => LPCons (KName (item_id x)) (LAtom off (atom_sz x)) (pprops xs (off + atom_sz x))
  end.

(* an elementary child's anchor is entered twice: once by its own walk, once more by the ObjectSchema loop *)
Definition reg2 (i : id) (l : loc) (an : anchors) : anchors := (KName i, l) :: (KName i, l) :: an.

Fixpoint panch (ks : items) (off : nat) (an : anchors) : anchors :=
  match ks with
  | INil => an
  | ICons x xs => panch xs (off + atom_sz x) (reg2 (item_id x) (LAtom off (atom_sz x)) an)
  end.

(* one occurrence of a table placed at st: its length, its location, the anchors the walk leaves *)
Definition occ_sz (x : item) : nat :=
  match x with Elem _ sz _ _ => sz | Group _ _ _ gks => psize gks end.
Definition occ_loc (x : item) (st : nat) : loc :=
  match x with
  | Elem i sz _ _ => LObj st sz (LPCons (KName i) (LAtom st sz) LPNil)
  | Group _ _ _ gks => LObj st (psize gks) (pprops gks st)
  end.
Definition occ_anch (x : item) (st : nat) (an : anchors) : anchors :=
  match x with
  | Elem i sz _ _ => reg2 i (LAtom st sz) an
  | Group _ _ _ gks => panch gks st an
  end.

Variable e : env.

(* location and length of one child placed at o *)
Definition floc (x : item) (o : nat) : loc :=
  if plain_elem x then LAtom o (atom_sz x)
  else LArr o (occ_sz x * count e (item_oc x)) (occ_sz x) (count e (item_oc x)) (occ_loc x o) (items_js x).

Definition fsz (x : item) : nat :=
  if plain_elem x then atom_sz x else occ_sz x * count e (item_oc x).

(* the anchors after the walk of one child, and after the ObjectSchema loop has registered the child's anchor again *)
Definition kid_anch (x : item) (o : nat) (an : anchors) : anchors :=
  if plain_elem x then reg (Some (KName (item_id x))) (floc x o) an
  else reg (tab_anchor x) (floc x o) (occ_anch x o an).

Definition fanch1 (x : item) (o : nat) (an : anchors) : anchors :=
  reg (js_anchor (build_alt x)) (floc x o) (kid_anch x o an).

Fixpoint fprops (ks : items) (off : nat) : lprops :=
  match ks with
  | INil => LPNil
  | ICons x xs => LPCons (KName (item_id x)) (floc x off) (fprops xs (off + fsz x))
  end.

Fixpoint fanch (ks : items) (off : nat) (an : anchors) : anchors :=
  match ks with
  | INil => an
  | ICons x xs => fanch xs (off + fsz x) (fanch1 x off an)
  end.

Fixpoint fsize (ks : items) : nat :=
  match ks with INil => 0 | ICons x xs => fsz x + fsize xs end.

Lemma lsize_floc x o : lsize (floc x o) = fsz x.
Proof. unfold floc, fsz. destruct (plain_elem x); reflexivity. Qed.

Lemma walk_plain : forall ks off an, all_plain ks = true ->
  walk_props dcount r (plain (kid_alts [] ks)) off an = Ok (pprops ks off, off + psize ks, panch ks off an).
Proof.
  induction ks as [|x xs IH]; intros off an H.
  - cbn [kid_alts plain pprops psize panch]. rewrite walk_props_nil. f_equal. f_equal. f_equal. lia.
  - cbn [all_plain] in H. apply andb_prop in H as [Hx Hxs].
    destruct (plain_elem_inv x Hx) as (i & sz & ->).
    rewrite kid_alts_cons, plain_cons. cbn [build_alt item_id].
    rewrite walk_props_cons, walk_atom. cbn [lsize js_anchor reg].
    rewrite IH by exact Hxs. cbn [pprops psize panch atom_sz item_id]. unfold reg2.
    f_equal. f_equal. f_equal. lia.
Qed.

Lemma walk_items x st an : table_shape x = true ->
  lwalk dcount r (items_js x) st an = Ok (occ_loc x st, occ_anch x st an).
Proof.
  destruct x as [i sz oc rd|g oc rd gks]; cbn [table_shape items_js occ_loc occ_anch]; intros H.
  - unfold elem_items. rewrite walk_obj, walk_props_cons, walk_atom. cbn [lsize js_anchor reg].
    rewrite walk_props_nil. cbn [reg]. unfold reg2.
    replace (st + sz - st) with sz by lia. reflexivity.
  - rewrite walk_obj, walk_plain by exact H. cbn [reg].
    replace (st + psize gks - st) with (psize gks) by lia. reflexivity.
Qed.

Lemma lsize_occ_loc x st : lsize (occ_loc x st) = occ_sz x.
Proof. destruct x; reflexivity. Qed.

Lemma lookup_reg2 c i l an : c <> i -> lookup (KName c) (reg2 i l an) = lookup (KName c) an.
Proof.
  intros H. unfold reg2. cbn [lookup]. rewrite key_eqb_name.
  destruct (N.eqb c i) eqn:E; [apply N.eqb_eq in E; contradiction|reflexivity].
Qed.

Lemma lookup_reg2_same c l an : lookup (KName c) (reg2 c l an) = Some l.
Proof. unfold reg2. cbn [lookup]. rewrite key_eqb_name, N.eqb_refl. reflexivity. Qed.

Lemma lookup_panch c : forall ks off an, ~ In c (kid_ids ks) ->
  lookup (KName c) (panch ks off an) = lookup (KName c) an.
Proof.
  induction ks as [|x xs IH]; intros off an H; [reflexivity|].
  cbn [kid_ids] in H. cbn [panch]. rewrite IH by (intros Hin; apply H; right; exact Hin).
  apply lookup_reg2. intros ->. apply H. left. reflexivity.
Qed.

Lemma lookup_fanch1 c earlier x o an : flat_kid earlier x = true -> ~ In c (own_ids x) ->
  lookup (KName c) (fanch1 x o an) = lookup (KName c) an.
Proof.
  intros Hf H. unfold fanch1. destruct x as [i sz oc rd|g oc rd gks]; cbn [flat_kid own_ids] in Hf, H.
  - assert (Hi : c <> i) by (intros ->; apply H; left; reflexivity).
    destruct rd as [t|]; [destruct oc; discriminate|]. destruct oc; apply (lookup_reg2 c i _ an Hi).
  - assert (Hg : c <> g) by (intros ->; apply H; left; reflexivity).
    destruct rd as [t|]; [discriminate|]. destruct oc; [discriminate| |];
      (etransitivity; [apply (lookup_reg2 c g _ _ Hg)|]; apply lookup_panch; intros Hin; apply H; right; exact Hin).
Qed.

Variable P : id -> Prop.      (* the names that are counters of some table of the record *)

(* the record carries the counters, stated along the walk: each counter field, at the offset the walk meets it, holds e(name) *)
Fixpoint holds (ks : items) (off : nat) : Prop :=
  match ks with
  | INil => True
  | ICons x xs =>
      (match x with
       | Elem c sz Once None => P c -> dcount (slice r off (off + sz)) = e c
       | _ => True
       end) /\ holds xs (off + fsz x)
  end.

(* every earlier fixed elementary item is registered at its place, and that place holds e(name) when it is a counter *)
Definition an_ok (earlier : list id) (an : anchors) : Prop :=
  forall c, In c earlier ->
    exists o sz, lookup (KName c) an = Some (LAtom o sz) /\ (P c -> dcount (slice r o (o + sz)) = e c).

(* one child: a fixed elementary item is an atom; a table has as many occurrences as its OCCURS clause says, the
   counter of an ODO table being an earlier item found through the anchors *)
Lemma walk_flat_kid earlier x off an :
  flat_kid earlier x = true -> an_ok earlier an ->
  (match item_oc x with Odo c => P c | _ => True end) ->
  lwalk dcount r (build_alt x) off an = Ok (floc x off, kid_anch x off an).
Proof.
  intros Hf Han HP. unfold kid_anch, floc. destruct (plain_elem x) eqn:Ep.
  - destruct (plain_elem_inv x Ep) as (i & sz & ->). apply walk_atom.
  - destruct (flat_table earlier x Hf Ep) as (Hoc & ->).
    pose proof (walk_items x off an (flat_kid_shape earlier x Hf)) as Hw.
    rewrite <- (lsize_occ_loc x off).
    destruct (item_oc x) as [|n|c]; cbn [oc_ok] in Hoc; [discriminate| |].
    + rewrite walk_arr, Hw. reflexivity.
    + apply existsb_eqb_In in Hoc. destruct (Han c Hoc) as (o & sz & Hl & Hd).
      rewrite walk_odo, Hl, Hw, (Hd HP). reflexivity.
Qed.

Lemma an_ok_step earlier x xs off an :
  flat_kid earlier x = true -> an_ok earlier an -> (forall c, In c earlier -> ~ In c (own_ids x)) ->
  holds (ICons x xs) off ->
  an_ok (if plain_elem x then item_id x :: earlier else earlier) (fanch1 x off an).
Proof.
  intros Hx Han Hdis [Hhx _].
  assert (Hk : an_ok earlier (fanch1 x off an)).
  { intros c Hc. rewrite (lookup_fanch1 c earlier x off an Hx (Hdis c Hc)). exact (Han c Hc). }
  destruct (plain_elem x) eqn:Hp; [|exact Hk]. destruct (plain_elem_inv x Hp) as (i & sz & ->).
  intros c [<-|Hc]; [|exact (Hk c Hc)]. exists off, sz. split; [apply (lookup_reg2_same i)|exact Hhx].
Qed.

Lemma walk_flat_kids : forall ks earlier off an,
  flat_kids earlier ks = true ->
  (forall c, In c earlier -> ~ In c (all_ids ks)) ->
  NoDup (all_ids ks) ->
  an_ok earlier an ->
  holds ks off ->
  (forall c, In c (counters_of ks) -> P c) ->
  walk_props dcount r (plain (kid_alts [] ks)) off an = Ok (fprops ks off, off + fsize ks, fanch ks off an).
Proof.
  induction ks as [|x xs IH]; intros earlier off an Hf Hdis Hnd Han Hh HP.
  - cbn [kid_alts plain fprops fsize fanch]. rewrite walk_props_nil. f_equal. f_equal. f_equal. lia.
  - apply flat_kids_cons in Hf as [Hx Hxs]. cbn [all_ids] in Hnd, Hdis.
    assert (Hdx : forall c, In c earlier -> ~ In c (own_ids x)).
    { intros c Hc Hin. apply (Hdis c Hc), in_or_app. left. exact Hin. }
    rewrite kid_alts_cons, plain_cons, walk_props_cons.
    rewrite (walk_flat_kid earlier x off an Hx Han).
    2:{ destruct (item_oc x) as [|n|c] eqn:Eoc; [exact I|exact I|]. apply HP. cbn [counters_of]. rewrite Eoc. left. reflexivity. }
    fold (fanch1 x off an). rewrite lsize_floc.
    rewrite (IH (if plain_elem x then item_id x :: earlier else earlier) (off + fsz x) (fanch1 x off an)).
    + cbn [fprops fsize fanch]. f_equal. f_equal. f_equal. lia.
    + exact Hxs.
    + intros c Hc Hin. destruct (plain_elem x); [destruct Hc as [<-|Hc]|].
      * exact (NoDup_app_disj _ _ _ Hnd (own_ids_head x) Hin).
      * apply (Hdis c Hc), in_or_app. right. exact Hin.
      * apply (Hdis c Hc), in_or_app. right. exact Hin.
    + exact (NoDup_app_r _ _ Hnd).
    + exact (an_ok_step earlier x xs off an Hx Han Hdx Hh).
    + apply Hh.
    + intros c Hc. apply HP. cbn [counters_of]. destruct (item_oc x); try exact Hc. right. exact Hc.
Qed.

End Walk.

Section AgainstSpec.
Variable e : env.
Local Notation floc := (floc e).
Local Notation fsz := (fsz e).
Local Notation fprops := (fprops e).
Local Notation fsize := (fsize e).

Lemma psize_ext : forall ks, all_plain ks = true -> kids_extent e ks = psize ks.
Proof.
  induction ks as [|x xs IH]; intros H; [reflexivity|].
  cbn [all_plain] in H. apply andb_prop in H as [Hx Hxs].
  destruct (plain_elem_inv x Hx) as (i & sz & ->).
  cbn [kids_extent psize atom_sz is_redefiner item_redef item_oc count ext1]. rewrite IH by exact Hxs. lia.
Qed.

Lemma occ_sz_ext earlier x : flat_kid earlier x = true -> occ_sz x = ext1 e x.
Proof.
  destruct x as [i sz oc rd|g oc rd gks]; cbn [flat_kid occ_sz ext1]; [reflexivity|].
  destruct rd; [discriminate|]. intros H. apply andb_prop in H as [_ Hpl]. symmetry. apply psize_ext. exact Hpl.
Qed.

Lemma fsz_ext earlier x : flat_kid earlier x = true -> fsz x = extent e x.
Proof.
  intros H. unfold fsz, extent. destruct (plain_elem x) eqn:Ep.
  - destruct (plain_elem_inv x Ep) as (i & sz & ->). cbn [atom_sz item_oc count ext1]. lia.
  - rewrite (occ_sz_ext earlier x H). lia.
Qed.

Lemma fsize_ext : forall ks earlier, flat_kids earlier ks = true -> fsize ks = kids_extent e ks.
Proof.
  induction ks as [|x xs IH]; intros earlier H; [reflexivity|].
  apply flat_kids_cons in H as [Hx Hxs].
  cbn [fsize kids_extent]. unfold is_redefiner. rewrite (flat_kid_noredef earlier x Hx).
  rewrite (fsz_ext earlier x Hx), (IH _ Hxs). unfold extent. reflexivity.
Qed.

(* start of child k when the children lie end to end from off *)
Fixpoint kstart (ks : items) (off : nat) (k : id) : option nat :=
  match ks with
  | INil => None
  | ICons x xs => if N.eqb (item_id x) k then Some off else kstart xs (off + extent e x) k
  end.

Lemma kid_starts_kstart : forall ks earlier off seen k, flat_kids earlier ks = true ->
  option_map snd (find (fun p => N.eqb (fst p) k) (kid_starts e ks off seen)) = kstart ks off k.
Proof.
  induction ks as [|x xs IH]; intros earlier off seen k H; [reflexivity|].
  apply flat_kids_cons in H as [Hx Hxs].
  cbn [kid_starts kstart]. rewrite (flat_kid_noredef earlier x Hx). cbn [find fst].
  destruct (N.eqb (item_id x) k); [reflexivity|]. apply (IH _ _ _ _ Hxs).
Qed.

Lemma kid_start_kstart ks k : flat_kids [] ks = true -> kid_start e ks k = kstart ks 0 k.
Proof. intros H. unfold kid_start. apply (kid_starts_kstart ks [] 0 [] k H). Qed.

Lemma find_kid_In : forall ks k x, find_kid ks k = Some x -> In k (kid_ids ks).
Proof.
  induction ks as [|y ys IH]; intros k x H; [discriminate|].
  cbn [find_kid] in H. cbn [kid_ids]. destruct (N.eqb_spec (item_id y) k) as [E|_]; [left; exact E|right; exact (IH _ _ H)].
Qed.

Lemma fprops_find : forall ks earlier off k x, flat_kids earlier ks = true -> find_kid ks k = Some x ->
  exists o earlier', kstart ks off k = Some o /\ find_prop (KName k) (fprops ks off) = Some (floc x o)
                     /\ flat_kid earlier' x = true.
Proof.
  induction ks as [|y ys IH]; intros earlier off k x Hf H; [discriminate|].
  apply flat_kids_cons in Hf as [Hy Hys].
  cbn [find_kid] in H. cbn [kstart fprops find_prop]. rewrite key_eqb_name, (N.eqb_sym k (item_id y)).
  destruct (N.eqb (item_id y) k) eqn:E.
  - inversion H; subst. exists off, earlier. split; [reflexivity|]. split; [reflexivity|exact Hy].
  - rewrite (fsz_ext earlier y Hy). apply (IH _ _ _ _ Hys H).
Qed.

End AgainstSpec.

Section Holds.
Context {B : Type}.
Variable dcount : list B -> nat.
Variable r : list B.
Variable e : env.
Variable P : id -> Prop.
Local Notation holds := (holds dcount r e P).
Local Notation kstart := (kstart e).

(* the record hypothesis stated along the walk follows from the one stated with the specification's starts *)
Lemma holds_of : forall ks earlier off, flat_kids earlier ks = true -> NoDup (all_ids ks) ->
  (forall c sz o, P c -> find_kid ks c = Some (Elem c sz Once None) -> kstart ks off c = Some o ->
                  dcount (slice r o (o + sz)) = e c) ->
  holds ks off.
Proof.
  induction ks as [|x xs IH]; intros earlier off Hf Hnd H; [exact I|].
  apply flat_kids_cons in Hf as [Hx Hxs]. cbn [all_ids] in Hnd.
  cbn [holds]. split.
  - destruct x as [c sz oc rd|]; [|exact I]. destruct oc; try exact I. destruct rd; [exact I|].
    intros HPc. apply (H c sz off HPc); cbn [find_kid OdoStreamP.kstart item_id]; rewrite N.eqb_refl; reflexivity.
  - rewrite (fsz_ext e earlier x Hx). apply (IH _ _ Hxs); [apply NoDup_app_r in Hnd; exact Hnd|].
    intros c sz o HPc Hfind Hst.
    assert (Hne : N.eqb (item_id x) c = false).
    { apply N.eqb_neq. intros Heq. subst c. pose proof (find_kid_In _ _ _ Hfind) as Hin.
      apply (NoDup_app_disj _ _ _ Hnd (own_ids_head x)). apply kid_ids_sub. exact Hin. }
    apply (H c sz o HPc); cbn [find_kid OdoStreamP.kstart]; rewrite Hne; assumption.
Qed.

End Holds.

Definition flat_nav (e : env) (t : item) : nav :=
  match t with
  | Group i0 _ _ kids =>
      let l := LObj 0 (fsize e kids) (fprops e kids 0) in mknav l ((KName i0, l) :: fanch e kids 0 [])
  | Elem _ _ _ _ => mknav (LAtom 0 0) []
  end.

Lemma redef_targets_flat : forall ks earlier, flat_kids earlier ks = true -> redef_targets ks = [].
Proof.
  induction ks as [|x xs IH]; intros earlier H; [reflexivity|].
  apply flat_kids_cons in H as [Hx Hxs].
  cbn [redef_targets]. rewrite (flat_kid_noredef earlier x Hx). apply (IH _ Hxs).
Qed.

Lemma assemble_plain : forall ks earlier all em, flat_kids earlier ks = true ->
  assemble all em (kid_alts [] ks) = plain (kid_alts [] ks).
Proof.
  induction ks as [|x xs IH]; intros earlier all em H; [reflexivity|].
  apply flat_kids_cons in H as [Hx Hxs].
  rewrite kid_alts_cons. unfold union_of. rewrite (flat_kid_noredef earlier x Hx). cbn [existsb assemble plain].
  rewrite (IH _ all em Hxs). reflexivity.
Qed.

Lemma build_flat i0 rd kids : flat_kids [] kids = true ->
  build (Group i0 Once rd kids) = JObj (Some (KName i0)) (plain (kid_alts [] kids)).
Proof.
  intros H. unfold build. cbn [build_alt]. rewrite (redef_targets_flat kids [] H).
  cbn zeta. rewrite (assemble_plain kids [] _ [] H). reflexivity.
Qed.

Lemma flat_odo_inv t : flat_odo t = true ->
  exists i0 rd kids, t = Group i0 Once rd kids /\ flat_kids [] kids = true /\ NoDup (all_ids kids).
Proof.
  destruct t as [|i0 oc rd kids]; cbn [flat_odo]; [discriminate|]. destruct oc; try discriminate.
  intros H. apply andb_prop in H as [H1 H2]. exists i0, rd, kids. split; [reflexivity|]. split; [exact H1|].
  apply nodupb_NoDup. exact H2.
Qed.

(* the walk is the closed form of the count vector; the record enters only through the counter fields *)
Lemma nav_flat {B} (dcount : list B -> nat) t e r :
  flat_odo t = true -> counters_hold dcount e t r ->
  nav_of dcount r (build t) = Ok (flat_nav e t).
Proof.
  intros Hf Hc. destruct (flat_odo_inv t Hf) as (i0 & rd & kids & -> & Hk & Hnd).
  cbn [counters_hold] in Hc. rewrite (build_flat i0 rd kids Hk).
  rewrite nav_of_unf. rewrite walk_obj.
  rewrite (walk_flat_kids dcount r e (fun c => In c (counters_of kids)) kids [] 0 [] Hk).
  - cbn [reg flat_nav]. replace (0 + fsize e kids - 0) with (fsize e kids) by lia. reflexivity.
  - intros c [].
  - exact Hnd.
  - intros c [].
  - apply (holds_of dcount r e _ kids [] 0 Hk Hnd).
    intros c sz o HP Hfind Hst. apply (Hc c sz o HP Hfind). rewrite (kid_start_kstart e kids c Hk). exact Hst.
  - intros c Hin. exact Hin.
Qed.

Lemma is_table_not_plain x : is_table x = true -> plain_elem x = false.
Proof.
  destruct x as [i sz oc rd|g oc rd gks]; [|reflexivity]. unfold is_table. cbn [item_oc plain_elem].
  destruct oc; [discriminate|reflexivity|reflexivity].
Qed.

Lemma lstart_occ_loc x st : lstart (occ_loc x st) = st.
Proof. destruct x; reflexivity. Qed.

Lemma flat_nav_end e t : flat_odo t = true -> lend (n_loc (flat_nav e t)) = extent e t.
Proof.
  intros Hf. destruct (flat_odo_inv t Hf) as (i0 & rd & kids & -> & Hk & Hnd).
  unfold lend. cbn [flat_nav n_loc lstart lsize]. rewrite (fsize_ext e kids [] Hk). unfold extent. cbn [item_oc count ext1]. lia.
Qed.

(* a child of the record is found by name at the specification's start *)
Lemma flat_nav_kid e i0 rd kids k x : flat_kids [] kids = true -> find_kid kids k = Some x ->
  exists o earlier, kid_start e kids k = Some o /\ flat_kid earlier x = true
    /\ nav_name (flat_nav e (Group i0 Once rd kids)) (KName k)
       = Ok (mknav (floc e x o) (n_an (flat_nav e (Group i0 Once rd kids)))).
Proof.
  intros Hk Hfind. destruct (fprops_find e kids [] 0 k x Hk Hfind) as (o & earlier & Hst & Hfp & Hx).
  exists o, earlier. rewrite (kid_start_kstart e kids k Hk). split; [exact Hst|]. split; [exact Hx|].
  rewrite nav_name_unf. cbn [flat_nav n_loc n_an]. rewrite Hfp. unfold floc. destruct (plain_elem x); reflexivity.
Qed.

(* an occurrence of a table is walked again from its own start *)
Lemma flat_nav_index {B} (dcount : list B -> nat) r e earlier x o an i : flat_kid earlier x = true -> is_table x = true ->
  nav_index dcount r (mknav (floc e x o) an) i
  = if count e (item_oc x) <=? i then Err IndexError
    else Ok (mknav (occ_loc x (o + occ_sz x * i)) (occ_anch x (o + occ_sz x * i) [])).
Proof.
  intros Hx Ht. pose proof (is_table_not_plain x Ht) as Hnp. pose proof (flat_kid_shape earlier x Hx) as Hshape.
  rewrite nav_index_unf. unfold floc. rewrite Hnp. cbn [n_loc]. rewrite (walk_items dcount r x _ [] Hshape). reflexivity.
Qed.

Lemma layout_flat {B} (dcount : list B -> nat) t e r :
  flat_odo t = true -> counters_hold dcount e t r ->
  exists v, nav_of dcount r (build t) = Ok v
    /\ lstart (n_loc v) = 0 /\ lend (n_loc v) = extent e t
    /\ forall k x, find_kid (item_kids t) k = Some x ->
       exists o vk, kid_start e (item_kids t) k = Some o
         /\ nav_name v (KName k) = Ok vk
         /\ lstart (n_loc vk) = o /\ lsize (n_loc vk) = extent e x
         /\ (is_table x = true ->
               (exists sub sch, n_loc vk = LArr o (extent e x) (ext1 e x) (count e (item_oc x)) sub sch)
               /\ (forall i, i < count e (item_oc x) ->
                     exists vi, nav_index dcount r vk i = Ok vi
                       /\ lstart (n_loc vi) = o + i * ext1 e x /\ lsize (n_loc vi) = ext1 e x)
               /\ (forall i, count e (item_oc x) <= i -> nav_index dcount r vk i = Err IndexError)).
Proof.
  intros Hf Hc. exists (flat_nav e t). split; [apply nav_flat; assumption|].
  split; [|split; [apply flat_nav_end, Hf|]];
    destruct (flat_odo_inv t Hf) as (i0 & rd & kids & -> & Hk & Hnd); [reflexivity|].
  cbn [item_kids]. intros k x Hfind.
  destruct (flat_nav_kid e i0 rd kids k x Hk Hfind) as (o & earlier & Hst & Hx & Hname).
  eexists o, _. split; [exact Hst|]. split; [exact Hname|]. cbn [n_loc].
  split; [unfold floc; destruct (plain_elem x); reflexivity|].
  split; [rewrite lsize_floc; apply (fsz_ext e earlier x Hx)|].
  intros Ht. pose proof (occ_sz_ext e earlier x Hx) as Hosz. split; [|split].
  - exists (occ_loc x o), (items_js x). unfold floc. rewrite (is_table_not_plain x Ht), Hosz. unfold extent. f_equal. lia.
  - intros i Hi. rewrite (flat_nav_index dcount r e earlier x o _ i Hx Ht), (proj2 (Nat.leb_gt _ _) Hi).
    eexists. split; [reflexivity|]. cbn [n_loc]. rewrite lstart_occ_loc, lsize_occ_loc, Hosz. split; [lia|reflexivity].
  - intros i Hi. rewrite (flat_nav_index dcount r e earlier x o _ i Hx Ht), (proj2 (Nat.leb_le _ _) Hi). reflexivity.
Qed.

Lemma all_plain_flat : forall ks earlier, all_plain ks = true -> flat_kids earlier ks = true.
Proof.
  induction ks as [|x xs IH]; intros earlier H; [reflexivity|].
  cbn [all_plain] in H. apply andb_prop in H as [Hx Hxs]. cbn [flat_kids]. rewrite (IH _ Hxs), andb_true_r.
  destruct (plain_elem_inv x Hx) as (i & sz & ->). reflexivity.
Qed.

Lemma pprops_find e : forall gks off base j y, all_plain gks = true -> find_kid gks j = Some y ->
  exists oj, kstart e gks base j = Some (base + oj)
    /\ find_prop (KName j) (pprops gks off) = Some (LAtom (off + oj) (extent e y)).
Proof.
  induction gks as [|x xs IH]; intros off base j y H Hfind; [discriminate|].
  cbn [all_plain] in H. apply andb_prop in H as [Hx Hxs].
  destruct (plain_elem_inv x Hx) as (i & sz & ->).
  cbn [find_kid item_id] in Hfind. cbn [kstart pprops find_prop item_id atom_sz]. rewrite key_eqb_name, (N.eqb_sym j i).
  destruct (N.eqb i j).
  - inversion Hfind; subst. exists 0. rewrite !Nat.add_0_r. split; [reflexivity|].
    unfold extent. cbn [item_oc count ext1]. rewrite Nat.mul_1_l. reflexivity.
  - destruct (IH (off + sz) (base + extent e (Elem i sz Once None)) j y Hxs Hfind) as (oj & Hk & Hp).
    exists (sz + oj). rewrite Hk, Hp. unfold extent. cbn [item_oc count ext1].
    split; f_equal; [lia|f_equal; lia].
Qed.

Lemma layout_flat_occurrence {B} (dcount : list B -> nat) t e r :
  flat_odo t = true -> counters_hold dcount e t r ->
  exists v, nav_of dcount r (build t) = Ok v
    /\ forall k x, find_kid (item_kids t) k = Some x -> is_table x = true ->
       exists o vk, kid_start e (item_kids t) k = Some o /\ nav_name v (KName k) = Ok vk
         /\ forall i, i < count e (item_oc x) ->
            exists vi, nav_index dcount r vk i = Ok vi
              /\ match x with
                 | Elem n sz _ _ => exists vj, nav_name vi (KName n) = Ok vj /\ n_loc vj = LAtom (o + i * sz) sz
                 | Group _ _ _ gks =>
                     forall j y, find_kid gks j = Some y ->
                       exists oj vj, kid_start e gks j = Some oj /\ nav_name vi (KName j) = Ok vj
                         /\ n_loc vj = LAtom (o + i * ext1 e x + oj) (extent e y)
                 end.
Proof.
  intros Hf Hc. exists (flat_nav e t). split; [apply nav_flat; assumption|].
  destruct (flat_odo_inv t Hf) as (i0 & rd & kids & -> & Hk & Hnd).
  cbn [item_kids]. intros k x Hfind Ht.
  destruct (flat_nav_kid e i0 rd kids k x Hk Hfind) as (o & earlier & Hst & Hx & Hname).
  eexists o, _. split; [exact Hst|]. split; [exact Hname|].
  intros i Hi. rewrite (flat_nav_index dcount r e earlier x o _ i Hx Ht), (proj2 (Nat.leb_gt _ _) Hi).
  eexists. split; [reflexivity|].
  destruct x as [n sz oc rd'|g oc rd' gks].
  - cbn [occ_loc occ_sz occ_anch]. eexists. split.
    + rewrite nav_name_unf. cbn [n_loc n_an find_prop]. rewrite key_eqb_name, N.eqb_refl. reflexivity.
    + cbn [n_loc]. f_equal. lia.
  - pose proof (flat_kid_shape earlier _ Hx) as Hshape. cbn [table_shape] in Hshape.
    intros j y Hj.
    destruct (pprops_find e gks (o + occ_sz (Group g oc rd' gks) * i) 0 j y Hshape Hj) as (oj & Hkj & Hpj).
    exists oj. eexists. split; [rewrite (kid_start_kstart e gks j (all_plain_flat gks [] Hshape)); exact Hkj|].
    split.
    + rewrite nav_name_unf. cbn [occ_loc n_loc n_an]. rewrite Hpj. reflexivity.
    + cbn [n_loc]. f_equal. rewrite (occ_sz_ext e earlier _ Hx). lia.
Qed.

Lemma slice_app {T} (r m : list T) a b : b <= length r -> slice (r ++ m) a b = slice r a b.
Proof.
  intros Hb. unfold slice. destruct (le_lt_dec a b) as [Hab|Hab].
  - rewrite skipn_app. replace (a - length r) with 0 by lia. cbn [skipn].
    apply firstn_app_le. rewrite skipn_length. lia.
  - replace (b - a) with 0 by lia. reflexivity.
Qed.

Lemma kstart_bound e : forall ks earlier off c x o,
  flat_kids earlier ks = true -> find_kid ks c = Some x -> kstart e ks off c = Some o ->
  o + extent e x <= off + kids_extent e ks.
Proof.
  induction ks as [|y ys IH]; intros earlier off c x o Hf Hfind Hst; [discriminate|].
  apply flat_kids_cons in Hf as [Hy Hys].
  cbn [find_kid] in Hfind. cbn [kstart] in Hst. cbn [kids_extent].
  unfold is_redefiner. rewrite (flat_kid_noredef earlier y Hy).
  destruct (N.eqb (item_id y) c).
  - inversion Hfind; inversion Hst; subst. unfold extent. lia.
  - pose proof (IH _ _ _ _ _ Hys Hfind Hst) as Hb. unfold extent in *. lia.
Qed.

(* the walk reads the record only at the counters, and those lie inside the record: what follows the record in
   the buffer does not matter *)
Lemma counters_frame {B} (dcount : list B -> nat) t e (r more : list B) :
  flat_odo t = true -> extent e t <= length r ->
  counters_hold dcount e t r -> counters_hold dcount e t (r ++ more).
Proof.
  intros Hf Hlen Hc. destruct (flat_odo_inv t Hf) as (i0 & rd & kids & -> & Hk & Hnd).
  cbn [counters_hold] in *. intros c sz o Hin Hfind Hst.
  rewrite slice_app; [apply (Hc c sz o Hin Hfind Hst)|].
  rewrite (kid_start_kstart e kids c Hk) in Hst.
  pose proof (kstart_bound e kids [] 0 c _ o Hk Hfind Hst) as Hb.
  unfold extent in Hb, Hlen. cbn [item_oc count ext1] in Hb, Hlen. lia.
Qed.

Definition rec_ok {A} (dcount : list A -> nat) (t : item) (e : env) (r : list A) : Prop :=
  length r = extent e t /\ counters_hold dcount e t r.

(* [p] is the record [r] as a fixed-length file stores it: [r] followed by its padding *)
Definition padded {A} (r p : list A) : Prop := exists more, p = r ++ more.

(* the flat family meets the file readers (Proofs/OdoStreamRowsP.v) with the closed form as navigator *)
Lemma framed_flat {A} (dcount : list A -> nat) t : flat_odo t = true -> forall e (r : list A),
  rec_ok dcount t e r -> exists v, framed dcount (build t) r v /\ lend (n_loc v) = extent e t.
Proof.
  intros Hf e r [Hlen Hc]. pose proof (flat_nav_end e t Hf) as Hend. exists (flat_nav e t).
  split; [split|exact Hend].
  - intros more. apply nav_flat; [exact Hf|]. apply counters_frame; [exact Hf|lia|exact Hc].
  - rewrite Hend. symmetry. exact Hlen.
Qed.

(* the witness of Props/C06.v C06_stream_old_refuted (the refill of the original tree, mode 1), and the two records of
   Spec/OdoStream.v *)
Definition old_tree : item :=
  Group 0%N Once None (ICons (Elem 1%N 1 Once None) (ICons (Elem 2%N 2 (Odo 1%N) None) (ICons (Elem 3%N 2 Once None) INil))).
Definition old_recs : list (list nat) := [[1; 11; 12; 13; 14]; [1; 21; 22; 23; 24]; [1; 31; 32; 33; 34]].
Definition old_env : env := fun _ => 1.

Lemma old_refill_refuted :
  exists (B : nat) (t : item) (es : list env) (rs : list (list nat)),
    flat_odo t = true /\ legal_N B rs = true
    /\ Forall2 (fun e r => length r = extent e t /\ counters_hold (hd 0) e t r) es rs
    /\ heads (map (@length nat) rs)
         (map (@row_buf nat) (fst (fst (row_loop (hd 0) (S (length (write_N rs))) 1 0 B (build t) (N_init B (write_N rs))))))
       <> rs.
Proof.
  exists 8, old_tree, [old_env; old_env; old_env], old_recs.
  split; [reflexivity|]. split; [reflexivity|]. split.
  - assert (H : forall r, In r old_recs -> length r = extent old_env old_tree /\ counters_hold (hd 0) old_env old_tree r).
    { intros r Hin. split.
      - destruct Hin as [<-|[<-|[<-|[]]]]; reflexivity.
      - cbn [counters_hold old_tree]. intros c sz o [<-|[]] Hf Hs. vm_compute in Hf, Hs.
        inversion Hf; inversion Hs; subst.
        destruct Hin as [<-|[<-|[<-|[]]]]; reflexivity. }
    unfold old_recs in *. repeat constructor; apply H; cbn; auto.
  - vm_compute. intros H. discriminate H.
Qed.

Lemma ex_counters e r :
  ex_dcount (slice r 0 2) = e 2%N -> (forall o, kid_start e (item_kids ex_tree) 6%N = Some o -> ex_dcount (slice r o (o + 1)) = e 6%N) ->
  counters_hold ex_dcount e ex_tree r.
Proof.
  intros H2 H6. cbn [counters_hold ex_tree]. intros c sz o Hin Hf Hs.
  cbn in Hin. destruct Hin as [<-|[<-|[]]].
  - vm_compute in Hf. inversion Hf; subst. cbv in Hs. inversion Hs; subst. exact H2.
  - vm_compute in Hf. inversion Hf; subst. apply H6. exact Hs.
Qed.

Lemma ex_records_ok :
  counters_hold ex_dcount ex_e1 ex_tree ex_r1 /\ length ex_r1 = extent ex_e1 ex_tree
  /\ counters_hold ex_dcount ex_e2 ex_tree ex_r2 /\ length ex_r2 = extent ex_e2 ex_tree
  /\ length ex_r1 <> length ex_r2.
Proof.
  split; [|split; [reflexivity|split; [|split; [reflexivity|vm_compute; discriminate]]]].
  - apply ex_counters; [reflexivity|]. intros o Hs. vm_compute in Hs. inversion Hs; subst. reflexivity.
  - apply ex_counters; [reflexivity|]. intros o Hs. vm_compute in Hs. inversion Hs; subst. reflexivity.
Qed.
