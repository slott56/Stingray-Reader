(* For Props/C03e.v: several passes over one Sheet, and EBCDIC records longer than the layout.  One pass of
   Sheet.row_iter is put in closed form (under the rules of Gen/HeaderRowParams.v); in-memory formats deliver the whole
   table at every pass, file-backed formats the rows that the passes before left unread ([continuation]); EBCDIC
   records padded beyond the layout read like the unpadded ones, and the fillers the judge cuts off such an image are
   the writer's (chunks_concat, fillers_found). *)
From Coq Require Import ZArith NArith List Bool Arith Lia.
Import ListNotations.
Require Import SR.Base.Res SR.Spec.Transparency SR.Spec.TransparencyPasses SR.Spec.Recfm.
Require Import SR.Gen.RecfmParams.
Require Import SR.Model.HeaderRow SR.Model.Workbook SR.Model.WorkbookPasses.
Require SR.Model.Recfm.
Require Import SR.Proofs.HeaderRowP SR.Proofs.RecfmP SR.Proofs.WorkbookP.
Open Scope nat_scope.

Lemma take_rows_map {X Y} (f : X -> Y) k (l : list X) : take_rows k (map f l) = map f (take_rows k l).
Proof. destruct k as [n|]; [apply firstn_map|reflexivity]. Qed.

Lemma take_rows_nil {X} k : take_rows k (@nil X) = [].
Proof. destruct k as [n|]; [apply firstn_nil|reflexivity]. Qed.

Lemma take_rows_incl {X} k (l : list X) : incl (take_rows k l) l.
Proof.
  destruct k as [n|]; [|apply incl_refl]. intros x H. rewrite <- (firstn_skipn n l). apply in_or_app. left. exact H.
Qed.

Lemma left_rows_incl {X} k (l : list X) : incl (left_rows k l) l.
Proof.
  destruct k as [n|]; [|intros x []]. intros x H. rewrite <- (firstn_skipn n l). apply in_or_app. right. exact H.
Qed.

Lemma left_swallowed_incl {X} k (l : list X) : incl (left_swallowed k l) l.
Proof. destruct k as [[|n]|]; cbn; try (intros x []). apply incl_refl. Qed.

Lemma continuation_incl {X} (left : option nat -> list X -> list X) : (forall k l, incl (left k l) l) ->
  forall pat (l : list X) piece, In piece (continuation left pat l) -> incl piece l.
Proof.
  intros Hleft. induction pat as [|k pat IH]; intros l piece Hp; [destruct Hp|].
  cbn [continuation] in Hp. destruct Hp as [<-|Hp]; [apply take_rows_incl|].
  exact (incl_tran (IH _ _ Hp) (Hleft k l)).
Qed.

Lemma continuation_map {X Y} (f : X -> Y) (left : option nat -> list X -> list X) (left' : option nat -> list Y -> list Y) :
  (forall k l, left' k (map f l) = map f (left k l)) ->
  forall pat l, continuation left' pat (map f l) = map (map f) (continuation left pat l).
Proof.
  intros H. induction pat as [|k pat IH]; intros l; [reflexivity|].
  cbn [continuation map]. rewrite take_rows_map, H, IH. reflexivity.
Qed.

Lemma left_rows_map {X Y} (f : X -> Y) k (l : list X) : left_rows k (map f l) = map f (left_rows k l).
Proof. destruct k as [n|]; [apply skipn_map|reflexivity]. Qed.

Lemma left_swallowed_map {X Y} (f : X -> Y) k (l : list X) : left_swallowed k (map f l) = map f (left_swallowed k l).
Proof. destruct k as [[|n]|]; reflexivity. Qed.

Lemma continuation_nil {X} (left : option nat -> list X -> list X) : (forall k, left k [] = []) ->
  forall pat, continuation left pat [] = map (fun _ => []) pat.
Proof.
  intros H. induction pat as [|k pat IH]; [reflexivity|]. cbn [continuation map]. rewrite take_rows_nil, H, IH. reflexivity.
Qed.

Lemma take_kept_all {I} k : forall (l : list I), take_kept (fun _ => true) k l = (firstn k l, skipn k l).
Proof.
  induction k as [|k IH]; intros [|x l]; try reflexivity. cbn [take_kept firstn skipn]. rewrite IH. reflexivity.
Qed.

(* what a filtering body() or row loop keeps: with the rules of the source, everything *)
Lemma rule_kept {I} (keep : body_pred -> I -> bool) l :
  (fun x : I => kind_keep keep (body_kind_of l) x && kind_keep keep ri_rows x) = (fun _ => true).
Proof. destruct l; reflexivity. Qed.

Lemma rule_kept_base {I} (keep : body_pred -> I -> bool) :
  (fun x : I => kind_keep keep body_base x && kind_keep keep ri_rows x) = (fun _ => true).
Proof. reflexivity. Qed.

(* the heading-row loader: the first physical row is consumed as heading row, whatever schema was bound before *)
Lemma header_pass_cons k ps h (body : sheet) :
  k <> Some 0 ->
  exists s, header_schema h = Ok s
    /\ row_iter_pass keep_row (header HeadingRow) (body_kind_of HeadingRow) k ps (h :: body)
       = (Ok (Some s, take_rows k body), Some s).
Proof.
  intros Hk. destruct (rows_schema h body ps) as (s & Hs & Hr). exists s. split; [exact Hs|].
  unfold row_iter_pass. unfold row_iter in Hr. rewrite Hr. cbn [fst snd].
  destruct k as [[|n]|]; [contradiction Hk; reflexivity|reflexivity|reflexivity].
Qed.

Lemma header_pass_nil k ps :
  row_iter_pass keep_row (header HeadingRow) (body_kind_of HeadingRow) k ps [] = (Ok (ps, []), ps).
Proof.
  unfold row_iter_pass. pose proof (rows_empty ps) as Hr. unfold row_iter in Hr. rewrite Hr. cbn [fst snd].
  rewrite take_rows_nil. destruct k as [[|n]|]; reflexivity.
Qed.

(* the source left by a pass under the heading-row loader: the heading row and the rows delivered are gone *)
Definition left_header {X} (k : option nat) (rem : list X) : list X :=
  match k with None => [] | Some O => rem | Some n => skipn (S n) rem end.

Lemma header_source_left k (src : sheet) :
  source_left keep_row (header HeadingRow) (body_kind_of HeadingRow) k src = left_header k src.
Proof.
  destruct k as [[|n]|]; try reflexivity. unfold source_left, left_header.
  rewrite (rule_kept keep_row HeadingRow). destruct src as [|h body].
  - cbn [header]. rewrite rule_heading_empty_sheet. reflexivity.
  - cbn [header]. rewrite header_schema_ok. cbn [bind snd]. rewrite take_kept_all. reflexivity.
Qed.

(* whatever schema is bound, what a pass shows is the first k rows of a FIRST reading of the same physical rows
   (Model/Workbook.v read_sheet_header, the run C03_facade speaks about) *)
Lemma header_pass_view probes k ps (src : sheet) :
  view_header probes (fst (row_iter_pass keep_row (header HeadingRow) (body_kind_of HeadingRow) k ps src))
  = take_obs k (read_sheet_header (C_single src) [] probes).
Proof.
  unfold read_sheet_header. cbn [wb_instances bind]. destruct src as [|h body].
  - rewrite header_pass_nil, rows_empty. cbn [fst bind view_header take_obs]. rewrite take_rows_nil.
    destruct ps; reflexivity.
  - destruct (rows_schema h body None) as (s' & Hs' & ->). cbn [bind fst snd take_obs].
    destruct k as [[|n]|]; [destruct ps; reflexivity| |].
    + destruct (header_pass_cons (Some (S n)) ps h body) as (s & Hs & ->); [discriminate|].
      rewrite Hs' in Hs. injection Hs as <-. cbn [fst view_header]. rewrite take_rows_map. reflexivity.
    + destruct (header_pass_cons None ps h body) as (s & Hs & ->); [discriminate|].
      rewrite Hs' in Hs. injection Hs as <-. cbn [fst view_header]. rewrite take_rows_map. reflexivity.
Qed.

(* the do-nothing loader with a bound schema: every instance, nothing consumed by header() *)
Lemma preset_pass {S I} (keep : body_pred -> I -> bool) (s : S) k (src : list I) :
  row_iter_pass keep (fun it => Ok (None, it)) body_base k (Some s) src = (Ok (Some s, take_rows k src), Some s).
Proof.
  unfold row_iter_pass. rewrite rule_row_iter. cbn [bind fst snd]. rewrite rule_body_base.
  destruct k as [[|n]|]; [reflexivity| |]; destruct src; reflexivity.
Qed.

Lemma preset_source_left {S I} (keep : body_pred -> I -> bool) k (src : list I) :
  source_left keep (fun it => @Ok (option S * list I) (None, it)) body_base k src = left_rows k src.
Proof.
  destruct k as [[|n]|]; try reflexivity. unfold source_left, left_rows.
  rewrite (rule_kept_base keep). cbn [snd]. rewrite take_kept_all. reflexivity.
Qed.

Lemma preset_passes_eq {S I} (keep : body_pred -> I -> bool) (s : S) pat : forall (src : list I),
  preset_passes keep s src pat = map (fun rows => Ok rows) (continuation left_rows pat src).
Proof.
  unfold preset_passes. induction pat as [|k pat IH]; intros src; [reflexivity|].
  cbn [run_passes]. rewrite preset_pass. cbn [map continuation bind snd]. f_equal.
  rewrite (preset_source_left (S := S) keep k src). apply IH.
Qed.

(* every pass over a source that is read again from its first instance delivers the table *)
Lemma header_passes_reread (T : table) : wf_table T ->
  forall pat, header_passes true (phys_sheet T) (t_header T) pat = map (fun k => take_obs k (expected_rows T)) pat.
Proof.
  intros Hwf pat. unfold header_passes. generalize (@None schema) as ps.
  induction pat as [|k pat IH]; intros ps; [reflexivity|].
  cbn [run_passes]. pose proof (header_pass_view (t_header T) k ps (phys_sheet T)) as Hv.
  destruct (row_iter_pass keep_row (header HeadingRow) (body_kind_of HeadingRow) k ps (phys_sheet T)) as [o ps'].
  cbn [map]. cbn [fst] in Hv. rewrite Hv, (read_sheet_header_ok (C_single (phys_sheet T)) [] T eq_refl Hwf), IH. reflexivity.
Qed.

Lemma sheets_passes_shift c p probes pat : forall names i,
  sheets_passes_header c names (p :: probes) (S i) pat = sheets_passes_header c names probes i pat.
Proof. induction names as [|n names IH]; intros i; [reflexivity|]. cbn [sheets_passes_header]. rewrite IH. reflexivity. Qed.

Lemma read_header_passes_holds c W pat : holds c W -> reread_content c = true ->
  read_header_passes c (headers W) pat = expected_passes W pat.
Proof.
  intros [Hn Hs] Hr. unfold read_header_passes. rewrite Hn. clear Hn.
  induction W as [|s W IH]; [reflexivity|].
  destruct (Hs s (or_introl eq_refl)) as [Hc Hwf].
  cbn [map headers sheets_passes_header expected_passes probes_at nth]. rewrite sheets_passes_shift.
  unfold sheet_passes_header at 1. rewrite Hc, Hr, (header_passes_reread _ Hwf).
  f_equal. apply IH. intros s' Hs'. apply Hs. right. exact Hs'.
Qed.

(* the formats whose unpacker keeps the parsed book *)
Definition in_memory_book (f : fmt) : bool := match f with F_XLSX | F_ODS | F_XLS => true | _ => false end.

Lemma facade_passes_phys f W pat : in_memory_book f = true -> wf_workbook W ->
  facade_passes f (phys f W) (headers W) pat = expected_passes W pat.
Proof.
  intros Hf Hwf. destruct f; try discriminate Hf; cbn [facade_passes phys];
    apply read_header_passes_holds; try reflexivity; apply holds_multi; exact Hwf.
Qed.

(* CSV, tab-delimited text: a later pass is a FIRST pass over the physical rows the passes before left unread *)
Lemma header_passes_continue probes : forall pat ps (src : sheet),
  map (view_header probes) (run_passes keep_row (header HeadingRow) (body_kind_of HeadingRow) false pat ps src)
  = map (fun kr => take_obs (fst kr) (read_sheet_header (C_single (snd kr)) [] probes))
        (combine pat (remainders left_header pat src)).
Proof.
  induction pat as [|k pat IH]; intros ps src; [reflexivity|].
  cbn [run_passes remainders combine map fst snd].
  pose proof (header_pass_view probes k ps src) as Hv.
  destruct (row_iter_pass keep_row (header HeadingRow) (body_kind_of HeadingRow) k ps src) as [o ps'].
  cbn [fst] in Hv. cbn [map]. rewrite Hv, header_source_left. f_equal. apply IH.
Qed.

Definition text_rows_format (f : fmt) : bool := match f with F_CSV | F_TAB => true | _ => false end.

Lemma passes_header_file f (rows : sheet) probes pat : text_rows_format f = true ->
  facade_passes f (C_single rows) [probes] pat
  = [([], map (fun kr => take_obs (fst kr) (read_sheet_header (C_single (snd kr)) [] probes))
              (combine pat (remainders left_header pat rows)))].
Proof.
  intros Hf.
  assert (E : facade_passes f (C_single rows) [probes] pat = read_header_passes (C_single rows) [probes] pat)
    by (destruct f; try discriminate Hf; reflexivity).
  rewrite E. unfold read_header_passes. cbn [sheet_names sheets_passes_header probes_at nth].
  unfold sheet_passes_header. cbn [wb_instances reread_content]. unfold header_passes.
  rewrite header_passes_continue. reflexivity.
Qed.

Definition expected_pieces (hs : list text) (pieces : list (list (list text))) : list rows_obs :=
  map (fun rows => expected_rows (mk_table hs rows)) pieces.

Lemma json_passes_ok (T : table) pat : wf_table T ->
  read_json_passes (C_json (map (phys_doc T) (t_rows T))) [t_header T] pat
  = [([], expected_pieces (t_header T) (continuation left_rows pat (t_rows T)))].
Proof.
  intros [Hnd Hrect]. unfold read_json_passes, expected_pieces.
  cbn [sheet_names map json_instances probes_at nth]. do 2 f_equal.
  rewrite preset_passes_eq, (continuation_map (phys_doc T) left_rows left_rows (left_rows_map (phys_doc T))), !map_map.
  apply map_ext_in. intros piece Hp. cbn [bind]. unfold expected_rows. cbn [t_rows]. f_equal.
  rewrite map_map. apply map_ext_in. intros r Hr. apply json_row_ok; [exact Hnd|].
  apply (rect_row T r Hrect). exact (continuation_incl left_rows (@left_rows_incl _) pat _ piece Hp r Hr).
Qed.

Lemma fixed_passes_ok (T : table) widths pat :
  NoDup (t_header T) -> fits widths T = true -> line_safe T = true ->
  read_fixed_passes (write_fixed_text T widths) (layout_of (t_header T) widths) (t_header T) pat
  = [([], expected_pieces (t_header T) (continuation left_rows pat (t_rows (pad_table widths T))))].
Proof.
  intros Hnd Hfit Hsafe. unfold read_fixed_passes, expected_pieces. do 2 f_equal.
  rewrite (fixed_lines T widths Hsafe), preset_passes_eq. cbn [pad_table t_rows].
  rewrite (continuation_map (write_fixed_row widths) left_rows left_rows (left_rows_map _)).
  rewrite (continuation_map (pad_row widths) left_rows left_rows (left_rows_map _)), !map_map.
  apply map_ext_in. intros piece Hp.
  unfold fixed_view, expected_rows. cbn [bind t_rows]. f_equal. rewrite !map_map. apply map_ext_in. intros r Hr.
  apply fixed_row_ok; [exact Hnd|exact Hfit|].
  exact (continuation_incl left_rows (@left_rows_incl _) pat _ piece Hp r Hr).
Qed.

(* a pass delivered [piece]: one buffer per row, each beginning with the row's record *)
Definition delivers (widths : list nat) (o : res (list (list N))) (piece : list (list text)) : Prop :=
  exists bufs, o = Ok bufs /\ Forall2 (prefixed widths) bufs piece.

Lemma ebcdic_view_ok (T : table) widths bufs (piece : list (list text)) :
  NoDup (t_header T) -> fits widths T = true -> repertoire_ok T = true ->
  incl piece (t_rows T) -> Forall2 (prefixed widths) bufs piece ->
  ebcdic_view (layout_of (t_header T) widths) (t_header T) (Ok bufs)
  = expected_rows (mk_table (t_header T) (map (pad_row widths) piece)).
Proof.
  intros Hnd Hfit Hrep Hin HF. unfold ebcdic_view, expected_rows. cbn [bind t_rows]. rewrite rows_plain_some.
  cbn [bind]. f_equal. exact (records_decode T widths Hnd Hfit Hrep piece bufs Hin HF).
Qed.

Lemma ebcdic_views_ok (T : table) widths :
  NoDup (t_header T) -> fits widths T = true -> repertoire_ok T = true ->
  forall os pieces, (forall piece, In piece pieces -> incl piece (t_rows T)) ->
  Forall2 (delivers widths) os pieces ->
  map (ebcdic_view (layout_of (t_header T) widths) (t_header T)) os
  = expected_pieces (t_header T) (map (map (pad_row widths)) pieces).
Proof.
  intros Hnd Hfit Hrep os pieces Hin HF. unfold expected_pieces.
  induction HF as [|o piece os pieces (bufs & -> & Hb) HF IH]; [reflexivity|].
  cbn [map]. f_equal.
  - apply ebcdic_view_ok; try assumption. apply Hin. left. reflexivity.
  - apply IH. intros piece' Hp. apply Hin. right. exact Hp.
Qed.

(* one pass after the other: [left] is what a pass leaves of the rows in the file, [Inv] what stays true of them *)
Lemma passes_deliver r kind wb_lrecl l widths (left : option nat -> list (list text) -> list (list text))
  (Inv : list (list text) -> Prop) :
  (forall k rows, Inv rows -> Inv (left k rows) /\ exists o,
     ebcdic_pass r kind wb_lrecl l k (concat (map (record_of widths) rows))
     = (o, concat (map (record_of widths) (left k rows))) /\ delivers widths o (take_rows k rows)) ->
  forall pat rows, Inv rows ->
  Forall2 (delivers widths) (ebcdic_passes r kind wb_lrecl l pat (concat (map (record_of widths) rows)))
          (continuation left pat rows).
Proof.
  intros Hstep. induction pat as [|k pat IH]; intros rows HI; [constructor|].
  cbn [ebcdic_passes continuation]. destruct (Hstep k rows HI) as (HI' & o & -> & Hd).
  constructor; [exact Hd|exact (IH _ HI')].
Qed.

(* RECFM_F: the file stands after the last record delivered *)
Lemma F_pass_step (T : table) widths kind wb_lrecl k (rows : list (list text)) :
  fits widths T = true -> t_header T <> [] -> wb_lrecl = None \/ wb_lrecl = Some (list_sum widths) ->
  incl rows (t_rows T) ->
  exists o, ebcdic_pass RECFM_F kind wb_lrecl (layout_of (t_header T) widths) k (concat (map (record_of widths) rows))
            = (o, concat (map (record_of widths) (left_rows k rows))) /\ delivers widths o (take_rows k rows).
Proof.
  intros Hfit Hne Hl Hin. pose proof (total_positive T widths Hfit Hne) as Htot.
  pose proof (recs_legal T widths rows Hfit Hin) as Hleg.
  destruct k as [[|n]|]; [eexists; split; [reflexivity|]; exists []; split; [reflexivity|constructor]| |];
    unfold ebcdic_pass; rewrite (sheet_lrecl_layout T widths wb_lrecl Hfit Hne Hl); unfold Recfm.F_pass; cbn [N.eqb].
  - destruct (Z.of_nat (list_sum widths) =? 0)%Z eqn:E0; [apply Z.eqb_eq in E0; lia|].
    pose proof (legal_F_len (list_sum widths) _ Htot Hleg).
    rewrite F_take_ok by (assumption || lia).
    eexists. split; [unfold left_rows; rewrite skipn_map; reflexivity|].
    exists (firstn (S n) (map (record_of widths) rows)). split; [unfold ended; destruct (_ <=? _); reflexivity|].
    rewrite firstn_map. apply prefixed_exact.
  - change (concat (map (record_of widths) rows)) with (write_F (map (record_of widths) rows)).
    rewrite F_record_iter_ok by (unfold legal_F; rewrite Hleg, andb_true_r; apply Nat.leb_le; exact Htot).
    eexists. split; [reflexivity|]. eexists. split; [reflexivity|apply prefixed_exact].
Qed.

(* RECFM_N on a file no longer than the reader's buffer: the first reader created swallows the file *)
Lemma N_step_small kind B (b : list N) n : length b <= B ->
  Recfm.N_step 0%N kind B {| Recfm.buf := b; Recfm.rest := [] |} n = Ok {| Recfm.buf := skipn n b; Recfm.rest := [] |}.
Proof.
  intros H. unfold Recfm.N_step. cbn [N.eqb Recfm.buf Recfm.rest]. pose proof (skipn_length n b).
  rewrite <- Nat2Z.inj_sub, read_nonneg, firstn_nil, skipn_nil, app_nil_r by lia. reflexivity.
Qed.

Lemma N_small_run kind B L : 1 <= L -> forall (recs : list (list N)) j,
  (forall r, In r recs -> length r = L) -> length (concat recs) <= B ->
  exists bufs s', Recfm.N_run 0%N kind B {| Recfm.buf := concat recs; Recfm.rest := [] |} (repeat L j)
                  = (bufs, (if j <? length recs then Recfm.More else Recfm.Done), s')
    /\ Recfm.rest s' = []
    /\ Forall2 (fun buf rec => exists tail, buf = rec ++ tail) bufs (firstn (S j) recs).
Proof.
  intros HL. induction recs as [|r recs IH]; intros j Hlen HB.
  - exists [], {| Recfm.buf := []; Recfm.rest := [] |}. destruct j; repeat split; constructor.
  - assert (Hr : length r = L) by (apply Hlen; left; reflexivity).
    assert (Hne : r ++ concat recs <> []) by (destruct r; [cbn in Hr; lia|discriminate]).
    cbn [concat] in *. destruct j as [|j].
    + exists [r ++ concat recs], {| Recfm.buf := r ++ concat recs; Recfm.rest := [] |}.
      cbn [repeat Recfm.N_run Recfm.buf]. destruct (r ++ concat recs) eqn:E; [contradiction|]. rewrite <- E.
      repeat split. constructor; [exists (concat recs); reflexivity|constructor].
    + rewrite app_length in HB.
      destruct (IH j) as (bufs & s' & Hrun & Hrest & HF); [intros r' Hr'; apply Hlen; right; exact Hr'|lia|].
      exists ((r ++ concat recs) :: bufs), s'. cbn [repeat].
      assert (H0 : L <> 0) by lia. assert (Hfit : length (r ++ concat recs) <= B) by (rewrite app_length; lia).
      rewrite (N_run_cons 0%N kind B {| Recfm.buf := r ++ concat recs; Recfm.rest := [] |} _ L _ Hne H0
                 (N_step_small kind B _ L Hfit)).
      cbn [Recfm.buf]. rewrite <- Hr, skipn_exact, Hr, Hrun. split; [reflexivity|]. split; [exact Hrest|].
      cbn [firstn]. constructor; [exists (concat recs); reflexivity|exact HF].
Qed.

Lemma N_read_small kind L (recs : list (list N)) j : 1 <= L ->
  (forall r, In r recs -> length r = L) -> length (concat recs) <= N.to_nat buffer_size ->
  exists bufs s', Recfm.N_read kind (concat recs) (repeat L j)
                  = (bufs, (if j <? length recs then Recfm.More else Recfm.Done), s')
    /\ Recfm.rest s' = []
    /\ Forall2 (fun buf rec => exists tail, buf = rec ++ tail) bufs (firstn (S j) recs).
Proof.
  intros HL Hlen HB. unfold Recfm.N_read, Recfm.N_init. rewrite refill_is_top_up.
  rewrite firstn_all2 by exact HB. rewrite skipn_all2 by exact HB.
  apply N_small_run; assumption.
Qed.

Lemma N_pass_step (T : table) widths kind wb_lrecl k (rows : list (list text)) :
  fits widths T = true -> t_header T <> [] -> incl rows (t_rows T) ->
  length (concat (map (record_of widths) rows)) <= N.to_nat buffer_size ->
  exists o, ebcdic_pass RECFM_N kind wb_lrecl (layout_of (t_header T) widths) k (concat (map (record_of widths) rows))
            = (o, concat (map (record_of widths) (left_swallowed k rows))) /\ delivers widths o (take_rows k rows).
Proof.
  intros Hfit Hne Hin HB. pose proof (total_positive T widths Hfit Hne) as Htot.
  destruct (fits_inv widths T Hfit) as [Hlen _].
  pose proof (recs_legal T widths rows Hfit Hin) as Hleg. set (recs := map (record_of widths) rows) in *.
  assert (HrecL : forall r, In r recs -> length r = list_sum widths).
  { intros r Hr. rewrite forallb_forall in Hleg. apply Nat.eqb_eq, Hleg, Hr. }
  assert (Hpre : forall bufs n, Forall2 (fun buf rec => exists tail, buf = rec ++ tail) bufs (firstn n recs) ->
                   Forall2 (prefixed widths) bufs (firstn n rows)).
  { intros bufs n HF. apply (Forall2_map_r (fun buf rec => exists tail, buf = rec ++ tail) (record_of widths)).
    rewrite <- firstn_map. exact HF. }
  destruct k as [[|n]|]; [eexists; split; [reflexivity|]; exists []; split; [reflexivity|constructor]| |];
    unfold ebcdic_pass; rewrite (layout_end_sum (t_header T) widths Hlen).
  - cbn [pred]. destruct (N_read_small kind (list_sum widths) recs n Htot HrecL HB) as (bufs & s' & -> & -> & HF).
    eexists. split; [reflexivity|].
    exists bufs. split; [destruct (n <? length recs); reflexivity|]. apply Hpre. exact HF.
  - destruct (N_read_small kind (list_sum widths) recs (S (length (concat recs))) Htot HrecL HB)
      as (bufs & s' & -> & -> & HF).
    pose proof (legal_F_len (list_sum widths) recs Htot Hleg) as Hle.
    destruct (S (length (concat recs)) <? length recs) eqn:E; [apply Nat.ltb_lt in E; lia|].
    eexists. split; [reflexivity|]. exists bufs. split; [reflexivity|].
    cbn [take_rows]. rewrite <- (firstn_all2 rows (n := S (S (length (concat recs))))); [apply Hpre; exact HF|].
    pose proof (map_length (record_of widths) rows : length recs = length rows). lia.
Qed.

Lemma recs_total_length {X} L (recs : list (list X)) :
  forallb (fun r => length r =? L) recs = true -> length (concat recs) = length recs * L.
Proof.
  induction recs as [|r recs IH]; intros H; [reflexivity|].
  cbn [forallb concat length] in *. apply andb_prop in H as [H1 H2]. apply Nat.eqb_eq in H1.
  rewrite app_length, H1, (IH H2). lia.
Qed.

Lemma ebcdic_passes_ok r kind wb_lrecl (T : table) widths pat :
  NoDup (t_header T) -> fits widths T = true -> repertoire_ok T = true -> t_header T <> [] ->
  (r = RECFM_N -> length (t_rows T) * list_sum widths <= N.to_nat buffer_size) ->
  (r = RECFM_F -> wb_lrecl = None \/ wb_lrecl = Some (list_sum widths)) ->
  read_ebcdic_passes r kind wb_lrecl (write_ebcdic T widths) (layout_of (t_header T) widths) (t_header T) pat
  = [([], expected_pieces (t_header T)
            (continuation (match r with RECFM_F => left_rows | RECFM_N => left_swallowed end) pat
                          (t_rows (pad_table widths T))))].
Proof.
  intros Hnd Hfit Hrep Hne HN HF. unfold read_ebcdic_passes. do 2 f_equal.
  change (write_ebcdic T widths) with (concat (map (record_of widths) (t_rows T))).
  cbn [pad_table t_rows].
  destruct r.
  - rewrite (continuation_map (pad_row widths) left_swallowed left_swallowed (left_swallowed_map (pad_row widths))).
    apply ebcdic_views_ok; try assumption; [apply (continuation_incl left_swallowed (@left_swallowed_incl _))|].
    (* the first reader created swallows the file: what is left is still a part of the table and still fits the buffer *)
    apply (passes_deliver _ _ _ _ _ _ (fun rows => incl rows (t_rows T)
             /\ length (concat (map (record_of widths) rows)) <= N.to_nat buffer_size)).
    + intros k rows [Hin HB]. split; [|apply (N_pass_step T); assumption].
      split; [exact (incl_tran (left_swallowed_incl k rows) Hin)|].
      destruct k as [[|n]|]; cbn [left_swallowed map concat length]; [exact HB|lia|lia].
    + split; [apply incl_refl|].
      rewrite (recs_total_length (list_sum widths) _ (recs_legal T widths (t_rows T) Hfit (incl_refl _))), map_length.
      exact (HN eq_refl).
  - rewrite (continuation_map (pad_row widths) left_rows left_rows (left_rows_map (pad_row widths))).
    apply ebcdic_views_ok; try assumption; [apply (continuation_incl left_rows (@left_rows_incl _))|].
    apply (passes_deliver _ _ _ _ _ _ (fun rows => incl rows (t_rows T))); [|apply incl_refl].
    intros k rows Hin. split; [exact (incl_tran (left_rows_incl k rows) Hin)|].
    apply (F_pass_step T); try assumption. exact (HF eq_refl).
Qed.

(* one column named a, one row holding x; and three rows x, y, z *)
Definition one_row : table := mk_table [[97]]%N [[[120]]]%N.
Definition three_rows : table := mk_table [[97]]%N [[[120]]; [[121]]; [[122]]]%N.

Lemma combine_prefixed widths : forall (rows : list (list text)) (fill : list (list N)),
  length fill = length rows ->
  Forall2 (prefixed widths) (map (fun p => record_of widths (fst p) ++ snd p) (combine rows fill)) rows.
Proof.
  induction rows as [|row rows IH]; intros [|f fill] Hlen; try discriminate Hlen; [constructor|].
  cbn [combine map fst snd]. constructor; [exists f; reflexivity|]. apply IH. cbn in Hlen. lia.
Qed.

(* the records of the padded file: each as long as the explicit lrecl *)
Lemma padded_legal (T : table) widths pad fill : fits widths T = true -> fill_ok pad T fill = true ->
  forall rec, In rec (map (fun p => record_of widths (fst p) ++ snd p) (combine (t_rows T) fill)) ->
  length rec = list_sum widths + pad.
Proof.
  intros Hfit Hfill rec Hin. unfold fill_ok in Hfill. apply andb_prop in Hfill as [_ Hfp].
  apply in_map_iff in Hin as ([row f] & <- & Hp). cbn [fst snd]. rewrite app_length.
  rewrite (record_length widths T row Hfit (in_combine_l _ _ _ _ Hp)).
  rewrite forallb_forall in Hfp. specialize (Hfp f (in_combine_r _ _ _ _ Hp)). apply Nat.eqb_eq in Hfp. lia.
Qed.

Lemma padded_ok kind (T : table) widths pad fill :
  NoDup (t_header T) -> fits widths T = true -> repertoire_ok T = true -> t_header T <> [] ->
  fill_ok pad T fill = true ->
  read_ebcdic RECFM_F kind (Some (list_sum widths + pad)) (write_ebcdic_padded T widths fill)
              (layout_of (t_header T) widths) (t_header T)
  = expected [([], pad_table widths T)].
Proof.
  intros Hnd Hfit Hrep Hne Hfill. pose proof (total_positive T widths Hfit Hne) as Htot.
  pose proof (padded_legal T widths pad fill Hfit Hfill) as Hrl.
  set (recs := map (fun p => record_of widths (fst p) ++ snd p) (combine (t_rows T) fill)) in *.
  assert (Hrec : ebcdic_records RECFM_F kind (Some (list_sum widths + pad)) (layout_of (t_header T) widths)
                                (write_ebcdic_padded T widths fill) = Ok recs).
  { unfold ebcdic_records. change (write_ebcdic_padded T widths fill) with (write_F recs).
    replace (sheet_lrecl (Some (list_sum widths + pad)) _) with (list_sum widths + pad)
      by (cbn [sheet_lrecl]; destruct (list_sum widths + pad) eqn:E; [lia|reflexivity]).
    rewrite (F_record_iter_ok kind (list_sum widths + pad) recs); [reflexivity|].
    unfold legal_F. apply andb_true_intro. split; [apply Nat.leb_le; lia|].
    apply forallb_forall. intros rec Hin. apply Nat.eqb_eq, Hrl, Hin. }
  change (read_ebcdic RECFM_F kind (Some (list_sum widths + pad)) (write_ebcdic_padded T widths fill)
                      (layout_of (t_header T) widths) (t_header T))
    with [(@nil N, ebcdic_view (layout_of (t_header T) widths) (t_header T)
                     (ebcdic_records RECFM_F kind (Some (list_sum widths + pad)) (layout_of (t_header T) widths)
                                     (write_ebcdic_padded T widths fill)))].
  rewrite Hrec, (ebcdic_view_ok T widths recs (t_rows T) Hnd Hfit Hrep (incl_refl _)); [reflexivity|].
  apply combine_prefixed. unfold fill_ok in Hfill. apply andb_prop in Hfill as [Hfl _]. apply Nat.eqb_eq. exact Hfl.
Qed.

Lemma chunks_concat {X} L : 1 <= L -> forall (recs : list (list X)) fuel,
  (forall r, In r recs -> length r = L) -> length (concat recs) <= fuel ->
  chunks fuel L (concat recs) = recs.
Proof.
  intros HL. induction recs as [|r recs IH]; intros fuel Hlen Hf.
  - destruct fuel; reflexivity.
  - assert (Hr : length r = L) by (apply Hlen; left; reflexivity).
    cbn [concat] in *. rewrite app_length in Hf. destruct fuel as [|fuel]; [lia|].
    cbn [chunks]. destruct (r ++ concat recs) as [|x t] eqn:E.
    { apply (f_equal (@length X)) in E. rewrite app_length in E. cbn in E. lia. }
    rewrite <- E.
    replace (firstn L (r ++ concat recs)) with r by (rewrite <- Hr; symmetry; apply firstn_exact).
    replace (skipn L (r ++ concat recs)) with (concat recs) by (rewrite <- Hr; symmetry; apply skipn_exact).
    f_equal. apply IH; [intros r' Hr'; apply Hlen; right; exact Hr'|lia].
Qed.

(* the judge's recognition of a padded image is sound: the fillers it finds are the writer's *)
Lemma fillers_found (T : table) widths pad fill :
  fits widths T = true -> t_header T <> [] -> fill_ok pad T fill = true ->
  fillers_of (list_sum widths + pad) (list_sum widths) (write_ebcdic_padded T widths fill) = fill.
Proof.
  intros Hfit Hne Hfill. pose proof (total_positive T widths Hfit Hne) as Htot.
  pose proof (padded_legal T widths pad fill Hfit Hfill) as Hrl.
  unfold fill_ok in Hfill. apply andb_prop in Hfill as [Hfl _]. apply Nat.eqb_eq in Hfl.
  unfold fillers_of, write_ebcdic_padded.
  rewrite (chunks_concat (list_sum widths + pad)), map_map by (exact Hrl || lia). clear Hrl.
  revert fill Hfl. generalize (fun row => record_length widths T row Hfit).
  generalize (t_rows T). induction l as [|row rows IH]; intros Hrl [|f fill] Hfl; try discriminate Hfl; [reflexivity|].
  cbn [combine map fst snd]. f_equal.
  - change (write_ebcdic_row widths row) with (record_of widths row).
    rewrite <- (Hrl row (or_introl eq_refl)). apply skipn_exact.
  - apply IH; [intros row' Hr'; apply Hrl; right; exact Hr'|cbn in Hfl; lia].
Qed.
