(* What Props/C11c.v needs of the effect summary read from the CURRENT source (Gen/EffectParams.v) and of its tie to the
   state machine of the second half (Model/Globals.v through Gen/GlobalsParams.v).
   Every lemma here is a computation on the generated table: a source edit that adds an ALIAS / SCHEMANODE / deeper write, a
   process-wide write that Model/Globals.v does not account for, or removes the summary of an entry point, makes this file
   stop compiling. *)
From Coq Require Import String List Bool.
Import ListNotations.
Require Import SR.Model.Heap.
Require Import SR.Gen.EffectParams SR.Gen.GlobalsParams.
Open Scope string_scope.
Open Scope list_scope.

Lemma current_table_clean : table_clean effects = true.
Proof. vm_compute. reflexivity. Qed.

Lemma entry_points_check : forallb (has_summary effects) entry_points = true.
Proof. vm_compute. reflexivity. Qed.

Lemma classlevel_check : same_sites (classlevel_sites effects) (globals_classlevel reset_at_start ext_mutates_atomic) = true.
Proof. vm_compute. reflexivity. Qed.

Lemma totals_check : forallb (fun mt => totals_eqb (totals_of effects (fst mt)) (snd mt)) module_totals = true.
Proof. vm_compute. reflexivity. Qed.
