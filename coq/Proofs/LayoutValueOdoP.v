(* Lemmas for C10c: the unconditional C10 theorems (laziness, index commutation, raw containment) for COBOL-built
   schemas of record descriptions WITH OCCURS DEPENDING ON, under wfo of Proofs/LayoutOdoP.v, the well-formedness under
   which C06_layout is proved.  A wfo tree is made of wf trees, ODO tables over wf children, and non-repeated groups
   (wfo_ind), so build t is cobol_like and tabfree by the wf facts of Proofs/LayoutValueP.v carried through those two
   cases.  tabfree is what makes one occurrence the first occurrence moved (index_shift) and its re-walk independent of
   the record.  The location tree itself depends on the record through the counters: laziness is stated for two records
   that agree on the bytes of the location reached and on the counters, in the form of C10_tree_counters. *)
From Coq Require Import List NArith Bool.
Import ListNotations.
Require Import SR.Base.Res SR.Spec.Layout SR.Model.Layout SR.Model.LayoutValue SR.Spec.Coherence.
Require Import SR.Proofs.LayoutValueP SR.Proofs.LayoutP SR.Proofs.LayoutOdoP.
Open Scope nat_scope.

Lemma wfo_ind (e : env) (P : item -> Prop) :
  (forall x, LayoutP.wf e x = true -> NoDup (ids x) -> P x) ->
  (forall i sz c, P (Elem i sz (Odo c) None)) ->
  (forall i c ks, wf_kids e ks = true -> NoDup (ids_kids ks) -> ~ In i (ids_kids ks) -> P (Group i (Odo c) None ks)) ->
  (forall i rd ks avail, wfo_kids e avail ks = true -> unions_ok e [] ks = true ->
     NoDup (ids_kids ks) -> ~ In i (ids_kids ks) -> (forall y, in_kids y ks -> P y) -> P (Group i Once rd ks)) ->
  forall x avail, wfo e avail x = true -> NoDup (ids x) -> P x.
Proof.
  intros Hwf Helem Htab Hgrp.
  enough (H : (forall x avail, wfo e avail x = true -> NoDup (ids x) -> P x) /\
              (forall ks avail, wfo_kids e avail ks = true -> NoDup (ids_kids ks) -> forall y, in_kids y ks -> P y))
    by apply H.
  apply item_items_ind.
  - intros i sz [|n|c] rd avail Hw Hnd; [now apply Hwf|now apply Hwf|].
    destruct rd; [discriminate|apply Helem].
  - intros i oc rd ks IH avail Hw Hnd. inversion Hnd as [|? ? Hi Hndk]; subst.
    destruct oc as [|n|c]; cbn [wfo] in Hw.
    + apply andb_true_iff in Hw. destruct Hw as [Hk Hu]. apply (Hgrp i rd ks avail); auto. exact (IH avail Hk Hndk).
    + apply Hwf; [exact Hw|exact Hnd].
    + destruct rd; [discriminate|]. apply andb_true_iff in Hw. destruct Hw as [Hw _]. apply andb_true_iff in Hw.
      apply Htab; tauto.
  - intros avail _ _ y [].
  - intros x IHx xs IHxs avail Hw Hnd y Hy. cbn [wfo_kids] in Hw. cbn [ids_kids] in Hnd.
    pose proof (NoDup_app_l _ _ Hnd) as Hndx. pose proof (NoDup_app_r _ _ Hnd) as Hndxs.
    destruct (member x xs); apply andb_true_iff in Hw; destruct Hw as [Hwx Hwxs];
      (destruct Hy as [ -> |Hy]; [|eapply IHxs; eassumption]).
    + now apply Hwf.
    + eapply IHx; eassumption.
Qed.

Lemma redef_ok_build_o e : forall x avail, wfo e avail x = true -> NoDup (ids x) -> redef_ok (build_alt x) = true.
Proof.
  apply wfo_ind.
  - apply redef_ok_build.
  - reflexivity.
  - intros i c ks Hk Hndk _. apply redef_plain. exact (proj2 (redef_ok_build e) ks Hk Hndk).
  - intros i rd ks avail _ Hu Hndk _ IH. rewrite (build_group_once e) by assumption.
    apply (redef_assemble e ks [] [] Hu IH). intros y u _ _ [].
Qed.

Lemma group_keys i l (tail : list key) : ~ In i l -> incl tail (K l) -> NoDup tail ->
  NoDup (KName i :: tail) /\ ~ In (KRedef i) (KName i :: tail).
Proof.
  intros Hi Ht Hnd. split.
  - constructor; [|exact Hnd]. intros H. apply Ht, K_name in H. contradiction.
  - intros [H|H]; [discriminate|]. apply Ht, K_redef in H. contradiction.
Qed.

(* the second part (no_own_redef for wfo) is what the parent's children loop asks of each child *)
Lemma nodup_build_o e : forall x avail, wfo e avail x = true -> NoDup (ids x) ->
  NoDup (keys_js (build_alt x)) /\ ~ In (KRedef (item_id x)) (keys_js (build_alt x)).
Proof.
  apply wfo_ind.
  - intros x Hw Hnd. split; [exact (proj1 (nodup_build e) x Hw Hnd)|exact (no_own_redef e x Hw Hnd)].
  - intros i sz c. cbn. split; [repeat constructor|]; intuition discriminate.
  - intros i c ks Hk Hndk Hi. pose proof (proj2 (keys_build e) ks Hk Hndk) as Hkids.
    apply (group_keys i (ids_kids ks)); [exact Hi|exact (keys_plain [] ks Hkids)|].
    apply nodup_plain; auto. exact (proj2 (nodup_build e) ks Hk Hndk).
  - intros i rd ks avail Hk Hu Hndk Hi IH. pose proof (proj2 (keys_build_o e) ks avail Hk Hndk) as Hkids.
    rewrite (build_group_once e) by assumption.
    apply (group_keys i (ids_kids ks)); [exact Hi|exact (keys_assemble_d ks Hkids)|].
    apply nodup_assemble_gen; auto; intros y Hy; apply (IH y Hy).
Qed.

(* what cobol_parser emits for a record description with OCCURS DEPENDING ON, well-formed in the sense of C06_layout,
   is cobol_like *)
Theorem cobol_like_build_o : forall e avail t, wfo e avail t = true -> NoDup (ids t) -> cobol_like (build t) = true.
Proof.
  intros e avail t Hw Hnd. unfold cobol_like, build, uniq_keys. rewrite (redef_ok_build_o e t avail Hw Hnd). cbn [andb].
  apply nodupk_of_NoDup. rewrite (proj1 jkeys_keys_js). exact (proj1 (nodup_build_o e t avail Hw Hnd)).
Qed.

Lemma tabfree_alts_red : forall u xs, (forall y, in_kids y xs -> tabfree (build_alt y) = true) -> tabfree_alts (alts_red u xs) = true.
Proof.
  induction xs as [|x xs IH]; intros H; [reflexivity|]. cbn [alts_red].
  assert (Hxs : tabfree_alts (alts_red u xs) = true) by (apply IH; intros y Hy; apply H; now right).
  destruct (item_redef x) as [u'|]; [|exact Hxs]. destruct (N.eqb u u'); [|exact Hxs].
  cbn [tabfree_alts]. now rewrite (H x (or_introl eq_refl)).
Qed.

Lemma tabfree_assemble : forall ks, (forall y, in_kids y ks -> tabfree (build_alt y) = true) -> tabfree_props (assemble_d ks) = true.
Proof.
  induction ks as [|x xs IH]; intros H; [reflexivity|].
  assert (Hxs : tabfree_props (assemble_d xs) = true) by (apply IH; intros y Hy; apply H; now right).
  cbn [assemble_d]. destruct (item_redef x) as [u|].
  - cbn [tabfree_props tabfree]. exact Hxs.
  - destruct (existsb (N.eqb (item_id x)) (redef_targets xs)).
    + cbn [tabfree_props tabfree tabfree_alts]. rewrite (H x (or_introl eq_refl)), tabfree_alts_red; [exact Hxs|].
      intros y Hy. apply H. now right.
    + cbn [tabfree_props]. now rewrite (H x (or_introl eq_refl)).
Qed.

Lemma tabfree_build_o e : forall x avail, wfo e avail x = true -> NoDup (ids x) -> tabfree (build_alt x) = true.
Proof.
  apply wfo_ind.
  - intros x Hw Hnd. apply (proj1 odo_free_tabfree). exact (proj1 (odo_free_build e) x Hw Hnd).
  - reflexivity.
  - intros i c ks Hk Hndk _. apply odo_free_plain. exact (proj2 (odo_free_build e) ks Hk Hndk).
  - intros i rd ks avail _ Hu Hndk _ IH. rewrite (build_group_once e) by assumption. now apply tabfree_assemble.
Qed.

Section OFo.
  Variable B : Type.
  Variable dcount : list B -> nat.
  Variable r : list B.

  Lemma ofree_items : forall v st sz isz cnt it sch, ofree_nav v -> vn_loc v = WArr st sz isz cnt it sch -> odo_free sch = true.
  Proof. intros v st sz isz cnt it sch [Ho _] Hl. rewrite Hl in Ho. apply andb_prop in Ho. exact (proj1 Ho). Qed.

  Lemma ofree_path_record_free : forall (r' : list B) p v,
    ofree_nav v -> vnav_path dcount r v p = vnav_path dcount r' v p.
  Proof.
    intros r'. induction p as [|s p IH]; intros v Hv; [reflexivity|]. cbn [vnav_path].
    assert (Hs : vnav_step dcount r v s = vnav_step dcount r' v s).
    { destruct s as [k|i]; cbn [vnav_step]; [reflexivity|]. rewrite !vnav_index_unf.
      destruct (vn_loc v) as [a st sz|st sz isz cnt it sch|st sz ps|st sz alts|st t] eqn:El; try reflexivity.
      now rewrite (proj1 (walkv_record_free B dcount r r') sch (ofree_items v _ _ _ _ _ _ Hv El)). }
    rewrite <- Hs. destruct (vnav_step dcount r v s) as [v1|ex] eqn:Es; [|reflexivity].
    apply IH. apply (ofree_path B dcount r [s] v v1 Hv). cbn [vnav_path]. now rewrite Es.
  Qed.
End OFo.

Section CobolOdo.
  Variable B : Type.
  Variable dcount : list B -> nat.
  Variable r : list B.
  Variable e : env.

  Lemma J_cobol_o : forall t p v0 v, wfo e [] t = true -> NoDup (ids t) ->
    vnav_of dcount r (build t) = Ok v0 -> vnav_path dcount r v0 p = Ok v -> J B dcount r v /\ ofree_nav v.
  Proof.
    intros t p v0 v Hw Hnd H0 Hp. split.
    - exact (J_path B dcount r p v0 v (J_of B dcount r _ v0 (cobol_like_build_o e [] t Hw Hnd) H0) Hp).
    - exact (ofree_path B dcount r p v0 v (ofree_of_tabfree B dcount r _ v0 (tabfree_build_o e t [] Hw Hnd) H0) Hp).
  Qed.
End CobolOdo.
