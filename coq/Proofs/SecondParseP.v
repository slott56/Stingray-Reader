(* Lemmas about the decoder's second parse of an entry's text (Model/Pipeline.v est_scan_b: the model of
   estruct.clause_pattern.finditer, interpreting the word boundaries read from the source, Gen/PipelineParams.v) for Props/C04e.v.

   1. closed forms of the two assertions for the CURRENT parameter values (bounds_now_eq, before_ok_now, after_ok_now): an edit
      of the pattern's lookbehind / lookahead changes Gen/PipelineParams.v and these lemmas stop compiling
   2. a match begins with one of the trigger words, written out in full, and the word ends there (token_starts_with_trigger)
   3. hence no match starts at a word that is not a trigger word, inside a word, or at a character that is no upper-case letter;
      behind a word or a match the scan does not depend on what stood in front (scan_tail; scan_token, scan_past_word)
   4. the scan of a named entry is a function of the words of its other clauses (named_entry_items): neither it nor the respelling
      domain depends on the data name (items_name_irrelevant, domain_name_irrelevant)
   5. the width and the decoder come from the entry's own clauses (reparse_gives_own_clauses), composed with the picture scanner
      (numeric_picture_items, alnum_picture_items)
   6. a syntactic part of the domain, clause by clause: PICTURE and USAGE clauses in plain spelling (split_clause, scan_clause,
      plain_clauses_in_domain) *)
From Coq Require Import NArith List Bool Arith Lia.
Import ListNotations.
Require Import SR.Base.Res.
Require SR.Model.Structure SR.Model.Picture SR.Model.Estruct SR.Model.Clauses SR.Model.RefFormat SR.Gen.ClausesParams.
Require Import SR.Spec.Clauses SR.Model.Pipeline SR.Spec.Copybook SR.Proofs.PipelineP.
Require Import SR.Model.TextLayout SR.Proofs.TextLayoutP.
Require Export SR.Spec.SecondParseWf.
Require SR.Proofs.StructureP SR.Proofs.ClausesP SR.Proofs.RefFormatP.
Require SR.Spec.SchemaTruth SR.Proofs.PictureP SR.Spec.Fits SR.Spec.SizeCfg SR.Spec.SizeSplit SR.Proofs.EstructWidthP.
Open Scope N_scope.
(* the imports leave the euclidean-division hook of Proofs/EstructP.v active; no lia goal here has a division *)
Ltac Zify.zify_post_hook ::= idtac.

(* ================================================================ 1. the assertions of the pattern as it is *)
Definition name_class : list (N * N) := [(65, 90); (97, 122); (48, 57); (45, 45)].

Lemma bounds_now_eq :
  est_bounds_now = {| eb_before := true; eb_before_class := name_class; eb_after := true; eb_after_class := name_class |}.
Proof. reflexivity. Qed.

Lemma in_name_class : forall c, in_ranges c name_class = name_char c.
Proof.
  intros c. unfold in_ranges, name_class, name_char, is_upper_letter, is_lower_letter, is_digit. cbn [existsb fst snd].
  rewrite orb_false_r. rewrite !orb_assoc. f_equal.
  destruct (N.eqb_spec c 45) as [->|NE]; [reflexivity|].
  destruct (N.leb_spec 45 c), (N.leb_spec c 45); try reflexivity; lia.
Qed.

Lemma before_ok_now : forall c, est_before_ok est_bounds_now (Some c) = negb (name_char c).
Proof. intros c. rewrite bounds_now_eq. unfold est_before_ok. cbn [eb_before eb_before_class andb]. rewrite in_name_class. reflexivity. Qed.

Lemma before_ok_none : forall b, est_before_ok b None = true.
Proof. reflexivity. Qed.

Lemma after_ok_now : forall c r, est_after_ok est_bounds_now (c :: r) = negb (name_char c).
Proof. intros c r. rewrite bounds_now_eq. unfold est_after_ok. cbn [eb_after eb_after_class andb]. rewrite in_name_class. reflexivity. Qed.

(* what may stand in front of a match: nothing, or a character that is not a name character *)
Definition boundary (o : option N) : bool := match o with None => true | Some c => negb (name_char c) end.

Lemma before_ok_boundary : forall prev, est_before_ok est_bounds_now prev = boundary prev.
Proof. intros [c|]; [apply before_ok_now|reflexivity]. Qed.

Lemma after_ok_ends : forall r, est_after_ok est_bounds_now r = ends_word r.
Proof. intros [|c r]; [reflexivity|apply after_ok_now]. Qed.

Lemma no_token_behind_name_char : forall c s, name_char c = true -> est_token_at (Some c) s = None.
Proof. intros c s H. unfold est_token_at, est_token_at_b. rewrite before_ok_now, H. reflexivity. Qed.

(* ================================================================ 2. a match begins with a trigger word that ends there *)
Lemma ws_not_name_char : forall c, SR.Model.Clauses.is_ws c = true -> name_char c = false.
Proof.
  intros c W. destruct (name_char c) eqn:E; [|reflexivity].
  rewrite (SR.Proofs.ClausesP.printable_not_ws c (SR.Proofs.ClausesP.name_char_printable c E)) in W. discriminate.
Qed.

Lemma lit_cs_app : forall w s r, lit_cs w s = Some r -> s = w ++ r.
Proof.
  induction w as [|x w IH]; intros s r H; cbn [lit_cs] in H; [injection H as <-; reflexivity|].
  destruct s as [|c t]; [discriminate|]. destruct (N.eqb_spec c x) as [->|NE]; [|discriminate].
  rewrite (IH t r H). reflexivity.
Qed.

Lemma lit_cs_refl : forall w r, lit_cs w (w ++ r) = Some r.
Proof. induction w as [|x w IH]; intros r; cbn [lit_cs app]; [reflexivity|]. rewrite N.eqb_refl. apply IH. Qed.

Lemma ws1_ends_word : forall s r, ws1 s = Some r -> ends_word s = true.
Proof.
  intros [|c t] r H; [reflexivity|]. unfold ws1 in H. cbn [SR.Model.Clauses.span] in H.
  destruct (SR.Model.Clauses.is_ws c) eqn:W; [|discriminate]. cbn [ends_word]. rewrite (ws_not_name_char c W). reflexivity.
Qed.

Lemma word_ws_spec : forall w s r, word_ws w s = Some r -> exists rest, s = w ++ rest /\ ends_word rest = true.
Proof.
  intros w s r H. unfold word_ws in H. destruct (lit_cs w s) as [rest|] eqn:L; [|discriminate].
  exists rest. split; [apply lit_cs_app; exact L|apply (ws1_ends_word rest r H)].
Qed.

(* where the usage words are tried behind an optional word w: behind it, or at s itself *)
Lemma in_opt_word_ws : forall w s x, In x (opt_word_ws w s) -> x = s \/ exists rest, s = w ++ rest /\ ends_word rest = true.
Proof.
  intros w s x. unfold opt_word_ws. destruct (word_ws w s) as [r|] eqn:E.
  - intros _. right. apply (word_ws_spec w s r E).
  - intros [<-|[]]. left. reflexivity.
Qed.

Lemma est_usage_from_spec : forall b ws i s u r, est_usage_from_b b ws i s = Some (u, r) ->
  exists w, In w ws /\ lit_cs w s = Some r /\ est_after_ok b r = true.
Proof.
  intros b. induction ws as [|w ws IH]; intros i s u r H; cbn [est_usage_from_b] in H; [discriminate|].
  destruct (lit_cs w s) as [rest|] eqn:L.
  - destruct (est_after_ok b rest) eqn:A.
    + injection H as _ <-. exists w. split; [left; reflexivity|]. split; assumption.
    + destruct (IH _ _ _ _ H) as (w' & I & R). exists w'. split; [right; exact I|exact R].
  - destruct (IH _ _ _ _ H) as (w' & I & R). exists w'. split; [right; exact I|exact R].
Qed.

(* stated for est_usage_at_b and proved by handing over the general lemma: a hypothesis about est_usage_at_b checked against
   est_usage_from_b on the word list makes the conversion test unfold the list first, which is slow *)
Lemma est_usage_at_spec : forall s u r, est_usage_at_b est_bounds_now s = Some (u, r) ->
  exists w, In w est_usage_words /\ lit_cs w s = Some r /\ est_after_ok est_bounds_now r = true.
Proof. intros s. exact (est_usage_from_spec est_bounds_now est_usage_words 0 s). Qed.

Lemma in_triggers : forall w, In w est_usage_words \/ In w est_pic_words \/ w = w_USAGE \/ w = w_IS -> In w est_trigger_words.
Proof. intros w. unfold est_trigger_words. rewrite !in_app_iff. cbn [In]. intuition auto. Qed.

Lemma token_starts_with_trigger : forall prev s it r, est_token_at prev s = Some (it, r) ->
  exists w rest, In w est_trigger_words /\ s = w ++ rest /\ ends_word rest = true.
Proof.
  intros prev s it r H. unfold est_token_at, est_token_at_b in H. destruct (est_before_ok est_bounds_now prev); [|discriminate].
  destruct (est_alt_usage_b est_bounds_now s) as [[u r0]|] eqn:EU.
  - clear H. unfold est_alt_usage_b in EU. destruct (first_some_in _ _ _ _ _ EU) as (x & I & F). clear EU.
    apply in_flat_map in I as (y & Iy & Ix).
    apply in_opt_word_ws in Iy as [->|(rest & E & W)]; [|exists w_USAGE, rest; split; [apply in_triggers; auto|split; assumption]].
    apply in_opt_word_ws in Ix as [->|(rest & E & W)]; [|exists w_IS, rest; split; [apply in_triggers; auto|split; assumption]].
    destruct (est_usage_at_spec _ _ _ F) as (w & Iw & L & A).
    exists w, r0. split; [apply in_triggers; left; exact Iw|]. split; [apply lit_cs_app; exact L|]. rewrite <- after_ok_ends. exact A.
  - destruct (est_alt_picture s) as [[p r0]|] eqn:EP; [|discriminate]. clear H. unfold est_alt_picture in EP.
    destruct (first_some_in _ _ _ _ _ EP) as (w & Iw & F). destruct (word_ws w s) as [r1|] eqn:WW; [|discriminate].
    destruct (word_ws_spec _ _ _ WW) as (rest & E & W). exists w, rest. split; [apply in_triggers; auto|split; assumption].
Qed.

(* ================================================================ 3. a data name is passed over *)
Lemma triggers_are_words : forallb name_chars est_trigger_words = true.
Proof. vm_compute. reflexivity. Qed.

(* the run of name characters at the start of a text is determined by the text *)
Lemma name_run_unique : forall w n rest rest', name_chars w = true -> name_chars n = true ->
  ends_word rest = true -> ends_word rest' = true -> w ++ rest = n ++ rest' -> w = n.
Proof.
  induction w as [|x w IH]; intros [|y n] rest rest' Hw Hn R R' E; cbn [app] in E.
  - reflexivity.
  - subst rest. cbn [ends_word] in R. cbn [name_chars forallb] in Hn. apply andb_true_iff in Hn as [Hy _]. rewrite Hy in R. discriminate.
  - subst rest'. cbn [ends_word] in R'. cbn [name_chars forallb] in Hw. apply andb_true_iff in Hw as [Hx _]. rewrite Hx in R'. discriminate.
  - injection E as -> E. cbn [name_chars forallb] in Hw, Hn. apply andb_true_iff in Hw as [_ Hw]. apply andb_true_iff in Hn as [_ Hn].
    rewrite (IH n rest rest' Hw Hn R R' E). reflexivity.
Qed.

Lemma is_trigger_In : forall w, is_trigger w = true <-> In w est_trigger_words.
Proof.
  intros w. unfold is_trigger. rewrite existsb_exists. split.
  - intros (t & I & E). apply SR.Proofs.StructureP.str_eqb_eq in E. subst t. exact I.
  - intros I. exists w. split; [exact I|apply SR.Proofs.StructureP.str_eqb_refl].
Qed.

(* no match at the start of a word that is not a trigger word *)
Lemma no_token_at_word : forall prev n rest, name_chars n = true -> is_trigger n = false -> ends_word rest = true ->
  est_token_at prev (n ++ rest) = None.
Proof.
  intros prev n rest Hn T R. destruct (est_token_at prev (n ++ rest)) as [[it r]|] eqn:E; [|reflexivity].
  destruct (token_starts_with_trigger _ _ _ _ E) as (w & rest0 & I & Eq & R0).
  pose proof triggers_are_words as TW. rewrite forallb_forall in TW.
  rewrite (name_run_unique n w rest rest0 Hn (TW w I) R R0 Eq) in T. apply is_trigger_In in I. congruence.
Qed.

Lemma triggers_start_with_letter :
  forallb (fun w => match w with c :: _ => is_upper_letter c | [] => false end) est_trigger_words = true.
Proof. vm_compute. reflexivity. Qed.

(* no match at the end of the text or at a character that is not an upper-case letter *)
Lemma no_token_nonletter : forall prev s, is_upper_letter (hd 0 s) = false -> est_token_at prev s = None.
Proof.
  intros prev s H. destruct (est_token_at prev s) as [[it r]|] eqn:E; [|reflexivity].
  destruct (token_starts_with_trigger _ _ _ _ E) as (w & rest0 & I & -> & _).
  pose proof triggers_start_with_letter as TL. rewrite forallb_forall in TL. specialize (TL w I).
  destruct w as [|x w]; [discriminate|]. cbn [app hd] in H. congruence.
Qed.

Lemma ends_word_nonletter : forall s, ends_word s = true -> is_upper_letter (hd 0 s) = false.
Proof.
  intros [|c t] R; [reflexivity|]. cbn [ends_word hd] in *. unfold name_char in R. destruct (is_upper_letter c); [discriminate|reflexivity].
Qed.

(* est_scan unfolded *)
Lemma est_scan_nil : forall prev skip, est_scan prev skip [] = [].
Proof. reflexivity. Qed.
Lemma est_scan_none : forall prev c t, est_token_at prev (c :: t) = None -> est_scan prev 0 (c :: t) = est_scan (Some c) 0 t.
Proof. intros prev c t H. unfold est_scan, est_token_at in *. cbn [est_scan_b]. rewrite H. reflexivity. Qed.

(* what the scan finds in a text that follows a word: the character in front of the text plays no part *)
Definition scan_tail (tail : list N) : list est_item :=
  match tail with [] => [] | c :: rest => est_scan (Some c) 0 rest end.

Lemma scan_ends_word : forall prev tail, ends_word tail = true -> est_scan prev 0 tail = scan_tail tail.
Proof. intros prev [|c t] R; [reflexivity|]. apply est_scan_none, no_token_nonletter, ends_word_nonletter, R. Qed.

(* the characters of a match are passed over *)
Lemma scan_skip : forall m prev tail, ends_word tail = true -> est_scan prev (length m) (m ++ tail) = scan_tail tail.
Proof.
  induction m as [|c m IH]; intros prev tail R; [apply scan_ends_word; exact R|]. apply (IH (Some c) tail R).
Qed.

Lemma scan_token : forall prev m tail it, ends_word tail = true -> est_token_at prev (m ++ tail) = Some (it, tail) ->
  est_scan prev 0 (m ++ tail) = it :: scan_tail tail.
Proof.
  intros prev [|c m] tail it R H; cbn [app] in *; [rewrite (no_token_nonletter prev tail (ends_word_nonletter tail R)) in H; discriminate|].
  unfold est_scan, est_token_at in *. cbn [est_scan_b]. rewrite H. f_equal.
  rewrite app_length, Nat.add_sub. apply (scan_skip m (Some c) tail R).
Qed.

(* inside a run of name characters no match starts *)
Lemma scan_name_run : forall m c tail, name_char c = true -> name_chars m = true -> ends_word tail = true ->
  est_scan (Some c) 0 (m ++ tail) = scan_tail tail.
Proof.
  induction m as [|x m IH]; intros c tail Hc Hm R; [apply scan_ends_word; exact R|].
  cbn [name_chars forallb] in Hm. apply andb_true_iff in Hm as [Hx Hm]. cbn [app].
  rewrite (est_scan_none _ _ _ (no_token_behind_name_char c _ Hc)). apply IH; assumption.
Qed.

(* a word that is not a trigger word, standing where a match could start, is passed over entirely *)
Lemma scan_past_word : forall n prev tail, n <> [] -> name_chars n = true -> is_trigger n = false -> ends_word tail = true ->
  est_scan prev 0 (n ++ tail) = scan_tail tail.
Proof.
  intros [|x n] prev tail NE Hn T R; [congruence|]. pose proof (no_token_at_word prev (x :: n) tail Hn T R) as NT.
  cbn [app] in *. rewrite (est_scan_none _ _ _ NT). cbn [name_chars forallb] in Hn. apply andb_true_iff in Hn as [Hx Hn].
  apply scan_name_run; assumption.
Qed.

(* ================================================================ 4. the data name of an entry does not matter *)
(* ---- the level number and the blank behind it start no match ---- *)
Lemma digit_not_letter : forall c, level_digit c = true -> is_upper_letter c = false.
Proof.
  intros c H. unfold level_digit, SR.Model.RefFormat.is_digit in H.
  assert (A : forallb (fun r => (snd r <? 65) || (90 <? fst r)) SR.Model.RefFormat.nd_ranges = true) by (vm_compute; reflexivity).
  rewrite forallb_forall in A. apply existsb_exists in H as (r & I & H). specialize (A r I).
  apply andb_true_iff in H as [H1 H2]. apply N.leb_le in H1. apply N.leb_le in H2. unfold is_upper_letter.
  apply orb_true_iff in A as [A|A]; apply N.ltb_lt in A.
  - destruct (N.leb_spec 65 c); [lia|reflexivity].
  - destruct (N.leb_spec c 90); [lia|]. apply andb_false_r.
Qed.

Lemma scan_named : forall d1 d2 n tail, level_digit d1 = true -> level_digit d2 = true ->
  n <> [] -> name_chars n = true -> is_trigger n = false -> ends_word tail = true ->
  est_items ([d1; d2; 32] ++ n ++ tail) = scan_tail tail.
Proof.
  intros d1 d2 n tail H1 H2 NE Hn T R. unfold est_items. change (est_items_b est_bounds_now) with (est_scan None 0). cbn [app].
  rewrite (est_scan_none _ _ _ (no_token_nonletter None (d1 :: _) (digit_not_letter d1 H1))).
  rewrite (est_scan_none _ _ _ (no_token_nonletter (Some d1) (d2 :: _) (digit_not_letter d2 H2))).
  rewrite (est_scan_none _ _ _ (no_token_nonletter (Some d2) (32 :: _) eq_refl)).
  apply scan_past_word; assumption.
Qed.

(* ---- the compact clause text of an entry that begins with its data name ---- *)
Import SR.Model.RefFormat.

Lemma printable_not_rws : forall c, SR.Proofs.ClausesP.printable_char c = true -> SR.Model.RefFormat.is_ws c = false.
Proof.
  intros c P. destruct (SR.Model.RefFormat.is_ws c) eqn:W; [|reflexivity]. apply SR.Proofs.RefFormatP.is_ws_In in W.
  assert (A : forallb (fun x => negb (SR.Proofs.ClausesP.printable_char x)) SR.Model.RefFormat.ws_points = true) by reflexivity.
  rewrite forallb_forall in A. specialize (A c W). rewrite P in A. discriminate.
Qed.

Lemma printable_word : forall w, w <> [] -> forallb SR.Proofs.ClausesP.printable_char w = true -> SR.Spec.RefFormat.wf_word w = true.
Proof.
  intros w NE H. unfold SR.Spec.RefFormat.wf_word. apply andb_true_iff. split; [destruct w; [congruence|reflexivity]|].
  revert H. apply SR.Proofs.ClausesP.forallb_impl. intros c P. rewrite (printable_not_rws c P). reflexivity.
Qed.

Lemma name_printable : forall n, name_chars n = true -> forallb SR.Proofs.ClausesP.printable_char n = true.
Proof. intros n. apply SR.Proofs.ClausesP.forallb_impl. exact SR.Proofs.ClausesP.name_char_printable. Qed.

Lemma all_blank_rws : forall s, all_blank s = true -> forallb SR.Model.RefFormat.is_ws s = true.
Proof.
  intros s. apply SR.Proofs.ClausesP.forallb_impl. intros c H. unfold is_blank, s_mem in H. cbn [existsb] in H.
  repeat (apply orb_true_iff in H as [H|H]; [apply N.eqb_eq in H; subst c; reflexivity|]). discriminate.
Qed.

(* the word w, white space, then R: the white space may be missing when nothing follows *)
Lemma split_word : forall w s R, SR.Spec.RefFormat.wf_word w = true -> forallb SR.Model.RefFormat.is_ws s = true -> s <> [] \/ R = [] ->
  split (w ++ s ++ R) = w :: split R.
Proof.
  intros w s R Hw Hs D. unfold SR.Spec.RefFormat.wf_word in Hw. apply andb_true_iff in Hw as [NE Hw].
  assert (NR : rev w <> []) by (destruct w; [discriminate|]; cbn [rev]; destruct (rev w); discriminate).
  unfold split. rewrite (SR.Proofs.RefFormatP.split_go_word w [] _ Hw), app_nil_r. destruct s as [|c s].
  - destruct D as [D| ->]; [congruence|]. cbn [app split_go]. destruct (rev w) eqn:E; [congruence|]. rewrite <- E, rev_involutive. reflexivity.
  - rewrite SR.Proofs.RefFormatP.split_go_sep by (exact Hs || exact NR). rewrite rev_involutive. reflexivity.
Qed.

Definition join_tail (ws : list line) : line := match ws with [] => [] | _ :: _ => 32 :: join_sp ws end.

Lemma join_sp_cons : forall w ws, join_sp (w :: ws) = w ++ join_tail ws.
Proof. intros w [|x ws]; cbn [join_sp join_tail]; [rewrite app_nil_r; reflexivity|reflexivity]. Qed.

Lemma join_tail_ends : forall ws, ends_word (join_tail ws) = true.
Proof. intros [|x ws]; reflexivity. Qed.

(* ---- entries ---- *)
Lemma reserved_covers_triggers : forallb is_reserved est_trigger_words = true.
Proof. vm_compute. reflexivity. Qed.

Lemma name_ok_facts : forall n, name_ok n = true -> n <> [] /\ name_chars n = true /\ is_trigger n = false.
Proof.
  intros n H. destruct (SR.Proofs.ClausesP.name_ok_parts n H) as (NE & NC & NR & _). split; [exact NE|]. split; [exact NC|].
  destruct (is_trigger n) eqn:T; [|reflexivity]. apply is_trigger_In in T.
  pose proof reserved_covers_triggers as RC. rewrite forallb_forall in RC. rewrite (RC n T) in NR. discriminate.
Qed.

(* the level number, the data name, the separator written behind it (a comma or semicolon stays with the name), the other
   clauses R: the scan finds what it finds in the words of R *)
Lemma entry_items : forall d1 d2 n sep0 R, level_digit d1 = true -> level_digit d2 = true -> name_ok n = true ->
  (sep_ok sep0 = true \/ (all_blank sep0 = true /\ R = [])) ->
  est_items ([d1; d2; 32] ++ compact (n ++ sep0 ++ R)) = scan_tail (join_tail (split R)).
Proof.
  intros d1 d2 n sep0 R H1 H2 Hn D. destruct (name_ok_facts n Hn) as (NE & NC & T).
  pose proof (printable_word n NE (name_printable n NC)) as Wn. pose proof (join_tail_ends (split R)) as ET. unfold compact.
  destruct sep0 as [|c bl]; [|destruct (is_blank c) eqn:B].
  - destruct D as [D|[_ ->]]; [discriminate|]. rewrite (split_word n [] [] Wn eq_refl (or_intror eq_refl)). cbn [join_sp split split_go join_tail].
    rewrite <- (app_nil_r n) at 1. apply scan_named; assumption.
  - assert (AB : all_blank (c :: bl) = true).
    { destruct D as [D|[D _]]; [|exact D]. cbn [sep_ok] in D. rewrite B in D. cbn [all_blank forallb]. rewrite B. exact D. }
    rewrite (split_word n (c :: bl) R Wn (all_blank_rws _ AB)) by (left; discriminate). rewrite join_sp_cons. apply scan_named; assumption.
  - destruct D as [D|[D _]]; [|cbn [all_blank forallb] in D; rewrite B in D; discriminate].
    cbn [sep_ok] in D. rewrite B in D. apply andb_true_iff in D as [D NEb]. apply andb_true_iff in D as [M AB].
    assert (Cc : c = 44 \/ c = 59).
    { unfold s_mem in M. cbn [existsb] in M. rewrite orb_false_r in M. apply orb_true_iff in M as [M|M]; apply N.eqb_eq in M; [left|right]; exact M. }
    assert (Pc : SR.Proofs.ClausesP.printable_char c = true /\ name_char c = false) by (destruct Cc as [-> | ->]; split; reflexivity).
    destruct Pc as [Pc NCc]. change (n ++ (c :: bl) ++ R) with (n ++ [c] ++ bl ++ R). rewrite app_assoc.
    rewrite (split_word (n ++ [c]) bl R).
    + rewrite join_sp_cons, <- app_assoc.
      rewrite (scan_named d1 d2 n ([c] ++ join_tail (split R))) by (assumption || (cbn [app ends_word]; rewrite NCc; reflexivity)).
      exact (scan_ends_word (Some c) _ ET).
    + apply printable_word; [destruct n; discriminate|]. rewrite forallb_app, (name_printable n NC). cbn [forallb]. rewrite Pc. reflexivity.
    + apply all_blank_rws. exact AB.
    + left. destruct bl; [discriminate|discriminate].
Qed.

(* what ce_ok says about an entry that begins with its data name *)
Lemma named_entry_facts : forall e n cs, ce_cs e = CName n :: cs -> ce_ok e = true ->
  level_digit (ce_d1 e) = true /\ level_digit (ce_d2 e) = true /\ name_ok n = true
  /\ (sep_ok (snd (hd sp_default (ce_sps e))) = true
      \/ (all_blank (snd (hd sp_default (ce_sps e))) = true /\ print_items cs (tl (ce_sps e)) = []))
  /\ printable cs (tl (ce_sps e)) = true /\ existsb is_name_clause cs = false.
Proof.
  intros e n cs E OK. unfold ce_ok in OK. apply andb_true_iff in OK as [OK WF]. apply andb_true_iff in OK as [PR _].
  unfold printable in *. rewrite E in PR. apply andb_true_iff in PR as [ND IO]. cbn [map nodup_N] in ND. apply andb_true_iff in ND as [_ ND].
  destruct (SR.Proofs.ClausesP.items_ok_cons _ _ _ IO) as (CO & AO & NN & IO'). rewrite ND, IO'.
  unfold clause_ok in CO. apply andb_true_iff in CO as [_ NO]. unfold after_ok in AO. apply andb_true_iff in AO as [AO _].
  unfold ce_wf, SR.Spec.RefFormat.wf_entry in WF. do 4 (apply andb_true_iff in WF as [WF _]).
  apply andb_true_iff in WF as [WF D2]. apply andb_true_iff in WF as [_ D1].
  split; [exact D1|]. split; [exact D2|]. split; [exact NO|]. split; [|split; [reflexivity|exact NN]].
  destruct cs as [|c cs']; [right; split; [exact AO|reflexivity]|left; exact AO].
Qed.

Lemma entry_text : forall e n cs, ce_cs e = CName n :: cs ->
  ctext (spec_entry e) = [ce_d1 e; ce_d2 e; 32] ++ compact (n ++ snd (hd sp_default (ce_sps e)) ++ print_items cs (tl (ce_sps e))).
Proof. intros e n cs E. rewrite spec_entry_ctext. unfold ce_body. rewrite E. reflexivity. Qed.

Theorem named_entry_items : forall e n cs, ce_cs e = CName n :: cs -> ce_ok e = true ->
  est_items (ctext (spec_entry e)) = scan_tail (join_tail (split (print_items cs (tl (ce_sps e))))).
Proof.
  intros e n cs E OK. destruct (named_entry_facts e n cs E OK) as (H1 & H2 & Hn & D & _). rewrite (entry_text e n cs E).
  apply entry_items; assumption.
Qed.

(* the same entry under another data name *)
Lemma with_name_cs : forall e n cs n', ce_cs e = CName n :: cs -> ce_cs (with_name e n') = CName n' :: cs.
Proof. intros e n cs n' E. unfold with_name. cbn [ce_cs]. rewrite E. reflexivity. Qed.

Theorem items_name_irrelevant : forall e n cs n', ce_cs e = CName n :: cs -> ce_ok e = true -> name_ok n' = true ->
  est_items (ctext (spec_entry (with_name e n'))) = est_items (ctext (spec_entry e)).
Proof.
  intros e n cs n' E OK Hn'. destruct (named_entry_facts e n cs E OK) as (H1 & H2 & Hn & D & _).
  rewrite (named_entry_items e n cs E OK). rewrite (entry_text (with_name e n') n' cs (with_name_cs e n cs n' E)).
  apply entry_items; assumption.
Qed.

(* the clause values other than the name are those of the other clauses *)
Lemma named_lookup : forall e n cs k, ce_cs e = CName n :: cs -> s_mem k key_codes = true -> k <> 14 ->
  lookup k (ce_dict e) = lookup k (all_bindings cs (tl (ce_sps e))).
Proof.
  intros e n cs k E M NE. unfold ce_dict, expected. rewrite E, SR.Proofs.ClausesP.lookup_sorted, M.
  cbn [all_bindings bindings]. rewrite SR.Proofs.ClausesP.lookup_app.
  destruct (lookup k (all_bindings cs (tl (ce_sps e)))); [reflexivity|]. unfold lookup. cbn [fold_left fst snd].
  destruct (N.eqb_spec 14 k); [congruence|reflexivity].
Qed.

Lemma dict_name_irrelevant : forall e n cs n' k, ce_cs e = CName n :: cs -> s_mem k key_codes = true -> k <> 14 ->
  lookup k (ce_dict (with_name e n')) = lookup k (ce_dict e).
Proof.
  intros e n cs n' k E M NE. rewrite (named_lookup _ n' cs k (with_name_cs e n cs n' E) M NE), (named_lookup e n cs k E M NE). reflexivity.
Qed.

Theorem domain_name_irrelevant : forall e n cs n', ce_cs e = CName n :: cs -> ce_ok e = true -> name_ok n' = true ->
  respelling_domain (with_name e n') = respelling_domain e.
Proof.
  intros e n cs n' E OK Hn'. unfold respelling_domain, filler_exact, reparse_agrees.
  rewrite <- !spec_entry_ctext, (items_name_irrelevant e n cs n' E OK Hn'). unfold usage_number, spec_info. cbn [i_usage i_pic].
  rewrite !(dict_name_irrelevant e n cs n' _ E) by (reflexivity || discriminate). reflexivity.
Qed.

(* ================================================================ 5. the width and the decoder come from the entry's own clauses *)
Lemma own_loop : forall u p,
  est_loop (EUsage u :: match p with Some q => [EPicture q] | None => [] end) usage_DISPLAY [] = est_formula u p.
Proof.
  intros u [q|]; cbn [est_loop est_formula]; [|reflexivity].
  destruct (SR.Model.Picture.dec_normalize q) as [[es|ex]|]; reflexivity.
Qed.

Theorem reparse_gives_own_clauses : forall e, reparse_agrees e = true ->
  calcsize_text (ctext (spec_entry e)) = own_size e /\ kind_of_cobol (ctext (spec_entry e)) = own_kind e.
Proof.
  intros e RA. split.
  - rewrite spec_entry_ctext, (calcsize_agrees e RA). unfold own_size, calcsize_items. rewrite own_loop. reflexivity.
  - rewrite (kind_agrees e RA). unfold own_kind. rewrite own_loop. reflexivity.
Qed.

(* ---- composed with the picture scanner (C13) and the size specification (C04): S?9(m)V9(n) and X(k) / A(k) pictures ---- *)
(* Representation.parse on one usage and one picture string the picture scanner accepts *)
Lemma parsed_items : forall u p r, SR.Model.Picture.dec_parse p = Some (Ok r) ->
  est_loop [EUsage u; EPicture p] usage_DISPLAY [] = ROk (u, SR.Model.Picture.p_elems r)
  /\ SR.Model.Picture.size_loop (SR.Model.Picture.p_elems r) 0 = Ok (SR.Model.Picture.p_size r)
  /\ SR.Model.Picture.digit_groups (SR.Model.Picture.p_elems r) = SR.Model.Picture.p_groups r
  /\ SR.Model.Picture.zoned_decimal (SR.Model.Picture.p_elems r) (SR.Model.Picture.p_size r) = SR.Model.Picture.p_zoned r.
Proof.
  intros u p r H. unfold SR.Model.Picture.dec_parse in H. cbn [est_loop].
  destruct (SR.Model.Picture.dec_normalize p) as [[es|ex]|]; try discriminate.
  destruct (SR.Model.Picture.size_loop es 0) as [n|ex] eqn:SL; try discriminate. injection H as <-.
  cbn [SR.Model.Picture.p_elems SR.Model.Picture.p_size SR.Model.Picture.p_groups SR.Model.Picture.p_zoned]. auto.
Qed.

Lemma calcsize_total_digits : forall u s m n,
  SR.Model.Estruct.calcsize u (SR.Model.Estruct.mkpic s (m + n) 0) = SR.Model.Estruct.calcsize u (SR.Model.Estruct.mkpic s m n).
Proof.
  intros u s m n. unfold SR.Model.Estruct.calcsize, SR.Model.Estruct.picture_size, SR.Model.Estruct.sign_positions.
  cbn [SR.Model.Estruct.p_signed SR.Model.Estruct.p_int SR.Model.Estruct.p_frac].
  replace ((if s then 1 else 0) + N.of_nat (m + n) + N.of_nat 0) with ((if s then 1 else 0) + N.of_nat m + N.of_nat n) by lia.
  reflexivity.
Qed.

(* the scan of one numeric picture string, as Model/Pipeline.v calcsize_items and Model/TextLayout.v shape_body use it *)
Lemma numeric_picture_items : forall u s m n ri rf, (1 <= m + n)%nat ->
  calcsize_items [EUsage u; EPicture (SR.Spec.SchemaTruth.pic_text (SR.Spec.SchemaTruth.PNum s m n ri rf))]
  = match SR.Model.Estruct.calcsize u (SR.Model.Estruct.mkpic s m n) with Ok sz => ROk sz | Err ex => RErr ex end
  /\ exists es, est_loop [EUsage u; EPicture (SR.Spec.SchemaTruth.pic_text (SR.Spec.SchemaTruth.PNum s m n ri rf))] usage_DISPLAY [] = ROk (u, es)
                /\ shape_body u es = ShNum u s m n.
Proof.
  intros u s m n ri rf H. destruct (SR.Proofs.PictureP.printed_numeric s m n ri rf H) as (r & DP & SZ & GS & LI & LF & _ & _ & ZD).
  destruct (parsed_items u _ r DP) as (EL & SL & DG & ZZ). split.
  - unfold calcsize_items. rewrite EL. cbn [rbind]. rewrite SL, DG, GS, SZ, <- (calcsize_total_digits u _ m n).
    destruct s; cbn [length Nat.leb Nat.eqb andb].
    + replace (1 + m + n - 1)%nat with (m + n)%nat by lia. reflexivity.
    + replace (0 + m + n - 0)%nat with (m + n)%nat by lia. reflexivity.
  - exists (SR.Model.Picture.p_elems r). split; [exact EL|]. unfold shape_body. rewrite SL, ZZ, ZD, DG, GS, LI, LF. destruct s; reflexivity.
Qed.

Lemma alnum_picture_items : forall alpha k rep, (1 <= k)%nat ->
  calcsize_items [EUsage usage_DISPLAY; EPicture (SR.Spec.SchemaTruth.pic_text (SR.Spec.SchemaTruth.PText alpha k rep))] = ROk (N.of_nat k).
Proof.
  intros alpha k rep H. destruct (SR.Proofs.PictureP.printed_text alpha k rep H) as (r & DP & PS & _ & GS & _).
  destruct (parsed_items usage_DISPLAY _ r DP) as (EL & SL & DG & _).
  unfold calcsize_items. rewrite EL. cbn [rbind]. rewrite SL, DG, GS, PS. cbn [length Nat.leb Nat.eqb andb].
  rewrite Nat.sub_0_r. unfold SR.Model.Estruct.calcsize, SR.Model.Estruct.picture_size. cbn [SR.Model.Estruct.p_signed SR.Model.Estruct.p_int SR.Model.Estruct.p_frac].
  replace (0 + N.of_nat k + N.of_nat 0) with (N.of_nat k) by lia.
  destruct (N.eqb_spec (N.of_nat k) 0) as [Z|NZ]; [lia|]. reflexivity.
Qed.

(* ================================================================ 6. PICTURE and USAGE clauses in plain spelling *)
(* The respelling domain is stated through the model's scan (reparse_agrees).  For the entries the codec properties speak about -
   a data name and PICTURE and USAGE clauses, reserved words in upper case, blank separators - membership is PROVED here for
   every name, every picture string and every usage spelling (plain_clauses_in_domain). *)

(* ---- what stands behind a clause in the compact text: nothing, or a blank ---- *)
Lemma blank_tail_ends : forall r, SR.Proofs.ClausesP.blank_tail r -> ends_word r = true.
Proof.
  intros r [->|(c & t & -> & B)]; [reflexivity|]. cbn [ends_word].
  rewrite (ws_not_name_char c (SR.Proofs.ClausesP.blank_is_ws c B)). reflexivity.
Qed.

Lemma join_tail_blank : forall ws, SR.Proofs.ClausesP.blank_tail (join_tail ws).
Proof. intros [|w ws]; [left; reflexivity|right; exists 32, (join_sp (w :: ws)); split; reflexivity]. Qed.

Lemma printable_stops_ws : forall w t, w <> [] -> forallb SR.Proofs.ClausesP.printable_char w = true ->
  SR.Proofs.ClausesP.stops SR.Model.Clauses.is_ws (w ++ t).
Proof.
  intros [|c w] t NE H; [congruence|]. cbn [forallb] in H. apply andb_true_iff in H as [H _].
  apply SR.Proofs.ClausesP.stops_cons, SR.Proofs.ClausesP.printable_not_ws, H.
Qed.

(* a word, one blank, a text that does not begin with white space *)
Lemma word_ws_blank : forall w X, SR.Proofs.ClausesP.stops SR.Model.Clauses.is_ws X -> word_ws w (w ++ 32 :: X) = Some X.
Proof.
  intros w X H. unfold word_ws, ws1. rewrite lit_cs_refl. change (32 :: X) with ([32] ++ X).
  rewrite (SR.Proofs.ClausesP.span_app SR.Model.Clauses.is_ws [32] X eq_refl H). reflexivity.
Qed.

Lemma word_ws_other : forall x w c t, c <> x -> word_ws (x :: w) (c :: t) = None.
Proof. intros x w c t H. unfold word_ws. cbn [lit_cs]. destruct (N.eqb_spec c x); [congruence|reflexivity]. Qed.

(* ---- the usage alternative ---- *)
Lemma usage_words_first_letter :
  forallb (fun w => match w with c :: _ => negb (c =? 85) && negb (c =? 73) | [] => false end) est_usage_words = true.
Proof. vm_compute. reflexivity. Qed.

(* a usage word is a word, and begins with neither USAGE nor IS *)
Lemma est_usage_word_facts : forall W rest, In W est_usage_words ->
  name_chars W = true /\ W <> [] /\ word_ws w_USAGE (W ++ rest) = None /\ word_ws w_IS (W ++ rest) = None.
Proof.
  intros W rest I. pose proof triggers_are_words as NC. pose proof usage_words_first_letter as A. rewrite forallb_forall in NC, A.
  split; [apply NC, in_triggers; left; exact I|]. specialize (A W I). destruct W as [|c W]; [discriminate|].
  apply andb_true_iff in A as [A1 A2]. apply negb_true_iff, N.eqb_neq in A1. apply negb_true_iff, N.eqb_neq in A2.
  split; [discriminate|]. split; apply word_ws_other; assumption.
Qed.

Lemma index_of_In : forall w l i u, index_of w l i = Some u -> In w l.
Proof.
  intros w. induction l as [|x l IH]; intros i u H; cbn [index_of] in H; [discriminate|].
  destruct (SR.Model.Structure.str_eqb x w) eqn:E; [left; apply SR.Proofs.StructureP.str_eqb_eq; exact E|right; apply (IH _ _ H)].
Qed.

Lemma index_of_complete : forall w l i, In w l -> exists u, index_of w l i = Some u.
Proof.
  intros w. induction l as [|x l IH]; intros i H; [destruct H|]. cbn [index_of].
  destruct (SR.Model.Structure.str_eqb x w) eqn:E; [eexists; reflexivity|]. destruct H as [->|H]; [rewrite SR.Proofs.StructureP.str_eqb_refl in E; discriminate|].
  apply IH. exact H.
Qed.

(* the word W of the list, written out and ending there, is found with its own number: a word of the list that W begins with
   fails on its lookahead *)
Lemma usage_from_closed : forall ws i W rest, forallb name_chars ws = true -> name_chars W = true -> ends_word rest = true ->
  est_usage_from_b est_bounds_now ws i (W ++ rest) = match index_of W ws i with Some u => Some (u, rest) | None => None end.
Proof.
  induction ws as [|w ws IH]; intros i W rest Hws HW R; [reflexivity|]. cbn [est_usage_from_b index_of].
  cbn [forallb] in Hws. apply andb_true_iff in Hws as [Hw Hws].
  destruct (SR.Model.Structure.str_eqb w W) eqn:E.
  - apply SR.Proofs.StructureP.str_eqb_eq in E. subst w. rewrite lit_cs_refl, after_ok_ends, R. reflexivity.
  - destruct (lit_cs w (W ++ rest)) as [rest'|] eqn:L; [|apply IH; assumption].
    rewrite after_ok_ends. destruct (ends_word rest') eqn:R'; [|apply IH; assumption].
    apply lit_cs_app in L. rewrite (name_run_unique w W rest' rest Hw HW R' R (eq_sym L)), SR.Proofs.StructureP.str_eqb_refl in E. discriminate.
Qed.

Lemma usage_at_closed : forall W rest u, index_of W est_usage_words 0 = Some u -> ends_word rest = true ->
  est_usage_at_b est_bounds_now (W ++ rest) = Some (u, rest).
Proof.
  intros W rest u I R. pose proof triggers_are_words as A. unfold est_trigger_words in A. rewrite forallb_app in A. apply andb_true_iff in A as [A _].
  unfold est_usage_at_b. rewrite (usage_from_closed _ _ _ _ A (proj1 (est_usage_word_facts W rest (index_of_In _ _ _ _ I))) R), I. reflexivity.
Qed.

Lemma opt_word_ws_hit : forall w X, SR.Proofs.ClausesP.stops SR.Model.Clauses.is_ws X -> opt_word_ws w (w ++ 32 :: X) = [X; w ++ 32 :: X].
Proof. intros w X H. unfold opt_word_ws. rewrite (word_ws_blank w X H). reflexivity. Qed.

Lemma opt_word_ws_miss : forall w s, word_ws w s = None -> opt_word_ws w s = [s].
Proof. intros w s H. unfold opt_word_ws. rewrite H. reflexivity. Qed.

(* the three introductions of a usage word the printer writes: nothing, USAGE, USAGE IS *)
Definition intro_words (k : N) : list (list N) := match k with 0 => [] | 1 => [w_USAGE] | _ => [w_USAGE; w_IS] end.

Lemma token_usage_clause : forall prev k W rest u, boundary prev = true -> index_of W est_usage_words 0 = Some u ->
  ends_word rest = true -> est_token_at prev (join_sp (intro_words k ++ [W]) ++ rest) = Some (EUsage u, rest).
Proof.
  intros prev k W rest u B I R. unfold est_token_at, est_token_at_b. rewrite before_ok_boundary, B.
  destruct (est_usage_word_facts W rest (index_of_In _ _ _ _ I)) as (NC & NE & NU & NI).
  pose proof (printable_stops_ws W rest NE (name_printable W NC)) as ST. pose proof (usage_at_closed W rest u I R) as UA.
  assert (EA : est_alt_usage_b est_bounds_now (join_sp (intro_words k ++ [W]) ++ rest) = Some (u, rest)); [|rewrite EA; reflexivity].
  unfold est_alt_usage_b. destruct k as [|[q|q|]]; cbn [intro_words app join_sp]; rewrite <- ?app_assoc; cbn [app].
  - rewrite (opt_word_ws_miss _ _ NU). cbn [flat_map]. rewrite (opt_word_ws_miss _ _ NI). cbn [app SR.Model.Clauses.first_some]. rewrite UA. reflexivity.
  - rewrite <- app_assoc. cbn [app]. rewrite (opt_word_ws_hit w_USAGE) by (apply SR.Proofs.ClausesP.stops_cons; reflexivity). cbn [flat_map].
    rewrite (opt_word_ws_hit w_IS _ ST). cbn [app SR.Model.Clauses.first_some]. rewrite UA. reflexivity.
  - rewrite <- app_assoc. cbn [app]. rewrite (opt_word_ws_hit w_USAGE) by (apply SR.Proofs.ClausesP.stops_cons; reflexivity). cbn [flat_map].
    rewrite (opt_word_ws_hit w_IS _ ST). cbn [app SR.Model.Clauses.first_some]. rewrite UA. reflexivity.
  - rewrite (opt_word_ws_hit w_USAGE _ ST). cbn [flat_map]. rewrite (opt_word_ws_miss _ _ NI). cbn [app SR.Model.Clauses.first_some]. rewrite UA. reflexivity.
Qed.

(* ---- the picture alternative ---- *)
Lemma pic_words_eq : est_pic_words = [w_PIC; w_PICTURE].
Proof. reflexivity. Qed.

(* no usage word, nor USAGE or IS, begins like PIC or PICTURE followed by a blank *)
Lemma alt_usage_pic_word : forall PW X, In PW est_pic_words -> est_alt_usage_b est_bounds_now (PW ++ 32 :: X) = None.
Proof. intros PW X [<-|[<-|[]]]; reflexivity. Qed.

Lemma alt_picture_word : forall PW X y, In PW est_pic_words -> SR.Proofs.ClausesP.stops SR.Model.Clauses.is_ws X ->
  est_pic_body X = Some y -> est_alt_picture (PW ++ 32 :: X) = Some y.
Proof.
  intros PW X y IN ST H. unfold est_alt_picture. rewrite pic_words_eq in *. cbn [SR.Model.Clauses.first_some].
  destruct IN as [<-|[<-|[]]].
  - rewrite (word_ws_blank w_PIC X ST), H. reflexivity.
  - change (word_ws w_PIC (w_PICTURE ++ 32 :: X)) with (@None str). rewrite (word_ws_blank w_PICTURE X ST), H. reflexivity.
Qed.

(* (IS ws+)? nonwhite+ on a picture string that does not begin with I *)
Lemma pic_body : forall (is : bool) p rest, p <> [] -> forallb SR.Proofs.ClausesP.printable_char p = true -> hd 0 p <> 73 ->
  SR.Proofs.ClausesP.blank_tail rest -> est_pic_body (if is then w_IS ++ 32 :: p ++ rest else p ++ rest) = Some (p, rest).
Proof.
  intros is p rest NE H HI R. unfold est_pic_body. pose proof (SR.Proofs.ClausesP.nonws1_word p rest NE H R) as NW. destruct is.
  - rewrite (word_ws_blank w_IS _ (printable_stops_ws p rest NE H)), NW. reflexivity.
  - destruct p as [|c p]; [congruence|]. cbn [app hd] in *. unfold w_IS. rewrite (word_ws_other 73 _ c _ HI). exact NW.
Qed.

Lemma token_picture_clause : forall prev PW (is : bool) p rest, boundary prev = true -> In PW est_pic_words ->
  p <> [] -> forallb SR.Proofs.ClausesP.printable_char p = true -> hd 0 p <> 73 -> SR.Proofs.ClausesP.blank_tail rest ->
  est_token_at prev (join_sp (PW :: (if is then [w_IS] else []) ++ [p]) ++ rest) = Some (EPicture p, rest).
Proof.
  intros prev PW is p rest B IN NE H HI R. unfold est_token_at, est_token_at_b. rewrite before_ok_boundary, B.
  assert (T : join_sp (PW :: (if is then [w_IS] else []) ++ [p]) ++ rest = PW ++ 32 :: (if is then w_IS ++ 32 :: p ++ rest else p ++ rest)).
  { destruct is; cbn [app join_sp]; rewrite <- !app_assoc; cbn [app]; [rewrite <- app_assoc|]; reflexivity. }
  rewrite T, (alt_usage_pic_word PW _ IN), (alt_picture_word PW _ (p, rest) IN); [reflexivity| |apply pic_body; assumption].
  destruct is; [apply SR.Proofs.ClausesP.stops_cons; reflexivity|apply printable_stops_ws; assumption].
Qed.

(* ---- plain spellings ---- *)
Lemma plain_kw : forall sp i w, plain_spell sp = true -> kw sp i w = w.
Proof.
  intros sp i w H. unfold plain_spell in H. apply andb_true_iff in H as [H _]. unfold kw. destruct (masks sp); [|discriminate].
  destruct i; apply SR.Proofs.ClausesP.cased_upper; rewrite firstn_nil; reflexivity.
Qed.

Lemma plain_sep : forall sp i, plain_spell sp = true -> blank_sep (sep sp i) = true.
Proof.
  intros sp i H. unfold plain_spell in H. apply andb_true_iff in H as [_ H]. apply (SR.Proofs.ClausesP.forallb_nth blank_sep). exact H.
Qed.

Lemma split_word_blank : forall w s R, SR.Spec.RefFormat.wf_word w = true -> blank_sep s = true -> split (w ++ s ++ R) = w :: split R.
Proof.
  intros w s R Hw H. unfold blank_sep in H. apply andb_true_iff in H as [A NE].
  apply split_word; [exact Hw|apply all_blank_rws; exact A|left; destruct s; [discriminate|discriminate]].
Qed.

(* ---- the words of the two clauses ---- *)
Lemma pic_ok_facts : forall p, pic_ok p = true -> p <> [] /\ forallb SR.Proofs.ClausesP.printable_char p = true /\ hd 0 p <> 73.
Proof.
  intros p H. destruct (SR.Proofs.ClausesP.pic_ok_parts p H) as (NE & PA & _). split; [exact NE|]. split; [exact PA|].
  destruct p as [|c p]; [congruence|]. cbn [hd]. intros ->. discriminate H.
Qed.

Lemma pic_word_in : forall i, In (pic_word i) est_pic_words.
Proof.
  intros i. unfold pic_word. rewrite pic_words_eq.
  destruct (nth_in_or_default (N.to_nat i) [K_PIC; K_PICTURE] K_PIC) as [I|E]; [exact I|rewrite E; left; reflexivity].
Qed.

Lemma spellings_are_usage_words :
  forallb (fun w => existsb (SR.Model.Structure.str_eqb w) est_usage_words) SR.Proofs.ClausesP.all_usage_words = true.
Proof. vm_compute. reflexivity. Qed.

Lemma usage_word_in : forall fam i, In (usage_word fam i) est_usage_words.
Proof.
  intros fam i. pose proof spellings_are_usage_words as A. rewrite forallb_forall in A.
  specialize (A _ (SR.Proofs.ClausesP.usage_word_in fam i)). apply existsb_exists in A as (x & I & E).
  apply SR.Proofs.StructureP.str_eqb_eq in E. subst x. exact I.
Qed.

(* ---- one clause: its words, and what the scan finds in them ---- *)
Definition pic_or_usage (c : clause) : bool := match c with CPicture _ | CUsage _ => true | _ => false end.

Lemma pic_or_usage_cases : forall c, pic_or_usage c = true -> (exists p, c = CPicture p) \/ exists fam, c = CUsage fam.
Proof. intros c H. destruct c; try discriminate H; [left|right]; eexists; reflexivity. Qed.

Definition clause_words (c : clause) (sp : cspell) : list line :=
  match c with
  | CPicture p => pic_word (chN sp 0) :: (if chb sp 1 then [w_IS] else []) ++ [p]
  | CUsage fam => intro_words (chN sp 0) ++ [usage_word fam (chN sp 1)]
  | _ => []
  end.

(* the number of a usage word in the decoder's list (Model/Pipeline.v usage_number) *)
Definition word_number (w : str) : N := match index_of w est_usage_words 0 with Some i => i | None => 99 end.

Definition clause_items (c : clause) (sp : cspell) : list est_item :=
  match c with
  | CPicture p => [EPicture p]
  | CUsage fam => [EUsage (word_number (usage_word fam (chN sp 1)))]
  | _ => []
  end.

Lemma split_clause : forall c sp a R, pic_or_usage c = true -> plain_spell sp = true -> clause_ok c sp = true ->
  all_blank a = true -> a <> [] \/ R = [] -> split (print_clause c sp ++ a ++ R) = clause_words c sp ++ split R.
Proof.
  intros c sp a R PU PS CO A D. pose proof (all_blank_rws a A) as Wa.
  pose proof (plain_sep sp 0 PS) as S0. pose proof (plain_sep sp 1 PS) as S1.
  destruct (pic_or_usage_cases c PU) as [[p ->]|[fam ->]]; cbn [print_clause clause_words].
  - rewrite !(plain_kw sp _ _ PS). unfold clause_ok in CO. apply andb_true_iff in CO as [_ PO]. destruct (pic_ok_facts p PO) as (NE & PA & _).
    pose proof (split_word p a R (printable_word p NE PA) Wa D) as Sp. rewrite <- !app_assoc.
    rewrite (split_word_blank (pic_word (chN sp 0)) _ _ (SR.Proofs.ClausesP.forallb_nth SR.Spec.RefFormat.wf_word _ [K_PIC; K_PICTURE] K_PIC eq_refl) S0).
    destruct (chb sp 1); cbn [opt app].
    + rewrite <- !app_assoc, (split_word_blank K_IS _ _ eq_refl S1), Sp. reflexivity.
    + rewrite Sp. reflexivity.
  - pose proof (est_usage_word_facts _ [] (usage_word_in fam (chN sp 1))) as (NC & NE & _).
    pose proof (split_word _ a R (printable_word _ NE (name_printable _ NC)) Wa D) as Sw.
    unfold intro. rewrite !(plain_kw sp _ _ PS). destruct (chN sp 0) as [|[q|q|]]; cbn [intro_words app]; rewrite <- ?app_assoc.
    + exact Sw.
    + rewrite (split_word_blank K_USAGE _ _ eq_refl S0), (split_word_blank K_IS _ _ eq_refl S1), Sw. reflexivity.
    + rewrite (split_word_blank K_USAGE _ _ eq_refl S0), (split_word_blank K_IS _ _ eq_refl S1), Sw. reflexivity.
    + rewrite (split_word_blank K_USAGE _ _ eq_refl S0), Sw. reflexivity.
Qed.

Lemma scan_clause : forall c sp tail, pic_or_usage c = true -> clause_ok c sp = true -> SR.Proofs.ClausesP.blank_tail tail ->
  est_scan (Some 32) 0 (join_sp (clause_words c sp) ++ tail) = clause_items c sp ++ scan_tail tail.
Proof.
  intros c sp tail PU CO BT. pose proof (blank_tail_ends tail BT) as R.
  destruct (pic_or_usage_cases c PU) as [[p ->]|[fam ->]]; cbn [clause_words clause_items app]; apply (scan_token _ _ _ _ R).
  - unfold clause_ok in CO. apply andb_true_iff in CO as [_ PO]. destruct (pic_ok_facts p PO) as (NE & PA & HI).
    apply token_picture_clause; (reflexivity || assumption || apply pic_word_in).
  - pose proof (usage_word_in fam (chN sp 1)) as IN. destruct (index_of_complete _ _ 0 IN) as (u & IX).
    unfold word_number. rewrite IX. apply token_usage_clause; (reflexivity || assumption).
Qed.

(* ---- the clauses behind the data name ---- *)
Lemma join_tail_app : forall a b, a <> [] -> join_tail (a ++ b) = 32 :: join_sp a ++ join_tail b.
Proof.
  intros [|w a] b NE; [congruence|]. clear NE. cbn [app join_tail]. f_equal. revert w. induction a as [|w' a IH]; intros w; cbn [app].
  - apply join_sp_cons.
  - rewrite (join_sp_cons w), (join_sp_cons w). cbn [join_tail]. rewrite (IH w'), <- app_assoc. reflexivity.
Qed.

Lemma clause_words_nonempty : forall c sp, pic_or_usage c = true -> clause_words c sp <> [].
Proof.
  intros c sp PU. destruct (pic_or_usage_cases c PU) as [[p ->]|[fam ->]]; cbn [clause_words]; [discriminate|].
  destruct (intro_words (chN sp 0)); discriminate.
Qed.

Fixpoint items_found (cs : list clause) (sps : spelling) : list est_item :=
  match cs with
  | [] => []
  | c :: cs' => clause_items c (fst (hd sp_default sps)) ++ items_found cs' (tl sps)
  end.

Lemma plain_items_scan : forall cs sps, forallb pic_or_usage cs = true -> plain_items cs sps = true -> items_ok cs sps = true ->
  scan_tail (join_tail (split (print_items cs sps))) = items_found cs sps.
Proof.
  induction cs as [|c cs IH]; intros sps PU PL IO; [reflexivity|].
  cbn [forallb plain_items] in PU, PL. apply andb_true_iff in PU as [PU1 PU]. apply andb_true_iff in PL as [PL PL']. apply andb_true_iff in PL as [PS A].
  destruct (SR.Proofs.ClausesP.items_ok_cons c cs sps IO) as (CO & AO & _ & IO'). cbn [print_items items_found].
  rewrite (split_clause c _ _ _ PU1 PS CO A).
  - rewrite (join_tail_app _ _ (clause_words_nonempty c _ PU1)). cbn [scan_tail].
    rewrite (scan_clause c _ _ PU1 CO (join_tail_blank _)), (IH (tl sps) PU PL' IO'). reflexivity.
  - unfold after_ok in AO. apply andb_true_iff in AO as [AO _]. destruct cs; [right; reflexivity|left].
    destruct (snd (hd sp_default sps)); [discriminate|discriminate].
Qed.

(* the last picture and the last usage found are the bindings of keys 7 and 11 in the clause dictionary *)
Definition usage_of (o : option str) : N := match o with None => usage_DISPLAY | Some w => word_number w end.

Lemma found_summary : forall cs sps p u, forallb pic_or_usage cs = true -> plain_items cs sps = true ->
  last_pic (items_found cs sps) p = fold_left (fun acc kv => if fst kv =? 7 then Some (snd kv) else acc) (all_bindings cs sps) p
  /\ last_usage (items_found cs sps) (usage_of u)
     = usage_of (fold_left (fun acc kv => if fst kv =? 11 then Some (snd kv) else acc) (all_bindings cs sps) u).
Proof.
  induction cs as [|c cs IH]; intros sps p u PU PL; [split; reflexivity|].
  cbn [forallb plain_items] in PU, PL. apply andb_true_iff in PU as [PU1 PU]. apply andb_true_iff in PL as [PL PL']. apply andb_true_iff in PL as [PS _].
  cbn [items_found all_bindings]. rewrite !fold_left_app.
  destruct (pic_or_usage_cases c PU1) as [[q ->]|[fam ->]]; cbn [clause_items bindings app last_pic last_usage fold_left fst snd N.eqb Pos.eqb].
  - apply IH; assumption.
  - rewrite (plain_kw _ _ _ PS). apply (IH (tl sps) p (Some (usage_word fam (chN (fst (hd sp_default sps)) 1)))); assumption.
Qed.

(* one picture is found for each PICTURE clause (kind 3), and there is at most one *)
Lemma found_count : forall cs sps, forallb pic_or_usage cs = true -> nodup_N (map kind cs) = true ->
  count_pic (items_found cs sps) = if s_mem 3 (map kind cs) then 1%nat else 0%nat.
Proof.
  induction cs as [|c cs IH]; intros sps PU ND; [reflexivity|].
  cbn [forallb map nodup_N] in PU, ND. apply andb_true_iff in PU as [PU1 PU]. apply andb_true_iff in ND as [N1 ND].
  specialize (IH (tl sps) PU ND). apply negb_true_iff in N1.
  destruct (pic_or_usage_cases c PU1) as [[p ->]|[fam ->]]; cbn [items_found clause_items app count_pic map kind] in *.
  - rewrite IH, N1. reflexivity.
  - exact IH.
Qed.

Lemma reparse_from_items : forall e items, est_items (ctext (spec_entry e)) = items -> (count_pic items <= 1)%nat ->
  last_usage items usage_DISPLAY = usage_number (spec_info e) -> last_pic items None = i_pic (spec_info e) -> reparse_agrees e = true.
Proof.
  intros e items EI C U P. unfold reparse_agrees. rewrite <- spec_entry_ctext, EI. apply Nat.leb_le in C. rewrite C, U, N.eqb_refl, P.
  cbn [andb]. destruct (i_pic (spec_info e)) as [q|]; [apply SR.Proofs.StructureP.str_eqb_refl|reflexivity].
Qed.

(* a data name - any legal one - followed by PICTURE and USAGE clauses, reserved words in upper case, blanks between the words *)
Theorem plain_clauses_in_domain : forall e n cs, ce_cs e = CName n :: cs -> ce_ok e = true ->
  forallb pic_or_usage cs = true -> plain_items cs (tl (ce_sps e)) = true -> respelling_domain e = true.
Proof.
  intros e n cs E OK PU PL. destruct (named_entry_facts e n cs E OK) as (_ & _ & _ & _ & PR & NN).
  unfold printable in PR. apply andb_true_iff in PR as [ND IO].
  destruct (found_summary cs (tl (ce_sps e)) None None PU PL) as [FP FU].
  unfold respelling_domain. apply andb_true_iff. split.
  - unfold filler_exact. rewrite (named_lookup e n cs 13 E eq_refl) by discriminate.
    rewrite (SR.Proofs.ClausesP.all_bindings_no_name cs _ 13 NN eq_refl). reflexivity.
  - apply (reparse_from_items e (items_found cs (tl (ce_sps e)))).
    + rewrite (named_entry_items e n cs E OK). apply plain_items_scan; assumption.
    + rewrite (found_count cs _ PU ND). destruct (s_mem 3 (map kind cs)); lia.
    + unfold usage_number, spec_info. cbn [i_usage]. rewrite (named_lookup e n cs 11 E eq_refl) by discriminate. exact FU.
    + unfold spec_info. cbn [i_pic]. rewrite (named_lookup e n cs 7 E eq_refl) by discriminate. exact FP.
Qed.
