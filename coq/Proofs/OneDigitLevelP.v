(* Property C07, known finding 6, on the text-layer model (Model/RefFormat.v): the sentence pattern
   of dde_sentences starts an entry at two adjacent digits only.  A level number written with one
   digit (COBOL allows 1 .. 9 for 01 .. 09) is therefore not the start of an entry: the entry is
   passed over, and two adjacent digits met later (a two-digit level, the 10 of X(10)) start the
   next sentence.

   no_pair_no_sentence   a text without two adjacent digits yields no sentence at all;
   refuted_6             the witness copybook, evaluated: of three entries one comes back. *)
From Coq Require Import NArith List Bool.
Import ListNotations.
Require Import SR.Base.Res SR.Model.RefFormat SR.Proofs.RefFormatP SR.Proofs.SentenceValueP.
(* Spec/OneDigitLevelWitness.v holds the definitions that theorem statements (Props/) mention; the parsing-only
   abbreviations let other files write them OneDigitLevelP.name as well. *)
Require Export SR.Spec.OneDigitLevelWitness.
Notation digit_pair := SR.Spec.OneDigitLevelWitness.digit_pair (only parsing).
Notation w6_line1 := SR.Spec.OneDigitLevelWitness.w6_line1 (only parsing).
Notation w6_line2 := SR.Spec.OneDigitLevelWitness.w6_line2 (only parsing).
Notation w6_line3 := SR.Spec.OneDigitLevelWitness.w6_line3 (only parsing).
Notation witness6 := SR.Spec.OneDigitLevelWitness.witness6 (only parsing).
Notation w6_line1' := SR.Spec.OneDigitLevelWitness.w6_line1' (only parsing).
Notation w6_line2' := SR.Spec.OneDigitLevelWitness.w6_line2' (only parsing).
Open Scope N_scope.

Lemma digit_pair_tail : forall c t, digit_pair (c :: t) = false -> digit_pair t = false.
Proof.
  intros c [|d t] H; [reflexivity|]. cbn [digit_pair] in H. apply orb_false_iff in H. exact (proj2 H).
Qed.

Lemma digit_pair_lstrip : forall s, digit_pair s = false -> digit_pair (lstrip s) = false.
Proof.
  induction s as [|c t IH]; intro H; [reflexivity|]. cbn [lstrip].
  destruct (is_ws c); [apply IH; exact (digit_pair_tail c t H) | exact H].
Qed.

Lemma try_match_no_pair : forall s, digit_pair s = false -> try_match s = None.
Proof.
  intros s H. rewrite try_match_eq. pose proof (digit_pair_lstrip s H) as H1.
  destruct (lstrip s) as [|d1 [|d2 r]]; try reflexivity.
  cbn [digit_pair] in H1. apply orb_false_iff in H1. rewrite (proj1 H1). reflexivity.
Qed.

Lemma scan_no_pair : forall s, digit_pair s = false -> scan 0 s = [].
Proof.
  induction s as [|c t IH]; intro H; [reflexivity|].
  cbn [scan]. rewrite (try_match_no_pair _ H). apply IH. exact (digit_pair_tail c t H).
Qed.

Lemma no_pair_no_sentence : forall lines, digit_pair (concat lines) = false -> dde_sentences lines = [].
Proof. intros lines H. unfold dde_sentences. apply scan_no_pair. exact H. Qed.

Lemma refuted_6 :
  entry_texts witness6 = Ok [([49; 48], [66; 32; 80; 73; 67; 32; 88])]
  /\ entry_texts [w6_line1'; w6_line2'; w6_line3]
     = Ok [([48; 49], [82]); ([48; 53], [65; 32; 80; 73; 67; 32; 88]); ([49; 48], [66; 32; 80; 73; 67; 32; 88])]
  /\ dde_sentences [skipn 7 w6_line1; skipn 7 w6_line2] = [].
Proof. repeat split; vm_compute; reflexivity. Qed.

(* non-vacuity of no_pair_no_sentence: the first two witness lines hold no two adjacent digits *)
Example no_pair_example : digit_pair (concat [skipn 7 w6_line1; skipn 7 w6_line2]) = false.
Proof. reflexivity. Qed.
