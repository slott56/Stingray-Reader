(* C18 for BINARY items: lemmas behind Props/C18c.v.
   The decoder returns the two's-complement reading of the field as an int, whatever the picture says: the only bound is the
   width's; the picture's digit count and its scale play no part.  Main lemmas: binary_value, signed_be_bound,
   int_result_fits_iff, binary_violation_set, halfword_violations. *)
From Coq Require Import ZArith NArith List Bool Lia Arith ZifyBool ZifyN ZifyNat.
Import ListNotations.
Require Import SR.Base.Res SR.Base.Dec SR.Spec.Encode SR.Spec.Fits SR.Model.Estruct.
Require Import SR.Proofs.EstructP.
Require Export SR.Spec.FitsBinary.
Open Scope Z_scope.

(* the value: the stored integer, for every buffer of the width *)
Lemma binary_value u p w buffer :
  In u binary_spellings -> spec_binary_width (p_int p + p_frac p) = Some w -> length buffer = w ->
  unpack u p buffer = Ok (VInt (signed_be w buffer)).
Proof.
  intros Hu Hw Hlen. destruct (usage_binary u Hu) as (H1 & H2 & H3). unfold unpack. rewrite H1, H2, H3.
  unfold unpack_binary_int. rewrite (bin_width_spec p w Hw), Hlen, Nat.eqb_refl. reflexivity.
Qed.

Lemma from_be_bound buffer : bytes_ok buffer = true -> (from_be buffer < 256 ^ N.of_nat (length buffer))%N.
Proof.
  unfold bytes_ok. induction buffer as [|b t IH] using rev_ind; intros H.
  - reflexivity.
  - rewrite forallb_app in H. apply andb_true_iff in H. destruct H as [Ht Hb]. cbn [forallb] in Hb.
    rewrite from_be_app, app_length. cbn [length]. rewrite Nat.add_1_r, Nat2N.inj_succ, N.pow_succ_r'.
    specialize (IH Ht). lia.
Qed.

Lemma signed_be_bound w buffer : (1 <= w)%nat -> length buffer = w -> bytes_ok buffer = true ->
  width_low w <= signed_be w buffer <= width_high w.
Proof.
  intros Hw Hl Hb. pose proof (from_be_bound buffer Hb) as H. rewrite Hl in H.
  destruct (half_width w Hw) as [H256 Hh]. rewrite H256 in H.
  unfold width_low, width_high, signed_be. cbv zeta. rewrite <- Hh.
  destruct (_ <? _)%N eqn:E; lia.
Qed.

(* the image of a value consists of bytes: with C02's round trip, every number of the width's range is reached *)
Lemma to_be_bytes_ok w : forall u, bytes_ok (to_be w u) = true.
Proof.
  unfold bytes_ok. induction w as [|w IH]; intros u; cbn [to_be]; [reflexivity|].
  rewrite forallb_app, IH. cbn [forallb]. assert (u mod 256 < 256)%N by (apply N.mod_lt; lia). lia.
Qed.

Lemma pow10_pos k : 0 < 10 ^ Z.of_nat k.
Proof. apply Z.pow_pos_nonneg; lia. Qed.

Lemma pow10_le a b : (a <= b)%nat -> 10 ^ Z.of_nat a <= 10 ^ Z.of_nat b.
Proof. intros H. apply Z.pow_le_mono_r; lia. Qed.

(* the number the field stores fits the picture exactly when its integer content has at most m+n digits *)
Lemma stored_fits_iff s m n v :
  fits_signed s m n (stored_number n v) = true <-> picture_low s (m + n) <= v <= picture_high (m + n).
Proof.
  unfold fits_signed, fits, sign_fits, stored_number, picture_low, picture_high. cbn [coef dexp neg].
  rewrite Z.eqb_refl. cbn [andb].
  assert (HP : Z.of_N (10 ^ N.of_nat (m + n)) = 10 ^ Z.of_nat (m + n)) by (rewrite N2Z.inj_pow, nat_N_Z; reflexivity).
  pose proof (pow10_pos (m + n)) as Hpos.
  destruct s; destruct (v <? 0) eqn:E; cbn [orb negb andb]; lia.
Qed.

Lemma in_picture_range_iff s d v : in_picture_range s d v = true <-> picture_low s d <= v <= picture_high d.
Proof. unfold in_picture_range. lia. Qed.

(* the RESULT (an int: exponent 0) fits exactly when, in addition, the picture has no fraction digits *)
Lemma int_result_fits p v :
  fits_result p (VInt v) = (p_frac p =? 0)%nat && in_picture_range (p_signed p) (p_int p + p_frac p) v.
Proof.
  cbn [fits_result]. destruct (p_frac p) as [|n'] eqn:En.
  - cbn [Nat.eqb andb]. apply eq_true_iff_eq. change (dec_of_int v) with (stored_number 0 v). rewrite stored_fits_iff, in_picture_range_iff. tauto.
  - unfold fits_signed, fits, dec_of_int. cbn [dexp]. replace (0 =? - Z.of_nat (S n')) with false by lia. reflexivity.
Qed.

Lemma int_result_fits_iff p v :
  fits_result p (VInt v) = true <->
  p_frac p = 0%nat /\ picture_low (p_signed p) (p_int p + p_frac p) <= v <= picture_high (p_int p + p_frac p).
Proof. rewrite int_result_fits, andb_true_iff, Nat.eqb_eq, in_picture_range_iff. tauto. Qed.

(* the violations are exactly the trigger set of the known finding *)
Lemma binary_violation_set u p w buffer :
  In u binary_spellings -> spec_binary_width (p_int p + p_frac p) = Some w -> length buffer = w ->
  violates u p buffer = binary_exceeds_picture p buffer.
Proof.
  intros Hu Hw Hl. unfold violates, binary_exceeds_picture.
  rewrite (binary_value u p w buffer Hu Hw Hl), int_result_fits, negb_andb, Hl. f_equal.
  destruct (p_frac p); reflexivity.
Qed.

(* the largest number of the picture's digits is below the sign bit of the width *)
Lemma picture_below_half d w : spec_binary_width d = Some w -> 10 ^ Z.of_nat d <= 2 ^ (8 * Z.of_nat w - 1).
Proof.
  rewrite spec_binary_width_iff.
  intros [[-> H]|[[-> H]|[-> H]]]; (eapply Z.le_trans; [apply pow10_le, H|]); apply Z.leb_le; reflexivity.
Qed.

Lemma halfword_buffers_complete a b : (a < 256)%N -> (b < 256)%N -> In [a; b] halfword_buffers.
Proof.
  intros Ha Hb. unfold halfword_buffers. apply in_flat_map. exists (N.to_nat a). split; [apply in_seq; lia|].
  apply in_map_iff. exists (N.to_nat b). split; [rewrite !N2Nat.id; reflexivity|apply in_seq; lia].
Qed.

Lemma count_if_acc {A} (f : A -> bool) l : forall acc,
  fold_left (fun acc x => if f x then (acc + 1)%N else acc) l acc = (acc + count_if f l)%N.
Proof.
  unfold count_if. induction l as [|x l IH]; intros acc; cbn [fold_left]; [lia|].
  rewrite IH, (IH (if f x then _ else _)). destruct (f x); lia.
Qed.

Lemma count_if_cons {A} (f : A -> bool) x l : count_if f (x :: l) = ((if f x then 1 else 0) + count_if f l)%N.
Proof. unfold count_if at 1. cbn [fold_left]. rewrite count_if_acc. destruct (f x); reflexivity. Qed.

Lemma count_if_app {A} (f : A -> bool) l1 l2 : count_if f (l1 ++ l2) = (count_if f l1 + count_if f l2)%N.
Proof.
  induction l1 as [|x l1 IH]; [reflexivity|].
  cbn [app]. rewrite !count_if_cons, IH. lia.
Qed.

(* one row of a grid, read along the single index k + b *)
Lemma count_if_row {A} (f : A -> bool) (g : nat -> A) (P : nat -> bool) k m : forall s,
  (forall b, (s <= b < s + m)%nat -> f (g b) = P (k + b)%nat) ->
  count_if f (map g (seq s m)) = count_if P (seq (k + s) m).
Proof.
  induction m as [|m IH]; intros s H; [reflexivity|].
  cbn [seq map]. rewrite !count_if_cons, H, <- Nat.add_succ_r, IH; [reflexivity| |lia].
  intros b Hb. apply H. lia.
Qed.

(* n rows of m cells are the m * n indices m * a + b, row after row *)
Lemma count_if_grid {A} (f : A -> bool) (g : nat -> nat -> A) (P : nat -> bool) m n :
  (forall a b, (a < n)%nat -> (b < m)%nat -> f (g a b) = P (m * a + b)%nat) ->
  count_if f (flat_map (fun a => map (g a) (seq 0 m)) (seq 0 n)) = count_if P (seq 0 (m * n)).
Proof.
  induction n as [|n IH]; intros H.
  - rewrite Nat.mul_0_r. reflexivity.
  - rewrite seq_S, flat_map_app, Nat.mul_succ_r, seq_app, !count_if_app, IH by (intros; apply H; lia).
    cbn [flat_map Nat.add]. rewrite app_nil_r, (count_if_row f (g n) P (m * n) m 0), Nat.add_0_r.
    + reflexivity.
    + intros b Hb. apply H; lia.
Qed.

Lemma count_if_const {A} (f : A -> bool) c l : (forall x, In x l -> f x = c) ->
  count_if f l = if c then N.of_nat (length l) else 0%N.
Proof.
  induction l as [|x l IH]; intros H; [now destruct c|].
  rewrite count_if_cons, IH, (H x) by (intros; apply H; now right) || now left. destruct c; cbn [length]; lia.
Qed.

(* of 0 .. n-1, those in lo .. hi-1: none below lo, all from lo to hi-1, none from hi on *)
Lemma count_if_interval lo hi n : (lo <= hi <= n)%nat ->
  count_if (fun x => (lo <=? x) && (x <? hi))%nat (seq 0 n) = N.of_nat (hi - lo).
Proof.
  intros H. replace n with (lo + ((hi - lo) + (n - hi)))%nat by lia. rewrite !seq_app, !count_if_app. cbn [Nat.add].
  rewrite (count_if_const _ false (seq 0 lo)), (count_if_const _ true (seq lo _)), (count_if_const _ false (seq (lo + _) _)).
  - rewrite seq_length. lia.
  - intros x Hx. apply in_seq in Hx. lia.
  - intros x Hx. apply in_seq in Hx. lia.
  - intros x Hx. apply in_seq in Hx. lia.
Qed.

(* a predicate on two-byte buffers that is an interval of the unsigned reading 256 a + b *)
Lemma halfword_count_between (f : list N -> bool) lo hi :
  0 <= lo <= hi -> hi <= 65536 ->
  (forall a b, (a < 256)%nat -> (b < 256)%nat ->
     f [N.of_nat a; N.of_nat b] = (lo <=? Z.of_nat (256 * a + b)) && (Z.of_nat (256 * a + b) <? hi)) ->
  count_if f halfword_buffers = Z.to_N (hi - lo).
Proof.
  intros Hlo Hhi H. unfold halfword_buffers.
  rewrite (count_if_grid f (fun a b => [N.of_nat a; N.of_nat b])
             (fun x => (Z.to_nat lo <=? x) && (x <? Z.to_nat hi))%nat 256 256), count_if_interval; [lia|lia|].
  intros a b Ha Hb. rewrite (H a b Ha Hb). generalize (256 * a + b)%nat. clear - Hlo. lia.
Qed.

Lemma signed_be_halfword a b :
  signed_be 2 [a; b] = if Z.of_N (256 * a + b) <? 32768 then Z.of_N (256 * a + b) else Z.of_N (256 * a + b) - 65536.
Proof.
  unfold signed_be, from_be. cbn [fold_left]. rewrite N.mul_0_r, N.add_0_l.
  change (2 ^ (8 * N.of_nat 2 - 1))%N with 32768%N. change (Z.of_N (2 * 32768)) with 65536.
  destruct (_ <? _)%N eqn:E; destruct (_ <? _) eqn:F; lia.
Qed.

(* a halfword item without fraction digits: the signed reading leaves the picture's range exactly when the unsigned
   reading x has 10^d <= x, and for a picture with S, x <= 65536 - 10^d: above that the reading x - 65536 is back in range *)
Lemma halfword_violates u p a b :
  In u binary_spellings -> spec_binary_width (p_int p + p_frac p) = Some 2%nat -> p_frac p = 0%nat ->
  (a < 256)%nat -> (b < 256)%nat ->
  violates u p [N.of_nat a; N.of_nat b]
  = (picture_high (p_int p + p_frac p) + 1 <=? Z.of_nat (256 * a + b))
    && (Z.of_nat (256 * a + b) <? 65536 + picture_low (p_signed p) (p_int p + p_frac p)).
Proof.
  intros Hu Hw Hn Ha Hb. rewrite (binary_violation_set u p 2 [N.of_nat a; N.of_nat b] Hu Hw eq_refl).
  pose proof (picture_below_half _ _ Hw) as HP. change (2 ^ (8 * Z.of_nat 2 - 1)) with 32768 in HP.
  pose proof (pow10_pos (p_int p + p_frac p)) as Hpos.
  unfold binary_exceeds_picture, in_picture_range. rewrite Hn at 1. cbn [length Nat.ltb Nat.leb orb].
  rewrite signed_be_halfword. unfold picture_low, picture_high.
  replace (Z.of_N (256 * N.of_nat a + N.of_nat b)) with (Z.of_nat (256 * a + b)) by lia.
  assert (Hx : 0 <= Z.of_nat (256 * a + b) < 65536) by lia.
  (* a statement about two integers: the unsigned reading x and t = 10^d *)
  generalize dependent (Z.of_nat (256 * a + b)). generalize dependent (10 ^ Z.of_nat (p_int p + p_frac p)).
  intros t HP Hpos x Hx. clear - HP Hpos Hx. destruct (p_signed p); destruct (x <? 32768) eqn:E; lia.
Qed.

Lemma halfword_violations u p :
  In u binary_spellings -> spec_binary_width (p_int p + p_frac p) = Some 2%nat -> p_frac p = 0%nat ->
  count_if (violates u p) halfword_buffers
  = Z.to_N (65536 + picture_low (p_signed p) (p_int p + p_frac p) - (picture_high (p_int p + p_frac p) + 1)).
Proof.
  intros Hu Hw Hn.
  pose proof (picture_below_half _ _ Hw) as HP. change (2 ^ (8 * Z.of_nat 2 - 1)) with 32768 in HP.
  pose proof (pow10_pos (p_int p + p_frac p)) as Hpos.
  apply halfword_count_between; [| |intros a b; apply halfword_violates; assumption].
  all: unfold picture_low, picture_high; destruct (p_signed p); lia.
Qed.

(* with fraction digits every buffer violates *)
Lemma halfword_violations_scaled u p :
  In u binary_spellings -> spec_binary_width (p_int p + p_frac p) = Some 2%nat -> (0 < p_frac p)%nat ->
  count_if (violates u p) halfword_buffers = 65536%N.
Proof.
  intros Hu Hw Hn. apply (halfword_count_between _ 0 65536); [lia|lia|].
  intros a b Ha Hb. rewrite (binary_violation_set u p 2 [N.of_nat a; N.of_nat b] Hu Hw eq_refl).
  unfold binary_exceeds_picture. apply Nat.ltb_lt in Hn. rewrite Hn. cbn [orb]. lia.
Qed.

