(* The layout theorem with OCCURS DEPENDING ON (C06 in general form, extending C01's development).
   An ODO table may stand anywhere a non-repeated item may stand (in the record, in nested non-repeated
   groups, in sibling groups); its counter must be an elementary non-repeated item that is not part of a
   REDEFINES union, is not inside a table and comes earlier in the record.  Items inside tables and
   inside REDEFINES unions contain no ODO (for those the proofs of LayoutP.v are reused as they are).
   The walk reads the record at the counters the tables name and nowhere else: layout_correct_odo_on asks for the count
   vector at any set of names that contains them (HoldsOn), layout_correct_odo (Holds, Spec/OdoWf.v) at every potential
   counter.  CN is the invariant added to LayoutP's: the counters met so far are anchored at elementary locations whose
   bytes give their count.  The induction is WOon_all, its children loop KSOon; WO, KSO, WO_all restate them for
   Holds, every name selected. *)
From Coq Require Import List NArith Bool Lia.
Import ListNotations.
Require Import SR.Base.Res SR.Spec.Layout SR.Model.Layout SR.Proofs.LayoutP.
Require SR.Spec.Counters.
(* The definitions that theorem statements (Props/) mention are in Spec/OdoWf.v.  The parsing-only abbreviations let
   other files write them qualified, as LayoutOdoP.wfo, LayoutOdoP.Holds. *)
Require Export SR.Spec.OdoWf.
Notation wfo := SR.Spec.OdoWf.wfo (only parsing).
Notation Holds := SR.Spec.OdoWf.Holds (only parsing).
Notation HoldsKids := SR.Spec.OdoWf.HoldsKids (only parsing).

Lemma new_counters_incl :
  (forall x, incl (new_counters x) (ids x)) /\
  (forall ks, incl (kids_counters ks) (ids_kids ks)).
Proof.
  apply item_items_ind.
  - intros i sz oc rd. destruct oc as [|n|c]; cbn [new_counters ids]; try apply incl_nil_l.
    intros a [ <- |[]]. left. reflexivity.
  - intros i oc rd ks IH. destruct oc as [|n|c]; cbn [new_counters ids]; try apply incl_nil_l.
    intros a Ha. right. apply (IH a Ha).
  - apply incl_nil_l.
  - intros x IHx xs IHxs. cbn [kids_counters ids_kids]. intros a Ha. apply in_app_or in Ha. apply in_or_app.
    destruct Ha as [Ha|Ha]; [left|right; apply (IHxs a Ha)].
    destruct (member x xs); [destruct Ha|apply IHx, Ha].
Qed.

Lemma wfo_kids_member e : forall xs avail y,
  wfo_kids e avail xs = true -> in_kids y xs -> item_redef y <> None -> wf e y = true.
Proof.
  induction xs as [|x xs IH]; intros avail y Hw Hy Hr; [destruct Hy|].
  cbn [wfo_kids] in Hw. destruct Hy as [ -> |Hy].
  - unfold member in Hw. destruct (item_redef x) as [u|]; [|contradiction].
    apply andb_true_iff in Hw. tauto.
  - destruct (member x xs); apply andb_true_iff in Hw; destruct Hw as [_ Hw]; eapply IH; eassumption.
Qed.

Lemma keys_build_o e :
  (forall x avail, wfo e avail x = true -> NoDup (ids x) -> incl (keys_js (build_alt x)) (K (ids x))) /\
  (forall ks avail, wfo_kids e avail ks = true -> NoDup (ids_kids ks) ->
     forall y, in_kids y ks -> incl (keys_js (build_alt y)) (K (ids y))).
Proof.
  apply item_items_ind.
  - intros i sz oc rd avail _ _. destruct oc as [|n|c]; cbn [build_alt elem_items keys_js keys_props js_anchor opt_list ids app];
      intros k Hk; destruct Hk as [ <- |[]]; apply K_name; left; reflexivity.
  - intros i oc rd ks IH avail Hw Hnd. cbn [ids] in Hnd.
    assert (Hndk : NoDup (ids_kids ks)) by (inversion Hnd; assumption).
    destruct oc as [|n|c].
    + cbn [wfo] in Hw. apply andb_true_iff in Hw. destruct Hw as [Hk Hu].
      rewrite (build_group_once e) by assumption. cbn [keys_js js_anchor opt_list ids app].
      apply K_own, keys_assemble_d, (IH avail Hk Hndk).
    + cbn [wfo] in Hw. apply andb_true_iff in Hw. destruct Hw as [Hk Hno].
      cbn [build_alt keys_js js_anchor opt_list ids app].
      apply K_own, (keys_plain [] ks), (proj2 (keys_build e) ks Hk Hndk).
    + destruct rd as [u|]; [discriminate|]. cbn [wfo] in Hw. apply andb_true_iff in Hw. destruct Hw as [Hw Hno].
      apply andb_true_iff in Hw. destruct Hw as [_ Hk].
      cbn [build_alt keys_js js_anchor opt_list ids app].
      apply K_own, (keys_plain [] ks), (proj2 (keys_build e) ks Hk Hndk).
  - intros avail _ _ y [].
  - intros x IHx xs IHxs avail Hw Hnd y Hy. cbn [wfo_kids] in Hw. cbn [ids_kids] in Hnd.
    assert (Hndx : NoDup (ids x)) by (apply NoDup_app_l in Hnd; exact Hnd).
    assert (Hndxs : NoDup (ids_kids xs)) by (apply NoDup_app_r in Hnd; exact Hnd).
    destruct (member x xs); apply andb_true_iff in Hw; destruct Hw as [Hwx Hwxs].
    + destruct Hy as [ -> |Hy]; [apply (proj1 (keys_build e) x Hwx Hndx)|eapply IHxs; eassumption].
    + destruct Hy as [ -> |Hy]; [eapply IHx; eassumption|eapply IHxs; eassumption].
Qed.

Section MainOdo.
  Variable B : Type.
  Variable dcount : list B -> nat.
  Variable r : list B.
  Variable e : env.
  Notation walk := (Layout.walk dcount r).
  Notation walk_props := (Layout.walk_props dcount r).
  Notation Good := (Good B dcount r e).
  Notation GoodKids := (GoodKids B dcount r e).
  Notation W := (W B dcount r e).
  Notation Holds := (Holds B dcount r e).
  Notation HoldsKids := (HoldsKids B dcount r e).
  Notation Walked := (Walked dcount r Good).
  Notation Looped := (Looped dcount r e Good).
  Notation Pending := (Pending Good).

  (* every available counter is registered as the atom that holds its value *)
  Definition CN (an : anchors) (avail : list id) : Prop :=
    forall c, In c avail -> exists cst csz,
      lookup (KName c) an = Some (LAtom cst csz) /\ dcount (slice r cst (cst + csz)) = e c.

  Lemma CN_same an an' avail :
    CN an avail -> (forall c, In c avail -> lookup (KName c) an' = lookup (KName c) an) -> CN an' avail.
  Proof.
    intros H Hl c Hc. destruct (H c Hc) as (cst & csz & Hk & Hv). exists cst, csz. split; [|exact Hv].
    rewrite (Hl c Hc). exact Hk.
  Qed.

  Lemma CN_extends an an' avail ks :
    CN an avail -> extends ks an an' -> (forall c, In c avail -> ~ In (KName c) ks) -> CN an' avail.
  Proof.
    intros H He Hd. apply (CN_same an); [exact H|]. intros c Hc. apply (extends_lookup _ _ _ _ He (Hd c Hc)).
  Qed.

  Lemma CN_lookup an avail c : CN an avail -> existsb (N.eqb c) avail = true ->
    exists cst csz, lookup (KName c) an = Some (LAtom cst csz) /\ dcount (slice r cst (cst + csz)) = e c.
  Proof. intros H Hc. apply H. apply existsb_eqb_In. exact Hc. Qed.

  Lemma CN_reg an avail i l : CN an avail -> ~ In i avail -> CN ((KName i, l) :: an) avail.
  Proof.
    intros H Hi. apply (CN_same an); [exact H|]. intros c Hc. cbn [lookup]. rewrite key_eqb_neq; [reflexivity|].
    intros E. injection E as ->. exact (Hi Hc).
  Qed.

  Lemma not_in_K c l : ~ In c l -> ~ In (KName c) (K l).
  Proof. intros H Hk. apply K_name in Hk. contradiction. Qed.

  Lemma Wall x : W x.
  Proof. exact (proj1 (W_all B dcount r e) x). Qed.

  (* items without ODO inside: everything comes from LayoutP *)
  Lemma walked_no_odo x avail st an :
    wf e x = true -> NoDup (ids x) -> (forall c, In c avail -> ~ In c (ids x)) -> CN an avail ->
    exists l an', Walked x st an l an' /\ CN an' avail.
  Proof.
    intros Hw Hnd Hd Hcn. destruct (walked_good dcount r e x st an Hw Hnd) as (l & an' & HW). exists l, an'. split; [exact HW|].
    eapply CN_extends; [exact Hcn|apply HW|]. intros c Hc. apply not_in_K, Hd, Hc.
  Qed.

  Lemma WO_of_W x avail st an :
    wf e x = true -> NoDup (ids x) -> (forall c, In c avail -> ~ In c (ids x)) -> CN an avail ->
    exists l an', walk (build_alt x) st an = Ok (l, an') /\ Good x st l an' /\ is_ref l = false
                  /\ (elem_table x = false -> lookup (KName (item_id x)) an' = Some l)
                  /\ extends (K (ids x)) an an' /\ CN an' avail.
  Proof.
    intros Hw Hnd Hd Hcn. destruct (walked_no_odo x avail st an Hw Hnd Hd Hcn) as (l & an' & HW & Hcn').
    exists l, an'. destruct HW as (H1 & H2 & H3 & H4 & H5). exact (conj H1 (conj H2 (conj H3 (conj H4 (conj H5 Hcn'))))).
  Qed.

  Lemma WO_ext x avail st an l an' :
    wfo e avail x = true -> NoDup (ids x) -> walk (build_alt x) st an = Ok (l, an') -> extends (K (ids x)) an an'.
  Proof.
    intros Hw Hnd H.
    eapply extends_mono; [apply (proj1 (walk_extends B dcount r) _ _ _ _ _ H)|apply (proj1 (keys_build_o e) x avail Hw Hnd)].
  Qed.

  (* the record is known to carry the count vector at the names p selects, p selects every counter
     some table names; the invariant CN is kept for the available counters that p selects *)
  Section On.
    Variable p : id -> bool.

    Fixpoint HoldsOn (x : item) (st : nat) {struct x} : Prop :=
      match x with
      | Elem i sz Once _ => p i = true -> dcount (slice r st (st + sz)) = e i
      | Group _ Once _ ks => HoldsKidsOn (kid_starts e ks st []) ks
      | _ => True
      end
    with HoldsKidsOn (starts : list (id * nat)) (ks : items) {struct ks} : Prop :=
      match ks with
      | INil => True
      | ICons x xs =>
          (if member x xs then True else exists o, assoc (item_id x) starts = Some o /\ HoldsOn x o)
          /\ HoldsKidsOn starts xs
      end.

    Lemma HoldsKidsOn_starts starts starts' ks :
      HoldsKidsOn starts ks -> (forall x, in_kids x ks -> assoc (item_id x) starts' = assoc (item_id x) starts) ->
      HoldsKidsOn starts' ks.
    Proof.
      induction ks as [|x xs IH]; cbn [HoldsKidsOn]; intros H Hs; [exact I|].
      destruct H as [Hx Hrest]. split.
      - destruct (member x xs); [exact I|]. destruct Hx as (o & Ho & Hh). exists o. split; [|exact Hh].
        rewrite Hs; [exact Ho|left; reflexivity].
      - apply IH; [exact Hrest|]. intros y Hy. apply Hs. right. exact Hy.
    Qed.

    Lemma HoldsKidsOn_tl x v S xs :
      ~ In (item_id x) (kid_ids xs) -> HoldsKidsOn ((item_id x, v) :: S) xs -> HoldsKidsOn S xs.
    Proof.
      intros Hx H. eapply HoldsKidsOn_starts; [exact H|]. intros y Hy. symmetry. apply assoc_cons_neq.
      intros E. apply Hx. rewrite E. apply in_kids_ids, Hy.
    Qed.

    Definition WOon (x : item) : Prop :=
      forall avail, wfo e avail x = true -> NoDup (ids x) -> (forall c, In c (filter p avail) -> ~ In c (ids x)) ->
      (forall c, In c (Counters.odo_counters x) -> p c = true) ->
      forall st an, CN an (filter p avail) -> HoldsOn x st ->
      exists l an', Walked x st an l an' /\ CN an' (filter p (avail ++ new_counters x)).

    (* kids_loop of LayoutP.v with CN threaded through: the same three cases, closed by looped_redefiner, looped_union
       and looped_plain *)
    Lemma KSOon : forall rem,
      (forall y, in_kids y rem -> WOon y) -> NoDup (ids_kids rem) ->
      forall avail bases off seen an,
        wfo_kids e avail rem = true -> unions_ok e bases rem = true ->
        (forall c, In c (filter p avail) -> ~ In c (ids_kids rem)) ->
        (forall c, In c (Counters.odo_counters_kids rem) -> p c = true) ->
        CN an (filter p avail) -> HoldsKidsOn (kid_starts e rem off seen) rem -> Pending bases seen an rem ->
        exists pls an', Looped rem off seen an pls an' /\ CN an' (filter p (avail ++ kids_counters rem)).
    Proof.
      pose proof (proj1 (Good_stable B dcount r e)) as Gst. pose proof (Good_size B dcount r e) as Gsz.
      assert (Gdi : forall x, incl (ids x) (ids x)) by (intros x; apply incl_refl).
      induction rem as [|x xs IH]; intros HW Hnd avail bases off seen an Hwf Hu Hav Hp Hcn Hh Hpend.
      - exists LPNil, an. cbn [kids_counters]. rewrite app_nil_r. split; [apply Looped_nil|exact Hcn].
      - (* every name is protected *)
        pose proof (Names_ids _ Hnd) as Hn.
        pose proof (Names_hd _ _ _ _ Hn) as Hx. pose proof (Names_tl _ _ _ _ Hn) as Hnxs.
        cbn [ids_kids] in Hnd.
        assert (Hndx : NoDup (ids x)) by (apply NoDup_app_l in Hnd; exact Hnd).
        assert (Hndxs : NoDup (ids_kids xs)) by (apply NoDup_app_r in Hnd; exact Hnd).
        assert (Havx : forall c, In c (filter p avail) -> ~ In c (ids x))
          by (intros c Hc H; apply (Hav c Hc), in_or_app; left; exact H).
        assert (Havxs : forall c, In c (filter p avail) -> ~ In c (ids_kids xs))
          by (intros c Hc H; apply (Hav c Hc), in_or_app; right; exact H).
        specialize (IH (fun y Hy => HW y (or_intror Hy)) Hndxs).
        cbn [unions_ok wfo_kids kid_starts HoldsKidsOn kids_counters Counters.odo_counters_kids] in Hu, Hwf, Hh, Hp |- *.
        destruct Hh as [Hhx Hhxs].
        assert (Hpxs : forall c, In c (Counters.odo_counters_kids xs) -> p c = true)
          by (intros c Hc; apply Hp, in_or_app; right; exact Hc).
        unfold member in *. destruct (item_redef x) as [u|] eqn:Er.
        + apply andb_true_iff in Hwf. destruct Hwf as [_ Hwfxs].
          apply andb_true_iff in Hu. destruct Hu as [Hu Huxs]. apply andb_true_iff in Hu. destruct Hu as [_ Hf].
          pose proof (assoc_find_pair u bases) as Hb.
          destruct (find (fun q => N.eqb (fst q) u) bases) as [[j extu]|]; [|discriminate].
          destruct (proj2 Hpend x u extu (or_introl eq_refl) Er (eq_sym Hb)) as (su & lx & Hsu & Hreg).
          rewrite assoc_find, Hsu in Hhxs. apply HoldsKidsOn_tl in Hhxs; [|exact Hx].
          destruct (IH avail bases off ((item_id x, su) :: seen) an Hwfxs Huxs Havxs Hpxs Hcn Hhxs
                       (pending_redefiner _ _ _ _ _ _ su Hx Hpend)) as (pls & an' & HL & Hcn').
          eexists. exists an'. split; [eapply looped_redefiner; eassumption|exact Hcn'].
        + apply HoldsKidsOn_tl in Hhxs; [|exact Hx].
          apply andb_true_iff in Hu. destruct Hu as [Het Huxs].
          destruct (existsb (N.eqb (item_id x)) (redef_targets xs)) eqn:Etg; apply andb_true_iff in Hwf; destruct Hwf as [Hwx Hwfxs].
          * (* the redefined item: it and its redefiners contain no ODO *)
            cbn [negb] in Het. rewrite orb_false_r in Het. apply negb_true_iff in Het.
            destruct (walked_good dcount r e x off an Hwx Hndx) as (lx & an1 & Hwlk).
            assert (HWr : forall y, in_kids y xs -> item_redef y = Some (item_id x) -> forall an0, exists l an', Walked y off an0 l an').
            { intros y Hy Ey an0. apply walked_good; [|eapply NoDup_ids_kid; eassumption].
              eapply wfo_kids_member; [exact Hwfxs|exact Hy|congruence]. }
            destruct (alts_walked dcount r Gst Gsz Gdi (item_id x) (extent e x) off xs HWr Hnxs
                        (unions_ok_redefiner e (item_id x) (extent e x) xs _ Huxs (assoc_cons_eq _ _ _) Hx) an1)
              as (ls & an2 & Hwa & Hmax & Hext2 & Hall).
            set (l1 := LOne off (max_size (LACons lx ls)) (LACons lx ls)).
            set (an4 := (KRedef (item_id x), l1) :: (KRedef (item_id x), l1) :: an2).
            assert (Hcn4 : CN an4 (filter p avail)).
            { apply (CN_same an2); [|reflexivity].
              eapply CN_extends; [eapply CN_extends; [exact Hcn|apply Hwlk|]|exact Hext2|].
              - intros c Hc. apply not_in_K, Havx, Hc.
              - intros c Hc. apply not_in_K. intros H. apply red_ids_incl in H. exact (Havxs c Hc H). }
            destruct (IH avail ((item_id x, extent e x) :: bases) (off + extent e x) ((item_id x, off) :: seen) an4
                        Hwfxs Huxs Havxs Hpxs Hcn4 Hhxs) as (pls & an' & HL & Hcn').
            { eapply pending_union; eassumption. }
            eexists. exists an'. split; [eapply looped_union; eassumption|exact Hcn'].
          * (* an ordinary child: may contain, or be, an ODO table; may supply counters *)
            destruct Hhx as (o & Ho & Hhold). rewrite assoc_cons_eq in Ho. injection Ho as <-.
            destruct (HW x (or_introl eq_refl) avail Hwx Hndx Havx (fun c Hc => Hp c (in_or_app _ _ c (or_introl Hc)))
                        off an Hcn Hhold) as (lx & an1 & Hwlk & Hcn1).
            destruct (IH (avail ++ new_counters x) ((item_id x, extent e x) :: bases) (off + extent e x)
                        ((item_id x, off) :: seen) (reg (js_anchor (build_alt x)) lx an1) Hwfxs Huxs)
              as (pls & an' & HL & Hcn'); try assumption.
            { intros c Hc H. rewrite filter_app in Hc. apply in_app_or in Hc. destruct Hc as [Hc|Hc]; [exact (Havxs c Hc H)|].
              apply incl_filter, (proj1 new_counters_incl) in Hc. exact (NoDup_app_disj _ _ _ Hnd Hc H). }
            { apply (CN_same an1); [exact Hcn1|]. intros c _. apply (walked_reg Hwlk). }
            { eapply pending_plain; eassumption. }
            eexists. exists an'. split; [eapply looped_plain; eassumption|].
            rewrite <- app_assoc in Hcn'. exact Hcn'.
    Qed.

    Theorem WOon_all : (forall x, WOon x) /\ (forall ks y, in_kids y ks -> WOon y).
    Proof.
      apply item_items_ind.
      - intros i sz oc rd avail Hw Hnd Hav Hp st an Hcn Hh.
        assert (Hi : ~ In i (filter p avail)) by (intros H; exact (Hav i H (or_introl eq_refl))).
        destruct oc as [|n|c].
        + (* a fixed item is walked as in LayoutP; it is a counter from here on *)
          destruct (walked_no_odo (Elem i sz Once rd) _ st an eq_refl Hnd Hav Hcn) as (l & an' & HW & Hcn').
          exists l, an'. split; [exact HW|]. cbn [new_counters]. rewrite filter_app. intros c0 Hc0. apply in_app_or in Hc0.
          destruct Hc0 as [Hc0|Hc0]; [exact (Hcn' c0 Hc0)|].
          cbn [filter] in Hc0. destruct (p i) eqn:Ep; [|destruct Hc0]. destruct Hc0 as [ <- |[]].
          destruct HW as (_ & (_ & _ & ->) & _ & Hl & _). exists st, sz. split; [apply Hl; reflexivity|apply Hh, Ep].
        + destruct (walked_no_odo (Elem i sz (Times n) rd) _ st an eq_refl Hnd Hav Hcn) as (l & an' & H).
          exists l, an'. cbn [new_counters]. rewrite app_nil_r. exact H.
        + destruct rd as [u|]; [discriminate|]. cbn [wfo] in Hw.
          destruct (Hcn c) as (cst & csz & Hl & Hv).
          { apply filter_In. split; [apply existsb_eqb_In, Hw|apply Hp; left; reflexivity]. }
          unfold LayoutP.Walked. cbn [build_alt new_counters]. rewrite app_nil_r. unfold elem_items.
          rewrite walk_odo, Hl, walk_obj, walk_props_cons, walk_atom, walk_props_nil.
          cbn [js_anchor reg lsize]. rewrite sub_add_cancel, Hv.
          eexists. eexists. split; [split; [reflexivity|split; [|split; [reflexivity|split; [intros H; discriminate|]]]]|].
          * cbn [LayoutP.Good lstart lsize]. unfold extent. cbn [item_oc count ext1]. split; [reflexivity|]. split; [lia|].
            eexists. reflexivity.
          * exists [(KName i, LAtom st sz); (KName i, LAtom st sz)]. split; [reflexivity|].
            intros k Hk. cbn [map fst] in Hk. destruct Hk as [ <- |[ <- |[]]]; apply K_name; left; reflexivity.
          * apply CN_reg; [apply CN_reg|]; assumption.
      - intros i oc rd ks IH avail Hw Hnd Hav Hp st an Hcn Hh.
        cbn [ids] in Hnd. assert (Hndk : NoDup (ids_kids ks)) by (inversion Hnd; assumption).
        assert (Hik : ~ In i (ids_kids ks)) by (inversion Hnd; assumption).
        assert (Havk : forall c, In c (filter p avail) -> ~ In c (ids_kids ks)) by (intros c Hc H; apply (Hav c Hc); right; exact H).
        assert (Hi : ~ In i (filter p avail)) by (intros H; exact (Hav i H (or_introl eq_refl))).
        assert (Hown : forall l an1, extends (K (ids_kids ks)) an an1 ->
                  extends (K (ids (Group i oc rd ks))) an (reg (Some (KName i)) l an1)).
        { intros l an1 Hext. eapply extends_chain; [eapply extends_mono; [exact Hext|apply K_incl, incl_tl, incl_refl]|].
          apply extends_reg. intros k [ <- |[]]. apply K_name. left. reflexivity. }
        destruct oc as [|n|c].
        + cbn [wfo] in Hw. apply andb_true_iff in Hw. destruct Hw as [Hwk Hu].
          unfold LayoutP.Walked. rewrite (build_group_once e) by assumption. rewrite walk_obj. cbn [HoldsOn] in Hh.
          destruct (KSOon ks IH Hndk avail [] st [] an Hwk Hu Havk Hp Hcn Hh) as (pls & an1 & (Hwp & Hgk & Hext) & Hcn1);
            [split; [reflexivity|discriminate]|].
          rewrite Hwp, sub_add_cancel. eexists. eexists.
          split; [split; [reflexivity|split; [|split; [reflexivity|split]]]|].
          * cbn [LayoutP.Good lstart lsize]. unfold extent. cbn [item_oc count ext1]. split; [reflexivity|]. split; [lia|].
            exists pls. split; [reflexivity|]. eapply (proj2 (Good_stable B dcount r e)); [apply Kids_GoodKids, Hgk|].
            intros j Hj. cbn [reg lookup]. rewrite key_eqb_neq; [reflexivity|]. intros E. injection E as ->. contradiction.
          * intros _. cbn [item_id reg]. apply lookup_cons_same.
          * apply Hown, Hext.
          * cbn [new_counters reg]. apply CN_reg; [exact Hcn1|]. intros H. rewrite filter_app in H. apply in_app_or in H.
            destruct H as [H|H]; [exact (Hi H)|]. apply incl_filter, (proj2 new_counters_incl) in H. contradiction.
        + cbn [wfo] in Hw. apply andb_true_iff in Hw. destruct Hw as [Hwk Hno].
          assert (Hold : wf e (Group i (Times n) rd ks) = true).
          { cbn [wf item_oc no_odo]. rewrite Hwk. unfold no_targets in Hno. cbn [andb]. destruct (redef_targets ks); [reflexivity|discriminate]. }
          destruct (walked_no_odo _ _ st an Hold Hnd Hav Hcn) as (l & an' & H).
          exists l, an'. cbn [new_counters]. rewrite app_nil_r. exact H.
        + destruct rd as [u|]; [discriminate|]. cbn [wfo] in Hw. apply andb_true_iff in Hw. destruct Hw as [Hw Hno].
          apply andb_true_iff in Hw. destruct Hw as [Hc Hwk].
          assert (Hnot : redef_targets ks = []) by (unfold no_targets in Hno; destruct (redef_targets ks); [reflexivity|discriminate]).
          destruct (Hcn c) as (cst & csz & Hl & Hv).
          { apply filter_In. split; [apply existsb_eqb_In, Hc|apply Hp; left; reflexivity]. }
          (* one occurrence: no ODO inside, every name protected *)
          assert (HWk : forall y, in_kids y ks -> forall st0 an1, exists l an', Walked y st0 an1 l an').
          { intros y Hy st0 an1. apply walked_good; [eapply wf_kids_in|eapply NoDup_ids_kid]; eassumption. }
          pose proof (occ_loop dcount r (proj1 (Good_stable B dcount r e)) (Good_size B dcount r e) (fun x => incl_refl (ids x))
                        ks HWk (Names_ids ks Hndk) Hnot) as Hocc.
          unfold LayoutP.Walked. cbn [build_alt new_counters]. rewrite app_nil_r. fold (occ_schema ks). rewrite walk_odo, Hl.
          destruct (Hocc st an) as (pls & an1 & Hwo & _ & Hext). rewrite Hwo, Hv. cbn [lsize].
          eexists. eexists. split; [split; [reflexivity|split; [|split; [reflexivity|split]]]|].
          * cbn [LayoutP.Good lstart lsize]. unfold extent. cbn [item_oc count ext1]. split; [reflexivity|]. split; [lia|].
            eexists. split; [reflexivity|]. intros st'. destruct (Hocc st' []) as (ps & an' & Hw' & Hk' & _).
            exists ps, an'. split; [exact Hw'|apply Kids_GoodKids, Hk'].
          * intros _. cbn [item_id reg]. apply lookup_cons_same.
          * apply Hown, Hext.
          * cbn [reg]. apply CN_reg; [|exact Hi].
            eapply CN_extends; [exact Hcn|exact Hext|]. intros c0 Hc0. apply not_in_K, Havk, Hc0.
      - intros y [].
      - intros x IHx xs IHxs y [ -> |Hy]; [exact IHx|apply IHxs; exact Hy].
    Qed.

    (* C06 in general form: ODO tables anywhere a non-repeated item may stand; the record need carry the count vector
       only where some table looks for it *)
    Theorem layout_correct_odo_on (t : item) :
      wfo e [] t = true -> NoDup (ids t) -> (forall c, In c (Counters.odo_counters t) -> p c = true) -> HoldsOn t 0 ->
      exists v0, nav_of dcount r (build t) = Ok v0
        /\ lstart (n_loc v0) = 0 /\ lend (n_loc v0) = extent e t
        /\ forall q v st, spec_nav e (VItem t) 0 q = inl (v, st) ->
             exists nv, nav_path dcount r v0 q = Ok nv
               /\ lstart (n_loc nv) = st /\ lend (n_loc nv) = st + view_size e v
               /\ nav_raw r nv = slice r st (st + view_size e v)
               /\ (forall x, v = VItem x -> is_table x = true ->
                     forall i, count e (item_oc x) <= i -> nav_index dcount r nv i = Err IndexError).
    Proof.
      intros Hw Hnd Hp Hh.
      destruct (proj1 WOon_all t [] Hw Hnd (fun c H => match H with end) Hp 0 [] (fun c H => match H with end) Hh)
        as (l & an & (Hwalk & Hg & _) & _).
      exact (root_layout B dcount r e t l an Hwalk Hg).
    Qed.
  End On.

  (* with every name selected this is the hypothesis Holds of Spec/OdoWf.v *)
  Lemma Holds_on_all :
    (forall x st, HoldsOn (fun _ => true) x st <-> Holds x st) /\
    (forall ks starts, HoldsKidsOn (fun _ => true) starts ks <-> HoldsKids starts ks).
  Proof.
    apply item_items_ind.
    - intros i sz [|n|c] rd st; cbn [HoldsOn OdoWf.Holds]; tauto.
    - intros i [|n|c] rd ks IH st; cbn [HoldsOn OdoWf.Holds]; [apply IH|tauto|tauto].
    - intros starts. cbn [HoldsKidsOn OdoWf.HoldsKids]. tauto.
    - intros x IHx xs IHxs starts. cbn [HoldsKidsOn OdoWf.HoldsKids]. rewrite IHxs.
      destruct (member x xs); [tauto|]. split; intros [(o & Ho & H) Hr]; (split; [exists o; split; [exact Ho|apply IHx, H]|exact Hr]).
  Qed.

  Lemma filter_all (l : list id) : filter (fun _ => true) l = l.
  Proof. induction l as [|a l IH]; cbn [filter]; [reflexivity|]. rewrite IH. reflexivity. Qed.

  Lemma HoldsKids_starts starts starts' ks :
    HoldsKids starts ks -> (forall x, in_kids x ks -> assoc (item_id x) starts' = assoc (item_id x) starts) ->
    HoldsKids starts' ks.
  Proof. rewrite <- !(proj2 Holds_on_all). apply HoldsKidsOn_starts. Qed.

  Definition WO (x : item) : Prop :=
    forall avail, wfo e avail x = true -> NoDup (ids x) -> (forall c, In c avail -> ~ In c (ids x)) ->
    forall st an, CN an avail -> Holds x st ->
    exists l an', walk (build_alt x) st an = Ok (l, an') /\ Good x st l an' /\ is_ref l = false
                  /\ (elem_table x = false -> lookup (KName (item_id x)) an' = Some l)
                  /\ extends (K (ids x)) an an'
                  /\ CN an' (avail ++ new_counters x).

  Lemma WO_on_all x : WOon (fun _ => true) x <-> WO x.
  Proof.
    unfold WOon, WO, LayoutP.Walked. split; intros H avail Hw Hnd Hav.
    - intros st an Hcn Hh. rewrite <- (filter_all avail) in Hav, Hcn. apply Holds_on_all in Hh.
      destruct (H avail Hw Hnd Hav (fun _ _ => eq_refl) st an Hcn Hh) as (l & an' & HW & Hcn').
      rewrite filter_all in Hcn'. exists l, an'. tauto.
    - intros _ st an Hcn Hh. rewrite filter_all in *. apply Holds_on_all in Hh.
      destruct (H avail Hw Hnd Hav st an Hcn Hh) as (l & an' & HW). exists l, an'. tauto.
  Qed.

  Lemma KSO : forall rem,
    (forall y, in_kids y rem -> WO y) -> NoDup (ids_kids rem) ->
    forall avail bases off seen an,
      wfo_kids e avail rem = true -> unions_ok e bases rem = true ->
      (forall c, In c avail -> ~ In c (ids_kids rem)) -> CN an avail ->
      HoldsKids (kid_starts e rem off seen) rem ->
      (forall u ext, assoc u bases = Some ext -> exists su, assoc u seen = Some su) ->
      (forall i, In i (kid_ids rem) -> assoc i seen = None) ->
      (forall y u ext, in_kids y rem -> item_redef y = Some u -> assoc u bases = Some ext ->
         exists su ly, assoc u seen = Some su /\ lookup (KName (item_id y)) an = Some ly
                       /\ Good y su ly an /\ is_ref ly = false) ->
      exists pls an',
        walk_props (assemble_d rem) off an = Ok (pls, off + kids_extent e rem, an')
        /\ GoodKids (kid_starts e rem off seen) pls an' rem
        /\ extends (K (ids_kids rem)) an an'
        /\ CN an' (avail ++ kids_counters rem).
  Proof.
    intros rem HW Hnd avail bases off seen an Hwf Hu Hav Hcn Hh _ Hseen INV.
    rewrite <- (filter_all avail) in Hav, Hcn. apply Holds_on_all in Hh.
    destruct (KSOon (fun _ => true) rem (fun y Hy => proj2 (WO_on_all y) (HW y Hy)) Hnd avail bases off seen an Hwf Hu Hav
                (fun _ _ => eq_refl) Hcn Hh (conj Hseen INV)) as (pls & an' & (Hwp & Hgk & Hext) & Hcn').
    rewrite filter_all in Hcn'. exists pls, an'. split; [exact Hwp|]. split; [apply Kids_GoodKids, Hgk|split; assumption].
  Qed.

  Theorem WO_all : (forall x, WO x) /\ (forall ks y, in_kids y ks -> WO y).
  Proof. split; [intros x|intros ks y Hy]; apply WO_on_all; [apply WOon_all|eapply WOon_all, Hy]. Qed.

  (* C06 in general form: ODO tables anywhere a non-repeated item may stand *)
  Theorem layout_correct_odo (t : item) :
    wfo e [] t = true -> NoDup (ids t) -> Holds t 0 ->
    exists v0, nav_of dcount r (build t) = Ok v0
      /\ lstart (n_loc v0) = 0 /\ lend (n_loc v0) = extent e t
      /\ forall p v st, spec_nav e (VItem t) 0 p = inl (v, st) ->
           exists nv, nav_path dcount r v0 p = Ok nv
             /\ lstart (n_loc nv) = st /\ lend (n_loc nv) = st + view_size e v
             /\ nav_raw r nv = slice r st (st + view_size e v)
             /\ (forall x, v = VItem x -> is_table x = true ->
                   forall i, count e (item_oc x) <= i -> nav_index dcount r nv i = Err IndexError).
  Proof. intros Hw Hnd Hh. apply (layout_correct_odo_on (fun _ => true) t Hw Hnd (fun _ _ => eq_refl)), Holds_on_all, Hh. Qed.
End MainOdo.
