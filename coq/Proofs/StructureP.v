(* Model/Structure.v for property C07.
   The state of the stack walk, flattened outermost frame first (stflat), is the list of the kept
   entries read so far, and the parent pointers laid out the same way (stpars) are those of the nearest
   earlier entry with a smaller level (msp).  A step on a kept entry is the pop loop with the entry opened
   below what it leaves (land), then the REDEFINES marking (mark); both keep this (pop_inv, mark_inv, hence
   step_inv).  What structure() returns is the last state closed (finish_flat), and the roots are the
   positions without a pointer (root_pos_nones). *)
From Coq Require Import NArith List Bool Lia Arith ZifyBool.
Import ListNotations.
Require Import SR.Base.Res SR.Spec.Dde SR.Model.Structure.
Require Import SR.Gen.StructureParams.
Require SR.Proofs.ListFactsP.
(* Spec/StructureWf.v holds the definitions that theorem statements (Props/) mention; the parsing-only abbreviations
   let other files write them StructureP.name as well. *)
Require Export SR.Spec.StructureWf.
Notation levels_of := SR.Spec.StructureWf.levels_of (only parsing).
Notation kept_of := SR.Spec.StructureWf.kept_of (only parsing).
Open Scope nat_scope.
(* ZifyBool sets a post-hook that searches for boolean constraints at every lia call, here and in every file that
   requires this one; no lia of this file needs it *)
Ltac Zify.zify_post_hook ::= idtac.

(* ================================================================= what the source says (T1)

   Model/Structure.v is parameterised by Gen/StructureParams.v, which harness/t1_text.py regenerates from
   DDE.__init__ and structure() of src/stingray/cobol_parser.py on every run.  The lemmas of this section
   state in closed form what the model is for the values the proofs below were written for; each is
   proved by computation, so it stops compiling when the source changes the FILLER literals, the
   format FILLER-n of the generated names, the increment, the level that resets the counter, the reset at
   the start of structure(), the set of skipped levels or the comparison of the pop loop. *)

(* name = clauses.get(name) or clauses.get(filler) or the literal FILLER; that literal is what is numbered *)
Lemma naming_literals : default_name = FILLER /\ filler_name = FILLER.
Proof. split; reflexivity. Qed.

Lemma dde_name_eq : forall e,
  dde_name e = match ename e with
               | Some n => n
               | None => match efill e with Some f => f | None => FILLER end
               end.
Proof. reflexivity. Qed.

Lemma is_filler_eq : forall e, is_filler e = str_eqb (dde_name e) FILLER.
Proof. reflexivity. Qed.

(* unique_name = FILLER-n *)
Lemma gen_name_eq : forall n, gen_name n = FILLER_dash ++ dec n.
Proof. intro n. unfold gen_name. change gen_suffix with (@nil N). rewrite app_nil_r. reflexivity. Qed.

(* the counter is set to zero by a level-01 entry, and by nothing else, before it is advanced by one *)
Lemma is_reset_eq : forall l, is_reset l = lvl_eqb l L01.
Proof. intro l. unfold is_reset. change reset_levels with [L01]. cbn [existsb]. apply orb_false_r. Qed.

Lemma mk_ddes_eq : forall c e r,
  mk_ddes c (e :: r) =
  let c0 := if lvl_eqb (elv e) L01 then 0%N else c in
  if is_filler e then {| de := e; du := gen_name (c0 + 1) |} :: mk_ddes (c0 + 1) r
  else {| de := e; du := dde_name e |} :: mk_ddes c0 r.
Proof. intros c e r. cbn [mk_ddes]. rewrite is_reset_eq. reflexivity. Qed.

(* structure() starts the numbering from zero whatever the counter was: with this flag [structure l] runs on [mk_ddes 0 l] *)
Lemma structure_resets : reset_at_start = true.
Proof. reflexivity. Qed.

(* the loop skips the levels 66, 77 and 88 *)
Lemma skipped_eq : forall d, skipped d = lvl_eqb (dlv d) L66 || lvl_eqb (dlv d) L77 || lvl_eqb (dlv d) L88.
Proof.
  intro d. unfold skipped. change skipped_levels with [L66; L77; L88]. cbn [existsb].
  rewrite orb_false_r, orb_assoc. reflexivity.
Qed.

(* the pop loop compares node.level <= bottom.level *)
Lemma pop_test_eq : forall a b, pop_test a b = lvl_leb a b.
Proof. reflexivity. Qed.

(* ================================================================= strings, decimal numerals *)

Lemma str_eqb_eq : forall a b, str_eqb a b = true <-> a = b.
Proof. exact ListFactsP.Nlist_eqb_eq. Qed.

Lemma str_eqb_refl : forall a, str_eqb a a = true.
Proof. intro a. apply str_eqb_eq. reflexivity. Qed.

Fixpoint val_lsb (l : list N) : N :=
  match l with [] => 0%N | d :: t => ((d - 48) + 10 * val_lsb t)%N end.

Lemma dec_lsb_val : forall f n, (n < N.of_nat f)%N -> val_lsb (dec_lsb f n) = n.
Proof.
  induction f as [|f IH]; intros n Hn; [lia|].
  cbn [dec_lsb]. destruct (n <? 10)%N eqn:E; cbn [val_lsb]; rewrite (N.add_comm 48), N.add_sub.
  - apply N.ltb_lt in E. rewrite N.mod_small by exact E. apply N.add_0_r.
  - apply N.ltb_ge in E. rewrite IH by (apply N.div_lt_upper_bound; lia).
    rewrite N.add_comm. symmetry. apply N.div_mod. discriminate.
Qed.

Lemma dec_inj : forall n m, dec n = dec m -> n = m.
Proof.
  intros n m H. unfold dec in H.
  apply (f_equal (@rev N)) in H. rewrite !rev_involutive in H.
  apply (f_equal val_lsb) in H.
  rewrite !dec_lsb_val in H by lia. exact H.
Qed.

Lemma gen_name_inj : forall n m, gen_name n = gen_name m -> n = m.
Proof. intros n m H. rewrite !gen_name_eq in H. apply app_inv_head in H. apply dec_inj. exact H. Qed.

(* ================================================================= naming *)

Lemma mk_ddes_cons : forall e c, exists d c1, de d = e /\ forall r, mk_ddes c (e :: r) = d :: mk_ddes c1 r.
Proof.
  intros e c. cbn [mk_ddes]. destruct (is_filler e); eexists; eexists; (split; [|intro r; reflexivity]); reflexivity.
Qed.

Lemma users_cons : forall e r,
  users (e :: r) = if is_filler e then users r else dde_name e :: users r.
Proof. intros. unfold users. cbn [filter]. destruct (is_filler e); reflexivity. Qed.

Lemma mk_ddes_names_in : forall l c c' u, (c' <= c)%N -> Forall no01 l -> In u (map du (mk_ddes c l)) ->
  (exists k, (c' < k)%N /\ u = gen_name k) \/ In u (users l).
Proof.
  induction l as [|e r IH]; intros c c' u Hc Hl Hin; [destruct Hin|].
  apply Forall_cons_iff in Hl. destruct Hl as [He Hr].
  rewrite mk_ddes_eq in Hin. unfold no01 in He. rewrite He in Hin. cbv zeta in Hin. rewrite users_cons.
  destruct (is_filler e); destruct Hin as [Hu | Hin].
  - left. exists (c + 1)%N. split; [lia | symmetry; exact Hu].
  - apply (IH (c + 1)%N); [lia | exact Hr | exact Hin].
  - right. left. exact Hu.
  - destruct (IH c c' u Hc Hr Hin) as [H | H]; [left; exact H | right; right; exact H].
Qed.

(* one record: the counter may be reset by the first entry only *)
Lemma names_distinct : forall (c : N) (l : list entry),
  Forall no01 (tl l) -> NoDup (users l) -> Forall not_generated (users l) ->
  NoDup (map du (mk_ddes c l)).
Proof.
  intros c l. revert c. induction l as [|e r IH]; intros c Hl Hnd Hng; [constructor|].
  cbn [tl] in Hl. rewrite mk_ddes_eq. cbv zeta. rewrite users_cons in Hnd, Hng.
  set (c0 := if lvl_eqb (elv e) L01 then 0%N else c).
  assert (Hr : Forall no01 (tl r)) by (destruct Hl; [constructor | assumption]).
  destruct (is_filler e); cbn [map du].
  - constructor; [|apply IH; assumption].
    intro Hin. destruct (mk_ddes_names_in _ _ _ _ (N.le_refl _) Hl Hin) as [(k & Hk & Hu) | Hu].
    + apply gen_name_inj in Hu. lia.
    + rewrite Forall_forall in Hng. exact (Hng _ Hu (c0 + 1)%N eq_refl).
  - apply NoDup_cons_iff in Hnd. destruct Hnd as [Hn1 Hn2].
    apply Forall_cons_iff in Hng. destruct Hng as [Hg1 Hg2].
    constructor; [|apply IH; assumption].
    intro Hin. destruct (mk_ddes_names_in _ _ _ _ (N.le_refl _) Hl Hin) as [(k & Hk & Hu) | Hu].
    + exact (Hg1 k Hu).
    + exact (Hn1 Hu).
Qed.

Lemma mk_ddes_01 : forall c e r, lvl_eqb (elv e) L01 = true -> mk_ddes c (e :: r) = mk_ddes 0 (e :: r).
Proof. intros c e r H. rewrite !mk_ddes_eq. rewrite H. reflexivity. Qed.

Lemma mk_ddes_de : forall l c, map de (mk_ddes c l) = l.
Proof.
  induction l as [|e r IH]; intro c; cbn [mk_ddes map].
  - reflexivity.
  - destruct (is_filler e); cbn [map de]; rewrite IH; reflexivity.
Qed.

(* ================================================================= the order on levels, levels as numbers *)

Lemma lvl_leb_total : forall a b, lvl_leb a b = false -> lvl_leb b a = true.
Proof. intros [a1 a2] [b1 b2]. unfold lvl_leb. cbn [fst snd]. lia. Qed.

Lemma lvl_leb_trans : forall a b c, lvl_leb a b = true -> lvl_leb b c = true -> lvl_leb a c = true.
Proof. intros [a1 a2] [b1 b2] [c1 c2]. unfold lvl_leb. cbn [fst snd]. lia. Qed.

(* a digit character is 48 + its value, and a two-digit level (48 + x1, 48 + x2) has the number 10 x1 + x2:
   with that the comparisons below are about numbers, with no truncated subtraction left for lia *)
Lemma is_digit_add : forall x, is_digit (48 + x)%N = (x <? 10)%N.
Proof. intro x. unfold is_digit. lia. Qed.

Lemma is_digit_val : forall c, is_digit c = true -> exists x, c = (48 + x)%N /\ (x < 10)%N.
Proof. intros c H. exists (c - 48)%N. unfold is_digit in H. lia. Qed.

Lemma lvl_num_val : forall x1 x2, lvl_num (48 + x1, 48 + x2)%N = (10 * x1 + x2)%N.
Proof. intros. unfold lvl_num. cbn [fst snd]. rewrite !(N.add_comm 48), !N.add_sub. reflexivity. Qed.

Lemma two_digits_val : forall a, two_digits a = true ->
  exists x1 x2, a = (48 + x1, 48 + x2)%N /\ (x1 < 10)%N /\ (x2 < 10)%N.
Proof.
  intros [a1 a2] H. unfold two_digits in H. cbn [fst snd] in H. apply andb_true_iff in H. destruct H as [H1 H2].
  apply is_digit_val in H1, H2. destruct H1 as (x1 & -> & X1), H2 as (x2 & -> & X2). exists x1, x2. auto.
Qed.

Lemma lvl_leb_num : forall a b, two_digits a = true -> two_digits b = true ->
  lvl_leb a b = negb (lvl_num b <? lvl_num a)%N.
Proof.
  intros a b Ha Hb.
  destruct (two_digits_val a Ha) as (x1 & x2 & -> & X1 & X2), (two_digits_val b Hb) as (y1 & y2 & -> & Y1 & Y2).
  rewrite !lvl_num_val. unfold lvl_leb. cbn [fst snd]. lia.
Qed.

Lemma lvl_eqb_num : forall a b, two_digits a = true -> two_digits b = true ->
  lvl_eqb a b = (lvl_num a =? lvl_num b)%N.
Proof.
  intros a b Ha Hb.
  destruct (two_digits_val a Ha) as (x1 & x2 & -> & X1 & X2), (two_digits_val b Hb) as (y1 & y2 & -> & Y1 & Y2).
  rewrite !lvl_num_val. unfold lvl_eqb. cbn [fst snd]. lia.
Qed.

Definition digits_ok (d : dde) : Prop := two_digits (dlv d) = true.

Lemma keep_num : forall d, digits_ok d -> keep d = kept_level (lvl_num (dlv d)).
Proof.
  intros d H. unfold keep. rewrite skipped_eq. unfold kept_level, L66, L77, L88.
  rewrite !lvl_eqb_num by (exact H || reflexivity). reflexivity.
Qed.

Lemma mk_ddes_digits : forall l c, Forall (fun e => two_digits (elv e) = true) l -> Forall digits_ok (mk_ddes c l).
Proof.
  intros l c H. rewrite <- (mk_ddes_de l c), Forall_map in H. exact H.
Qed.

Lemma kept_of_digits : forall l, Forall (fun e => two_digits (elv e) = true) l -> Forall digits_ok (kept_of l).
Proof.
  intros l H. apply (mk_ddes_digits l 0%N) in H. unfold kept_of.
  destruct H as [|d r Hd Hr]; constructor; [exact Hd | exact (incl_Forall (incl_filter keep r) Hr)].
Qed.

Lemma filter_keep_num : forall l, Forall digits_ok l ->
  map de (filter keep l) = filter (fun e => kept_level (lvl_num (elv e))) (map de l).
Proof.
  induction 1 as [|d r Hd Hr IH]; [reflexivity|].
  cbn [filter map]. rewrite (keep_num d Hd). unfold dlv.
  destruct (kept_level (lvl_num (elv (de d)))); cbn [map]; rewrite IH; reflexivity.
Qed.

(* the entries that become nodes: the first one, then those of a level other than 66, 77, 88 *)
Lemma kept_of_entries : forall e r, Forall (fun e => two_digits (elv e) = true) r ->
  map de (kept_of (e :: r)) = e :: filter (fun e => kept_level (lvl_num (elv e))) r.
Proof.
  intros e r H. unfold kept_of. destruct (mk_ddes_cons e 0%N) as (d & c1 & <- & M). rewrite M.
  cbn [map]. rewrite filter_keep_num, mk_ddes_de by (apply mk_ddes_digits; exact H). reflexivity.
Qed.

(* ================================================================= flattening a state *)

Definition fflat (f : frame) : list dde := fd f :: preorder_f (fkids f).

Fixpoint sflat (st : list frame) : list dde :=
  match st with
  | [] => []
  | f :: outer => sflat outer ++ fflat f
  end.

Definition stflat (s : state) : list dde := preorder_f (roots s) ++ sflat (cur s :: rest s).

Definition fpars (p : option nat) (i : nat) (f : frame) : list (option nat) :=
  p :: parents_f (Some i) (S i) (fkids f).

Fixpoint spars (n0 : nat) (st : list frame) : list (option nat) :=
  match st with
  | [] => []
  | f :: outer =>
      spars n0 outer ++
      fpars (match outer with [] => None | _ :: o' => Some (n0 + length (sflat o')) end)
            (n0 + length (sflat outer)) f
  end.

Definition stpars (s : state) : list (option nat) :=
  parents_f None 0 (roots s) ++ spars (length (preorder_f (roots s))) (cur s :: rest s).

Section ForestInd.
  Variables (Q : tree -> Prop) (R : list tree -> Prop).
  Hypothesis Hnode : forall d b kids, R kids -> Q (TNode d b kids).
  Hypothesis Hnil : R [].
  Hypothesis Hcons : forall t f, Q t -> R f -> R (t :: f).
  Fixpoint tree_forest_ind (t : tree) : Q t :=
    match t with
    | TNode d b kids =>
        Hnode d b kids ((fix go (ks : list tree) : R ks :=
                           match ks with
                           | [] => Hnil
                           | k :: r => Hcons k r (tree_forest_ind k) (go r)
                           end) kids)
    end.
  Lemma forest_ind : forall f, R f.
  Proof. induction f as [|t f IH]; [exact Hnil | exact (Hcons t f (tree_forest_ind t) IH)]. Qed.
End ForestInd.

Lemma preorder_f_cons : forall t f, preorder_f (t :: f) = preorder t ++ preorder_f f.
Proof. reflexivity. Qed.

Lemma preorder_f_app : forall a b, preorder_f (a ++ b) = preorder_f a ++ preorder_f b.
Proof. intros. unfold preorder_f. apply flat_map_app. Qed.

Lemma preorder_f_one : forall t, preorder_f [t] = preorder t.
Proof. intro t. unfold preorder_f. cbn [flat_map]. apply app_nil_r. Qed.

Lemma preorder_node : forall d b kids, preorder (TNode d b kids) = d :: preorder_f kids.
Proof. reflexivity. Qed.

Lemma preorder_close : forall f, preorder (close f) = fflat f.
Proof. reflexivity. Qed.

Lemma parents_t_eq : forall p i d b kids,
  parents_t p i (TNode d b kids) = p :: parents_f (Some i) (S i) kids.
Proof.
  intros p i d b kids. cbn [parents_t]. f_equal.
  generalize (S i). induction kids as [|k ks IH]; intro j.
  - reflexivity.
  - cbn [parents_f]. rewrite IH. reflexivity.
Qed.

Lemma parents_f_cons : forall p i t f,
  parents_f p i (t :: f) = parents_t p i t ++ parents_f p (i + length (preorder t)) f.
Proof. reflexivity. Qed.

Lemma parents_f_app : forall a b p i,
  parents_f p i (a ++ b) = parents_f p i a ++ parents_f p (i + length (preorder_f a)) b.
Proof.
  induction a as [|t a IH]; intros b p i.
  - cbn [app parents_f preorder_f flat_map length]. rewrite Nat.add_0_r. reflexivity.
  - cbn [app]. rewrite !parents_f_cons, IH, preorder_f_cons, app_length, <- app_assoc.
    rewrite Nat.add_assoc. reflexivity.
Qed.

Lemma parents_f_one : forall p i t, parents_f p i [t] = parents_t p i t.
Proof. intros. cbn [parents_f]. apply app_nil_r. Qed.

Lemma parents_close : forall p i f, parents_t p i (close f) = fpars p i f.
Proof. intros. unfold close. rewrite parents_t_eq. reflexivity. Qed.

Lemma parents_f_length : forall f p i, length (parents_f p i f) = length (preorder_f f).
Proof.
  apply (forest_ind (fun t => forall p i, length (parents_t p i t) = length (preorder t))
                    (fun f => forall p i, length (parents_f p i f) = length (preorder_f f))).
  - intros d b kids IH p i. rewrite parents_t_eq, preorder_node. cbn [length]. rewrite IH. reflexivity.
  - reflexivity.
  - intros t f Ht Hf p i. rewrite parents_f_cons, preorder_f_cons, !app_length, Ht, Hf. reflexivity.
Qed.

Lemma parents_t_length : forall t p i, length (parents_t p i t) = length (preorder t).
Proof.
  intros [d b kids] p i. rewrite parents_t_eq, preorder_node. cbn [length]. rewrite parents_f_length. reflexivity.
Qed.

(* the pointer of a frame below the frames outer *)
Definition frame_par (n0 : nat) (outer : list frame) : option nat :=
  match outer with [] => None | _ :: o' => Some (n0 + length (sflat o')) end.

Lemma spars_cons : forall n0 f outer,
  spars n0 (f :: outer) = spars n0 outer ++ fpars (frame_par n0 outer) (n0 + length (sflat outer)) f.
Proof. reflexivity. Qed.

Lemma sflat_attach : forall c p o, sflat (attach (close c) p :: o) = sflat (c :: p :: o).
Proof.
  intros c p o. cbn [sflat]. unfold fflat. cbn [attach fd fkids].
  rewrite preorder_f_app, preorder_f_one, preorder_close. unfold fflat.
  rewrite <- app_assoc. reflexivity.
Qed.

Lemma spars_attach : forall n0 c p o, spars n0 (attach (close c) p :: o) = spars n0 (c :: p :: o).
Proof.
  intros n0 c p o. rewrite !spars_cons, <- app_assoc. f_equal.
  unfold fpars at 1. cbn [attach fd fkids frame_par].
  rewrite parents_f_app, parents_f_one, parents_close.
  cbn [sflat]. unfold fflat. rewrite app_length. cbn [length].
  rewrite Nat.add_assoc, Nat.add_succ_r. reflexivity.
Qed.

Lemma collapse_flat : forall r c n0,
  preorder (collapse c r) = sflat (c :: r) /\ parents_t None n0 (collapse c r) = spars n0 (c :: r).
Proof.
  induction r as [|p o IH]; intros c n0; cbn [collapse].
  - rewrite preorder_close, parents_close. cbn [sflat spars app length].
    rewrite Nat.add_0_r. split; reflexivity.
  - rewrite <- sflat_attach, <- spars_attach. apply IH.
Qed.

Lemma finish_flat : forall s, preorder_f (finish s) = stflat s /\ parents (finish s) = stpars s.
Proof.
  intro s. unfold finish, parents, stflat, stpars.
  destruct (collapse_flat (rest s) (cur s) (length (preorder_f (roots s)))) as [H1 H2].
  rewrite preorder_f_app, parents_f_app, preorder_f_one, parents_f_one, Nat.add_0_l, H1, H2. split; reflexivity.
Qed.

Lemma stflat_open : forall R d st,
  stflat {| roots := R; cur := open d; rest := st |} = (preorder_f R ++ sflat st) ++ [d].
Proof. intros. exact (app_assoc _ (sflat st) [d]). Qed.

Lemma stpars_open : forall R d st,
  stpars {| roots := R; cur := open d; rest := st |}
  = (parents_f None 0 R ++ spars (length (preorder_f R)) st) ++ [frame_par (length (preorder_f R)) st].
Proof. intros. exact (app_assoc _ (spars _ st) [_]). Qed.

(* ================================================================= nearest smaller level, model order *)

Fixpoint ns (revp : list dde) (x : lvl) : option nat :=
  match revp with
  | [] => None
  | y :: r => if lvl_leb x (dlv y) then ns r x else Some (length r)
  end.

Fixpoint msp_from (revp : list dde) (l : list dde) : list (option nat) :=
  match l with
  | [] => []
  | d :: r => ns revp (dlv d) :: msp_from (d :: revp) r
  end.
Definition msp (P : list dde) : list (option nat) := msp_from [] P.

Lemma msp_from_app : forall a b rp, msp_from rp (a ++ b) = msp_from rp a ++ msp_from (rev a ++ rp) b.
Proof.
  induction a as [|d a IH]; intros b rp.
  - reflexivity.
  - cbn [app msp_from rev]. rewrite IH, <- app_assoc. reflexivity.
Qed.

Lemma msp_snoc : forall P d, msp (P ++ [d]) = msp P ++ [ns (rev P) (dlv d)].
Proof. intros. unfold msp. rewrite msp_from_app, app_nil_r. reflexivity. Qed.

Lemma msp_from_length : forall l rp, length (msp_from rp l) = length l.
Proof. induction l as [|d r IH]; intro rp; cbn [msp_from length]; [reflexivity | rewrite IH; reflexivity]. Qed.

Definition lv_ge (x : lvl) (l : list dde) : Prop := Forall (fun d => lvl_leb x (dlv d) = true) l.

Lemma ns_skip : forall x l r, lv_ge x l -> ns (rev l ++ r) x = ns r x.
Proof.
  intros x l r H. apply Forall_rev in H. induction H as [|d l' Hd Hl IH].
  - reflexivity.
  - cbn [app ns]. rewrite Hd. exact IH.
Qed.

Lemma ns_none : forall x l, lv_ge x l -> ns (rev l) x = None.
Proof. intros x l H. rewrite <- (app_nil_r (rev l)). exact (ns_skip x l [] H). Qed.

(* a frame that x closes, together with what lies between it and the next frame outward *)
Lemma lv_ge_close : forall x c between, lvl_leb x (dlv (fd c)) = true -> lv_ge x (preorder_f (fkids c)) ->
  lv_ge (dlv (fd c)) between -> lv_ge x (between ++ fflat c).
Proof.
  intros x c between Hx Hk Hb. apply Forall_app. split.
  - eapply Forall_impl; [|exact Hb]. intros d Hd. exact (lvl_leb_trans _ _ _ Hx Hd).
  - constructor; assumption.
Qed.

(* the innermost frame that x does not close is the nearest entry with a smaller level *)
Lemma ns_stop : forall x rf c r, lv_ge x (preorder_f (fkids c)) -> lvl_leb x (dlv (fd c)) = false ->
  ns (rev (rf ++ sflat (c :: r))) x = Some (length (rf ++ sflat r)).
Proof.
  intros x rf c r Hk Hx. cbn [sflat]. unfold fflat.
  rewrite app_assoc, rev_app_distr. cbn [rev]. rewrite <- app_assoc, ns_skip by exact Hk.
  cbn [app ns]. rewrite Hx, rev_length. reflexivity.
Qed.

(* rf = the entries of the closed trees; outer frames have smaller levels, and everything that lies
   between an outer frame and the next inner one has a level at least that of the inner one *)
Fixpoint chain_ok (c : frame) (rest : list frame) (rf : list dde) : Prop :=
  match rest with
  | [] => lv_ge (dlv (fd c)) rf
  | p :: o => lvl_leb (dlv (fd c)) (dlv (fd p)) = false
              /\ lv_ge (dlv (fd c)) (preorder_f (fkids p))
              /\ chain_ok p o rf
  end.

Lemma chain_ok_fd : forall c c' r rf, fd c = fd c' -> chain_ok c r rf -> chain_ok c' r rf.
Proof. intros c c' r rf H. destruct r; cbn [chain_ok]; rewrite H; auto. Qed.

(* ================================================================= marking keeps the shape *)

Lemma mark_shape : forall tgt kids kids', mark_unique tgt kids = Some kids' ->
  preorder_f kids' = preorder_f kids /\ forall q i, parents_f q i kids' = parents_f q i kids.
Proof.
  intros tgt kids kids' H. unfold mark_unique in H.
  destruct (filter (name_is tgt) kids) as [|? [|? ?]]; try discriminate.
  injection H as <-.
  set (g := fun t => if name_is tgt t then set_based t else t).
  assert (Hg : forall t, preorder (g t) = preorder t /\ forall q i, parents_t q i (g t) = parents_t q i t).
  { intros [d b ks]. unfold g. destruct (name_is tgt (TNode d b ks)); split; reflexivity. }
  induction kids as [|k ks [IH1 IH2]]; [split; reflexivity|].
  destruct (Hg k) as [G1 G2]. cbn [map]. split.
  - rewrite !preorder_f_cons, G1, IH1. reflexivity.
  - intros q i. rewrite !parents_f_cons, G1, G2, IH2. reflexivity.
Qed.

Lemma mark_unique_count : forall tgt kids,
  match mark_unique tgt kids with
  | Some _ => length (filter (name_is tgt) kids) = 1
  | None => length (filter (name_is tgt) kids) <> 1
  end.
Proof.
  intros tgt kids. unfold mark_unique.
  destruct (filter (name_is tgt) kids) as [|a [|b r]]; cbn [length]; lia.
Qed.

(* ================================================================= one step in two halves *)

(* A kept entry d is opened below what the pop loop has left (land); then the child that its REDEFINES
   clause names is marked (mark). *)
Definition land (R : list tree) (d : dde) (o : (frame * list frame) + tree) : state :=
  match o with
  | inl (b, q) => {| roots := R; cur := open d; rest := b :: q |}
  | inr t => {| roots := R ++ [t]; cur := open d; rest := [] |}
  end.

Definition mark (s : state) : res state :=
  match rest s, eredef (de (fd (cur s))) with
  | b :: q, Some tgt =>
      match mark_unique tgt (fkids b) with
      | Some k => Ok {| roots := roots s; cur := cur s; rest := {| fd := fd b; fkids := k |} :: q |}
      | None => Err ValueError
      end
  | _, _ => Ok s
  end.

Lemma step_eq : forall s d,
  step s d = if skipped d then Ok s else mark (land (roots s) d (pop (dlv d) (cur s) (rest s))).
Proof. intros s d. unfold step. destruct (skipped d), (pop (dlv d) (cur s) (rest s)) as [[b q]|t]; reflexivity. Qed.

(* ================================================================= the invariant *)

Definition Inv (s : state) (P : list dde) : Prop :=
  stflat s = P /\ stpars s = msp P /\ fkids (cur s) = []
  /\ chain_ok (cur s) (rest s) (preorder_f (roots s)).

Lemma inv_init : forall d, Inv {| roots := []; cur := open d; rest := [] |} [d].
Proof.
  intro d. unfold Inv, stflat, stpars. cbn. repeat split. constructor.
Qed.

(* d opened below c, the innermost frame with a smaller level: that frame is the nearest such entry *)
Lemma inv_open : forall d R c r P,
  lvl_leb (dlv d) (dlv (fd c)) = false -> lv_ge (dlv d) (preorder_f (fkids c)) -> chain_ok c r (preorder_f R) ->
  preorder_f R ++ sflat (c :: r) = P -> parents_f None 0 R ++ spars (length (preorder_f R)) (c :: r) = msp P ->
  Inv {| roots := R; cur := open d; rest := c :: r |} (P ++ [d]).
Proof.
  intros d R c r P E Hk Hc Hf Hp.
  pose proof (ns_stop (dlv d) (preorder_f R) c r Hk E) as Hn. rewrite Hf, app_length in Hn.
  unfold Inv. rewrite stflat_open, stpars_open, msp_snoc, Hn, Hf, Hp. repeat split; assumption.
Qed.

(* The pop loop for d, then d opened.  The frames the loop closes have levels not below d's, and so has all
   that lies between them; when it closes every frame no entry so far has a smaller level, d starts a tree
   and the new roots are what finish makes of the stack. *)
Lemma pop_inv : forall d R P r c,
  lv_ge (dlv d) (preorder_f (fkids c)) -> chain_ok c r (preorder_f R) ->
  preorder_f R ++ sflat (c :: r) = P -> parents_f None 0 R ++ spars (length (preorder_f R)) (c :: r) = msp P ->
  Inv (land R d (pop (dlv d) c r)) (P ++ [d]).
Proof.
  intros d R P. induction r as [|p o IH]; intros c Hk Hc Hf Hp;
    cbn [pop]; rewrite pop_test_eq; destruct (lvl_leb (dlv d) (dlv (fd c))) eqn:E;
    try (apply inv_open; assumption).
  - assert (Hge : lv_ge (dlv d) P) by (rewrite <- Hf; apply lv_ge_close; assumption).
    destruct (finish_flat {| roots := R; cur := c; rest := [] |}) as [F1 F2].
    unfold finish, parents, stflat, stpars in F1, F2. cbn [roots cur rest collapse] in F1, F2.
    unfold Inv, land. rewrite stflat_open, stpars_open, msp_snoc, ns_none by exact Hge.
    cbn [sflat spars frame_par roots cur rest chain_ok]. rewrite !app_nil_r, F1, F2, Hf, Hp.
    repeat split. exact Hge.
  - destruct Hc as (Hlt & Hge & Hc). apply IH.
    + cbn [attach fkids]. rewrite preorder_f_app, preorder_f_one. apply lv_ge_close; assumption.
    + apply (chain_ok_fd p); [reflexivity | exact Hc].
    + rewrite sflat_attach. exact Hf.
    + rewrite spars_attach. exact Hp.
Qed.

Lemma land_inv : forall s P d, Inv s P -> Inv (land (roots s) d (pop (dlv d) (cur s) (rest s))) (P ++ [d]).
Proof.
  intros s P d (Hf & Hp & Hk & Hc). apply pop_inv; try assumption. rewrite Hk. constructor.
Qed.

Lemma mark_inv : forall s P s', Inv s P -> mark s = Ok s' -> Inv s' P.
Proof.
  intros [R c [|b r]] P s' HI H; unfold mark in H; cbn [roots cur rest] in H.
  { injection H as <-. exact HI. }
  destruct (eredef (de (fd c))) as [tgt|]; [|injection H as <-; exact HI].
  destruct (mark_unique tgt (fkids b)) as [k|] eqn:Em; [|discriminate]. injection H as <-.
  destruct (mark_shape _ _ _ Em) as [M1 M2]. revert HI. unfold Inv, stflat, stpars.
  cbn [roots cur rest chain_ok]. rewrite !spars_cons. cbn [sflat frame_par]. unfold fflat, fpars. cbn [fd fkids].
  rewrite M1, M2. intros (H1 & H2 & H3 & H4 & H5 & H6). repeat split; try assumption.
  apply (chain_ok_fd b); [reflexivity | exact H6].
Qed.

Lemma step_inv : forall s P d s', Inv s P -> step s d = Ok s' ->
  Inv s' (if keep d then P ++ [d] else P).
Proof.
  intros s P d s' HI Hs. rewrite step_eq in Hs. unfold keep. destruct (skipped d); cbn [negb].
  - injection Hs as <-. exact HI.
  - exact (mark_inv _ _ _ (land_inv s P d HI) Hs).
Qed.

Lemma run_inv : forall l s P s', Inv s P -> run s l = Ok s' -> Inv s' (P ++ filter keep l).
Proof.
  induction l as [|d r IH]; intros s P s' HI Hr; cbn [run filter] in *.
  - injection Hr as <-. rewrite app_nil_r. exact HI.
  - destruct (step s d) as [s1|e] eqn:Es; [|discriminate].
    apply (step_inv _ _ _ _ HI) in Es. apply (IH _ _ _ Es) in Hr.
    destruct (keep d); [rewrite <- app_assoc in Hr|]; exact Hr.
Qed.

Lemma structure_ddes_shape : forall d r f, structure_ddes (d :: r) = Ok f ->
  preorder_f f = d :: filter keep r /\ parents f = msp (d :: filter keep r).
Proof.
  intros d r f H. cbn [structure_ddes] in H.
  destruct (run {| roots := []; cur := open d; rest := [] |} r) as [s|e] eqn:E; [|discriminate].
  injection H as <-. destruct (run_inv _ _ _ _ (inv_init d) E) as (Hf & Hp & _).
  destruct (finish_flat s) as [F1 F2]. rewrite F1, F2, Hf, Hp. split; reflexivity.
Qed.

(* ================================================================= from the model order to level numbers *)

Fixpoint sp_from (rp : list N) (l : list N) : list (option nat) :=
  match l with
  | [] => []
  | x :: r => nearest_smaller rp x :: sp_from (x :: rp) r
  end.

Lemma spec_parent_at : forall pre x suf,
  spec_parent (pre ++ x :: suf) (length pre) = nearest_smaller (rev pre) x.
Proof.
  intros pre x suf. unfold spec_parent. rewrite nth_error_app2, Nat.sub_diag by lia. cbn [nth_error].
  rewrite firstn_app, Nat.sub_diag, firstn_all. cbn [firstn]. rewrite app_nil_r. reflexivity.
Qed.

Lemma spec_parents_from : forall l pre,
  map (spec_parent (pre ++ l)) (seq (length pre) (length l)) = sp_from (rev pre) l.
Proof.
  induction l as [|x r IH]; intro pre; [reflexivity|].
  cbn [length seq map sp_from]. rewrite spec_parent_at. f_equal.
  specialize (IH (pre ++ [x])). rewrite <- app_assoc, app_length, Nat.add_1_r, rev_unit in IH. exact IH.
Qed.

Lemma spec_parents_sp : forall K, spec_parents K = sp_from [] K.
Proof. intro K. exact (spec_parents_from K []). Qed.

Lemma ns_num : forall rp x, Forall digits_ok rp -> two_digits x = true ->
  ns rp x = nearest_smaller (levels_of rp) (lvl_num x).
Proof.
  intros rp x H Hx. induction H as [|y r Hy Hr IH]; [reflexivity|].
  cbn [ns levels_of map nearest_smaller]. rewrite (lvl_leb_num x (dlv y) Hx Hy), IH.
  unfold levels_of. rewrite map_length. destruct (lvl_num (dlv y) <? lvl_num x)%N; reflexivity.
Qed.

Lemma msp_num : forall l rp, Forall digits_ok rp -> Forall digits_ok l ->
  msp_from rp l = sp_from (levels_of rp) (levels_of l).
Proof.
  intros l rp Hrp Hl. revert rp Hrp. induction Hl as [|d r Hd Hr IH]; intros rp Hrp; [reflexivity|].
  cbn [msp_from levels_of map sp_from]. rewrite ns_num by assumption. f_equal.
  apply (IH (d :: rp)). constructor; assumption.
Qed.

Lemma msp_spec : forall K, Forall digits_ok K -> msp K = spec_parents (levels_of K).
Proof. intros K H. rewrite spec_parents_sp. apply (msp_num K []); [constructor | exact H]. Qed.

Lemma least_level_root : forall x K k, Forall (fun y => (x <= y)%N) K -> nth_error K k = Some x ->
  spec_parent K k = None.
Proof.
  intros x K k H Hk. unfold spec_parent. rewrite Hk.
  rewrite <- (firstn_skipn k K) in H. apply Forall_app, proj1, Forall_rev in H.
  induction H as [|y r Hy Hr IH]; [reflexivity|].
  cbn [nearest_smaller]. destruct (y <? x)%N eqn:E; [lia | exact IH].
Qed.

(* ================================================================= the roots are the positions without a pointer *)

Fixpoint nones_from (i : nat) (l : list (option nat)) : list nat :=
  match l with
  | [] => []
  | None :: r => i :: nones_from (S i) r
  | Some _ :: r => nones_from (S i) r
  end.

Lemma nones_from_app : forall a b i, nones_from i (a ++ b) = nones_from i a ++ nones_from (i + length a) b.
Proof.
  induction a as [|x a IH]; intros b i; cbn [app nones_from length].
  - rewrite Nat.add_0_r. reflexivity.
  - rewrite IH, Nat.add_succ_r. destruct x; reflexivity.
Qed.

Lemma spec_roots_nones : forall (g : nat -> option nat) n i,
  filter (fun k => match g k with None => true | Some _ => false end) (seq i n) = nones_from i (map g (seq i n)).
Proof.
  intros g. induction n as [|n IH]; intro i; [reflexivity|].
  cbn [seq filter map nones_from]. rewrite IH. destruct (g i); reflexivity.
Qed.

Lemma spec_roots_eq : forall K, spec_roots K = nones_from 0 (spec_parents K).
Proof. intro K. apply spec_roots_nones. Qed.

Lemma nones_kids : forall f q i j, nones_from j (parents_f (Some q) i f) = [].
Proof.
  apply (forest_ind (fun t => forall q i j, nones_from j (parents_t (Some q) i t) = [])
                    (fun f => forall q i j, nones_from j (parents_f (Some q) i f) = [])).
  - intros d b kids IH q i j. rewrite parents_t_eq. apply IH.
  - reflexivity.
  - intros t f Ht Hf q i j. rewrite parents_f_cons, nones_from_app, Ht, Hf. reflexivity.
Qed.

Lemma root_pos_nones : forall f i, root_pos i f = nones_from i (parents_f None i f).
Proof.
  induction f as [|[d b kids] f IH]; intro i; [reflexivity|].
  cbn [root_pos]. rewrite parents_f_cons, nones_from_app, parents_t_eq, preorder_node.
  cbn [nones_from length]. rewrite parents_f_length, nones_kids, <- IH. reflexivity.
Qed.

Lemma structure_full : forall (l : list entry) (f : list tree),
  Forall (fun e => two_digits (elv e) = true) l ->
  structure l = Ok f ->
  preorder_f f = kept_of l
  /\ parents f = spec_parents (levels_of (kept_of l))
  /\ root_pos 0 f = spec_roots (levels_of (kept_of l)).
Proof.
  intros l f Hd H. apply kept_of_digits, msp_spec in Hd.
  unfold structure in H. unfold kept_of in *.
  destruct (mk_ddes 0 l) as [|d r]; [discriminate|].
  destruct (structure_ddes_shape _ _ _ H) as [H1 H2]. rewrite Hd in H2.
  rewrite root_pos_nones, spec_roots_eq. fold (parents f). rewrite H2. repeat split. exact H1.
Qed.

(* ================================================================= when structure() raises *)

(* the one way a step fails: a kept entry below some open node carries a redefines clause and the
   number of children of that node (so far) with the target name is not one *)
Lemma step_err : forall s d e, step s d = Err e <->
  e = ValueError /\ keep d = true /\
  exists b r' tgt, pop (dlv d) (cur s) (rest s) = inl (b, r') /\ eredef (de d) = Some tgt
                   /\ length (filter (name_is tgt) (fkids b)) <> 1.
Proof.
  intros s d e. pose proof (fun tgt b => mark_unique_count tgt (fkids b)) as M. unfold step, keep. split.
  - destruct (skipped d); [discriminate|]. destruct (pop (dlv d) (cur s) (rest s)) as [[b r']|t]; [|discriminate].
    destruct (eredef (de d)) as [tgt|]; [|discriminate]. specialize (M tgt b).
    destruct (mark_unique tgt (fkids b)); [discriminate|]. intro H. injection H as <-.
    repeat split. exists b, r', tgt. repeat split. exact M.
  - intros (-> & Hk & b & r' & tgt & -> & -> & Hn). destruct (skipped d); [discriminate Hk|].
    specialize (M tgt b). destruct (mark_unique tgt (fkids b)); [contradiction | reflexivity].
Qed.

Lemma run_err : forall l s e, run s l = Err e -> e = ValueError.
Proof.
  induction l as [|d r IH]; intros s e H; cbn [run] in H; [discriminate|].
  destruct (step s d) as [s1|e1] eqn:Es; [exact (IH _ _ H)|].
  injection H as <-. apply step_err in Es. apply Es.
Qed.

Lemma run_no_redefines : forall l s, Forall (fun d => eredef (de d) = None) l -> exists s', run s l = Ok s'.
Proof.
  induction l as [|d r IH]; intros s H; [eexists; reflexivity|].
  apply Forall_cons_iff in H. destruct H as [Hd Hr]. cbn [run].
  destruct (step s d) as [s1|e] eqn:Es; [apply IH; exact Hr|].
  apply step_err in Es. destruct Es as (_ & _ & ? & ? & ? & _ & H & _). congruence.
Qed.

Lemma structure_no_redefines : forall l, l <> [] -> Forall (fun e => eredef e = None) l ->
  exists f, structure l = Ok f.
Proof.
  intros [|e r] Hne H; [congruence|]. unfold structure.
  rewrite <- (mk_ddes_de (e :: r) 0%N), Forall_map in H.
  destruct (mk_ddes_cons e 0%N) as (d & c1 & _ & M). rewrite M in *. cbn [structure_ddes].
  apply Forall_cons_iff, proj2 in H.
  destruct (run_no_redefines _ {| roots := []; cur := open d; rest := [] |} H) as [s' ->].
  eexists. reflexivity.
Qed.
