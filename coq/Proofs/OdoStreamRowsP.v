(* The rows of a file of variable-length records, for any family of record descriptions.
   A family meets the file readers through one interface, [framed dcount schema r v] (Spec/OdoGeneralWf.v): on every
   buffer that begins with record r the schema walk gives navigator v, and v ends where r ends.
   Here: set_schema, which every reader starts with, never fails; over the interface, the row loop on the read-ahead
   buffer of RECFM_N; the readers (N; V, VB and F, which deliver whole records) for a family given by a predicate on
   (count vector, record) whose members are framed, the form in which the flat family (Proofs/OdoStreamP.v) and the
   general one (Proofs/OdoStreamGeneralP.v) use them. *)
From Coq Require Import NArith List Bool Lia Arith.
Import ListNotations.
Require Import SR.Base.Res SR.Gen.RecfmParams SR.Spec.Recfm SR.Model.Recfm SR.Proofs.RecfmP.
Require Import SR.Model.Layout SR.Spec.OdoStream SR.Model.OdoStream SR.Spec.OdoGeneralWf.
Require Import SR.Proofs.LayoutP.
Open Scope nat_scope.

Lemma Forall2_concat {X Y} (P : X -> Y -> Prop) : forall xss yss,
  Forall2 (Forall2 P) xss yss -> Forall2 P (concat xss) (concat yss).
Proof.
  intros xss yss H. induction H as [|xs ys xss yss H1 H IH]; [constructor|].
  cbn [concat]. apply Forall2_app; assumption.
Qed.

(* COBOL_EBCDIC_Sheet.set_schema under the rules read from the source (Gen/LayoutParams.v: set_schema_catches,
   set_schema_caught_lrecl), since fix 64e9f81: a ValueError of from_schema() leaves lrecl None *)
Lemma set_schema_unf {A} (dcount : list A -> nat) lrecl s :
  set_schema dcount lrecl s =
  match lrecl with
  | Some (S n) => Ok (S n)
  | _ => match from_schema dcount s with
         | Ok l => Ok (lend l)
         | Err ValueError => Ok 0
         | Err e => Err e
         end
  end.
Proof.
  unfold set_schema, set_schema_with. destruct lrecl as [[|n]|]; try reflexivity;
    (destruct (from_schema dcount s) as [l|[]]; reflexivity).
Qed.

Lemma from_schema_odo {A} (dcount : list A -> nat) s : js_has_odo s = true -> from_schema dcount s = Err ValueError.
Proof. intros H. unfold from_schema. rewrite H. reflexivity. Qed.

Lemma set_schema_none {A} (dcount : list A -> nat) lrecl s :
  lrecl = None \/ lrecl = Some 0 -> js_has_odo s = true -> set_schema dcount lrecl s = Ok 0.
Proof. intros [-> | ->] H; rewrite set_schema_unf, (from_schema_odo dcount s H); reflexivity. Qed.

Definition only_value_error {X} (x : res X) : Prop := match x with Ok _ => True | Err ex => ex = ValueError end.

Section NoOdo.
  Variable B : Type.
  Variable dcount : list B -> nat.
  Variables r r' : list B.

  (* the record is read by the DependsOnArraySchema case only, and without that case the only way to fail is the
     empty oneOf (max() of an empty sequence: ValueError) *)
  Lemma walk_no_odo :
    (forall s, js_has_odo s = false -> forall st an,
       walk dcount r' s st an = walk dcount r s st an /\ only_value_error (walk dcount r s st an)) /\
    (forall ps, props_have_odo ps = false -> forall off an,
       walk_props dcount r' ps off an = walk_props dcount r ps off an /\ only_value_error (walk_props dcount r ps off an)) /\
    (forall alts, alts_have_odo alts = false -> forall st an,
       walk_alts dcount r' alts st an = walk_alts dcount r alts st an /\ only_value_error (walk_alts dcount r alts st an)).
  Proof.
    apply js_props_alts_ind.
    - intros a sz _ st an. rewrite !walk_atom. split; [reflexivity|exact I].
    - intros a n its IH H st an. destruct (IH H st an) as [E V].
      rewrite (walk_arr B dcount r'), (walk_arr B dcount r), E. split; [reflexivity|].
      destruct (walk dcount r its st an) as [[sub an1]|ex]; [exact I|exact V].
    - intros a c its IH H. discriminate.
    - intros a ps IH H st an. destruct (IH H st an) as [E V].
      rewrite (walk_obj B dcount r'), (walk_obj B dcount r), E. split; [reflexivity|].
      destruct (walk_props dcount r ps st an) as [[[pls off] an1]|ex]; [exact I|exact V].
    - intros a [|s0 rest] IH H st an; [rewrite !walk_one_nil; split; reflexivity|]. destruct (IH H st an) as [E V].
      rewrite (walk_one B dcount r'), (walk_one B dcount r), E. split; [reflexivity|].
      destruct (walk_alts dcount r (ACons s0 rest) st an) as [[als an1]|ex]; [exact I|exact V].
    - intros t _ st an. rewrite !walk_ref. split; [reflexivity|exact I].
    - intros _ off an. rewrite !walk_props_nil. split; [reflexivity|exact I].
    - intros k s IHs rest IHr H off an. cbn [js_has_odo props_have_odo alts_have_odo] in H.
      apply orb_false_iff in H as [H1 H2]. destruct (IHs H1 off an) as [E V].
      rewrite (walk_props_cons B dcount r'), (walk_props_cons B dcount r), E.
      destruct (walk dcount r s off an) as [[pl an1]|ex]; [|split; [reflexivity|exact V]].
      destruct (IHr H2 (off + lsize pl) (reg (js_anchor s) pl an1)) as [E2 V2]. rewrite E2. split; [reflexivity|].
      destruct (walk_props dcount r rest (off + lsize pl) (reg (js_anchor s) pl an1)) as [[[rl o2] an2]|ex]; [exact I|exact V2].
    - intros _ st an. rewrite !walk_alts_nil. split; [reflexivity|exact I].
    - intros s IHs rest IHr H st an. cbn [js_has_odo props_have_odo alts_have_odo] in H.
      apply orb_false_iff in H as [H1 H2]. destruct (IHs H1 st an) as [E V].
      rewrite (walk_alts_cons B dcount r'), (walk_alts_cons B dcount r), E.
      destruct (walk dcount r s st an) as [[l an1]|ex]; [|split; [reflexivity|exact V]].
      destruct (IHr H2 st an1) as [E2 V2]. rewrite E2. split; [reflexivity|].
      destruct (walk_alts dcount r rest st an1) as [[ls an2]|ex]; [exact I|exact V2].
  Qed.
End NoOdo.

(* from_schema() raises nothing but ValueError: for an ODO array (there is no instance to fetch the counter from) and
   for an empty oneOf *)
Lemma from_schema_errors {A} (dcount : list A -> nat) (s : js) : only_value_error (from_schema dcount s).
Proof.
  unfold from_schema. destruct (js_has_odo s) eqn:Eo; [reflexivity|].
  destruct (proj1 (walk_no_odo A dcount [] []) s Eo
              (LayoutRule.eval (LayoutRule.env_start LayoutParams.from_schema_default) LayoutParams.from_schema_start) [])
    as [_ Hw].
  destruct (walk dcount [] s _ []) as [[l an]|ex]; [exact I|exact Hw].
Qed.

(* so COBOL_EBCDIC_Sheet.set_schema, which catches ValueError, never raises, whatever the schema and the lrecl argument *)
Lemma set_schema_total_any {A} (dcount : list A -> nat) (lrecl : option nat) (s : js) :
  exists l, set_schema dcount lrecl s = Ok l.
Proof.
  rewrite set_schema_unf. pose proof (from_schema_errors dcount s) as H.
  destruct (from_schema dcount s) as [l|ex]; [|cbn in H; subst ex]; destruct lrecl as [[|n]|]; eexists; reflexivity.
Qed.

(* what the consumer of RECFM_N takes from the windows the specification describes *)
Lemma heads_spec_bufs {A} (B : nat) : forall (rs : list (list A)),
  legal_N B rs = true -> heads (map (@length A) rs) (spec_bufs B (concat rs) (map (@length A) rs)) = rs.
Proof.
  induction rs as [|r rs IH]; intros HL; [reflexivity|]. apply legal_N_cons in HL as [Hr HL].
  cbn [map concat spec_bufs]. unfold heads in *. cbn [combine map fst snd].
  rewrite skipn_exact, (IH HL), firstn_firstn, Nat.min_l, firstn_exact by lia. reflexivity.
Qed.

(* one turn of the row loop: Row() is built on the whole buffer, the end of its navigator is announced *)
Lemma row_loop_cons {A} (dcount : list A -> nat) f mode kind B schema (s s1 : st A) v :
  buf s <> [] -> nav_of dcount (buf s) schema = Ok v -> lend (n_loc v) <> 0 ->
  N_step mode kind B s (lend (n_loc v)) = Ok s1 ->
  row_loop dcount (S f) mode kind B schema s
  = let '(l, fi, s2) := row_loop dcount f mode kind B schema s1 in (mkrow (buf s) v :: l, fi, s2).
Proof.
  intros Hb Hn Hu Hs. cbn [row_loop]. rewrite Hn, Hs, (proj2 (Nat.eqb_neq _ 0) Hu).
  destruct (buf s); [contradiction|reflexivity].
Qed.

Section AbstractRows.
  Context {A : Type}.
  Variable dcount : list A -> nat.
  Variable schema : js.
  Notation framed := (framed dcount schema).

  Lemma framed_self r v : framed r v -> nav_of dcount r schema = Ok v.
  Proof. intros [H _]. specialize (H []). rewrite app_nil_r in H. exact H. Qed.

  Section Loop.
  Variable B : nat.
  Hypothesis Bpos : 0 < B.
  Variable kind : N.

  Lemma row_loop_abs : forall (rs : list (list A)) (vs : list nav) (s : st A) (fuel : nat),
    Forall2 framed rs vs -> Inv B s -> stream s = concat rs -> legal_N B rs = true ->
    length rs < fuel ->
    exists rows s', row_loop dcount fuel 0 kind B schema s = (rows, Done, s')
      /\ map (@row_buf A) rows = spec_bufs B (concat rs) (map (@length A) rs)
      /\ map (@row_nav A) rows = vs
      /\ buf s' = [] /\ rest s' = [].
  Proof.
    induction rs as [|r rs IH]; intros vs s [|f] HF HI HS HL Hfuel; try (now apply Nat.nlt_0_r in Hfuel);
      inversion HF as [|? v ? vs' [Hfr Hend] HF']; subst.
    - apply app_eq_nil in HS as [Hb Hr]. exists [], s. cbn [row_loop]. rewrite Hb. repeat split; assumption.
    - apply legal_N_cons in HL as [Hr HL]. cbn [length] in Hfuel.
      destruct (consume B Bpos kind s r (concat rs) HI HS Hr) as (Hb & Hne & Hstep & HI' & HS').
      destruct (IH vs' _ f HF' HI' HS' HL) as (rows & s' & Hrun & Hbufs & Hnavs & Hend'); [lia|].
      exists (mkrow (buf s) v :: rows), s'.
      rewrite (row_loop_cons dcount f 0 kind B schema s (RecfmP.step B s (length r)) v Hne), Hrun.
      + cbn [map row_buf row_nav spec_bufs concat]. rewrite Hbufs, Hnavs, skipn_exact, HI, HS.
        repeat split; apply Hend'.
      + rewrite Hb. apply Hfr.
      + lia.
      + rewrite Hend. exact Hstep.
  Qed.

  Lemma stream_N_any_buffer_abs (rs : list (list A)) (vs : list nav) :
    Forall2 framed rs vs -> legal_N B rs = true ->
    exists rows s',
      row_loop dcount (S (length (write_N rs))) 0 kind B schema (N_init B (write_N rs)) = (rows, Done, s')
      /\ map (@row_buf A) rows = spec_bufs B (write_N rs) (map (@length A) rs)
      /\ heads (map (@length A) rs) (map (@row_buf A) rows) = rs
      /\ map (@row_nav A) rows = vs
      /\ buf s' = [] /\ rest s' = [].
  Proof.
    intros HF HL. destruct (inv_init B (write_N rs)) as [HI HS].
    destruct (row_loop_abs rs vs _ _ HF HI HS HL (legal_N_len B rs HL)) as (rows & s' & Hrun & Hbufs & Hnavs & Hend).
    exists rows, s'. split; [exact Hrun|]. split; [exact Hbufs|]. split; [|split; [exact Hnavs|exact Hend]].
    rewrite Hbufs. apply heads_spec_bufs, HL.
  Qed.
  End Loop.

End AbstractRows.

(* [ok e r]: record r belongs to the family with count vector e; [len e]: the length the description gives for e *)
Section Family.
  Context {A E : Type}.
  Variable dcount : list A -> nat.
  Variable schema : js.
  Variable ok : E -> list A -> Prop.
  Variable len : E -> nat.
  Hypothesis ok_framed : forall e r, ok e r -> exists v, framed dcount schema r v /\ lend (n_loc v) = len e.

  (* the navigators of the records, and what the theorems say of rows that carry them *)
  Lemma family_navs es rs : Forall2 ok es rs ->
    exists vs, Forall2 (framed dcount schema) rs vs
      /\ forall rows, map (@row_nav A) rows = vs ->
           Forall2 (fun rw r => nav_of dcount r schema = Ok (row_nav rw)) rows rs
           /\ Forall2 (fun rw e => lend (n_loc (row_nav rw)) = len e) rows es.
  Proof.
    intros HF. induction HF as [|e r es rs H HF (vs & Hfr & IH)].
    - exists []. split; [constructor|]. intros [|rw rows] Hm; [split; constructor|discriminate].
    - destruct (ok_framed e r H) as (v & Hv & Hend). exists (v :: vs). split; [constructor; assumption|].
      intros [|rw rows] Hm; [discriminate|]. injection Hm as <- Hm. destruct (IH rows Hm) as [F1 F2].
      split; constructor; (assumption || apply (framed_self dcount schema r _ Hv)).
  Qed.

  Theorem family_stream_N_any_buffer (B : nat) (kind : N) es (rs : list (list A)) :
    0 < B -> Forall2 ok es rs -> legal_N B rs = true ->
    exists rows s',
      row_loop dcount (S (length (write_N rs))) 0 kind B schema (N_init B (write_N rs)) = (rows, Done, s')
      /\ map (@row_buf A) rows = spec_bufs B (write_N rs) (map (@length A) rs)
      /\ heads (map (@length A) rs) (map (@row_buf A) rows) = rs
      /\ Forall2 (fun rw r => nav_of dcount r schema = Ok (row_nav rw)) rows rs
      /\ Forall2 (fun rw e => lend (n_loc (row_nav rw)) = len e) rows es
      /\ buf s' = [] /\ rest s' = [].
  Proof.
    intros HB HF HL. destruct (family_navs es rs HF) as (vs & Hfr & Hrows).
    destruct (stream_N_any_buffer_abs dcount schema B HB kind rs vs Hfr HL) as (rows & s' & Hrun & Hbufs & Hheads & Hnavs & Hend).
    destruct (Hrows rows Hnavs) as [F1 F2]. exists rows, s'. repeat split; (assumption || apply Hend).
  Qed.

  (* through set_schema and rows(), buffer size and refill of the current source, any lrecl argument *)
  Theorem family_stream_N (kind : N) (lrecl : option nat) es (rs : list (list A)) :
    Forall2 ok es rs -> legal_N (N.to_nat buffer_size) rs = true ->
    exists rows s',
      rows_N dcount kind lrecl schema (write_N rs) = Ok (rows, Done, s')
      /\ map (@row_buf A) rows = spec_bufs (N.to_nat buffer_size) (write_N rs) (map (@length A) rs)
      /\ heads (map (@length A) rs) (map (@row_buf A) rows) = rs
      /\ Forall2 (fun rw r => nav_of dcount r schema = Ok (row_nav rw)) rows rs
      /\ Forall2 (fun rw e => lend (n_loc (row_nav rw)) = len e) rows es
      /\ buf s' = [] /\ rest s' = [].
  Proof.
    intros HF HL.
    destruct (family_stream_N_any_buffer (N.to_nat buffer_size) kind es rs buffer_positive HF HL) as (rows & s' & Hrun & H).
    exists rows, s'. split; [|exact H].
    unfold rows_N. destruct (set_schema_total_any dcount lrecl schema) as [l ->]. rewrite refill_is_top_up, Hrun. reflexivity.
  Qed.

  (* readers that deliver whole records, each perhaps with padding behind it: a Row per buffer *)
  Lemma family_rows_of es rs : Forall2 ok es rs -> forall ps, Forall2 (fun r p => exists more, p = r ++ more) rs ps ->
    exists rows, rows_of dcount schema ps = (rows, None)
      /\ map (@row_buf A) rows = ps
      /\ Forall2 (fun rw r => nav_of dcount r schema = Ok (row_nav rw)) rows rs
      /\ Forall2 (fun rw e => lend (n_loc (row_nav rw)) = len e) rows es.
  Proof.
    intros HF. induction HF as [|e r es rs H HF IH]; intros ps HP; inversion HP as [|? p ? ps' [more ->] HP']; subst.
    - exists []. repeat split; constructor.
    - destruct (IH ps' HP') as (rows & Hrun & Hb & F1 & F2). destruct (ok_framed e r H) as (v & Hv & Hend).
      exists (mkrow (r ++ more) v :: rows). cbn [rows_of]. rewrite (proj1 Hv more), Hrun. cbn [map row_buf]. rewrite Hb.
      repeat split; constructor; (assumption || apply (framed_self dcount schema r v Hv)).
  Qed.
End Family.

Lemma unpadded {A} (rs : list (list A)) : Forall2 (fun r p => exists more, p = r ++ more) rs rs.
Proof. induction rs as [|r rs IH]; constructor; [exists []; symmetry; apply app_nil_r|exact IH]. Qed.

Section FamilyBytes.
  Context {E : Type}.
  Variable dcount : list N -> nat.
  Variable schema : js.
  Variable ok : E -> list N -> Prop.
  Variable len : E -> nat.
  Hypothesis ok_framed : forall e r, ok e r -> exists v, framed dcount schema r v /\ lend (n_loc v) = len e.

  Theorem family_stream_V (kind : N) (lrecl : option nat) es (rs : list (list N)) :
    Forall2 ok es rs ->
    exists rows,
      rows_V dcount kind lrecl schema (write_V rs) = Ok (rows, Done)
      /\ map (@row_buf N) rows = rs
      /\ Forall2 (fun rw r => nav_of dcount r schema = Ok (row_nav rw)) rows rs
      /\ Forall2 (fun rw e => lend (n_loc (row_nav rw)) = len e) rows es.
  Proof.
    intros HF. destruct (family_rows_of dcount schema ok len ok_framed es rs HF rs (unpadded rs)) as (rows & Hrun & H).
    exists rows. split; [|exact H].
    unfold rows_V. destruct (set_schema_total_any dcount lrecl schema) as [l ->].
    rewrite V_record_iter_ok. unfold rows_from. rewrite Hrun. reflexivity.
  Qed.

  Theorem family_stream_VB (kind : N) (lrecl : option nat) ess (blocks : list (list (list N))) :
    Forall2 (Forall2 ok) ess blocks -> legal_VB blocks = true ->
    exists rows,
      rows_VB dcount kind lrecl schema (write_VB blocks) = Ok (rows, Done)
      /\ map (@row_buf N) rows = concat blocks
      /\ Forall2 (fun rw r => nav_of dcount r schema = Ok (row_nav rw)) rows (concat blocks)
      /\ Forall2 (fun rw e => lend (n_loc (row_nav rw)) = len e) rows (concat ess).
  Proof.
    (* [legal_VB] makes the image a file; the reader does not need it (RecfmP.VB_iters_any) *)
    intros HF _. apply Forall2_concat in HF.
    destruct (family_rows_of dcount schema ok len ok_framed _ _ HF _ (unpadded _)) as (rows & Hrun & H).
    exists rows. split; [|exact H].
    unfold rows_VB. destruct (set_schema_total_any dcount lrecl schema) as [l ->].
    rewrite (proj1 (VB_iters_any kind blocks)). unfold rows_from. rewrite Hrun. reflexivity.
  Qed.

  Theorem family_stream_F (kind : N) (lrecl : nat) es (rs ps : list (list N)) :
    Forall2 ok es rs -> Forall2 (fun r p => exists more, p = r ++ more) rs ps -> legal_F lrecl ps = true ->
    exists rows,
      rows_F dcount kind (Some lrecl) schema (write_F ps) = Ok (rows, Done)
      /\ map (@row_buf N) rows = ps
      /\ Forall2 (fun rw r => nav_of dcount r schema = Ok (row_nav rw)) rows rs
      /\ Forall2 (fun rw e => lend (n_loc (row_nav rw)) = len e) rows es.
  Proof.
    intros HF HP HL. destruct (family_rows_of dcount schema ok len ok_framed es rs HF ps HP) as (rows & Hrun & H).
    exists rows. split; [|exact H]. destruct (legal_F_pos lrecl ps HL) as [Hl _].
    unfold rows_F. rewrite set_schema_unf. destruct lrecl as [|n]; [inversion Hl|].
    rewrite (F_record_iter_ok kind (S n) ps HL). unfold rows_from. rewrite Hrun. reflexivity.
  Qed.
End FamilyBytes.
