(* C16: the two converters behind the CONVERSION table.  digit_string n x is int(x) printed, padded with zeros and cut to
   its last n characters (digit_string_shape): exactly the n digits of the value when it has that many
   (digit_text_exact, digit_text_spec), ValueError beyond the int-to-str limit (digit_string_too_long).
   decimal_places d x is x.quantize at exponent -d (decimal_places_shape, quantize_is): the nearest value with d
   places, ties to even, when the default context has room (quantize_fits, decimal_places_ok), an error otherwise
   (decimal_places_err_ctx).  conversion_named: each key of the vocabulary selects the type of its name. *)
From Coq Require Import ZArith NArith List Bool Lia ZifyBool.
Import ListNotations.
Require Import SR.Base.Res SR.Spec.Conversion SR.Gen.ConversionParams SR.Gen.ConversionBodyParams SR.Model.Conversion.
Open Scope Z_scope.
(* ZifyBool's instances let lia read the boolean tests of the model (is_digit, <=?); the search for boolean
   constraints that it also installs after every zify is needed by no goal below *)
Ltac Zify.zify_post_hook ::= idtac.

(* Model/Conversion.v is parameterised by Gen/ConversionBodyParams.v, which harness/t1_c16.py writes
   from the bodies of digit_string and decimal_places in the source under test.  The lemmas down to
   [decimal_2_is] state the shape the rest of this file is about; they hold by computation for the
   parameter values of the unchanged source and fail to compile for any other value
   (str(value) instead of str(int(value)), another padding, another slice, another quantum exponent, a
   detour through repr/str/float, a rounding argument other than ROUND_HALF_EVEN, a context argument,
   another binding of digits_5 / decimal_2).  Nothing after them mentions a parameter. *)

Definition zeros (n : nat) : list N := repeat 48%N n.

(* s[-size:] *)
Definition py_last (size : nat) (s : list N) : list N :=
  match size with
  | O => s
  | _ => skipn (length s - size) s
  end.

(* (size * "0" + str(z))[-size:] *)
Definition digit_text (n : nat) (z : Z) : res (list N) :=
  bind (str_int z) (fun s => Ok (py_last n (zeros n ++ s))).

Lemma padded_slice n s :
  py_slice n ds_slice_lo ds_slice_hi (padded ds_pad_side (padding ds_pad_char ds_pad_extra n) s) = py_last n (zeros n ++ s).
Proof.
  unfold padding, ds_pad_char, ds_pad_extra. rewrite Z.add_0_r, Nat2Z.id. fold (zeros n).
  change (padded ds_pad_side (zeros n) s) with (zeros n ++ s).
  unfold py_slice, py_last, ds_slice_lo, ds_slice_hi, py_index. rewrite firstn_all.
  destruct n; reflexivity.
Qed.

(* digit_string(size, value) = (size * "0" + str(int(value)))[-size:] *)
Lemma digit_string_shape n x : digit_string n x = digit_text n (int_of_dec x).
Proof.
  unfold digit_string, digit_string_with, digit_text.
  change (pre_text ds_pre x) with (str_int (int_of_dec x)).
  destruct (str_int (int_of_dec x)); cbn [bind]; [rewrite padded_slice|]; reflexivity.
Qed.

(* decimal_places(digits, value) = Decimal(value).quantize(Decimal(1).scaleb(-digits)) *)
Lemma decimal_places_shape d x : decimal_places d x = bind (quantum_exp d) (quantize x).
Proof. reflexivity. Qed.

(* the exponent of Decimal(1).scaleb(-d) under the default context *)
Lemma quantum_exp_is d :
  quantum_exp d =
  if (- d <? - (2 * (emax + prec))) || (2 * (emax + prec) <? - d) then Err DecimalInvalid
  else if emax <? - d then Err OtherError
  else Ok (Z.max (- d) etiny).
Proof.
  unfold quantum_exp, quantum_exp_with, dp_quantum. change (ndigits (Z.of_N 1)) with 1. cbv zeta.
  replace (-1 * d + 0) with (- d) by ring. rewrite Z.add_simpl_r. reflexivity.
Qed.

(* no rounding argument: the default context rounds half to even *)
Lemma round_div_default sneg c p : round_div dp_rounding sneg c p = round_half_even c p.
Proof. reflexivity. Qed.

(* digits_5 = partial(digit_string, 5); decimal_2 = partial(decimal_places, 2) *)
Lemma digits_5_is x : digits_5 x = bind (digit_string 5 x) (fun s => Ok (inl s)).
Proof. reflexivity. Qed.

Lemma decimal_2_is x : decimal_2 x = bind (decimal_places 2 x) (fun r => Ok (inr r)).
Proof. reflexivity. Qed.

Lemma pow10_S (n : nat) : 10 ^ Z.of_nat (S n) = 10 * 10 ^ Z.of_nat n.
Proof. rewrite Nat2Z.inj_succ. apply Z.pow_succ_r. lia. Qed.

Lemma fold_dstep s : forall a, fold_left dstep s a = a * 10 ^ Z.of_nat (length s) + dval s.
Proof.
  unfold dval. induction s as [|c t IH]; intros a.
  - cbn [fold_left length]. change (10 ^ Z.of_nat 0) with 1. lia.
  - cbn [fold_left length]. rewrite (IH (dstep a c)), (IH (dstep 0 c)), pow10_S.
    unfold dstep. ring.
Qed.

Lemma dval_app a b : dval (a ++ b) = dval a * 10 ^ Z.of_nat (length b) + dval b.
Proof. unfold dval at 1. rewrite fold_left_app. fold (dval a). apply fold_dstep. Qed.

Lemma dval_cons c t : dval (c :: t) = (Z.of_N c - 48) * 10 ^ Z.of_nat (length t) + dval t.
Proof. apply (dval_app [c] t). Qed.

Lemma dval_range s : forallb is_digit s = true -> 0 <= dval s < 10 ^ Z.of_nat (length s).
Proof.
  induction s as [|c t IH]; intros H.
  - cbn. lia.
  - cbn [forallb] in H. apply andb_prop in H. destruct H as [Hc Ht].
    specialize (IH Ht). unfold is_digit in Hc.
    rewrite dval_cons. cbn [length]. rewrite pow10_S. nia.
Qed.

(* s is v in decimal: digits, of value v, and no more of them than v needs *)
Definition prints (v : Z) (s : list N) : Prop :=
  forallb is_digit s = true /\ dval s = v /\
  forall n : nat, (1 <= n)%nat -> v < 10 ^ Z.of_nat n -> (length s <= n)%nat.

Lemma prints_digit v : 0 <= v < 10 -> prints v [Z.to_N (48 + v)].
Proof.
  intros H. repeat split.
  - unfold is_digit. cbn [forallb]. lia.
  - unfold dval, dstep. cbn [fold_left]. lia.
  - intros n Hn _. exact Hn.
Qed.

Lemma digs_S f v :
  digs (S f) v = if v <? 10 then [Z.to_N (48 + v)] else digs f (v / 10) ++ [Z.to_N (48 + v mod 10)].
Proof. reflexivity. Qed.

Lemma digs_spec f : forall v, 0 <= v < 10 ^ Z.of_nat (S f) -> prints v (digs (S f) v).
Proof.
  induction f as [|f IH]; intros v Hv; rewrite digs_S; destruct (Z.ltb_spec v 10) as [E|E].
  1, 3: apply prints_digit; lia.
  - change (10 ^ Z.of_nat 1) with 10 in Hv. lia.
  - rewrite pow10_S in Hv.
    pose proof (Z.div_mod v 10 ltac:(discriminate)) as Hdm. pose proof (Z.mod_pos_bound v 10 eq_refl) as Hr.
    set (q := v / 10) in *. set (r := v mod 10) in *.
    destruct (IH q) as (Hd & Hval & Hlen); [lia|].
    destruct (prints_digit r Hr) as (Hd1 & Hval1 & _).
    repeat split.
    + rewrite forallb_app, Hd, Hd1. reflexivity.
    + rewrite dval_app, Hval, Hval1. cbn [length]. change (10 ^ Z.of_nat 1) with 10. lia.
    + intros n Hn Hvn. rewrite app_length. cbn [length].
      destruct n as [|[|n]]; [lia|change (10 ^ Z.of_nat 1) with 10 in Hvn; lia|].
      rewrite pow10_S in Hvn. specialize (Hlen (S n)). lia.
Qed.

(* the fuel of [str_nonneg] suffices: v < 2^(log2 v + 1) <= 10^(log2 v + 1) *)
Lemma str_nonneg_spec v : 0 <= v -> prints v (str_nonneg v).
Proof.
  intros Hv. apply digs_spec. split; [exact Hv|].
  rewrite Nat2Z.inj_succ, Z2Nat.id by apply Z.log2_nonneg.
  destruct (Z.eq_dec v 0) as [->|Hnz]; [reflexivity|].
  apply Z.lt_le_trans with (2 ^ Z.succ (Z.log2 v)); [apply Z.log2_spec; lia|].
  apply Z.pow_le_mono_l. lia.
Qed.

(* 2^14284 <= 10^4300 without computing either: 146/485 is a convergent of log10 2 = 0.30103 from above,
   2^485 = 0.99896 * 10^146, and that margin survives the 29th power; the remainders are 2^219 = 0.84 * 10^66 *)
Lemma pow2_485 : 2 ^ 485 <= 10 ^ 146.
Proof. apply Z.leb_le. vm_compute. reflexivity. Qed.

Lemma pow2_219 : 2 ^ 219 <= 10 ^ 66.
Proof. apply Z.leb_le. vm_compute. reflexivity. Qed.

Lemma pow2_14284 : 2 ^ 14284 <= 10 ^ max_str_digits.
Proof.
  change (2 ^ (485 * 29 + 219) <= 10 ^ (146 * 29 + 66)).
  rewrite !Z.pow_add_r, !Z.pow_mul_r by discriminate.
  apply Z.mul_le_mono_nonneg.
  - apply Z.pow_nonneg. apply Z.pow_nonneg. discriminate.
  - apply Z.pow_le_mono_l. split; [apply Z.pow_nonneg; discriminate|exact pow2_485].
  - apply Z.pow_nonneg. discriminate.
  - exact pow2_219.
Qed.

(* the shortcut in [too_long] is sound: it is exactly the test for more than 4300 digits *)
Lemma too_long_exact v : too_long v = (10 ^ max_str_digits <=? Z.abs v).
Proof.
  unfold too_long. destruct (Z.log2 (Z.abs v) <? 14284) eqn:E; [|reflexivity].
  symmetry. apply Z.leb_gt.
  apply Z.lt_le_trans with (2 ^ 14284); [|exact pow2_14284].
  destruct (Z.eq_dec (Z.abs v) 0) as [->|Hnz].
  - apply Z.pow_pos_nonneg; [reflexivity|discriminate].
  - apply Z.log2_lt_pow2; [pose proof (Z.abs_nonneg v); lia|apply Z.ltb_lt; exact E].
Qed.

Lemma str_int_nonneg v : 0 <= v < 10 ^ max_str_digits -> str_int v = Ok (str_nonneg v).
Proof.
  intros [H0 H1]. unfold str_int. rewrite too_long_exact, (Z.abs_eq v H0).
  apply Z.leb_gt in H1. apply Z.ltb_ge in H0. rewrite H1, H0. reflexivity.
Qed.

Lemma str_int_too_long v : 10 ^ max_str_digits <= Z.abs v -> str_int v = Err ValueError.
Proof. intros H. unfold str_int. rewrite too_long_exact. apply Z.leb_le in H. rewrite H. reflexivity. Qed.

Lemma dval_zeros n : dval (zeros n) = 0.
Proof.
  induction n as [|n IH]; [reflexivity|].
  unfold zeros in *. cbn [repeat]. rewrite dval_cons, IH. lia.
Qed.

Lemma digits_zeros n : forallb is_digit (zeros n) = true.
Proof. induction n as [|n IH]; [reflexivity|exact IH]. Qed.

Lemma py_last_spec (n : nat) l : (1 <= n)%nat -> (n <= length l)%nat -> forallb is_digit l = true ->
  length (py_last n l) = n /\ forallb is_digit (py_last n l) = true /\
  dval (py_last n l) = dval l mod 10 ^ Z.of_nat n.
Proof.
  intros Hn Hlen Hd.
  assert (E : py_last n l = skipn (length l - n) l) by (destruct n; [lia|reflexivity]).
  rewrite E. set (k := (length l - n)%nat).
  assert (Hl : length (skipn k l) = n) by (rewrite skipn_length; lia).
  rewrite <- (firstn_skipn k l) in Hd at 1. rewrite forallb_app in Hd. apply andb_prop in Hd. destruct Hd as [_ Hd].
  pose proof (dval_range _ Hd) as R. rewrite Hl in R.
  repeat split; [exact Hl|exact Hd|].
  rewrite <- (firstn_skipn k l) at 2. rewrite dval_app, Hl.
  apply Z.mod_unique_pos with (q := dval (firstn k l)); [exact R|ring].
Qed.

Lemma digit_text_spec (n : nat) z : (1 <= n)%nat -> 0 <= z < 10 ^ max_str_digits ->
  exists s, digit_text n z = Ok s /\ length s = n /\ forallb is_digit s = true /\
            dval s = z mod 10 ^ Z.of_nat n.
Proof.
  intros Hn Hz. unfold digit_text. rewrite (str_int_nonneg z Hz). cbn [bind].
  destruct (str_nonneg_spec z (proj1 Hz)) as (Hd & Hval & _).
  eexists. split; [reflexivity|].
  destruct (py_last_spec n (zeros n ++ str_nonneg z) Hn) as (H1 & H2 & H3).
  - rewrite app_length. unfold zeros. rewrite repeat_length. lia.
  - rewrite forallb_app, digits_zeros, Hd. reflexivity.
  - rewrite H3, dval_app, dval_zeros, Hval. repeat split; [exact H1|exact H2].
Qed.

(* The bound is a nat because the theorems of Props/C16.v say 4300%nat: that unary numeral converts to
   [Z.to_nat max_str_digits] as it stands (taking it apart is slow to check). *)
Lemma digit_text_exact (n : nat) z : (1 <= n <= Z.to_nat max_str_digits)%nat -> 0 <= z < 10 ^ Z.of_nat n ->
  exists s, digit_text n z = Ok s /\ length s = n /\ forallb is_digit s = true /\ dval s = z.
Proof.
  intros [Hn Hmax] Hz.
  apply Nat2Z.inj_le in Hmax. rewrite Z2Nat.id in Hmax by discriminate.
  assert (Hle : 10 ^ Z.of_nat n <= 10 ^ max_str_digits) by (apply Z.pow_le_mono_r; [reflexivity|exact Hmax]).
  destruct (digit_text_spec n z Hn) as (s & Hs & Hl & Hd & Hval); [lia|].
  rewrite Z.mod_small in Hval by exact Hz.
  exists s. repeat split; assumption.
Qed.

Lemma digit_string_too_long n x : 10 ^ max_str_digits <= Z.abs (int_of_dec x) -> digit_string n x = Err ValueError.
Proof. intros H. rewrite digit_string_shape. unfold digit_text. rewrite (str_int_too_long _ H). reflexivity. Qed.

Lemma integer_of_int x v : integer_of x = Some v -> int_of_dec x = v.
Proof.
  unfold integer_of, int_of_dec, sgn. destruct (0 <=? dexp x).
  - intros [= <-]. destruct (neg x); ring.
  - cbv zeta. destruct (_ =? 0); [|discriminate]. intros [= <-]. destruct (neg x); ring.
Qed.

Lemma integer_of_represents x v : integer_of x = Some v <-> represents x v.
Proof.
  unfold integer_of, represents, sgn.
  destruct (0 <=? dexp x) eqn:E.
  - split; [intros H; injection H as <-; reflexivity|intros <-; reflexivity].
  - assert (Hp : 0 < 10 ^ (- dexp x)) by (apply Z.pow_pos_nonneg; lia).
    set (p := 10 ^ (- dexp x)) in *. set (c := Z.of_N (coef x)).
    split.
    + destruct (c mod p =? 0) eqn:Em; [|discriminate].
      intros H. injection H as <-.
      assert (Hc : c = p * (c / p)) by (pose proof (Z.div_mod c p); lia).
      destruct (neg x); lia.
    + intros H.
      assert (Hc : c = (if neg x then - v else v) * p) by (destruct (neg x); lia).
      rewrite Hc, Z.mod_mul, Z.div_mul by lia. cbn [Z.eqb]. destruct (neg x); f_equal; lia.
Qed.

Lemma represents_int x v : represents x v -> int_of_dec x = v.
Proof. intros H. apply integer_of_int, integer_of_represents, H. Qed.

Lemma int_of_dec_nonneg x : neg x = false -> 0 <= dexp x -> int_of_dec x = Z.of_N (coef x) * 10 ^ dexp x.
Proof. intros Hn He. unfold int_of_dec. apply Z.leb_le in He. rewrite Hn, He. reflexivity. Qed.

Lemma digits_ok_iff n v s : digits_ok n v s = true <-> length s = n /\ forallb is_digit s = true /\ dval s = v.
Proof. unfold digits_ok. rewrite !andb_true_iff, Nat.eqb_eq, Z.eqb_eq. tauto. Qed.

(* round_half_even c p with c = q0 * p + r, 0 <= r < p, is q0 or q0 + 1: within half of p either way *)
Lemma round_half_even_spec c p : 0 <= c -> 0 < p ->
  let q := round_half_even c p in
  0 <= q /\ 2 * (q * p) <= 2 * c + p /\ 2 * c <= 2 * (q * p) + p.
Proof.
  intros Hc Hp. unfold round_half_even.
  pose proof (Z.div_mod c p ltac:(lia)) as Hdm.
  pose proof (Z.mod_pos_bound c p Hp) as Hr.
  assert (Hq : 0 <= c / p) by (apply Z.div_pos; lia).
  set (q0 := c / p) in *. set (r := c mod p) in *.
  destruct (2 * r <? p) eqn:E1; [|destruct (p <? 2 * r) eqn:E2; [|destruct (Z.even q0)]]; cbv zeta; lia.
Qed.

(* it reaches B exactly from half a unit below B * p on, when B - 1 is odd: the one doubtful case is the tie at
   quotient B - 1, which is then rounded up *)
Lemma round_half_even_ge c p B : 0 <= c -> 0 < p -> Z.even (B - 1) = false ->
  (B <= round_half_even c p <-> 2 * (B * p) <= 2 * c + p).
Proof.
  intros Hc Hp Hodd. split.
  - intros H. destruct (round_half_even_spec c p Hc Hp) as (_ & Hlo & _).
    apply (Z.mul_le_mono_nonneg_r _ _ p) in H; lia.
  - intros Hbig. unfold round_half_even.
    pose proof (Z.div_mod c p ltac:(lia)) as Hdm.
    pose proof (Z.mod_pos_bound c p Hp) as Hr.
    set (q0 := c / p) in *. set (r := c mod p) in *.
    (* 2 * B * p <= 2 * c + p < (2 * q0 + 3) * p, so q0 is B - 1 at least; and if it is B - 1 then p <= 2 * r *)
    assert (Hq : B - 1 <= q0) by (apply Z.lt_succ_r, (Z.mul_lt_mono_pos_r p); lia).
    assert (Hr2 : q0 = B - 1 -> p <= 2 * r) by (intros E; rewrite E in Hdm; lia).
    clear Hdm Hbig.
    destruct (2 * r <? p) eqn:E1; [lia|]. destruct (p <? 2 * r); [lia|].
    destruct (Z.eq_dec q0 (B - 1)) as [E|E]; [rewrite E, Hodd; lia|]. destruct (Z.even q0); lia.
Qed.

Lemma pow10_pred_odd p : 1 <= p -> Z.even (10 ^ p - 1) = false.
Proof.
  intros H. replace p with (Z.succ (p - 1)) by lia. rewrite Z.pow_succ_r by lia.
  replace (10 * 10 ^ (p - 1) - 1) with (1 + 2 * (5 * 10 ^ (p - 1) - 1)) by ring.
  rewrite Z.even_add_mul_2. reflexivity.
Qed.

Lemma quantum_exp_range d : - emax <= d <= - etiny -> quantum_exp d = Ok (- d).
Proof.
  intros H. rewrite quantum_exp_is. unfold etiny, emax, prec in *.
  destruct (_ || _) eqn:E1; [lia|]. destruct (999999 <? - d) eqn:E2; [lia|]. f_equal. lia.
Qed.

(* below -Emax the quantum itself overflows (decimal.Overflow, trapped by the default context), beyond twice
   the exponent range scaleb refuses its argument *)
Lemma quantum_exp_overflow d : - (2 * (emax + prec)) <= d < - emax -> quantum_exp d = Err OtherError.
Proof.
  intros H. rewrite quantum_exp_is. unfold etiny, emax, prec in *.
  destruct (_ || _) eqn:E1; [lia|]. destruct (999999 <? - d) eqn:E2; [reflexivity|lia].
Qed.

Lemma quantum_exp_invalid d : d < - (2 * (emax + prec)) \/ 2 * (emax + prec) < d -> quantum_exp d = Err DecimalInvalid.
Proof.
  intros H. rewrite quantum_exp_is. unfold etiny, emax, prec in *.
  destruct (_ || _) eqn:E1; [reflexivity|lia].
Qed.

(* above -Etiny the quantum underflows to exponent Etiny: the result has 1000026 fractional digits, not d *)
Lemma quantum_exp_underflow d : - etiny <= d <= 2 * (emax + prec) -> quantum_exp d = Ok etiny.
Proof.
  intros H. rewrite quantum_exp_is. unfold etiny, emax, prec in *.
  destruct (_ || _) eqn:E1; [lia|]. destruct (999999 <? - d) eqn:E2; [lia|]. f_equal. lia.
Qed.

Lemma ndigits_lt_iff c n : 0 <= c -> 1 <= n -> (ndigits c <= n <-> c < 10 ^ n).
Proof.
  intros Hc Hn. unfold ndigits. destruct (str_nonneg_spec c Hc) as (Hd & Hval & Hlen). split; intros H.
  - pose proof (dval_range _ Hd) as R. rewrite Hval in R.
    apply Z.lt_le_trans with (1 := proj2 R). apply Z.pow_le_mono_r; [reflexivity|exact H].
  - specialize (Hlen (Z.to_nat n)). rewrite Z2Nat.id in Hlen by lia. lia.
Qed.

(* the coefficient quantize arrives at for the exponent e *)
Definition qcoef (x : dec) (e : Z) : Z :=
  if 0 <=? dexp x - e then Z.of_N (coef x) * 10 ^ (dexp x - e)
  else round_half_even (Z.of_N (coef x)) (10 ^ (e - dexp x)).

Lemma qcoef_nonneg x e : 0 <= qcoef x e.
Proof.
  unfold qcoef. destruct (0 <=? dexp x - e) eqn:E.
  - apply Z.mul_nonneg_nonneg; [lia|apply Z.pow_nonneg; lia].
  - apply round_half_even_spec; [lia|apply Z.pow_pos_nonneg; lia].
Qed.

Lemma round_half_even_small c p : 0 <= 2 * c < p -> round_half_even c p = 0.
Proof.
  intros H. unfold round_half_even. rewrite Z.div_small, Z.mod_small by lia.
  destruct (Z.ltb_spec (2 * c) p); [reflexivity|lia].
Qed.

Lemma qcoef_zero x e : Z.of_N (coef x) = 0 -> qcoef x e = 0.
Proof.
  intros H. unfold qcoef. rewrite H. destruct (0 <=? dexp x - e) eqn:E; [reflexivity|].
  apply round_half_even_small. pose proof (Z.pow_pos_nonneg 10 (e - dexp x)). lia.
Qed.

Lemma qcoef_same s q e : 0 <= q -> qcoef (mkdec s (Z.to_N q) e) e = q.
Proof.
  intros Hq. unfold qcoef. cbn [coef dexp]. rewrite Z.sub_diag, Z2N.id by exact Hq. apply Z.mul_1_r.
Qed.

(* the two last tests of quantize amount to one bound on the coefficient: at most 10^p - 1,
   p = min(precision, Emax + 1 - exponent) *)
Lemma quantize_tail s q e : 0 <= q -> e <= emax ->
  (if 10 ^ prec <=? q then Err DecimalInvalid else within_emax (mkdec s (Z.to_N q) e)) =
  if q <? 10 ^ Z.min prec (emax + 1 - e) then Ok (mkdec s (Z.to_N q) e) else Err DecimalInvalid.
Proof.
  intros Hq He. unfold within_emax. cbn [dexp coef]. rewrite Z2N.id by exact Hq.
  assert (Hn : ndigits q <= emax + 1 - e <-> q < 10 ^ (emax + 1 - e)) by (apply ndigits_lt_iff; lia).
  destruct (Z.min_spec prec (emax + 1 - e)) as [[Hlt ->]|[Hle ->]].
  - assert (10 ^ prec <= 10 ^ (emax + 1 - e)) by (apply Z.pow_le_mono_r; lia).
    destruct (Z.leb_spec (10 ^ prec) q), (Z.ltb_spec q (10 ^ prec)); try lia; [reflexivity|].
    destruct (Z.ltb_spec emax (e + ndigits q - 1)); [lia|reflexivity].
  - assert (10 ^ (emax + 1 - e) <= 10 ^ prec) by (apply Z.pow_le_mono_r; lia).
    destruct (Z.leb_spec (10 ^ prec) q), (Z.ltb_spec q (10 ^ (emax + 1 - e))); try lia; [reflexivity| |];
      destruct (Z.ltb_spec emax (e + ndigits q - 1)); try lia; reflexivity.
Qed.

Lemma quantize_is x e : etiny <= e <= emax ->
  quantize x e = if qcoef x e <? 10 ^ Z.min prec (emax + 1 - e)
                 then Ok (mkdec (neg x) (Z.to_N (qcoef x e)) e) else Err DecimalInvalid.
Proof.
  intros He. rewrite <- quantize_tail by (apply qcoef_nonneg || lia).
  unfold quantize, quantize_with. rewrite round_div_default. cbv zeta.
  destruct ((e <? etiny) || (emax <? e)) eqn:G; [lia|].
  destruct (Z.eqb_spec (Z.of_N (coef x)) 0) as [E0|E0].
  - (* zero stays zero, whatever the exponents *)
    rewrite (qcoef_zero x e E0). unfold within_emax. cbn [dexp coef].
    change (ndigits (Z.of_N (Z.to_N 0))) with 1. change (10 ^ prec <=? 0) with false.
    destruct (Z.ltb_spec emax (e + 1 - 1)); [lia|reflexivity].
  - unfold qcoef. replace (- (dexp x - e)) with (e - dexp x) by ring.
    destruct (0 <=? dexp x - e) eqn:Ek; [|reflexivity].
    destruct (Z.ltb_spec prec (dexp x - e)) as [Hk|Hk]; [|reflexivity].
    (* scaled up by more than 28 places: too large whatever the coefficient *)
    assert (10 ^ prec < 10 ^ (dexp x - e)) by (apply Z.pow_lt_mono_r; unfold prec in *; lia).
    assert (1 * 10 ^ (dexp x - e) <= Z.of_N (coef x) * 10 ^ (dexp x - e)) by (apply Z.mul_le_mono_nonneg_r; lia).
    destruct (Z.leb_spec (10 ^ prec) (Z.of_N (coef x) * 10 ^ (dexp x - e))); [reflexivity|lia].
Qed.

Lemma digits_allowed_is d : digits_allowed d = Z.min prec (emax + 1 - (- d)).
Proof. unfold digits_allowed, prec, emax. f_equal. lia. Qed.

(* [fits_ctx] is the bound of quantize.  On a tie below the bound the quotient is at most 10^p - 2: 10^p - 1 is odd
   and would round up. *)
Lemma fits_ctx_qcoef d x : - d <= emax -> fits_ctx d x = (qcoef x (- d) <? 10 ^ digits_allowed d).
Proof.
  intros He. assert (H1 : 1 <= digits_allowed d) by (unfold digits_allowed, emax in *; lia).
  unfold fits_ctx, common, qcoef.
  set (c := Z.of_N (coef x)). assert (Hc : 0 <= c) by (unfold c; lia).
  set (B := 10 ^ digits_allowed d).
  destruct (Z.min_spec (dexp x) (- d)) as [[Hlt ->]|[Hle ->]]; rewrite Z.sub_diag; change (10 ^ 0) with 1.
  - (* digits are dropped *)
    destruct (Z.leb_spec 0 (dexp x - - d)); [lia|].
    assert (Hp : 0 < 10 ^ (- d - dexp x)) by (apply Z.pow_pos_nonneg; lia).
    pose proof (round_half_even_ge c _ B Hc Hp (pow10_pred_odd _ H1)) as Hge.
    set (pw := 10 ^ (- d - dexp x)) in *.
    destruct (Z.ltb_spec (round_half_even c pw) B), (Z.ltb_spec (2 * c * 1 + pw) (2 * B * pw)); try reflexivity; lia.
  - (* zeros are appended *)
    destruct (Z.leb_spec 0 (dexp x - - d)); lia.
Qed.

Lemma sgn_abs (s : bool) (a b : Z) : Z.abs ((if s then -1 else 1) * a - (if s then -1 else 1) * b) = Z.abs (a - b).
Proof. destruct s; lia. Qed.

Lemma qcoef_close d x : closeb d x (mkdec (neg x) (Z.to_N (qcoef x (- d))) (- d)) = true.
Proof.
  pose proof (qcoef_nonneg x (- d)) as Hq. revert Hq.
  unfold closeb, common, scaled, sgn, qcoef. cbn [neg coef dexp].
  set (c := Z.of_N (coef x)). assert (Hc : 0 <= c) by (unfold c; lia).
  destruct (Z.min_spec (dexp x) (- d)) as [[Hlt ->]|[Hle ->]]; rewrite !Z.sub_diag; change (10 ^ 0) with 1.
  - destruct (Z.leb_spec 0 (dexp x - - d)); [lia|]. intros Hq. rewrite Z2N.id by exact Hq.
    assert (Hp : 0 < 10 ^ (- d - dexp x)) by (apply Z.pow_pos_nonneg; lia).
    destruct (round_half_even_spec c _ Hc Hp) as (_ & Hlo & Hhi).
    rewrite <- !Z.mul_assoc, sgn_abs. lia.
  - destruct (Z.leb_spec 0 (dexp x - - d)); [|lia]. intros Hq. rewrite Z2N.id by exact Hq. lia.
Qed.

Theorem quantize_fits d x : etiny <= - d <= emax ->
  quantize x (- d) = if fits_ctx d x then Ok (mkdec (neg x) (Z.to_N (qcoef x (- d))) (- d)) else Err DecimalInvalid.
Proof.
  intros He. rewrite (quantize_is x (- d) He), <- digits_allowed_is, <- fits_ctx_qcoef by lia. reflexivity.
Qed.

Lemma quantize_ok d x : etiny <= - d <= emax -> fits_ctx d x = true ->
  exists r, quantize x (- d) = Ok r /\ dexp r = - d /\ closeb d x r = true /\ quantize r (- d) = Ok r.
Proof.
  intros He Hfit. rewrite (quantize_fits d x He), Hfit. eexists. split; [reflexivity|].
  split; [reflexivity|]. split; [apply qcoef_close|].
  (* a second application finds the exponent in place and the coefficient within the bound *)
  rewrite fits_ctx_qcoef in Hfit by lia.
  rewrite (quantize_is _ (- d) He), qcoef_same, <- digits_allowed_is, Hfit by apply qcoef_nonneg. reflexivity.
Qed.

(* for d >= -999972, in particular for every d >= 0, the bound is the precision alone *)
Lemma fits_ctx_fitsb d x : -999972 <= d -> fits_ctx d x = fitsb d x.
Proof.
  intros H. unfold fits_ctx, fitsb, digits_allowed.
  replace (Z.min 28 (1000000 + d)) with 28 by lia. reflexivity.
Qed.

Lemma decimal_places_ok_ctx d x : - emax <= d <= - etiny -> fits_ctx d x = true ->
  exists r, decimal_places d x = Ok r /\ dexp r = - d /\ closeb d x r = true /\
            decimal_places d r = Ok r.
Proof.
  intros Hd Hfit. destruct (quantize_ok d x) as (r & H1 & H2 & H3 & H4); [lia|exact Hfit|].
  exists r. rewrite !decimal_places_shape, (quantum_exp_range d Hd). repeat split; assumption.
Qed.

Lemma decimal_places_err_ctx d x : - emax <= d <= - etiny -> fits_ctx d x = false ->
  decimal_places d x = Err DecimalInvalid.
Proof.
  intros Hd Hfit. rewrite decimal_places_shape, (quantum_exp_range d Hd). cbn [bind].
  rewrite quantize_fits, Hfit by lia. reflexivity.
Qed.

Lemma decimal_places_ok d x : 0 <= d <= - etiny -> fitsb d x = true ->
  exists r, decimal_places d x = Ok r /\ dexp r = - d /\ closeb d x r = true /\
            decimal_places d r = Ok r.
Proof.
  intros Hd Hfit. apply decimal_places_ok_ctx; [unfold emax; lia|].
  rewrite fits_ctx_fitsb by lia. exact Hfit.
Qed.

Lemma conversion_named key arg : In key vocabulary -> conversion_type key arg = Ok (named_type key arg).
Proof.
  unfold vocabulary. cbn [In]. intros H.
  repeat (destruct H as [<-|H]; [reflexivity|]). contradiction.
Qed.

Lemma conversion_only_vocabulary : map fst conversion_table = [1; 2; 3; 4; 5; 6; 0].
Proof. reflexivity. Qed.

(* digits_5: five digits for every integer below 10^5, however it arrives *)
Lemma digits_5_exact (x : dec) (v : Z) :
  represents x v -> 0 <= v < 10 ^ 5 ->
  exists s, digits_5 x = Ok (inl s) /\
            length s = 5%nat /\ forallb is_digit s = true /\ dval s = v.
Proof.
  intros Hr Hv. rewrite digits_5_is, digit_string_shape, (represents_int x v Hr).
  destruct (digit_text_exact 5 v) as (s & Hs & H); [unfold max_str_digits; lia|exact Hv|].
  exists s. rewrite Hs. split; [reflexivity|exact H].
Qed.

(* decimal_2: two fractional digits, within half a cent, idempotent *)
Lemma decimal_2_ok (x : dec) :
  fitsb 2 x = true ->
  exists r, decimal_2 x = Ok (inr r) /\ dexp r = - 2 /\ closeb 2 x r = true /\
            decimal_2 r = Ok (inr r).
Proof.
  intros Hfit.
  destruct (decimal_places_ok 2 x) as (r & Hr & He & Hc & Hi); [unfold etiny; lia|exact Hfit|].
  exists r. rewrite !decimal_2_is, Hr, Hi. repeat split; assumption.
Qed.

(* the doctests: digits_5(1020), digits_5(Decimal(1.02E+3)), decimal_2(3.99) (the float), decimal_2(Decimal(0.125)) *)
Lemma partial_examples :
  digits_5 (mkdec false 1020 0) = Ok (inl [48; 49; 48; 50; 48]%N) /\
  digits_5 (mkdec false 102 1) = Ok (inl [48; 49; 48; 50; 48]%N) /\
  decimal_2 (mkdec false 39900000000000002131628207280300557613372802734375 (-49)) = Ok (inr (mkdec false 399 (-2))) /\
  decimal_2 (mkdec false 125 (-3)) = Ok (inr (mkdec false 12 (-2))).
Proof. vm_compute. repeat split; reflexivity. Qed.
