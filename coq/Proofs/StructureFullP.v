(* Property C07: when structure() raises.  On a non-empty entry list with two-digit levels, structure returns exactly
   when every REDEFINES clause of a non-root entry names exactly one EARLIER SIBLING in the sense of the specification
   (Spec/Dde.v redefines_ok: same nearest preceding entry with a strictly smaller level number), and raises ValueError
   otherwise (redefines_error_full).
   By StructureP.Inv the flattened state is the list P of the kept entries read so far, with the specification's
   parent pointers.  In a forest laid out in preorder from index i every pointer other than the one handed in lies in
   [i, i + size) (filt_out_f), so the children so far of the frame below the one just opened are exactly the entries
   of P whose pointer is that frame's position (filt_kids, frame_children).  The specification's count of earlier
   siblings carrying the target name is the same count over the (pointer, entry) pairs (spec_at); hence the marking
   half of a step succeeds iff redefines_ok_at holds at that position (mark_ok), and the run iff it holds at all
   positions (run_ok). *)
From Coq Require Import NArith List Bool Lia Arith.
Import ListNotations.
Require Import SR.Base.Res SR.Spec.Dde SR.Model.Structure SR.Proofs.StructureP.
Open Scope nat_scope.

(* ================================================================= small list facts *)

Lemma combine_app_eq : forall {A B} (a a' : list A) (b b' : list B), length a = length b ->
  combine (a ++ a') (b ++ b') = combine a b ++ combine a' b'.
Proof.
  induction a as [|x a IH]; intros a' b b' H; destruct b as [|y b]; cbn [length] in H; try discriminate.
  - reflexivity.
  - cbn [app combine]. rewrite IH by lia. reflexivity.
Qed.

Lemma nth_error_combine : forall {A B} (a : list A) (b : list B) j x y,
  nth_error (combine a b) j = Some (x, y) -> nth_error a j = Some x /\ nth_error b j = Some y.
Proof.
  induction a as [|x0 a IH]; intros [|y0 b] [|j] x y H; try discriminate H.
  - injection H as <- <-. split; reflexivity.
  - exact (IH b j x y H).
Qed.

Lemma filter_andb : forall {A} (f g : A -> bool) l, filter (fun x => f x && g x) l = filter g (filter f l).
Proof.
  induction l as [|x l IH]; [reflexivity|]. cbn [filter]. destruct (f x); cbn [andb filter].
  - destruct (g x); rewrite IH; reflexivity.
  - exact IH.
Qed.

Lemma count_seq : forall {X} (g : X -> bool) (C : list X) (f : nat -> bool) base,
  (forall j x, nth_error C j = Some x -> f (base + j) = g x) ->
  length (filter f (seq base (length C))) = length (filter g C).
Proof.
  intros X g. induction C as [|x C IH]; intros f base H; [reflexivity|].
  cbn [length seq filter]. pose proof (H 0 x eq_refl) as H0. rewrite Nat.add_0_r in H0. rewrite H0.
  assert (IH' : length (filter f (seq (S base) (length C))) = length (filter g C)).
  { apply IH. intros j y Hj. specialize (H (S j) y Hj). rewrite Nat.add_succ_r in H. exact H. }
  destruct (g x); cbn [length]; rewrite IH'; reflexivity.
Qed.

Lemma name_eqb_str : forall a b, name_eqb a b = str_eqb a b.
Proof. reflexivity. Qed.

(* ================================================================= parent pointers of a forest in preorder *)

(* the pair (pointer, entry) selects parent q *)
Definition pm (q : nat) (x : option nat * dde) : bool := opt_nat_eqb (fst x) (Some q).

Lemma pm_neq : forall q p d, p <> Some q -> pm q (p, d) = false.
Proof.
  intros q p d H. unfold pm. cbn [fst]. destruct p as [j|]; cbn [opt_nat_eqb]; [|reflexivity].
  destruct (Nat.eqb j q) eqn:E; [|reflexivity]. apply Nat.eqb_eq in E. subst. congruence.
Qed.

Lemma pm_eq : forall q d, pm q (Some q, d) = true.
Proof. intros. unfold pm. cbn [fst opt_nat_eqb]. apply Nat.eqb_refl. Qed.

Definition out_of (i n q : nat) : Prop := q < i \/ i + n <= q.

Lemma filt_out_f : forall f p i q, out_of i (length (preorder_f f)) q -> p <> Some q ->
  filter (pm q) (combine (parents_f p i f) (preorder_f f)) = [].
Proof.
  apply (forest_ind (fun t => forall p i q, out_of i (length (preorder t)) q -> p <> Some q ->
                              filter (pm q) (combine (parents_t p i t) (preorder t)) = [])
                    (fun f => forall p i q, out_of i (length (preorder_f f)) q -> p <> Some q ->
                              filter (pm q) (combine (parents_f p i f) (preorder_f f)) = [])).
  - intros d b kids IH p i q Hr Hp. rewrite parents_t_eq, preorder_node in *. cbn [combine filter length] in *.
    rewrite pm_neq by exact Hp. unfold out_of in Hr.
    apply IH; [unfold out_of; lia | intro E; inversion E; lia].
  - reflexivity.
  - intros t f Ht Hf p i q Hr Hp.
    rewrite parents_f_cons, preorder_f_cons, combine_app_eq by apply parents_t_length.
    rewrite preorder_f_cons, app_length in Hr. unfold out_of in *.
    rewrite filter_app, Ht, Hf; [reflexivity | | | | ]; try assumption; unfold out_of; lia.
Qed.

Lemma filt_kids : forall f i q, q < i ->
  filter (pm q) (combine (parents_f (Some q) i f) (preorder_f f)) = map (fun t => (Some q, troot t)) f.
Proof.
  induction f as [|t f IH]; intros i q Hq; [reflexivity|].
  rewrite parents_f_cons, preorder_f_cons, combine_app_eq by apply parents_t_length.
  rewrite filter_app, IH by lia. cbn [map]. destruct t as [d b kids].
  rewrite parents_t_eq, preorder_node. cbn [combine filter troot]. rewrite pm_eq.
  rewrite filt_out_f; [reflexivity | unfold out_of; lia | intro E; inversion E; lia].
Qed.

(* ================================================================= the same for a state *)

Lemma sflat_cons_length : forall f o, length (sflat (f :: o)) = length (sflat o) + S (length (preorder_f (fkids f))).
Proof. intros. cbn [sflat]. apply app_length. Qed.

Lemma spars_length : forall st n0, length (spars n0 st) = length (sflat st).
Proof.
  induction st as [|f o IH]; intro n0; [reflexivity|].
  cbn [spars sflat]. rewrite !app_length, IH. unfold fpars, fflat. cbn [length].
  rewrite parents_f_length. reflexivity.
Qed.

Lemma frame_par_neq : forall n0 outer q, n0 + length (sflat outer) <= q -> frame_par n0 outer <> Some q.
Proof.
  intros n0 [|p o'] q H; cbn [frame_par]; [discriminate|].
  rewrite sflat_cons_length in H. intro E. inversion E. lia.
Qed.

Lemma spars_out : forall st n0 q, n0 + length (sflat st) <= q ->
  filter (pm q) (combine (spars n0 st) (sflat st)) = [].
Proof.
  induction st as [|f o IH]; intros n0 q H; [reflexivity|].
  rewrite sflat_cons_length in H.
  rewrite spars_cons. cbn [sflat]. rewrite combine_app_eq by apply spars_length.
  rewrite filter_app, IH by lia. unfold fpars, fflat. cbn [combine filter app].
  rewrite pm_neq by (apply frame_par_neq; lia).
  apply filt_out_f; [unfold out_of; lia | intro E; inversion E; lia].
Qed.

Lemma frame_children : forall b r' n0,
  filter (pm (n0 + length (sflat r'))) (combine (spars n0 (b :: r')) (sflat (b :: r')))
  = map (fun t => (Some (n0 + length (sflat r')), troot t)) (fkids b).
Proof.
  intros b r' n0. rewrite spars_cons. cbn [sflat]. rewrite combine_app_eq by apply spars_length.
  rewrite filter_app, spars_out by lia. unfold fpars, fflat. cbn [combine filter app].
  rewrite pm_neq by (apply frame_par_neq; lia).
  apply filt_kids. lia.
Qed.

(* ================================================================= the specification's side *)

(* the copybook as the specification sees it *)
Definition Eof (K : list dde) : list (N * list N * option (list N)) :=
  map (fun d => (lvl_num (dlv d), dde_name (de d), eredef (de d))) K.

Lemma Eof_levels : forall K, map (fun e : N * list N * option (list N) => fst (fst e)) (Eof K) = levels_of K.
Proof. intro K. unfold Eof, levels_of. rewrite map_map. reflexivity. Qed.

Lemma Eof_nth : forall K j d, nth_error K j = Some d ->
  nth_error (Eof K) j = Some (lvl_num (dlv d), dde_name (de d), eredef (de d)).
Proof. intros K j d H. unfold Eof. exact (map_nth_error _ j K H). Qed.

Lemma msp_length : forall P, length (msp P) = length P.
Proof. intro P. unfold msp. apply msp_from_length. Qed.

Lemma spec_parent_msp : forall K j, Forall digits_ok K -> j < length K ->
  nth_error (msp K) j = Some (spec_parent (levels_of K) j).
Proof.
  intros K j HK Hj. rewrite (msp_spec K HK). unfold spec_parents.
  assert (Hl : length (levels_of K) = length K) by (unfold levels_of; apply map_length).
  apply map_nth_error. rewrite (nth_error_nth' _ 0) by (rewrite seq_length; lia).
  rewrite seq_nth by lia. reflexivity.
Qed.

Lemma spec_parent_prefix : forall P tl j, Forall digits_ok (P ++ tl) -> j < length P ->
  nth_error (msp P) j = Some (spec_parent (levels_of (P ++ tl)) j).
Proof.
  intros P tl j HK Hj. rewrite <- (spec_parent_msp (P ++ tl) j HK) by (rewrite app_length; apply Nat.lt_lt_add_r, Hj).
  unfold msp. rewrite msp_from_app. symmetry. apply nth_error_app1. rewrite msp_from_length. exact Hj.
Qed.

Lemma spec_at : forall P d tl, Forall digits_ok (P ++ d :: tl) ->
  redefines_ok_at (Eof (P ++ d :: tl)) (length P) =
  match eredef (de d) with
  | None => true
  | Some tgt =>
      match ns (rev P) (dlv d) with
      | None => true
      | Some p => Nat.eqb (length (filter (fun x : option nat * dde => str_eqb (dde_name (de (snd x))) tgt)
                                          (filter (pm p) (combine (msp P) P)))) 1
      end
  end.
Proof.
  intros P d tl HK.
  assert (Hp : spec_parent (levels_of (P ++ d :: tl)) (length P) = ns (rev P) (dlv d)).
  { destruct (proj1 (Forall_app _ _ _) HK) as [HP Hd]. unfold levels_of at 1.
    rewrite map_app, <- (map_length (fun x => lvl_num (dlv x)) P). cbn [map]. rewrite spec_parent_at, <- map_rev.
    symmetry. apply ns_num; [apply Forall_rev, HP | apply (Forall_inv Hd)]. }
  unfold redefines_ok_at.
  rewrite (Eof_nth _ _ d), Eof_levels by (rewrite nth_error_app2, Nat.sub_diag by apply le_n; reflexivity).
  destruct (eredef (de d)) as [tgt|]; [|reflexivity].
  unfold spec_siblings. rewrite Hp. destruct (ns (rev P) (dlv d)) as [p|]; [|reflexivity].
  f_equal. rewrite <- !filter_andb.
  assert (Hc : length (combine (msp P) P) = length P) by (rewrite combine_length, msp_length; apply Nat.min_id).
  rewrite <- Hc at 1. apply count_seq.
  intros j [a dj] Hj. apply nth_error_combine in Hj. destruct Hj as [Ha Hdj].
  assert (Hjl : j < length P) by (apply nth_error_Some; congruence).
  rewrite (Eof_nth _ _ dj) by (rewrite nth_error_app1 by exact Hjl; exact Hdj).
  pose proof (spec_parent_prefix P (d :: tl) j HK Hjl) as H1. rewrite Ha in H1. injection H1 as ->.
  unfold pm. cbn [Nat.add fst snd]. rewrite name_eqb_str. reflexivity.
Qed.

Lemma count_kids : forall tgt q kids,
  length (filter (fun x : option nat * dde => str_eqb (dde_name (de (snd x))) tgt)
                 (map (fun t => (Some q, troot t)) kids))
  = length (filter (name_is tgt) kids).
Proof.
  intros tgt q. induction kids as [|t kids IH]; [reflexivity|].
  cbn [map filter snd]. unfold name_is at 1.
  destruct (str_eqb (dde_name (de (troot t))) tgt); cbn [length]; rewrite IH; reflexivity.
Qed.

(* ================================================================= one step, the run *)

(* In a state that satisfies the invariant the REDEFINES check is the specification's.  d is the entry just
   opened; the frame below it, if any, holds the entries of P whose pointer is that frame's position. *)
Lemma mark_ok : forall s P d tl, Inv s (P ++ [d]) -> Forall digits_ok (P ++ d :: tl) ->
  is_ok (mark s) = redefines_ok_at (Eof (P ++ d :: tl)) (length P).
Proof.
  intros [R [d0 k0] r] P d tl (Hf & Hp & Hk & _) HK. rewrite (spec_at P d tl HK).
  cbn [cur fkids] in Hk. subst k0. change {| fd := d0; fkids := [] |} with (open d0) in *.
  rewrite stflat_open in Hf. apply app_inj_tail in Hf. destruct Hf as [Hf ->].
  rewrite stpars_open, msp_snoc in Hp. apply app_inj_tail in Hp. destruct Hp as [Hp Hn].
  rewrite <- Hn. unfold mark. cbn [rest cur open fd].
  destruct r as [|b q]; cbn [frame_par]; destruct (eredef (de d)) as [tgt|]; try reflexivity.
  rewrite <- Hp, <- Hf, combine_app_eq by apply parents_f_length.
  rewrite filter_app, filt_out_f, frame_children; [|unfold out_of; lia | discriminate].
  cbn [app]. rewrite count_kids.
  pose proof (mark_unique_count tgt (fkids b)) as M.
  destruct (mark_unique tgt (fkids b)); symmetry; [apply Nat.eqb_eq | apply Nat.eqb_neq]; exact M.
Qed.

Lemma step_ok : forall s P d tl, Inv s P -> keep d = true -> Forall digits_ok (P ++ d :: tl) ->
  is_ok (step s d) = redefines_ok_at (Eof (P ++ d :: tl)) (length P).
Proof.
  intros s P d tl HI Hkeep HK. rewrite step_eq. unfold keep in Hkeep. destruct (skipped d); [discriminate|].
  apply mark_ok; [apply land_inv, HI | exact HK].
Qed.

Lemma run_ok : forall r s P, Inv s P -> Forall digits_ok (P ++ filter keep r) ->
  is_ok (run s r)
  = forallb (redefines_ok_at (Eof (P ++ filter keep r))) (seq (length P) (length (filter keep r))).
Proof.
  induction r as [|d r IH]; intros s P HI HK; [reflexivity|].
  cbn [filter run] in *. pose proof (step_inv s P d) as HI1. destruct (keep d) eqn:Ek.
  - cbn [length seq forallb]. rewrite <- (step_ok s P d (filter keep r) HI Ek HK).
    destruct (step s d) as [s1|e]; [|reflexivity]. cbn [is_ok andb].
    rewrite (IH s1 (P ++ [d])), <- app_assoc, app_length, Nat.add_1_r; [reflexivity | auto |].
    rewrite <- app_assoc. exact HK.
  - unfold step. unfold keep in Ek. destruct (skipped d); [|discriminate]. apply IH; assumption.
Qed.

Lemma ok_at_0 : forall E, redefines_ok_at E 0 = true.
Proof.
  intro E. unfold redefines_ok_at. destruct (nth_error E 0) as [[[lv nm] [tgt|]]|]; try reflexivity.
  unfold spec_parent. destruct (nth_error _ 0); reflexivity.
Qed.

(* ================================================================= the full statement *)

Lemma redefines_error_full : forall l : list entry, l <> [] ->
  Forall (fun e => two_digits (elv e) = true) l ->
  let E := map (fun d => (lvl_num (dlv d), dde_name (de d), eredef (de d))) (kept_of l) in
  (redefines_ok E = true -> exists f, structure l = Ok f)
  /\ (redefines_ok E = false -> structure l = Err ValueError).
Proof.
  intros [|e l'] Hne Hd; [congruence|]. apply kept_of_digits in Hd. unfold structure, kept_of in *.
  destruct (mk_ddes_cons e 0%N) as (d & c1 & _ & M). rewrite M in *. set (r := mk_ddes c1 l') in *.
  cbn zeta. change (map _ (d :: filter keep r)) with (Eof (d :: filter keep r)).
  pose proof (run_ok r _ [d] (inv_init d) Hd) as Hr. cbn [app length] in Hr.
  unfold redefines_ok. unfold Eof at 2 4. rewrite map_length. cbn [length seq forallb structure_ddes].
  rewrite ok_at_0, <- Hr. cbn [andb].
  destruct (run _ r) as [s|x] eqn:Er; cbn [is_ok]; split; intro H; try discriminate H.
  - eexists. reflexivity.
  - rewrite (run_err _ _ _ Er). reflexivity.
Qed.
