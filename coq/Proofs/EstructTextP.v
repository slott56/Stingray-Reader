(* Lemmas for the text part of C02: the text branch of estruct.unpack for every picture the
   decoder-side scanner accepts (Model/Estruct.v, second half), the text unpacker's Decimal(str).
   Uses the scanner facts of Proofs/PictureP.v (every element the scanner produces is well formed)
   and the codec tie of Proofs/EstructP.v (the table the source names IS code page 037).
   Main lemmas: match_fits, match_plain_exact, unpack_any_text, display_text_never_other, decimal_of_decimal_text. *)
From Coq Require Import ZArith NArith List Bool Lia Arith ZifyBool ZifyN ZifyNat.
Import ListNotations.
Require Import SR.Proofs.PictureP.
Require Import SR.Base.Res SR.Base.Dec SR.Spec.Encode SR.Model.Picture SR.Model.Estruct SR.Proofs.EstructP.
Open Scope N_scope.

(* the scanner's elements are well formed *)
Lemma elems_wf l : forallb wf_item l = true -> forallb wf_elt (elems l) = true.
Proof.
  induction l as [|i l IH]; [reflexivity|]. cbn [forallb]. intros H. apply andb_true_iff in H. destruct H as [Hi Hl].
  destruct i as [e|c|]; cbn [elems]; [|now apply IH|now apply IH].
  cbn [forallb]. cbn [wf_item] in Hi. rewrite Hi. now apply IH.
Qed.

Lemma dec_parse_elems s r : dec_parse s = Some (Ok r) ->
  forallb wf_elt (p_elems r) = true /\ size_loop (p_elems r) 0 = Ok (p_size r).
Proof.
  unfold dec_parse. rewrite dec_normalize_eq.
  destruct (ends_with_tok (dec_items s)); [|discriminate].
  destruct (size_loop (elems (dec_items s)) 0) as [n|e] eqn:ES; [|discriminate].
  intros H. injection H as <-. cbn [p_elems p_size]. split; [|exact ES].
  apply elems_wf, scan_wf.
Qed.

(* one lexeme per position *)
Lemma digit_toks_one c : incls c = true -> length (digit_toks c) = 1%nat.
Proof. intros H. mem_split H; reflexivity. Qed.

Lemma digit_toks_len t : forallb incls t = true -> length (flat_map digit_toks t) = length t.
Proof.
  induction t as [|c t IH]; [reflexivity|]. cbn [forallb flat_map]. intros H. apply andb_true_iff in H. destruct H as [Hc Ht].
  rewrite app_length, (digit_toks_one _ Hc), (IH Ht). reflexivity.
Qed.

Lemma pattern_length es : forallb wf_elt es = true -> forall acc n, size_loop es acc = Ok n ->
  exists ts, text_pattern es = Ok ts /\ (length ts + acc = n)%nat.
Proof.
  induction es as [|[k t] es IH]; intros Hwf acc n Hs.
  - cbn [size_loop] in Hs. injection Hs as <-. exists []. split; reflexivity.
  - cbn [forallb] in Hwf. apply andb_true_iff in Hwf. destruct Hwf as [He Hes].
    cbn [size_loop] in Hs. cbn [text_pattern]. destruct t as [|c t]; [discriminate|].
    assert (Hlen : forall m, size_loop es (acc + m) = Ok n ->
              length (elt_toks k (c :: t)) = m ->
              exists ts, match text_pattern es with Ok rest => Ok (elt_toks k (c :: t) ++ rest) | Err e => Err e end = Ok ts
                         /\ (length ts + acc = n)%nat).
    { intros m Hm Hk. destruct (IH Hes _ _ Hm) as [rest [Hr Hl]]. rewrite Hr.
      eexists. split; [reflexivity|]. rewrite app_length. lia. }
    destruct k.
    + apply (Hlen _ Hs). cbn [elt_toks]. now rewrite map_length.
    + apply (Hlen _ Hs). cbn [elt_toks]. now rewrite map_length.
    + apply (Hlen _ Hs). cbn [elt_toks]. destruct (Picture.list_N_eqb (c :: t) [46]); reflexivity.
    + apply (Hlen _ Hs). cbn [elt_toks]. cbn [wf_elt] in He. now apply digit_toks_len.
Qed.

Lemma picture_classes s r : dec_parse s = Some (Ok r) ->
  exists ts, text_pattern (p_elems r) = Ok ts /\ length ts = p_size r.
Proof.
  intros H. destruct (dec_parse_elems _ _ H) as [Hwf Hs].
  destruct (pattern_length _ Hwf _ _ Hs) as [ts [Ht Hl]]. exists ts. split; [exact Ht|lia].
Qed.

(* the parser on a pattern without + *)
Definition item_of (t : rtok) : re_atom * quant :=
  match t with RAtom a => (a, Q1) | ROptSign => (ASign, QOpt) | RPlus => (ASign, Q1) end.

Definition cons_ok (i : re_atom * quant) (r : res (list (re_atom * quant))) : res (list (re_atom * quant)) :=
  match r with Ok l => Ok (i :: l) | Err e => Err e end.

Lemma rc_atom_nil a : re_compile [RAtom a] = Ok [(a, Q1)].
Proof. reflexivity. Qed.
Lemma rc_opt_nil : re_compile [ROptSign] = Ok [(ASign, QOpt)].
Proof. reflexivity. Qed.
Lemma rc_plus_free t u r : is_plus t = false -> is_plus u = false ->
  re_compile (t :: u :: r) = cons_ok (item_of t) (re_compile (u :: r)).
Proof. destruct t, u; try discriminate; reflexivity. Qed.

Lemma compile_plus_free ts : has_plus ts = false -> re_compile ts = Ok (map item_of ts).
Proof.
  unfold has_plus. induction ts as [|t ts IH]; [reflexivity|]. cbn [existsb]. intros H.
  apply orb_false_iff in H. destruct H as [Ht Hts]. specialize (IH Hts).
  destruct ts as [|u r]; [destruct t; [reflexivity|reflexivity|discriminate]|].
  cbn [existsb] in Hts. apply orb_false_iff in Hts. destruct Hts as [Hu _].
  rewrite (rc_plus_free t u r Ht Hu), IH. reflexivity.
Qed.

(* the parser's only failure is re.error *)
Lemma compile_error ts : forall e, re_compile ts = Err e -> e = StructError.
Proof.
  (* strong induction on the length: the parser looks two lexemes ahead *)
  remember (length ts) as n eqn:Hn. revert ts Hn.
  induction n as [n IHn] using lt_wf_ind. intros [|t ts] -> e; [discriminate|].
  assert (Hrec : forall i r, (length r <= length ts)%nat -> cons_ok i (re_compile r) = Err e -> e = StructError).
  { intros i r Hl. destruct (re_compile r) as [l|e'] eqn:E; cbn [cons_ok]; [discriminate|].
    intros H. injection H as <-. apply (IHn (length r)) with (ts := r); [cbn [length]; lia|reflexivity|exact E]. }
  destruct t as [a| |]; [| |now intros [= <-]]; (destruct ts as [|u r]; [discriminate|]).
  - destruct u as [b| |]; [rewrite rc_plus_free by reflexivity; now apply Hrec..|].
    destruct r as [|[c| |] r2]; [discriminate|..].
    + change (re_compile (RAtom a :: RPlus :: RAtom c :: r2)) with (cons_ok (a, QPlus) (re_compile (RAtom c :: r2))).
      apply Hrec. cbn [length]. lia.
    + change (re_compile (RAtom a :: RPlus :: ROptSign :: r2)) with (cons_ok (a, QPlus) (re_compile (ROptSign :: r2))).
      apply Hrec. cbn [length]. lia.
    + change (re_compile (RAtom a :: RPlus :: RPlus :: r2)) with (cons_ok (a, QPlusPoss) (re_compile r2)).
      apply Hrec. cbn [length]. lia.
  - destruct u as [b| |]; [rewrite rc_plus_free by reflexivity; now apply Hrec..|].
    change (re_compile (ROptSign :: RPlus :: r)) with (cons_ok (ASign, QOptPoss) (re_compile r)).
    apply Hrec. cbn [length]. lia.
Qed.

(* the matcher on a pattern without + *)
Lemma fits_length ts : forall text, fits_classes ts text = true -> length text = length ts.
Proof.
  induction ts as [|t ts IH]; intros [|c text] H; cbn [fits_classes] in H; try discriminate; [reflexivity|].
  apply andb_true_iff in H. destruct H as [_ H]. cbn [length]. now rewrite (IH _ H).
Qed.

(* characters that fit, whatever follows them, are matched *)
Lemma match_fits ts : has_plus ts = false -> forall text extra,
  fits_classes ts text = true -> re_match (map item_of ts) (text ++ extra) = true.
Proof.
  unfold has_plus. induction ts as [|t ts IH]; intros Hp text extra H.
  - reflexivity.
  - cbn [existsb] in Hp. apply orb_false_iff in Hp. destruct Hp as [Ht Hts].
    destruct text as [|c text]; [destruct t; discriminate H|]. cbn [fits_classes] in H.
    apply andb_true_iff in H. destruct H as [Hc Hr]. specialize (IH Hts _ extra Hr).
    destruct t as [a| |]; [| |discriminate].
    + cbn [map item_of app re_match]. cbn [sym_class] in Hc. now rewrite Hc, IH.
    + cbn [map item_of app re_match]. cbn [sym_class] in Hc. now rewrite Hc, IH.
Qed.

(* without S every lexeme is one plain re_atom: a match consumes exactly one fitting character per lexeme *)
Lemma match_plain ts : has_plus ts = false -> has_optsign ts = false -> forall text,
  re_match (map item_of ts) text = true ->
  exists pre rest, text = pre ++ rest /\ fits_classes ts pre = true.
Proof.
  unfold has_plus, has_optsign. induction ts as [|t ts IH]; intros Hp Ho text H.
  - exists [], text. split; reflexivity.
  - cbn [existsb] in Hp, Ho. apply orb_false_iff in Hp. apply orb_false_iff in Ho.
    destruct Hp as [Ht Hts]. destruct Ho as [Ht' Hts'].
    destruct t as [a| |]; [|discriminate|discriminate].
    cbn [map item_of re_match] in H. destruct text as [|c text]; [discriminate|].
    apply andb_true_iff in H. destruct H as [Hc Hr].
    destruct (IH Hts Hts' _ Hr) as [pre [rest [-> Hf]]].
    exists (c :: pre), rest. split; [reflexivity|]. cbn [fits_classes sym_class]. now rewrite Hc, Hf.
Qed.

Lemma match_plain_exact ts text : has_plus ts = false -> has_optsign ts = false ->
  (length text <= length ts)%nat -> re_match (map item_of ts) text = true -> fits_classes ts text = true.
Proof.
  intros Hp Ho Hl H. destruct (match_plain _ Hp Ho _ H) as [pre [rest [-> Hf]]].
  pose proof (fits_length _ _ Hf) as Hpre. rewrite app_length in Hl.
  destruct rest; [now rewrite app_nil_r|]. cbn [length] in Hl. lia.
Qed.

(* unpack_any on a DISPLAY picture that is not zoned decimal *)
Lemma unpack_any_text s r buffer : dec_parse s = Some (Ok r) -> p_zoned r = false ->
  unpack_any display_spelling s buffer = Some (unpack_display_text (p_elems r) buffer).
Proof. intros H Hz. unfold unpack_any. rewrite H, Hz. reflexivity. Qed.

Lemma decode_is_cp037 buffer : map text_decode buffer = map cp037 buffer.
Proof. apply map_ext. exact text_decode_cp037. Qed.

Lemma display_text_plus_free es ts buffer : text_pattern es = Ok ts -> has_plus ts = false ->
  unpack_display_text es buffer =
  if re_match (map item_of ts) (map cp037 buffer) then Ok (VStr (map cp037 buffer)) else Err ValueError.
Proof.
  intros Ht Hp. unfold unpack_display_text. cbv zeta. rewrite Ht, (compile_plus_free _ Hp), decode_is_cp037. reflexivity.
Qed.

(* the result is never another string, whatever the picture and the buffer *)
Lemma display_text_never_other es buffer :
  unpack_display_text es buffer = Ok (VStr (map cp037 buffer))
  \/ unpack_display_text es buffer = Err ValueError
  \/ unpack_display_text es buffer = Err StructError
  \/ unpack_display_text es buffer = Err DesignError.
Proof.
  unfold unpack_display_text. cbv zeta. rewrite decode_is_cp037.
  destruct (text_pattern es) as [ts|e] eqn:Et.
  - destruct (re_compile ts) as [items|e] eqn:Ec.
    + destruct (re_match items (map cp037 buffer)); [now left|now right; left].
    + right; right; left. now rewrite (compile_error _ _ Ec).
  - right; right; right. revert e Et. induction es as [|[k t] es IH]; intros e Et; [discriminate|].
    cbn [text_pattern] in Et. destruct t; [now injection Et as <-|].
    destruct (text_pattern es) as [rest|e'] eqn:E; [discriminate|]. injection Et as <-.
    f_equal. specialize (IH e' eq_refl). now injection IH.
Qed.

(* refutations: what the faithful model does NOT satisfy *)
(* PIC +99 holding +12 (4E F1 F2): the copied + has nothing to repeat *)
Lemma plus_witness :
  exists s r ts buffer, dec_parse s = Some (Ok r) /\ p_zoned r = false /\ text_pattern (p_elems r) = Ok ts
    /\ length buffer = p_size r /\ fits_classes ts (map cp037 buffer) = true
    /\ unpack_any display_spelling s buffer = Some (Err StructError).
Proof.
  exists [43; 57; 57]. eexists. eexists. exists [78; 241; 242].
  split; [vm_compute; reflexivity|]. split; [reflexivity|]. split; [vm_compute; reflexivity|].
  vm_compute. repeat split; reflexivity.
Qed.

(* PIC S99.99 holding 12.345: the optional sign lets a text through whose characters do not fit position by position *)
Lemma optsign_witness :
  exists s r ts buffer, dec_parse s = Some (Ok r) /\ p_zoned r = false /\ text_pattern (p_elems r) = Ok ts
    /\ has_plus ts = false /\ length buffer = p_size r /\ fits_classes ts (map cp037 buffer) = false
    /\ unpack_any display_spelling s buffer = Some (Ok (VStr (map cp037 buffer))).
Proof.
  exists [83; 57; 57; 46; 57; 57]. eexists. eexists. exists [241; 242; 75; 243; 244; 245].
  split; [vm_compute; reflexivity|]. split; [reflexivity|]. split; [vm_compute; reflexivity|].
  vm_compute. repeat split; reflexivity.
Qed.

(* Decimal(str) on the decimal text of a value *)
Definition plain (c : N) : bool := ((48 <=? c) && (c <=? 57)) || (c =? 46) || (c =? 43) || (c =? 45).

Lemma plain_facts c : plain c = true ->
  re_space c = false /\ (c =? 95) = false /\ ((0 <? c) && (c <=? 127)) = true.
Proof.
  unfold plain. intros H.
  assert (Hr : 43 <= c <= 57) by lia.
  unfold re_space, cp_in_ranges. cbn [existsb fst snd]. repeat split; lia.
Qed.

Lemma lstrip_blanks n x : forallb plain x = true -> py_lstrip (repeat 32 n ++ x) = x.
Proof.
  intros Hx. induction n as [|n IH]; cbn [repeat app].
  - destruct x as [|c t]; [reflexivity|]. cbn [forallb] in Hx. apply andb_true_iff in Hx. destruct Hx as [Hc _].
    cbn [py_lstrip]. destruct (plain_facts _ Hc) as [-> _]. reflexivity.
  - cbn [py_lstrip]. change (re_space 32) with true. cbv iota. exact IH.
Qed.

Lemma rev_repeat {A} (x : A) n : rev (repeat x n) = repeat x n.
Proof.
  induction n as [|n IH]; [reflexivity|]. cbn [repeat rev]. rewrite IH.
  clear IH. induction n as [|n IH]; [reflexivity|]. cbn [repeat app]. now rewrite IH.
Qed.

Lemma forallb_rev {A} (p : A -> bool) l : forallb p l = true -> forallb p (rev l) = true.
Proof.
  intros H. apply forallb_forall. intros x Hx. apply in_rev in Hx. rewrite forallb_forall in H. now apply H.
Qed.

Lemma strip_padded lp rp core : forallb plain core = true -> py_strip (repeat 32 lp ++ core ++ repeat 32 rp) = core.
Proof.
  intros Hc. unfold py_strip.
  destruct core as [|c t].
  - cbn [app]. rewrite <- repeat_app. rewrite <- (app_nil_r (repeat 32 (lp + rp))).
    rewrite (lstrip_blanks _ [] eq_refl). reflexivity.
  - cbn [forallb] in Hc. pose proof Hc as Hc'. apply andb_true_iff in Hc'. destruct Hc' as [Hhd _].
    destruct (plain_facts _ Hhd) as [Hsp _].
    assert (H1 : py_lstrip (repeat 32 lp ++ (c :: t) ++ repeat 32 rp) = (c :: t) ++ repeat 32 rp).
    { induction lp as [|lp IH]; cbn [repeat app].
      - cbn [py_lstrip]. now rewrite Hsp.
      - cbn [py_lstrip]. change (re_space 32) with true. cbv iota. exact IH. }
    rewrite H1.
    rewrite rev_app_distr, rev_repeat.
    change (forallb plain (c :: t) = true) in Hc.
    rewrite (lstrip_blanks _ _ (forallb_rev _ _ Hc)). apply rev_involutive.
Qed.

Lemma dec_ascii_plain s : forallb plain s = true -> dec_ascii s = Some s.
Proof.
  induction s as [|c t IH]; [reflexivity|]. cbn [forallb]. intros H. apply andb_true_iff in H. destruct H as [Hc Ht].
  cbn [dec_ascii]. destruct (plain_facts _ Hc) as [_ [-> ->]]. now rewrite (IH Ht).
Qed.

Lemma digit_chars_digits ds : forallb (fun d => d <? 10) ds = true -> forallb ascii_digit (digit_chars ds) = true.
Proof.
  unfold digit_chars. induction ds as [|d t IH]; [reflexivity|]. cbn [forallb map]. intros H. apply andb_true_iff in H. destruct H as [Hd Ht].
  rewrite (IH Ht). unfold ascii_digit. lia.
Qed.

Lemma digit_chars_plain ds : forallb (fun d => d <? 10) ds = true -> forallb plain (digit_chars ds) = true.
Proof.
  unfold digit_chars. induction ds as [|d t IH]; [reflexivity|]. cbn [forallb map]. intros H. apply andb_true_iff in H. destruct H as [Hd Ht].
  rewrite (IH Ht). unfold plain. lia.
Qed.

Lemma digit_values_chars ds : digit_values (digit_chars ds) = ds.
Proof.
  unfold digit_values, digit_chars. rewrite map_map. rewrite <- (map_id ds) at 2. apply map_ext. intros d. lia.
Qed.

Lemma span_ascii_digits a b : forallb ascii_digit a = true ->
  match b with [] => true | c :: _ => negb (ascii_digit c) end = true ->
  span ascii_digit (a ++ b) = (a, b).
Proof.
  intros Ha Hb. induction a as [|c t IH]; cbn [app].
  - destruct b as [|c t]; [reflexivity|]. cbn [span]. apply negb_true_iff in Hb. now rewrite Hb.
  - cbn [forallb] in Ha. apply andb_true_iff in Ha. destruct Ha as [Hc Ht]. cbn [span]. rewrite Hc, (IH Ht). reflexivity.
Qed.

Definition point_part (fds : list N) (point : bool) : list N := if point then 46 :: digit_chars fds else [].
Definition body_text (ids fds : list N) (point : bool) : list N := digit_chars ids ++ point_part fds point.

Lemma numeric_value_body negative ids fds point : decimal_text_ok ids fds point = true ->
  numeric_value negative (body_text ids fds point)
  = Some (Ok (VDec (mkdec negative (val (ids ++ fds)) (- Z.of_nat (length fds))))).
Proof.
  unfold decimal_text_ok. intros H. repeat (apply andb_true_iff in H; destruct H as [H ?]).
  rename H into Hi, H0 into Hp, H1 into Hn, H2 into Hf.
  unfold numeric_value, body_text.
  rewrite (span_ascii_digits (digit_chars ids) (point_part fds point) (digit_chars_digits _ Hi)).
  2:{ unfold point_part. destruct point; reflexivity. }
  assert (Hfp : (let (fp, r2) := match point_part fds point with
                               | c :: t => if c =? 46 then span ascii_digit t else ([], point_part fds point)
                               | [] => ([], point_part fds point)
                               end in (fp, r2)) = (digit_chars fds, [])).
  { unfold point_part. destruct point.
    - change (46 =? 46) with true. cbv iota.
      pose proof (span_ascii_digits (digit_chars fds) [] (digit_chars_digits _ Hf) eq_refl) as Hs. rewrite app_nil_r in Hs.
      now rewrite Hs.
    - cbn [orb] in Hp. apply Nat.eqb_eq in Hp. destruct fds; [reflexivity|discriminate]. }
  destruct (match point_part fds point with
            | c :: t => if c =? 46 then span ascii_digit t else ([], point_part fds point)
            | [] => ([], point_part fds point)
            end) as [fp r2]. injection Hfp as -> ->.
  destruct (digit_chars ids ++ digit_chars fds) as [|c t] eqn:E.
  - apply (f_equal (@length N)) in E. rewrite app_length in E. unfold digit_chars in E. rewrite !map_length in E.
    cbn [length] in E. apply negb_true_iff, Nat.eqb_neq in Hn. lia.
  - rewrite <- E. unfold digit_chars at 1 2. rewrite <- map_app. fold (digit_chars (ids ++ fds)).
    rewrite digit_values_chars. unfold digit_chars. rewrite map_length. reflexivity.
Qed.

Lemma body_plain ids fds point : decimal_text_ok ids fds point = true -> forallb plain (body_text ids fds point) = true.
Proof.
  unfold decimal_text_ok. intros H. repeat (apply andb_true_iff in H; destruct H as [H ?]).
  unfold body_text, point_part. rewrite forallb_app, (digit_chars_plain _ H). destruct point; [|reflexivity].
  cbn [forallb]. now rewrite (digit_chars_plain _ H2).
Qed.

Lemma body_head ids fds point : decimal_text_ok ids fds point = true ->
  exists c t, body_text ids fds point = c :: t /\ (((48 <=? c) && (c <=? 57)) || (c =? 46)) = true.
Proof.
  intros H. pose proof H as H'. unfold decimal_text_ok in H'. repeat (apply andb_true_iff in H'; destruct H' as [H' ?]).
  unfold body_text, point_part. destruct ids as [|d ids].
  - destruct point.
    + exists 46, (digit_chars fds). split; reflexivity.
    + cbn [orb] in H0. apply Nat.eqb_eq in H0. destruct fds; [|discriminate]. cbn in H1. discriminate.
  - exists (48 + d), (digit_chars ids ++ (if point then 46 :: digit_chars fds else [])). split; [reflexivity|].
    cbn [forallb] in H'. lia.
Qed.

Lemma decimal_text_shape sgn ids fds point lp rp :
  decimal_text sgn ids fds point lp rp = repeat 32 lp ++ (sign_text sgn ++ body_text ids fds point) ++ repeat 32 rp.
Proof. unfold decimal_text, body_text, point_part. now rewrite <- !app_assoc. Qed.

Lemma decimal_of_decimal_text (sgn : N) ids fds point lp rp : decimal_text_ok ids fds point = true -> (sgn < 3)%N ->
  decimal_of_text (decimal_text sgn ids fds point lp rp) = Some (Ok (VDec (decimal_text_value sgn ids fds))).
Proof.
  intros Hok Hs. unfold decimal_of_text. rewrite decimal_text_shape.
  assert (Hcore : forallb plain (sign_text sgn ++ body_text ids fds point) = true).
  { rewrite forallb_app, (body_plain _ _ _ Hok). unfold sign_text.
    destruct (sgn =? 1); [reflexivity|]. destruct (sgn =? 2); reflexivity. }
  rewrite (strip_padded _ _ _ Hcore), (dec_ascii_plain _ Hcore).
  destruct (body_head _ _ _ Hok) as [c [t [Hb Hc]]].
  assert (Hspecial : is_special (body_text ids fds point) = false).
  { rewrite Hb. unfold is_special. cbn [starts_ci]. unfold lower_ascii.
    assert (H65 : ((65 <=? c) && (c <=? 90)) = false) by lia. rewrite H65.
    assert (H1 : (c =? 110) = false) by lia. assert (H2 : (c =? 115) = false) by lia. assert (H3 : (c =? 105) = false) by lia.
    rewrite H1, H2, H3. reflexivity. }
  unfold decimal_text_value. unfold sign_text.
  destruct (sgn =? 1) eqn:E1.
  - cbn [app]. change (43 =? 43) with true. cbv iota. rewrite Hspecial.
    assert (E2 : (sgn =? 2) = false) by lia. rewrite E2. apply numeric_value_body. exact Hok.
  - destruct (sgn =? 2) eqn:E2.
    + cbn [app]. change (45 =? 43) with false. change (45 =? 45) with true. cbv iota. rewrite Hspecial.
      apply numeric_value_body. exact Hok.
    + cbn [app]. rewrite Hb. assert (H43 : (c =? 43) = false) by lia. assert (H45 : (c =? 45) = false) by lia.
      rewrite H43, H45, <- Hb, Hspecial. apply numeric_value_body. exact Hok.
Qed.

Lemma slice_field (pad field tail : list N) : py_slice (length pad) (length field) (pad ++ field ++ tail) = field.
Proof.
  unfold py_slice. rewrite skipn_app, skipn_all, Nat.sub_diag. cbn [skipn app].
  rewrite firstn_app, firstn_all, Nat.sub_diag. cbn [firstn]. apply app_nil_r.
Qed.

(* the CONVERSION table read from the source maps "decimal" to Decimal and "string" to str *)
Lemma conversion_decimal : conversion_entry 6 = Some 6%Z /\ conversion_entry 5 = Some 5%Z.
Proof. split; reflexivity. Qed.

