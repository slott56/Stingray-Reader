(* Lemmas for property C12, second layer (Props/C12c.v): level renumbering and entries that do not
   become nodes.

   Part A (specification only, Spec/Dde.v): the nesting of a level sequence K is its POP PROFILE -
   for every arriving entry the number of still open entries it closes.  spec_parents K is a function
   of the pop profile and determines it (nesting_exact), and strictly monotone maps keep it
   (monotone_keeps_nesting).
   Part B (model, Model/Structure.v): two runs of structure() over entry lists that differ in the
   level field only and have the same pop profile are in lock step; the forests are equal up to the
   level field and one raises when the other does (structure_sim).  Erasing the level field commutes
   with every operation on the stack once the pop loop is given as a number of rounds (popn), so the
   only thing two runs have to agree on is that number.
   Part C: named 66/77/88 entries after the first entry are transparent (skipped_transparent).
   Part D: every group renumbers its children on its own (group_keeps_nesting).  Part E: one monotone map applied to
   all kept entries of a copybook (monotone_renumber_nesting). *)
From Coq Require Import NArith List Bool Lia Arith.
Import ListNotations.
Require Import SR.Base.Res SR.Spec.Dde SR.Model.Structure SR.Proofs.StructureP SR.Proofs.ListFactsP.
(* Spec/RenumberWf.v holds the definitions that theorem statements (Props/) mention. *)
Require Export SR.Spec.RenumberWf.
Open Scope nat_scope.

Lemma Forall_skipn : forall {A} (P : A -> Prop) n l, Forall P l -> Forall P (skipn n l).
Proof.
  intros A P n l H. rewrite <- (firstn_skipn n l) in H. apply Forall_app in H. apply H.
Qed.

Lemma filter_map_swap : forall {A B} (f : A -> B) (p : B -> bool) l,
  filter p (map f l) = map f (filter (fun x => p (f x)) l).
Proof.
  intros A B f p. induction l as [|x l IH]; [reflexivity|].
  cbn [map filter]. destruct (p (f x)); cbn [map]; rewrite IH; reflexivity.
Qed.

(* ================================================================= A. the open chain and the pop profile *)

Fixpoint pops (st : list N) (K : list N) : list nat :=
  match K with
  | [] => []
  | x :: r => npop x st :: pops (push x st) r
  end.

Lemma same_pops_iff : forall K K' st st', same_pops st st' K K' = true <-> pops st K = pops st' K'.
Proof.
  induction K as [|x r IH]; intros [|x' r'] st st'; cbn [same_pops pops]; try easy.
  rewrite andb_true_iff, Nat.eqb_eq, IH. split.
  - intros [-> ->]. reflexivity.
  - intro H. injection H. auto.
Qed.

Lemma pops_length : forall K st, length (pops st K) = length K.
Proof. induction K as [|x r IH]; intro st; cbn [pops length]; [reflexivity | rewrite IH; reflexivity]. Qed.

Lemma keeps_nesting_length : forall K K', keeps_nesting K K' = true -> length K = length K'.
Proof.
  intros K K' H. apply same_pops_iff in H. rewrite <- (pops_length K []), <- (pops_length K' []), H. reflexivity.
Qed.

Lemma npop_le_length : forall x st, npop x st <= length st.
Proof. intros x st. induction st as [|y r IH]; cbn [npop length]; [lia|]. destruct (y <? x)%N; lia. Qed.

(* closing for a smaller level closes at least as much; the count splits *)
Lemma npop_split : forall z x st, (z <= x)%N ->
  npop z st = npop x st + npop z (skipn (npop x st) st).
Proof.
  intros z x st Hzx. induction st as [|y r IH]; [reflexivity|].
  cbn [npop]. destruct (y <? x)%N eqn:E; [reflexivity|].
  assert (Ez : (y <? z)%N = false) by lia. rewrite Ez. cbn [skipn plus]. rewrite IH. reflexivity.
Qed.

(* The entries seen so far (rp, nearest first) against the chain of the open ones among them: their positions
   ps and their levels st, innermost first.  The nearest smaller entry is the first open one that is not closed. *)
Definition chain_inv (rp : list N) (ps : list nat) (st : list N) : Prop :=
  forall z, nearest_smaller rp z = hd_error (skipn (npop z st) ps).

Lemma chain_inv_push : forall rp ps st x, chain_inv rp ps st ->
  chain_inv (x :: rp) (length rp :: skipn (npop x st) ps) (push x st).
Proof.
  intros rp ps st x J z. cbn [nearest_smaller]. unfold push. cbn [npop]. destruct (x <? z)%N eqn:E; [reflexivity|].
  cbn [skipn]. rewrite J, <- skipn_add, (npop_split z x st) by lia. reflexivity.
Qed.

Fixpoint parents_w (ps : list nat) (st : list N) (k : nat) (K : list N) : list (option nat) :=
  match K with
  | [] => []
  | x :: r => let n := npop x st in
              hd_error (skipn n ps) :: parents_w (k :: skipn n ps) (push x st) (S k) r
  end.

Lemma parents_w_sp : forall K rp ps st, chain_inv rp ps st -> sp_from rp K = parents_w ps st (length rp) K.
Proof.
  induction K as [|x r IH]; intros rp ps st J; [reflexivity|].
  cbn [sp_from parents_w]. rewrite J. f_equal. apply (IH (x :: rp)), chain_inv_push, J.
Qed.

Lemma parents_w_spec : forall K, spec_parents K = parents_w [] [] 0 K.
Proof. intro K. rewrite spec_parents_sp. apply (parents_w_sp K [] [] []). intro z. reflexivity. Qed.

(* parents are a function of the pop profile ... *)
Lemma parents_of_pops : forall K K' ps st st' k, pops st K = pops st' K' ->
  parents_w ps st k K = parents_w ps st' k K'.
Proof.
  induction K as [|x r IH]; intros [|x' r'] ps st st' k H; cbn [pops] in H; try discriminate; [reflexivity|].
  injection H as H1 H2. cbn [parents_w]. rewrite H1. f_equal. apply IH. exact H2.
Qed.

(* ... and determine it: the open positions are strictly decreasing outward *)
Fixpoint dec_below (k : nat) (ps : list nat) : Prop :=
  match ps with
  | [] => True
  | p :: r => p < k /\ dec_below p r
  end.

Lemma dec_below_weaken : forall ps k k', dec_below k ps -> k <= k' -> dec_below k' ps.
Proof. intros [|p r] k k' H Hk; cbn [dec_below] in *; [exact I|]. destruct H. split; [lia | assumption]. Qed.

Lemma dec_below_skipn : forall n ps k, dec_below k ps -> dec_below k (skipn n ps).
Proof.
  induction n as [|n IH]; intros ps k H; [exact H|]. destruct ps as [|p r]; [exact H|].
  destruct H as [H1 H2]. apply IH. eapply dec_below_weaken; [exact H2 | lia].
Qed.

Lemma dec_below_hd : forall n ps k q, dec_below k ps -> hd_error (skipn n ps) = Some q -> q < k.
Proof.
  intros n ps k q H Hq. apply (dec_below_skipn n) in H.
  destruct (skipn n ps); [discriminate|]. injection Hq as <-. apply H.
Qed.

Lemma hd_skipn_inj : forall ps k n n', dec_below k ps -> n <= length ps -> n' <= length ps ->
  hd_error (skipn n ps) = hd_error (skipn n' ps) -> n = n'.
Proof.
  induction ps as [|p r IH]; intros k n n' Hd Hn Hn' H; cbn [length] in *; [lia|].
  destruct Hd as [Hp Hr]. destruct n as [|n], n' as [|n']; cbn [skipn hd_error] in H.
  - reflexivity.
  - symmetry in H. apply (dec_below_hd n' r p p Hr) in H. lia.
  - apply (dec_below_hd n r p p Hr) in H. lia.
  - f_equal. apply (IH p); try assumption; lia.
Qed.

Lemma pops_of_parents : forall K K' ps st st' k,
  length st = length ps -> length st' = length ps -> dec_below k ps ->
  parents_w ps st k K = parents_w ps st' k K' -> pops st K = pops st' K'.
Proof.
  induction K as [|x r IH]; intros [|x' r'] ps st st' k L L' Hd H; cbn [parents_w] in H; try discriminate; [reflexivity|].
  injection H as H1 H2. cbn [pops].
  apply (hd_skipn_inj ps k) in H1; [|exact Hd | rewrite <- L; apply npop_le_length | rewrite <- L'; apply npop_le_length].
  unfold push in *. rewrite H1 in *. f_equal.
  apply (IH r' (k :: skipn (npop x' st') ps) _ _ (S k)); cbn [length dec_below]; rewrite ?skipn_length, ?L, ?L'.
  - reflexivity.
  - reflexivity.
  - split; [apply Nat.lt_succ_diag_r | apply dec_below_skipn, Hd].
  - exact H2.
Qed.

Lemma nesting_exact : forall K K', keeps_nesting K K' = true <-> spec_parents K = spec_parents K'.
Proof.
  intros K K'. unfold keeps_nesting. rewrite same_pops_iff, !parents_w_spec. split.
  - apply parents_of_pops.
  - apply (pops_of_parents K K' [] [] [] 0); reflexivity.
Qed.

Lemma roots_of_parents : forall K K', spec_parents K = spec_parents K' -> spec_roots K = spec_roots K'.
Proof. intros K K' H. rewrite !spec_roots_eq, H. reflexivity. Qed.

(* ----------------------------------------------------------------- the order relation with every open entry *)

Lemma npop_stop : forall x st, match skipn (npop x st) st with [] => True | z :: _ => (z < x)%N end.
Proof.
  intros x st. induction st as [|y r IH]; cbn [npop]; [exact I|].
  destruct (y <? x)%N eqn:E; cbn [skipn]; [lia | exact IH].
Qed.

Lemma push_sorted : forall x st, chain_sorted st -> chain_sorted (push x st).
Proof.
  intros x st H. split; [apply npop_stop|].
  rewrite <- (firstn_skipn (npop x st) st) in H. induction (firstn (npop x st) st) as [|y l IH]; [exact H|].
  apply IH, H.
Qed.

(* on a sorted chain the comparisons of x with the open entries are: not below x for the first
   npop x st of them, below x for all the others *)
Lemma npop_compare : forall x st, chain_sorted st ->
  map (fun y => (y <? x)%N) st = repeat false (npop x st) ++ repeat true (length st - npop x st).
Proof.
  intros x st. induction st as [|y r IH]; intro H; [reflexivity|].
  destruct H as [H1 H2]. cbn [npop map length]. destruct (y <? x)%N eqn:E.
  - cbn [repeat app Nat.sub]. f_equal.
    clear IH. revert y H1 E. induction r as [|z r IHr]; intros y H1 E; [reflexivity|].
    cbn [map length repeat]. destruct H2 as [H3 H4].
    assert (Ez : (z <? x)%N = true) by lia. rewrite Ez. f_equal. apply (IHr H4 z H3 Ez).
  - cbn [repeat app]. f_equal. apply IH, H2.
Qed.

(* ================================================================= A2. strictly monotone maps *)

Lemma nearest_smaller_map : forall (g : N -> N) rp x,
  Forall (fun y => (y <? x)%N = (g y <? g x)%N) rp ->
  nearest_smaller (map g rp) (g x) = nearest_smaller rp x.
Proof.
  intros g rp x H. induction H as [|y r Hy Hr IH]; [reflexivity|].
  cbn [map nearest_smaller]. rewrite <- Hy, map_length, IH. reflexivity.
Qed.

Lemma sp_from_map : forall (g : N -> N) l rp,
  (forall a b, In a (rp ++ l) -> In b (rp ++ l) -> (a <? b)%N = (g a <? g b)%N) ->
  sp_from (map g rp) (map g l) = sp_from rp l.
Proof.
  intros g. induction l as [|x r IH]; intros rp H; [reflexivity|].
  cbn [map sp_from]. f_equal.
  - apply nearest_smaller_map, Forall_forall. intros y Hy. apply H; [apply in_or_app; left; exact Hy | apply in_elt].
  - assert (S : forall a, In a ((x :: rp) ++ r) -> In a (rp ++ x :: r)).
    { intros a [<- | Ha]; [apply in_elt|]. apply in_or_app. apply in_app_or in Ha.
      destruct Ha; [left | right; right]; assumption. }
    apply (IH (x :: rp)). intros a b Ha Hb. apply H; apply S; assumption.
Qed.

Lemma order_keeps_nesting : forall (g : N -> N) (K : list N),
  (forall a b, In a K -> In b K -> (a <? b)%N = (g a <? g b)%N) ->
  spec_parents (map g K) = spec_parents K /\ spec_roots (map g K) = spec_roots K.
Proof.
  intros g K H.
  assert (E : spec_parents (map g K) = spec_parents K).
  { rewrite !spec_parents_sp. apply (sp_from_map g K []). exact H. }
  split; [exact E | apply roots_of_parents; exact E].
Qed.

Lemma monotone_keeps_nesting : forall (dom : N -> Prop) (g : N -> N) (K : list N),
  (forall a b, dom a -> dom b -> (a < b)%N -> (g a < g b)%N) ->
  Forall dom K ->
  spec_parents (map g K) = spec_parents K /\ spec_roots (map g K) = spec_roots K.
Proof.
  intros dom g K Hg HK. apply order_keeps_nesting. intros a b Ha Hb.
  rewrite Forall_forall in HK. pose proof (Hg a b (HK _ Ha) (HK _ Hb)) as Hab. pose proof (Hg b a (HK _ Hb) (HK _ Ha)) as Hba.
  destruct (N.lt_total a b) as [L | [-> | L]]; lia.
Qed.

(* ================================================================= B. two runs of structure() in lock step *)

Definition drel (d d' : dde) : Prop := erase_d d = erase_d d' /\ skipped d = skipped d'.

Lemma L01_num : forall a, two_digits a = true -> lvl_eqb a L01 = (lvl_num a =? 1)%N.
Proof. intros a H. unfold L01. rewrite lvl_eqb_num by (exact H || reflexivity). reflexivity. Qed.

Lemma skipped_num : forall d, digits_ok d -> skipped d = negb (kept_level (lvl_num (dlv d))).
Proof. intros d H. rewrite <- (keep_num d H). unfold keep. rewrite negb_involutive. reflexivity. Qed.

Lemma mk_ddes_rel : forall l l', Forall2 relevelled l l' ->
  Forall (fun e => two_digits (elv e) = true) l -> Forall (fun e => two_digits (elv e) = true) l' ->
  forall c, Forall2 drel (mk_ddes c l) (mk_ddes c l').
Proof.
  intros l l' H. induction H as [|e e' r r' (He & Hk & H1) Hr IH]; intros D D' c; [constructor|].
  apply Forall_cons_iff in D, D'. destruct D as [De Dr], D' as [De' Dr'].
  rewrite (mk_ddes_eq c e r), (mk_ddes_eq c e' r'). cbv zeta. rewrite (L01_num _ De), (L01_num _ De'), H1.
  assert (Hn : dde_name e = dde_name e') by (change (dde_name (erase_e e) = dde_name (erase_e e')); rewrite He; reflexivity).
  assert (Hf : is_filler e = is_filler e') by (unfold is_filler; rewrite Hn; reflexivity).
  rewrite Hf, Hn.
  assert (R : forall u, drel {| de := e; du := u |} {| de := e'; du := u |}).
  { intro u. split; [unfold erase_d; cbn [de du]; rewrite He; reflexivity|].
    rewrite !skipped_num by assumption. unfold dlv. cbn [de]. rewrite Hk. reflexivity. }
  destruct (is_filler e'); constructor; auto.
Qed.

(* ----------------------------------------------------------------- erasing the level field commutes with the stack operations *)

Definition erase_f (f : frame) : frame := {| fd := erase_d (fd f); fkids := map erase_t (fkids f) |}.

Definition erase_s (s : state) : state :=
  {| roots := map erase_t (roots s); cur := erase_f (cur s); rest := map erase_f (rest s) |}.

Definition on_ok {T U} (f : T -> U) (r : res T) : res U :=
  match r with Ok v => Ok (f v) | Err e => Err e end.

Lemma erase_close : forall c, erase_t (close c) = close (erase_f c).
Proof. reflexivity. Qed.

Lemma erase_attach : forall t p, erase_f (attach t p) = attach (erase_t t) (erase_f p).
Proof. intros t p. unfold erase_f, attach. cbn [fd fkids]. rewrite map_app. reflexivity. Qed.

Lemma erase_collapse : forall r c, erase_t (collapse c r) = collapse (erase_f c) (map erase_f r).
Proof.
  induction r as [|p o IH]; intro c; cbn [collapse map]; [reflexivity|].
  rewrite IH, erase_attach, erase_close. reflexivity.
Qed.

Lemma erase_finish : forall s, map erase_t (finish s) = finish (erase_s s).
Proof. intro s. unfold finish. rewrite map_app. cbn [map]. rewrite erase_collapse. reflexivity. Qed.

Lemma erase_preorder : forall f, preorder_f (map erase_t f) = map erase_d (preorder_f f).
Proof.
  apply (forest_ind (fun t => preorder (erase_t t) = map erase_d (preorder t))
                    (fun f => preorder_f (map erase_t f) = map erase_d (preorder_f f))).
  - intros d b kids IH. cbn [erase_t]. rewrite !preorder_node, IH. reflexivity.
  - reflexivity.
  - intros t f Ht Hf. cbn [map]. rewrite !preorder_f_cons, map_app, Ht, Hf. reflexivity.
Qed.

(* the REDEFINES check looks at names only *)
Lemma erase_mark_unique : forall tgt k,
  mark_unique tgt (map erase_t k) = option_map (map erase_t) (mark_unique tgt k).
Proof.
  intros tgt k. unfold mark_unique.
  assert (N : forall t, name_is tgt (erase_t t) = name_is tgt t) by (intros [d b ks]; reflexivity).
  rewrite filter_map_swap, (filter_ext _ _ N).
  destruct (filter (name_is tgt) k) as [|a [|a2 ar]]; try reflexivity.
  cbn [map option_map]. rewrite !map_map. f_equal. apply map_ext. intros [d b ks].
  rewrite N. destruct (name_is tgt (TNode d b ks)); reflexivity.
Qed.

(* ----------------------------------------------------------------- the pop loop as a number of rounds *)

Fixpoint npopL (x : lvl) (st : list lvl) : nat :=
  match st with
  | [] => 0
  | y :: r => if lvl_leb x y then S (npopL x r) else 0
  end.

(* the levels of the open frames, innermost first *)
Definition lv (c : frame) (r : list frame) : list lvl := map (fun f => dlv (fd f)) (c :: r).

Fixpoint popn (n : nat) (c : frame) (r : list frame) : (frame * list frame) + tree :=
  match n, r with
  | O, _ => inl (c, r)
  | S _, [] => inr (close c)
  | S n', p :: r' => popn n' (attach (close c) p) r'
  end.

Lemma pop_popn : forall x r c, pop x c r = popn (npopL x (lv c r)) c r.
Proof.
  intros x. induction r as [|p o IH]; intro c; cbn [pop lv map npopL]; rewrite pop_test_eq;
    destruct (lvl_leb x (dlv (fd c))); try reflexivity.
  apply IH.
Qed.

Definition erase_p (o : (frame * list frame) + tree) : (frame * list frame) + tree :=
  match o with inl (b, q) => inl (erase_f b, map erase_f q) | inr t => inr (erase_t t) end.

Lemma erase_popn : forall n r c, erase_p (popn n c r) = popn n (erase_f c) (map erase_f r).
Proof.
  induction n as [|n IH]; intros r c; [reflexivity|].
  destruct r as [|p o]; [reflexivity|]. cbn [popn map]. rewrite IH, erase_attach, erase_close. reflexivity.
Qed.

(* ----------------------------------------------------------------- one step, the whole run *)

Definition LS (s : state) : list lvl := lv (cur s) (rest s).

Lemma erase_land : forall R d o, erase_s (land R d o) = land (map erase_t R) (erase_d d) (erase_p o).
Proof.
  intros R d [[b q]|t]; [reflexivity|]. unfold erase_s. cbn [land erase_p roots cur rest]. rewrite map_app. reflexivity.
Qed.

Lemma erase_mark : forall s, on_ok erase_s (mark s) = mark (erase_s s).
Proof.
  intros [R c [|b q]]; [reflexivity|]. unfold mark. cbn [erase_s roots cur rest map].
  change (eredef (de (fd (erase_f c)))) with (eredef (de (fd c))). destruct (eredef (de (fd c))) as [tgt|]; [|reflexivity].
  cbn [erase_f fkids]. rewrite erase_mark_unique. destruct (mark_unique tgt (fkids b)); reflexivity.
Qed.

Lemma land_LS : forall n R d r c, LS (land R d (popn n c r)) = dlv d :: skipn n (lv c r).
Proof.
  induction n as [|n IH]; intros R d r c; [reflexivity|].
  destruct r as [|p o]; [destruct n; reflexivity | apply IH].
Qed.

Lemma mark_LS : forall s a, mark s = Ok a -> LS a = LS s.
Proof.
  intros [R c [|b q]] a; unfold mark; cbn [cur rest]; [intro H; injection H as <-; reflexivity|].
  destruct (eredef (de (fd c))) as [tgt|]; [destruct (mark_unique tgt (fkids b)); [|discriminate]|];
    intro H; injection H as <-; reflexivity.
Qed.

Lemma step_LS : forall s d a, step s d = Ok a ->
  LS a = if skipped d then LS s else dlv d :: skipn (npopL (dlv d) (LS s)) (LS s).
Proof.
  intros s d a. rewrite step_eq. destruct (skipped d); intro H; [injection H as <-; reflexivity|].
  rewrite (mark_LS _ _ H), pop_popn. apply land_LS.
Qed.

Lemma step_sim : forall s s' d d', erase_s s = erase_s s' -> drel d d' ->
  (skipped d = false -> npopL (dlv d) (LS s) = npopL (dlv d') (LS s')) ->
  on_ok erase_s (step s d) = on_ok erase_s (step s' d').
Proof.
  intros s s' d d' E [Hd Hs] Hn. rewrite !step_eq, <- Hs.
  destruct (skipped d); [cbn [on_ok]; rewrite E; reflexivity|].
  rewrite !erase_mark, !erase_land, !pop_popn, !erase_popn. fold (LS s) (LS s').
  rewrite (f_equal roots E : map erase_t (roots s) = map erase_t (roots s')).
  rewrite (f_equal cur E : erase_f (cur s) = erase_f (cur s')).
  rewrite (f_equal rest E : map erase_f (rest s) = map erase_f (rest s')), Hd, (Hn eq_refl). reflexivity.
Qed.

(* the pop profile over two-character levels, and what it is in level numbers *)
Fixpoint popsL (st : list lvl) (K : list lvl) : list nat :=
  match K with
  | [] => []
  | x :: r => npopL x st :: popsL (x :: skipn (npopL x st) st) r
  end.

Lemma npopL_num : forall x st, two_digits x = true -> Forall (fun y => two_digits y = true) st ->
  npopL x st = npop (lvl_num x) (map lvl_num st).
Proof.
  intros x st Hx H. induction H as [|y r Hy Hr IH]; [reflexivity|].
  cbn [npopL map npop]. rewrite (lvl_leb_num x y Hx Hy), IH.
  destruct (lvl_num y <? lvl_num x)%N; reflexivity.
Qed.

Lemma popsL_num : forall K st, Forall digits_ok K -> Forall (fun y => two_digits y = true) st ->
  popsL st (map dlv K) = pops (map lvl_num st) (levels_of K).
Proof.
  intros K st H. revert st. induction H as [|d K Hd HK IH]; intros st Hst; [reflexivity|].
  cbn [map popsL levels_of pops]. rewrite npopL_num by assumption. f_equal.
  unfold push. rewrite skipn_map. apply (IH (dlv d :: skipn _ st)).
  constructor; [exact Hd | apply Forall_skipn, Hst].
Qed.

Lemma run_sim : forall r r', Forall2 drel r r' -> forall s s', erase_s s = erase_s s' ->
  popsL (LS s) (map dlv (filter keep r)) = popsL (LS s') (map dlv (filter keep r')) ->
  on_ok erase_s (run s r) = on_ok erase_s (run s' r').
Proof.
  intros r r' H. induction H as [|d d' r r' Hd Hr IH]; intros s s' E HP; cbn [run]; [cbn [on_ok]; rewrite E; reflexivity|].
  pose proof (step_sim s s' d d' E Hd) as S. pose proof (step_LS s d) as L. pose proof (step_LS s' d') as L'.
  destruct Hd as [_ Hs]. cbn [filter] in HP. unfold keep in HP. rewrite <- Hs in HP, L'.
  assert (Hn : skipped d = false -> npopL (dlv d) (LS s) = npopL (dlv d') (LS s')).
  { intro Sk. rewrite Sk in HP. injection HP as HP _. exact HP. }
  specialize (S Hn).
  destruct (step s d) as [a|e], (step s' d') as [a'|e']; try discriminate S; [|exact S].
  assert (E' : erase_s a = erase_s a') by (cbn [on_ok] in S; congruence).
  apply (IH _ _ E'). rewrite (L a eq_refl), (L' a' eq_refl).
  destruct (skipped d); [exact HP|]. injection HP as _ HP. exact HP.
Qed.

Definition erase_res (r : res (list tree)) : res (list tree) := on_ok (map erase_t) r.

Lemma kept_of_cons : forall l d r, mk_ddes 0 l = d :: r -> kept_of l = d :: filter keep r.
Proof. intros l d r H. unfold kept_of. rewrite H. reflexivity. Qed.

Lemma structure_sim : forall l l',
  Forall2 relevelled l l' ->
  Forall (fun e => two_digits (elv e) = true) l -> Forall (fun e => two_digits (elv e) = true) l' ->
  keeps_nesting (levels_of (kept_of l)) (levels_of (kept_of l')) = true ->
  erase_res (structure l) = erase_res (structure l').
Proof.
  intros l l' H D D' HK. pose proof (mk_ddes_rel l l' H D D' 0%N) as R.
  apply kept_of_digits in D, D'. apply same_pops_iff in HK. unfold structure, kept_of in *.
  destruct R as [|d d' r r' Hd Hr]; [reflexivity|]. cbn [structure_ddes].
  apply Forall_cons_iff in D, D'. destruct D as [Dd Dr], D' as [Dd' Dr'].
  injection HK as HK.
  set (s0 := {| roots := []; cur := open d; rest := [] |}).
  set (s0' := {| roots := []; cur := open d'; rest := [] |}).
  assert (E0 : erase_s s0 = erase_s s0') by (unfold erase_s, erase_f; cbn; rewrite (proj1 Hd); reflexivity).
  pose proof (run_sim r r' Hr s0 s0' E0) as S.
  rewrite !popsL_num in S by (assumption || (constructor; [assumption | constructor])).
  specialize (S HK). unfold erase_res.
  destruct (run s0 r) as [a|e], (run s0' r') as [a'|e']; try discriminate S; cbn [on_ok] in *.
  - rewrite !erase_finish. congruence.
  - congruence.
Qed.

(* ================================================================= C. entries that never become nodes *)

Lemma transparent_mk : forall e c r, transparent e ->
  exists d, mk_ddes c (e :: r) = d :: mk_ddes c r /\ skipped d = true.
Proof.
  intros e c r (H1 & H2 & H3). exists {| de := e; du := dde_name e |}. rewrite mk_ddes_eq. cbv zeta.
  rewrite H3, (L01_num _ H1).
  assert (E : (lvl_num (elv e) =? 1)%N = false) by (unfold kept_level in H2; lia).
  rewrite E. split; [reflexivity|].
  rewrite skipped_num by exact H1. unfold dlv. cbn [de]. rewrite H2. reflexivity.
Qed.

Lemma ins_skipped_run : forall l l', ins_skipped l l' -> forall c s,
  run s (mk_ddes c l') = run s (mk_ddes c l) /\ filter keep (mk_ddes c l') = filter keep (mk_ddes c l).
Proof.
  intros l l' H. induction H as [|e l l' H IH|e l l' T H IH]; intros c s.
  - split; reflexivity.
  - destruct (mk_ddes_cons e c) as (d & c1 & _ & M). rewrite !M. cbn [run filter]. split.
    + destruct (step s d) as [s1|x]; [apply IH | reflexivity].
    + rewrite (proj2 (IH c1 s)). reflexivity.
  - destruct (transparent_mk e c l' T) as (d & M & Sk). rewrite M. cbn [run filter].
    unfold step, keep. rewrite Sk. apply IH.
Qed.

Lemma skipped_transparent : forall e l l', ins_skipped l l' ->
  structure (e :: l') = structure (e :: l) /\ kept_of (e :: l') = kept_of (e :: l).
Proof.
  intros e l l' H. unfold structure, kept_of.
  destruct (mk_ddes_cons e 0%N) as (d & c1 & _ & M). rewrite !M. cbn [structure_ddes].
  destruct (ins_skipped_run l l' H c1 {| roots := []; cur := open d; rest := [] |}) as [-> ->].
  split; reflexivity.
Qed.

(* ================================================================= D. every group renumbers its children on its own *)

Section Group.
  Variables K K' : list N.

  (* siblings (same parent, or both roots) keep their order relation; a child stays above its parent *)
  Hypothesis Hsib : forall i j, i < length K -> j < length K -> spec_parent K i = spec_parent K j ->
    (nth i K 0 <? nth j K 0)%N = (nth i K' 0 <? nth j K' 0)%N.
  Hypothesis Hpar : forall i p, i < length K -> spec_parent K i = Some p -> (nth p K' 0 < nth i K' 0)%N.

  Definition lev (i : nat) : N := nth i K 0%N.
  Definition lev' (i : nat) : N := nth i K' 0%N.

  (* the positions of the open entries: consecutive elements are child and parent *)
  Fixpoint chainI (c : list nat) : Prop :=
    match c with
    | [] => True
    | i :: r => i < length K /\ spec_parent K i = hd_error r /\ chainI r
    end.

  Lemma chainI_skipn : forall n c, chainI c -> chainI (skipn n c).
  Proof. induction n as [|n IH]; intros [|i r] H; try exact H. apply IH, H. Qed.

  (* An entry k whose parent in K is the first open entry it does not close there closes the same
     entries in K': its parent stays (Hpar); the outermost entry it closes is a sibling (Hsib), and
     what that one encloses lies above it in K' as well. *)
  Lemma npop_group : forall c k, chainI c -> k < length K ->
    spec_parent K k = hd_error (skipn (npop (lev k) (map lev c)) c) ->
    npop (lev' k) (map lev' c) = npop (lev k) (map lev c).
  Proof.
    intros c k H Hk. induction c as [|i r IH]; intro HP; [reflexivity|].
    destruct H as (Hi & C & E). cbn [map npop] in *. destruct (lev i <? lev k)%N eqn:Eik.
    - pose proof (Hpar k i Hk HP) as L. fold (lev' i) (lev' k) in L.
      assert (E2 : (lev' i <? lev' k)%N = true) by lia. rewrite E2. reflexivity.
    - cbn [skipn] in HP. specialize (IH E HP).
      assert (E2 : (lev' i <? lev' k)%N = false); [|rewrite E2, IH; reflexivity].
      assert (Sib : spec_parent K i = spec_parent K k -> (lev' i <? lev' k)%N = false)
        by (intro S; unfold lev'; rewrite <- (Hsib i k Hi Hk S); exact Eik).
      destruct r as [|z r2]; [apply Sib; rewrite C, HP; reflexivity|].
      cbn [map npop] in IH, HP. destruct (lev z <? lev k)%N; [apply Sib; rewrite C, HP; reflexivity|].
      pose proof (Hpar i z Hi C) as D. fold (lev' z) (lev' i) in D.
      destruct (lev' z <? lev' k)%N eqn:Ez; [discriminate IH | lia].
  Qed.

  Lemma group_pops : forall Ksuf K'suf Kpre K'pre c,
    K = Kpre ++ Ksuf -> K' = K'pre ++ K'suf -> length Kpre = length K'pre -> length Ksuf = length K'suf ->
    chain_inv (rev Kpre) c (map lev c) -> chainI c ->
    pops (map lev' c) K'suf = pops (map lev c) Ksuf.
  Proof.
    induction Ksuf as [|x r IH]; intros [|x' r'] Kpre K'pre c EK EK' Lp Ls J CI; try discriminate Ls; [reflexivity|].
    assert (Hx : lev (length Kpre) = x) by (unfold lev; rewrite EK; apply nth_middle).
    assert (Hx' : lev' (length Kpre) = x') by (unfold lev'; rewrite EK', Lp; apply nth_middle).
    subst x x'. set (k := length Kpre) in *.
    assert (Hk : k < length K) by (rewrite EK, app_length; cbn [length]; lia).
    assert (HP : spec_parent K k = hd_error (skipn (npop (lev k) (map lev c)) c))
      by (rewrite EK at 1; unfold k at 1; rewrite spec_parent_at; apply J).
    cbn [pops]. unfold push. rewrite (npop_group c k CI Hk HP), !skipn_map. f_equal.
    apply (IH r' (Kpre ++ [lev k]) (K'pre ++ [lev' k]) (k :: skipn (npop (lev k) (map lev c)) c)).
    - rewrite <- app_assoc. exact EK.
    - rewrite <- app_assoc. exact EK'.
    - rewrite !app_length. cbn [length]. lia.
    - cbn [length] in Ls. lia.
    - rewrite rev_unit. cbn [map]. rewrite <- skipn_map. unfold k at 2. rewrite <- rev_length. apply chain_inv_push, J.
    - split; [exact Hk|]. split; [exact HP | apply chainI_skipn, CI].
  Qed.

  Lemma group_parents : length K = length K' -> spec_parents K' = spec_parents K.
  Proof.
    intro L. apply nesting_exact, same_pops_iff.
    apply (group_pops K K' [] [] []); try reflexivity; [exact L | intro z; reflexivity].
  Qed.
End Group.

Lemma opt_nat_eqb_refl : forall a, opt_nat_eqb a a = true.
Proof. intros [a|]; cbn [opt_nat_eqb]; [apply Nat.eqb_refl | reflexivity]. Qed.

Lemma group_keeps_nesting : forall K K', group_renumbering K K' = true ->
  spec_parents K' = spec_parents K /\ spec_roots K' = spec_roots K.
Proof.
  intros K K' H. unfold group_renumbering in H. apply andb_true_iff in H. destruct H as [HL HA].
  apply Nat.eqb_eq in HL. rewrite forallb_forall in HA.
  assert (E : spec_parents K' = spec_parents K).
  { apply group_parents; [| |exact HL].
    - intros i j Hi Hj HP. specialize (HA i (proj2 (in_seq _ _ _) (conj (Nat.le_0_l i) Hi))).
      apply andb_true_iff, proj1 in HA. rewrite forallb_forall in HA.
      specialize (HA j (proj2 (in_seq _ _ _) (conj (Nat.le_0_l j) Hj))).
      rewrite HP, opt_nat_eqb_refl in HA. apply eqb_prop in HA. exact HA.
    - intros i p Hi HP. specialize (HA i (proj2 (in_seq _ _ _) (conj (Nat.le_0_l i) Hi))).
      apply andb_true_iff, proj2 in HA. rewrite HP in HA. apply N.ltb_lt. exact HA. }
  split; [exact E | apply roots_of_parents; exact E].
Qed.

(* ================================================================= E. a monotone map applied to the entries of a copybook *)

Lemma lvl_of_num_ok : forall n, (n < 100)%N -> two_digits (lvl_of_num n) = true /\ lvl_num (lvl_of_num n) = n.
Proof.
  intros n H. assert (Q : (n / 10 < 10)%N) by (apply N.div_lt_upper_bound; [discriminate | exact H]).
  assert (M : (n mod 10 < 10)%N) by (apply N.mod_lt; discriminate).
  unfold two_digits, lvl_of_num. cbn [fst snd]. rewrite !is_digit_add, lvl_num_val. split.
  - apply andb_true_iff. split; apply N.ltb_lt; assumption.
  - symmetry. apply N.div_mod. discriminate.
Qed.

Definition on_kept (g : N -> N) (n : N) : N := if kept_level n then g n else n.

Lemma levels_kept_of : forall e r, Forall (fun e => two_digits (elv e) = true) r ->
  levels_of (kept_of (e :: r))
  = map (fun e => lvl_num (elv e)) (e :: filter (fun e => kept_level (lvl_num (elv e))) r).
Proof.
  intros e r H. rewrite <- (kept_of_entries e r H), map_map. reflexivity.
Qed.

(* a map rho on entries that acts as h on the level numbers and keeps which entries are kept *)
Lemma kept_levels_map : forall (rho : entry -> entry) (h : N -> N) r,
  Forall (fun x => lvl_num (elv (rho x)) = h (lvl_num (elv x))
                   /\ kept_level (h (lvl_num (elv x))) = kept_level (lvl_num (elv x))) r ->
  map (fun e => lvl_num (elv e)) (filter (fun e => kept_level (lvl_num (elv e))) (map rho r))
  = map h (map (fun e => lvl_num (elv e)) (filter (fun e => kept_level (lvl_num (elv e))) r)).
Proof.
  induction 1 as [|x r [Hx Kx] _ IH]; [reflexivity|].
  cbn [map filter]. rewrite Hx, Kx. destruct (kept_level (lvl_num (elv x))); cbn [map]; rewrite ?Hx, IH; reflexivity.
Qed.

Section Monotone.
  (* used = the level numbers the kept entries of the copybook carry (within 01..49);
     g is strictly monotone on them, stays within 01..49 and maps 01, and only 01, to 01.
     (On the whole of 01..49 only the identity is such a map, hence the set.) *)
  Variable used : N -> Prop.
  Variable g : N -> N.
  Hypothesis used_range : forall a, used a -> in_range a.
  Hypothesis g_mono : forall a b, used a -> used b -> (a < b)%N -> (g a < g b)%N.
  Hypothesis g_range : forall a, used a -> in_range (g a).
  Hypothesis g_one : forall a, used a -> (g a =? 1)%N = (a =? 1)%N.
  Notation entry_in := (entry_in used).

  Lemma relevel_num : forall e, entry_in e ->
    two_digits (elv (relevel g e)) = true /\ lvl_num (elv (relevel g e)) = on_kept g (lvl_num (elv e)).
  Proof.
    clear g_one g_mono used_range. intros e [D R]. unfold relevel, on_kept. destruct (kept_level (lvl_num (elv e))) eqn:E.
    - cbn [set_level elv]. apply lvl_of_num_ok. pose proof (g_range _ (R eq_refl)) as GR. unfold in_range in GR. lia.
    - split; [exact D | reflexivity].
  Qed.

  Lemma on_kept_kept : forall n, (kept_level n = true -> used n) -> kept_level (on_kept g n) = kept_level n.
  Proof.
    clear g_one g_mono used_range. intros n R. unfold on_kept. destruct (kept_level n) eqn:E; [|exact E].
    pose proof (g_range _ (R eq_refl)) as GR. unfold in_range in GR. unfold kept_level. lia.
  Qed.

  Lemma relevel_relevelled : forall l, Forall entry_in l -> Forall2 relevelled l (map (relevel g) l).
  Proof.
    clear g_mono used_range. intros l H. induction H as [|e r He Hr IH]; [constructor|]. cbn [map]. constructor; [|exact IH].
    destruct (relevel_num e He) as [_ N1]. destruct He as [D R]. unfold relevelled. rewrite N1. split; [|split].
    - unfold relevel. destruct (kept_level (lvl_num (elv e))); reflexivity.
    - symmetry. apply on_kept_kept. exact R.
    - unfold on_kept. destruct (kept_level (lvl_num (elv e))); [symmetry; apply g_one, R|]; reflexivity.
  Qed.

  Lemma on_kept_mono : forall a b,
    (used a \/ kept_level a = false) -> (used b \/ kept_level b = false) ->
    (a < b)%N -> (on_kept g a < on_kept g b)%N.
  Proof.
    clear g_one. intros a b Ha Hb L. unfold on_kept.
    destruct (kept_level a) eqn:Ea, (kept_level b) eqn:Eb.
    - destruct Ha as [Ha|Ha]; [|discriminate]. destruct Hb as [Hb|Hb]; [|discriminate]. apply g_mono; assumption.
    - destruct Ha as [Ha|Ha]; [|discriminate]. pose proof (g_range _ Ha) as GR. unfold in_range in GR.
      unfold kept_level in Eb. lia.
    - destruct Hb as [Hb|Hb]; [|discriminate]. apply used_range in Hb. unfold in_range in Hb.
      unfold kept_level in Ea. lia.
    - exact L.
  Qed.

  Lemma monotone_renumber_nesting : forall l, Forall entry_in l ->
    Forall (fun e => two_digits (elv e) = true) (map (relevel g) l)
    /\ spec_parents (levels_of (kept_of (map (relevel g) l))) = spec_parents (levels_of (kept_of l)).
  Proof.
    clear g_one. intros l H.
    assert (D : Forall (fun e => two_digits (elv e) = true) l) by (eapply Forall_impl; [|exact H]; intros e He; apply He).
    assert (D' : Forall (fun e => two_digits (elv e) = true) (map (relevel g) l)).
    { apply Forall_map. eapply Forall_impl; [|exact H]. intros e He. apply (relevel_num e He). }
    split; [exact D'|]. destruct H as [|e r He Hr]; [reflexivity|]. cbn [map] in *.
    apply Forall_cons_iff, proj2 in D, D'. rewrite !levels_kept_of by assumption.
    cbn [map]. rewrite (proj2 (relevel_num e He)), (kept_levels_map (relevel g) (on_kept g)).
    - apply (monotone_keeps_nesting (fun n => used n \/ kept_level n = false) (on_kept g) (_ :: _)); [exact on_kept_mono|].
      apply (Forall_map (fun e => lvl_num (elv e)) _ (e :: _)). apply (Forall_impl _ (P := entry_in)).
      + intros x [_ Rx]. destruct (kept_level (lvl_num (elv x))); [left; apply Rx; reflexivity | right; reflexivity].
      + constructor; [exact He | apply (incl_Forall (incl_filter _ r)), Hr].
    - eapply Forall_impl; [|exact Hr]. intros x Hx. split; [apply relevel_num, Hx | apply on_kept_kept, Hx].
  Qed.
End Monotone.
