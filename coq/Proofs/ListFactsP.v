(* Facts about lists from the standard library's vocabulary alone (NoDup and append, skipn and firstn over an append,
   Forall2, membership by N.eqb) that the library of Coq 8.16 lacks. *)
From Coq Require Import List Arith NArith Bool.
Import ListNotations.

Lemma NoDup_app_r {T} (a b : list T) : NoDup (a ++ b) -> NoDup b.
Proof. induction a as [|x a IH]; simpl; intros H; [exact H|]. apply IH. inversion H; assumption. Qed.

Lemma NoDup_app_l {T} (a b : list T) : NoDup (a ++ b) -> NoDup a.
Proof.
  induction a as [|x a IH]; simpl; intros H; [constructor|]. inversion H as [|? ? Hx Hr]; subst.
  constructor; [intros Hin; apply Hx; apply in_or_app; left; exact Hin|apply IH; exact Hr].
Qed.

Lemma NoDup_app_disj {T} (a b : list T) x : NoDup (a ++ b) -> In x a -> In x b -> False.
Proof.
  induction a as [|y a IH]; simpl; intros H Ha Hb; [contradiction|]. inversion H as [|? ? Hy Hr]; subst.
  destruct Ha as [ -> |Ha]; [apply Hy; apply in_or_app; right; exact Hb|apply IH; assumption].
Qed.

Lemma NoDup_app_intro {T} (a b : list T) :
  NoDup a -> NoDup b -> (forall x, In x a -> In x b -> False) -> NoDup (a ++ b).
Proof.
  intros Ha Hb Hd. induction Ha as [|x a Hx Ha IH]; [exact Hb|]. cbn [app]. constructor.
  - intros Hin. apply in_app_or in Hin. destruct Hin as [Hin|Hin]; [contradiction|]. apply (Hd x); [now left|exact Hin].
  - apply IH. intros y Hy. apply Hd. now right.
Qed.

Lemma firstn_exact {A} (a b : list A) : firstn (length a) (a ++ b) = a.
Proof. rewrite firstn_app, Nat.sub_diag, firstn_all. cbn. apply app_nil_r. Qed.

Lemma skipn_exact {A} (a b : list A) : skipn (length a) (a ++ b) = b.
Proof. rewrite skipn_app, Nat.sub_diag, skipn_all. reflexivity. Qed.

Lemma firstn_app_le {A} (l1 l2 : list A) n : n <= length l1 -> firstn n (l1 ++ l2) = firstn n l1.
Proof. intros H. rewrite firstn_app, (proj2 (Nat.sub_0_le _ _) H). apply app_nil_r. Qed.

Lemma skipn_app_le {A} (l1 l2 : list A) n : n <= length l1 -> skipn n (l1 ++ l2) = skipn n l1 ++ l2.
Proof. intros H. rewrite skipn_app, (proj2 (Nat.sub_0_le _ _) H). reflexivity. Qed.

Lemma skipn_add {T} : forall a b (l : list T), skipn (a + b) l = skipn b (skipn a l).
Proof.
  induction a as [|a IH]; intros b l; [reflexivity|]. destruct l as [|x l]; [now rewrite !skipn_nil|]. cbn [Nat.add skipn]. apply IH.
Qed.

Lemma Forall2_weaken {X Y} (P Q : X -> Y -> Prop) : (forall x y, P x y -> Q x y) ->
  forall xs ys, Forall2 P xs ys -> Forall2 Q xs ys.
Proof. intros H xs ys HP. induction HP; constructor; auto. Qed.

Lemma existsb_eqb_In u l : existsb (N.eqb u) l = true <-> In u l.
Proof.
  rewrite existsb_exists. split.
  - intros (x & Hx & E). apply N.eqb_eq in E. subst. exact Hx.
  - intros H. exists u. split; [exact H|apply N.eqb_refl].
Qed.

Lemma existsb_eqb_notin u l : existsb (N.eqb u) l = false <-> ~ In u l.
Proof. rewrite <- existsb_eqb_In. destruct (existsb (N.eqb u) l); split; congruence. Qed.

(* Model/ and Spec/ define this comparison of strings more than once, under names of their own (str_eqb of
   Model/Clauses.v, Structure.v, Registry.v, Spec/Clauses.v, SchemaTruth.v, JsonDoc.v; key_eqb of Model/HeaderRow.v,
   not the key_eqb of Model/Layout.v and Model/Clauses.v); each is this function up to conversion, so what is proved
   here holds of each of them as it stands. *)
Fixpoint Nlist_eqb (a b : list N) : bool :=
  match a, b with
  | [], [] => true
  | x :: a', y :: b' => N.eqb x y && Nlist_eqb a' b'
  | _, _ => false
  end.

Lemma Nlist_eqb_eq a : forall b, Nlist_eqb a b = true <-> a = b.
Proof.
  induction a as [|x a IH]; intros [|y b]; cbn [Nlist_eqb]; try easy.
  rewrite andb_true_iff, N.eqb_eq, IH. split.
  - intros [-> ->]. reflexivity.
  - intros [= -> ->]. auto.
Qed.

Lemma existsb_Nlist_eqb_In s l : existsb (Nlist_eqb s) l = true <-> In s l.
Proof.
  rewrite existsb_exists. split.
  - intros (x & Hx & E). apply Nlist_eqb_eq in E. subst. exact Hx.
  - intros H. exists s. split; [exact H|apply Nlist_eqb_eq; reflexivity].
Qed.
