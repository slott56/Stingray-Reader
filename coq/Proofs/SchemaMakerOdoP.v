(* C15: which documents load.  Lemmas for Props/C15c.v and for the totality statements of Props/C15.v.
   The model (Model/SchemaMaker.v [walk]) binds the counter of a depending array AT ONCE, from the
   name cache as it stands when the array's items have been walked; an unknown name is a ValueError
   there and then (no fix-up).  So a counter is found exactly when the sub-schema bearing its anchor
   has been written to the cache already: Spec/JsonDocOdo.v [declared].  On the grammar that is the
   only way the walk fails ([walk_total_all]); a document without maxItemsDependsOn is the special case. *)
From Coq Require Import List Bool Lia Arith.
Import ListNotations.
Require Import SR.Base.Res SR.Spec.JsonDoc SR.Spec.JsonDocOdo SR.Model.SchemaMaker
  SR.Proofs.SchemaMakerP.
(* the example documents that occur in theorem statements (Props/) are defined in Spec/SchemaMakerOdoWitness.v *)
Require Export SR.Spec.SchemaMakerOdoWitness.

Definition anames (ns : list dnode) : list str := map fst (flat_map anchor_entry ns).

Lemma anames_app a b : anames (a ++ b) = anames a ++ anames b.
Proof. unfold anames. rewrite flat_map_app, map_app. reflexivity. Qed.

Lemma anames_cons n ns : anames (n :: ns) = map fst (anchor_entry n) ++ anames ns.
Proof. unfold anames. cbn [flat_map]. rewrite map_app. reflexivity. Qed.

(* the names do not depend on where the walk stands *)
Lemma anames_rp_all :
  (forall d rp rp', anames (nodes d rp) = anames (nodes d rp')) /\
  (forall l rp rp' n n', anames (nodes_alts l rp n) = anames (nodes_alts l rp' n')) /\
  (forall l rp rp' n n', anames (nodes_props l rp n) = anames (nodes_props l rp' n')).
Proof.
  apply js_triple_ind.
  - intros sc o i p IHo IHi IHp rp rp'. cbn [nodes]. rewrite !anames_cons. f_equal.
    + unfold anchor_entry. simpl. destruct (k_anchor sc); reflexivity.
    + destruct (shape_kw sc o i p); try reflexivity.
      * destruct i as [|x]; [reflexivity|apply (IHi x eq_refl)].
      * destruct i as [|x]; [reflexivity|apply (IHi x eq_refl)].
      * destruct p as [|l]; [reflexivity|apply (IHp l eq_refl)].
      * destruct o as [|l]; [reflexivity|apply (IHo l eq_refl)].
  - reflexivity.
  - intros x r IHx IHr rp rp' n n'. cbn [nodes_alts]. rewrite !anames_app.
    rewrite (IHx (n :: rp) (n' :: rp')), (IHr rp rp' (S n) (S n')). reflexivity.
  - reflexivity.
  - intros k x r IHx IHr rp rp' n n'. cbn [nodes_props]. rewrite !anames_app.
    rewrite (IHx (n :: rp) (n' :: rp')), (IHr rp rp' (S n) (S n')). reflexivity.
Qed.

Lemma anchors_in_nodes d rp : anchors_in d = anames (nodes d rp).
Proof. exact (proj1 anames_rp_all d [] rp). Qed.

Lemma in_anames ns y : In y (anames ns) <-> exists e, In e ns /\ k_anchor (snd (fst e)) = Some y.
Proof.
  unfold anames. rewrite in_map_iff. split.
  - intros ([a t] & <- & H). apply in_anchor_entries in H. destruct H as (e & He & Ha & _). exists e. auto.
  - intros (e & He & Ha). exists (y, fst (fst e)). split; [reflexivity|]. apply in_anchor_entries. exists e. auto.
Qed.

Definition covers (seen : list str) (c : cache) : Prop := forall x, In x seen -> lookup x c <> None.

Definition keys_in (R seen : list str) (c : cache) : Prop :=
  forall x, In x R -> lookup x c <> None -> In x seen.

Lemma walk_covers {d rp c fx s c1 fx1 seen} :
  walk d rp c fx = Ok (s, c1, fx1) -> covers seen c -> covers (anchors_in d ++ seen) c1.
Proof.
  intros E Hc x Hx. destruct (walk_ok E) as (_ & I & _).
  rewrite (anchors_in_nodes d rp) in Hx. apply lookup_some_iff. apply in_app_iff in Hx. destruct Hx as [Hx|Hx].
  - apply in_anames in Hx. destruct Hx as (e & He & Ha). exists (fst (fst e)).
    exact (anchor_cached I He Ha).
  - apply Hc, lookup_some_iff in Hx. destruct Hx as (t & Ht). exists t.
    exact (inv_incl _ _ _ _ _ _ I _ Ht).
Qed.

Lemma walk_keys {R d rp c fx s c1 fx1 seen} :
  walk d rp c fx = Ok (s, c1, fx1) -> Forall (fits R) (nodes d rp) -> keys_in R seen c ->
  keys_in R (anchors_in d ++ seen) c1.
Proof.
  intros E Hf Hk x Hx Hl. destruct (walk_ok E) as (_ & I & _).
  rewrite (anchors_in_nodes d rp). apply in_app_iff. apply lookup_some_iff in Hl. destruct Hl as (t & Ht).
  destruct (cached_anchor I Hf Hx Ht) as [Hc|(e & He & Ha & _)].
  - right. apply (Hk x Hx). apply lookup_some_iff. exists t. exact Hc.
  - left. apply in_anames. exists e. auto.
Qed.

Lemma walk_total_all :
  (forall d, wf d = true -> forall seen rp c fx, covers seen c ->
     match walk d rp c fx with Ok _ => True | Err e => e = ValueError /\ declared d seen = false end) /\
  (forall l, wf_alts l = true -> forall seen rp n c fx, covers seen c ->
     match walk_alts l rp n c fx with Ok _ => True | Err e => e = ValueError /\ declared_alts l seen = false end) /\
  (forall l, wf_props l = true -> forall seen rp n c fx, covers seen c ->
     match walk_props l rp n c fx with Ok _ => True | Err e => e = ValueError /\ declared_props l seen = false end).
Proof.
  apply js_triple_ind.
  - intros sc o i p IHo IHi IHp Hwf seen rp c fx Hc.
    cbn [wf] in Hwf. rewrite walk_node. cbn [declared]. unfold finish.
    destruct (shape_kw sc o i p).
    + exact I.
    + destruct i as [|x]; [discriminate|].
      specialize (IHi x eq_refl Hwf seen (0%nat :: rp) c fx Hc).
      destruct (walk x (0%nat :: rp) c fx) as [[[it c1] fx1]|e]; [exact I|exact IHi].
    + destruct i as [|x]; [discriminate|].
      apply andb_true_iff in Hwf. destruct Hwf as [Hx Hm]. unfold hash_prefixed in Hm.
      destruct (ref_name (k_mido sc)) as [name|]; [|discriminate].
      specialize (IHi x eq_refl Hx seen (0%nat :: rp) c fx Hc).
      destruct (walk x (0%nat :: rp) c fx) as [[[it c1] fx1]|e] eqn:E.
      * destruct (lookup name c1) as [t|] eqn:El; [exact I|].
        split; [reflexivity|]. apply andb_false_iff. right. apply not_true_is_false. intros M.
        apply mem_In in M. exact (walk_covers E Hc name M El).
      * destruct IHi as [-> D]. rewrite D. auto.
    + destruct p as [|l]; [exact I|].
      apply andb_true_iff in Hwf. destruct Hwf as [_ Hl].
      specialize (IHp l eq_refl Hl seen rp 0%nat c fx Hc). cbn [props_or_nil].
      destruct (walk_props l rp 0 c fx) as [[[ps c1] fx1]|e]; [exact I|exact IHp].
    + destruct o as [|l]; [discriminate|].
      specialize (IHo l eq_refl Hwf seen rp 0%nat c fx Hc).
      destruct (walk_alts l rp 0 c fx) as [[[ss c1] fx1]|e]; [exact I|exact IHo].
    + unfold hash_prefixed in Hwf. destruct (ref_name (k_ref sc)) as [name|]; [|discriminate].
      destruct (lookup name c); exact I.
    + discriminate.
  - intros _ seen rp n c fx _. exact I.
  - intros x r IHx IHr Hwf seen rp n c fx Hc. cbn [wf_alts] in Hwf.
    apply andb_true_iff in Hwf. destruct Hwf as [Hx Hr]. cbn [walk_alts declared_alts].
    specialize (IHx Hx seen (n :: rp) c fx Hc).
    destruct (walk x (n :: rp) c fx) as [[[s c1] fx1]|e] eqn:E.
    + specialize (IHr Hr _ rp (S n) c1 fx1 (walk_covers E Hc)).
      destruct (walk_alts r rp (S n) c1 fx1) as [[[ss c2] fx2]|e]; [exact I|].
      destruct IHr as [-> D]. rewrite D. auto using andb_false_r.
    + destruct IHx as [-> D]. rewrite D. auto.
  - intros _ seen rp n c fx _. exact I.
  - intros k x r IHx IHr Hwf seen rp n c fx Hc. cbn [wf_props] in Hwf.
    apply andb_true_iff in Hwf. destruct Hwf as [Hx Hr]. cbn [walk_props declared_props].
    specialize (IHx Hx seen (n :: rp) c fx Hc).
    destruct (walk x (n :: rp) c fx) as [[[s c1] fx1]|e] eqn:E.
    + specialize (IHr Hr _ rp (S n) c1 fx1 (walk_covers E Hc)).
      destruct (walk_props r rp (S n) c1 fx1) as [[[ss c2] fx2]|e]; [exact I|].
      destruct IHr as [-> D]. rewrite D. auto using andb_false_r.
    + destruct IHx as [-> D]. rewrite D. auto.
Qed.

Lemma walk_total d :
  wf d = true ->
  match walk d [] [] [] with Ok _ => True | Err e => e = ValueError /\ counters_declared d = false end.
Proof. intros Hwf. apply (proj1 walk_total_all d Hwf [] [] [] []). intros x []. Qed.

Lemma load_total d : wf d = true -> (exists s, load d = Ok s) \/ load d = Err ValueError.
Proof.
  intros Hwf. unfold load. pose proof (walk_total d Hwf) as T.
  destruct (walk d [] [] []) as [[[s c] fx]|e].
  - destruct (resolvable c fx); [left; eexists; reflexivity|right; reflexivity].
  - destruct T as [-> _]. right. reflexivity.
Qed.

(* conversely, where the nodes fit R, a counter the walk found in the cache had been declared *)
Lemma walk_ok_declared_all R :
  (forall d seen rp c fx, Forall (fits R) (nodes d rp) -> keys_in R seen c ->
     match walk d rp c fx with Ok _ => declared d seen = true | Err _ => True end) /\
  (forall l seen rp n c fx, Forall (fits R) (nodes_alts l rp n) -> keys_in R seen c ->
     match walk_alts l rp n c fx with Ok _ => declared_alts l seen = true | Err _ => True end) /\
  (forall l seen rp n c fx, Forall (fits R) (nodes_props l rp n) -> keys_in R seen c ->
     match walk_props l rp n c fx with Ok _ => declared_props l seen = true | Err _ => True end).
Proof.
  apply js_triple_ind.
  - intros sc o i p IHo IHi IHp seen rp c fx.
    rewrite walk_node. cbn [nodes declared]. unfold finish.
    destruct (shape_kw sc o i p); intros Hf Hk.
    + reflexivity.
    + destruct i as [|x]; [exact I|].
      specialize (IHi x eq_refl seen (0%nat :: rp) c fx (Forall_inv_tail Hf) Hk).
      destruct (walk x (0%nat :: rp) c fx) as [[[it c1] fx1]|e]; [exact IHi|exact I].
    + destruct i as [|x]; [exact I|].
      specialize (IHi x eq_refl seen (0%nat :: rp) c fx (Forall_inv_tail Hf) Hk).
      destruct (walk x (0%nat :: rp) c fx) as [[[it c1] fx1]|e] eqn:E; [|exact I].
      destruct (ref_name (k_mido sc)) as [name|] eqn:En; [|exact I].
      destruct (lookup name c1) as [t|] eqn:El; [|exact I].
      rewrite IHi. apply mem_In.
      apply (walk_keys E (Forall_inv_tail Hf) Hk name); [|rewrite El; discriminate].
      apply (proj2 (Forall_inv Hf)). unfold ref_entry. simpl. rewrite En. left. reflexivity.
    + destruct p as [|l]; [reflexivity|].
      specialize (IHp l eq_refl seen rp 0%nat c fx (Forall_inv_tail Hf) Hk). cbn [props_or_nil].
      destruct (walk_props l rp 0 c fx) as [[[ps c1] fx1]|e]; [exact IHp|exact I].
    + destruct o as [|l]; [exact I|].
      specialize (IHo l eq_refl seen rp 0%nat c fx (Forall_inv_tail Hf) Hk).
      destruct (walk_alts l rp 0 c fx) as [[[ss c1] fx1]|e]; [exact IHo|exact I].
    + destruct (ref_name (k_ref sc)) as [name|]; [|exact I]. destruct (lookup name c); reflexivity.
    + destruct (k_type sc); exact I.
  - reflexivity.
  - intros x r IHx IHr seen rp n c fx Hf Hk. cbn [walk_alts declared_alts].
    apply Forall_app in Hf. destruct Hf as [Hf1 Hf2].
    specialize (IHx seen (n :: rp) c fx Hf1 Hk).
    destruct (walk x (n :: rp) c fx) as [[[s c1] fx1]|e] eqn:E; [|exact I].
    specialize (IHr _ rp (S n) c1 fx1 Hf2 (walk_keys E Hf1 Hk)).
    destruct (walk_alts r rp (S n) c1 fx1) as [[[ss c2] fx2]|e]; [|exact I].
    rewrite IHx. exact IHr.
  - reflexivity.
  - intros k x r IHx IHr seen rp n c fx Hf Hk. cbn [walk_props declared_props].
    apply Forall_app in Hf. destruct Hf as [Hf1 Hf2].
    specialize (IHx seen (n :: rp) c fx Hf1 Hk).
    destruct (walk x (n :: rp) c fx) as [[[s c1] fx1]|e] eqn:E; [|exact I].
    specialize (IHr _ rp (S n) c1 fx1 Hf2 (walk_keys E Hf1 Hk)).
    destruct (walk_props r rp (S n) c1 fx1) as [[[ss c2] fx2]|e]; [|exact I].
    rewrite IHx. exact IHr.
Qed.

Lemma load_declared d s : shadowed d = false -> load d = Ok s -> counters_declared d = true.
Proof.
  intros Hs H. destruct (load_inv d s H) as (s0 & c & fx & W & _ & _).
  pose proof (proj1 (walk_ok_declared_all (refnames d)) d [] [] [] [] (fits_doc d Hs)) as D.
  rewrite W in D. apply D. intros x _ Hl. elim Hl. reflexivity.
Qed.

(* A node of the walked document with its path.  [is_table e x]: e is a DependsOnArraySchema whose counter is named x.
   [near]: some node of the pool anchors x and is closed before e in document order.  [placed]: every counter e
   names has been seen already or is anchored near. *)
Definition pth (e : dnode) : path := fst (fst e).
Definition is_table (e : dnode) (x : str) : Prop :=
  snd e = KDepends /\ ref_name (k_mido (snd (fst e))) = Some x.
Definition near (pool : list dnode) (e : dnode) (x : str) : Prop :=
  exists e', In e' pool /\ k_anchor (snd (fst e')) = Some x /\ closed_before (pth e') (pth e) = true.
Definition placed (pool : list dnode) (seen : list str) (e : dnode) : Prop :=
  forall x, is_table e x -> In x seen \/ near pool e x.
(* the path form of [declared] on a piece of the document *)
Definition all_placed (K : list dnode) (seen : list str) : Prop := forall e, In e K -> placed K seen e.

Lemma is_prefix_strip (a q q' : path) : is_prefix (a ++ q) (a ++ q') = is_prefix q q'.
Proof. induction a as [|x a IH]; cbn [is_prefix app]; [reflexivity|]. rewrite Nat.eqb_refl. exact IH. Qed.

Lemma lex_lt_strip (a q q' : path) : lex_lt (a ++ q) (a ++ q') = lex_lt q q'.
Proof.
  induction a as [|x a IH]; cbn [lex_lt app]; [reflexivity|].
  rewrite Nat.ltb_irrefl, Nat.eqb_refl. exact IH.
Qed.

Lemma cb_strip (a q q' : path) : closed_before (a ++ q) (a ++ q') = closed_before q q'.
Proof. unfold closed_before. rewrite !is_prefix_strip, lex_lt_strip. reflexivity. Qed.

(* a sub-schema is not closed before itself nor before anything inside it *)
Lemma cb_root (a q : path) : closed_before a (a ++ q) = false.
Proof. rewrite <- (app_nil_r a) at 1. apply (cb_strip a [] q). Qed.

Lemma cb_self (a : path) : closed_before a a = false.
Proof. pose proof (cb_root a []) as H. rewrite app_nil_r in H. exact H. Qed.

(* what lies inside is closed before *)
Lemma cb_inside (a : path) (m : nat) (q : path) : closed_before (a ++ m :: q) a = true.
Proof. rewrite <- (app_nil_r a) at 2. apply (cb_strip a (m :: q) []). Qed.

(* between different children of a sub-schema, and all they hold, document order decides *)
Lemma cb_siblings (a : path) (n m : nat) (q1 q2 : path) :
  n <> m -> closed_before (a ++ n :: q1) (a ++ m :: q2) = (n <? m)%nat.
Proof.
  intros H. rewrite cb_strip. unfold closed_before. cbn [is_prefix lex_lt].
  rewrite (proj2 (Nat.eqb_neq n m) H), (proj2 (Nat.eqb_neq m n)) by auto. cbn [andb negb].
  rewrite !orb_false_r. reflexivity.
Qed.

(* where the nodes of a sub-document lie: the children from the n-th on, below the path a *)
Definition under (a : path) (n : nat) (K : list dnode) : Prop :=
  forall e, In e K -> exists m q, (n <= m)%nat /\ pth e = a ++ m :: q.

Lemma rev_cons_app {A} (x : A) l q : rev (x :: l) ++ q = rev l ++ x :: q.
Proof. simpl. rewrite <- app_assoc. reflexivity. Qed.

Lemma nodes_paths_all :
  (forall d rp e, In e (nodes d rp) -> exists q, pth e = rev rp ++ q) /\
  (forall l rp n, under (rev rp) n (nodes_alts l rp n)) /\
  (forall l rp n, under (rev rp) n (nodes_props l rp n)).
Proof.
  apply js_triple_ind.
  - intros sc o i p IHo IHi IHp rp e He. cbn [nodes] in He. destruct He as [<-|He].
    + exists []. rewrite app_nil_r. reflexivity.
    + destruct (shape_kw sc o i p); simpl in He; try contradiction.
      * destruct i as [|x]; [contradiction|]. destruct (IHi x eq_refl _ _ He) as (q & Hq).
        exists (0%nat :: q). rewrite Hq. apply rev_cons_app.
      * destruct i as [|x]; [contradiction|]. destruct (IHi x eq_refl _ _ He) as (q & Hq).
        exists (0%nat :: q). rewrite Hq. apply rev_cons_app.
      * destruct p as [|l]; [contradiction|]. destruct (IHp l eq_refl _ _ _ He) as (m & q & _ & Hq).
        exists (m :: q). exact Hq.
      * destruct o as [|l]; [contradiction|]. destruct (IHo l eq_refl _ _ _ He) as (m & q & _ & Hq).
        exists (m :: q). exact Hq.
  - intros rp n e [].
  - intros x r IHx IHr rp n e He. cbn [nodes_alts] in He. apply in_app_iff in He. destruct He as [He|He].
    + destruct (IHx _ _ He) as (q & Hq). exists n, q. split; [lia|]. rewrite Hq. apply rev_cons_app.
    + destruct (IHr _ _ _ He) as (m & q & Hm & Hq). exists m, q. split; [lia|exact Hq].
  - intros rp n e [].
  - intros k x r IHx IHr rp n e He. cbn [nodes_props] in He. apply in_app_iff in He. destruct He as [He|He].
    + destruct (IHx _ _ He) as (q & Hq). exists n, q. split; [lia|]. rewrite Hq. apply rev_cons_app.
    + destruct (IHr _ _ _ He) as (m & q & Hm & Hq). exists m, q. split; [lia|exact Hq].
Qed.

Lemma child_path d n rp e : In e (nodes d (n :: rp)) -> exists q, pth e = rev rp ++ n :: q.
Proof.
  intros He. destruct (proj1 nodes_paths_all d _ _ He) as (q & Hq).
  exists q. rewrite Hq. apply rev_cons_app.
Qed.

Lemma child_under d n rp : under (rev rp) n (nodes d (n :: rp)).
Proof. intros e He. destruct (child_path _ _ _ _ He) as (q & Hq). exists n, q. auto. Qed.

Lemma near_app A B e x : near (A ++ B) e x <-> near A e x \/ near B e x.
Proof.
  split.
  - intros (e' & He' & H). apply in_app_iff in He'. destruct He' as [He'|He']; [left|right]; exists e'; auto.
  - intros [(e' & He' & H)|(e' & He' & H)]; exists e'; split; auto using in_or_app.
Qed.

Lemma near_none A e x : (forall e', In e' A -> closed_before (pth e') (pth e) = false) -> ~ near A e x.
Proof. intros H (e' & He' & _ & Hc). rewrite (H e' He') in Hc. discriminate. Qed.

Lemma near_all A e x :
  (forall e', In e' A -> closed_before (pth e') (pth e) = true) -> (near A e x <-> In x (anames A)).
Proof.
  intros H. rewrite in_anames. split; intros (e' & He' & Ha); exists e'.
  - tauto.
  - auto.
Qed.

(* only what is closed before e counts; what is, counts as seen *)
Lemma placed_drop_l A B seen e :
  (forall e', In e' A -> closed_before (pth e') (pth e) = false) ->
  (placed (A ++ B) seen e <-> placed B seen e).
Proof.
  intros H. split; intros P x Hx; specialize (P x Hx); rewrite near_app in *; pose proof (near_none A e x H); tauto.
Qed.

Lemma placed_drop_r A B seen e :
  (forall e', In e' B -> closed_before (pth e') (pth e) = false) ->
  (placed (A ++ B) seen e <-> placed A seen e).
Proof.
  intros H. split; intros P x Hx; specialize (P x Hx); rewrite near_app in *; pose proof (near_none B e x H); tauto.
Qed.

Lemma placed_absorb_l A B seen e :
  (forall e', In e' A -> closed_before (pth e') (pth e) = true) ->
  (placed (A ++ B) seen e <-> placed B (anames A ++ seen) e).
Proof.
  intros H. split; intros P x Hx; specialize (P x Hx); rewrite near_app, in_app_iff, (near_all A e x H) in *; tauto.
Qed.

Lemma not_table_placed pool seen e : snd e <> KDepends -> placed pool seen e.
Proof. intros H x [Hk _]. contradiction. Qed.

(* a node is not closed before what it holds *)
Lemma node_placed root K seen :
  under (pth root) 0 K ->
  (all_placed (root :: K) seen <-> placed (root :: K) seen root /\ all_placed K seen).
Proof.
  intros Hb.
  assert (D : forall e, In e K -> (placed ([root] ++ K) seen e <-> placed K seen e)).
  { intros e He. apply placed_drop_l. intros e' [<-|[]].
    destruct (Hb e He) as (m & q & _ & Hq). rewrite Hq. apply cb_root. }
  split.
  - intros H. split; [apply H; left; reflexivity|]. intros e He. apply (D e He). apply H. right. exact He.
  - intros [Hr Hk] e [<-|He]; [exact Hr|]. apply (D e He). apply Hk. exact He.
Qed.

Lemma plain_node_placed root K seen :
  under (pth root) 0 K -> snd root <> KDepends ->
  (all_placed (root :: K) seen <-> all_placed K seen).
Proof.
  intros Hb Hk. rewrite (node_placed root K seen Hb).
  split; [tauto|]. intros H. split; [apply not_table_placed; exact Hk|exact H].
Qed.

(* a table: not closed before itself, all it holds is *)
Lemma table_root_placed root K seen name :
  under (pth root) 0 K -> snd root = KDepends -> ref_name (k_mido (snd (fst root))) = Some name ->
  (placed (root :: K) seen root <-> In name (anames K ++ seen)).
Proof.
  intros Hb Hk Hn. change (root :: K) with ([root] ++ K).
  rewrite placed_drop_l by (intros e' [<-|[]]; apply cb_self).
  rewrite <- (app_nil_r K) at 1. rewrite placed_absorb_l.
  - split.
    + intros P. destruct (P name (conj Hk Hn)) as [H|(e' & [] & _)]. exact H.
    + intros H x [_ Hx]. left. congruence.
  - intros e' He'. destruct (Hb e' He') as (m & q & _ & Hq). rewrite Hq. apply cb_inside.
Qed.

(* child n and all it holds, then the later children *)
Lemma seq_placed A B seen (a : path) (n : nat) :
  (forall e, In e A -> exists q, pth e = a ++ n :: q) -> under a (S n) B ->
  (all_placed (A ++ B) seen <-> all_placed A seen /\ all_placed B (anames A ++ seen)).
Proof.
  intros HA HB.
  assert (DA : forall e, In e A -> (placed (A ++ B) seen e <-> placed A seen e)).
  { intros e He. apply placed_drop_r. intros e' He'. destruct (HA e He) as (q & Hq).
    destruct (HB e' He') as (m & q' & Hm & Hq'). rewrite Hq, Hq', cb_siblings by lia. apply Nat.ltb_ge. lia. }
  assert (DB : forall e, In e B -> (placed (A ++ B) seen e <-> placed B (anames A ++ seen) e)).
  { intros e He. apply placed_absorb_l. intros e' He'. destruct (HA e' He') as (q & Hq).
    destruct (HB e He) as (m & q' & Hm & Hq'). rewrite Hq, Hq', cb_siblings by lia. apply Nat.ltb_lt. lia. }
  split.
  - intros H. split; intros e He; [apply (DA e He)|apply (DB e He)]; apply H; apply in_or_app; [left|right]; exact He.
  - intros [H1 H2] e He. apply in_app_iff in He.
    destruct He as [He|He]; [apply (DA e He); apply H1|apply (DB e He); apply H2]; exact He.
Qed.

Lemma declared_placed_all :
  (forall d, wf d = true -> forall rp seen,
     declared d seen = true <-> all_placed (nodes d rp) seen) /\
  (forall l, wf_alts l = true -> forall rp n seen,
     declared_alts l seen = true <-> all_placed (nodes_alts l rp n) seen) /\
  (forall l, wf_props l = true -> forall rp n seen,
     declared_props l seen = true <-> all_placed (nodes_props l rp n) seen).
Proof.
  apply js_triple_ind.
  - intros sc o i p IHo IHi IHp Hwf rp seen. cbn [wf] in Hwf. cbn [declared nodes].
    destruct (shape_kw sc o i p) eqn:Sh.
    + split; [|reflexivity]. intros _ e [<-|[]]. apply not_table_placed. discriminate.
    + destruct i as [|x]; [discriminate|].
      rewrite plain_node_placed; [apply (IHi x eq_refl Hwf)|apply child_under|discriminate].
    + destruct i as [|x]; [discriminate|].
      apply andb_true_iff in Hwf. destruct Hwf as [Hwx Hm]. unfold hash_prefixed in Hm.
      destruct (ref_name (k_mido sc)) as [name|] eqn:En; [|discriminate].
      rewrite node_placed by apply child_under.
      rewrite (table_root_placed (rev rp, sc, KDepends) _ _ name (child_under x 0 rp) eq_refl En).
      rewrite andb_true_iff, mem_In, (IHi x eq_refl Hwx (0%nat :: rp)), (anchors_in_nodes x (0%nat :: rp)). tauto.
    + destruct p as [|l].
      * split; [|reflexivity]. intros _ e [<-|[]]. apply not_table_placed. discriminate.
      * apply andb_true_iff in Hwf. destruct Hwf as [_ Hwl].
        rewrite plain_node_placed; [apply (IHp l eq_refl Hwl)|apply nodes_paths_all|discriminate].
    + destruct o as [|l]; [discriminate|].
      rewrite plain_node_placed; [apply (IHo l eq_refl Hwf)|apply nodes_paths_all|discriminate].
    + split; [|reflexivity]. intros _ e [<-|[]]. apply not_table_placed. discriminate.
    + discriminate.
  - intros _ rp n seen. split; [intros _ e []|reflexivity].
  - intros x r IHx IHr Hwf rp n seen. cbn [wf_alts] in Hwf. apply andb_true_iff in Hwf. destruct Hwf as [Hwx Hwr].
    cbn [declared_alts nodes_alts].
    rewrite (seq_placed _ _ _ (rev rp) n) by (try apply child_path; apply nodes_paths_all).
    rewrite andb_true_iff, (IHx Hwx (n :: rp)), (IHr Hwr rp (S n)), (anchors_in_nodes x (n :: rp)). tauto.
  - intros _ rp n seen. split; [intros _ e []|reflexivity].
  - intros k x r IHx IHr Hwf rp n seen. cbn [wf_props] in Hwf. apply andb_true_iff in Hwf. destruct Hwf as [Hwx Hwr].
    cbn [declared_props nodes_props].
    rewrite (seq_placed _ _ _ (rev rp) n) by (try apply child_path; apply nodes_paths_all).
    rewrite andb_true_iff, (IHx Hwx (n :: rp)), (IHr Hwr rp (S n)), (anchors_in_nodes x (n :: rp)). tauto.
Qed.

Lemma declared_placed d :
  wf d = true -> (counters_declared d = true <-> all_placed (all_nodes d) []).
Proof. intros Hwf. apply (proj1 declared_placed_all d Hwf). Qed.

Lemma table_placed_spec d e : table_placed d e = true <-> placed (all_nodes d) [] e.
Proof.
  unfold table_placed, placed, is_table, near, counter_placed. split.
  - intros H x [Hk Hx]. rewrite Hk, Hx in H. right.
    apply existsb_exists in H. destruct H as (e' & He' & Hc). apply andb_true_iff in Hc. destruct Hc as [Ha Hc].
    exists e'. split; [exact He'|]. split; [apply ostr_eqb_iff; exact Ha|exact Hc].
  - intros P. destruct (snd e) eqn:Hk; try reflexivity.
    destruct (ref_name (k_mido (snd (fst e)))) as [x|] eqn:Hx; [|reflexivity].
    destruct (P x (conj eq_refl eq_refl)) as [[]|(e' & He' & Ha & Hc)].
    apply existsb_exists. exists e'. split; [exact He'|].
    apply andb_true_iff. split; [apply ostr_eqb_iff; exact Ha|exact Hc].
Qed.

Lemma no_depends_declared d : wf d = true -> has_depends d = false -> counters_declared d = true.
Proof.
  intros Hwf Hnd. apply (declared_placed d Hwf). intros e He. apply not_table_placed. intros Hk.
  enough (X : has_depends d = true) by congruence.
  apply existsb_exists. exists e. split; [exact He|]. rewrite Hk. reflexivity.
Qed.

Lemma counters_anchored d x :
  wf d = true -> counters_declared d = true -> In x (counter_names d) -> find_anchor d x <> None.
Proof.
  intros Hwf Hd Hx. apply in_flat_map in Hx. destruct Hx as (e & He & Hx).
  unfold dep_entry, ref_entry in Hx. destruct (snd e) eqn:Hk; try contradiction.
  destruct (ref_name (k_mido (snd (fst e)))) as [y|] eqn:Hy; [|contradiction]. destruct Hx as [<-|[]].
  destruct (proj1 (declared_placed d Hwf) Hd e He y (conj Hk Hy)) as [[]|(e' & He' & Ha & _)].
  exact (find_anchor_some d e' y He' Ha).
Qed.

Lemma ref_entry_split (e : dnode) x : In x (ref_entry e) <-> In x (plain_ref_entry e) \/ In x (dep_entry e).
Proof. unfold plain_ref_entry, dep_entry, ref_entry. destruct (snd e); simpl; tauto. Qed.

Lemma refnames_split d x : In x (refnames d) <-> In x (plain_refnames d) \/ In x (counter_names d).
Proof.
  unfold refnames, plain_refnames, counter_names. rewrite !in_flat_map. split.
  - intros (e & He & Hx). apply ref_entry_split in Hx. destruct Hx; [left|right]; exists e; auto.
  - intros [(e & He & Hx)|(e & He & Hx)]; exists e; split; auto; apply ref_entry_split; auto.
Qed.

Lemma counter_names_incl d x : In x (counter_names d) -> In x (refnames d).
Proof. intros H. apply refnames_split. right. exact H. Qed.

Lemma dangles_iff d l :
  existsb (fun x => negb (is_some (find_anchor d x))) l = true <-> exists x, In x l /\ find_anchor d x = None.
Proof.
  rewrite existsb_exists. split; intros (x & Hx & H); exists x; split; try exact Hx.
  - destruct (find_anchor d x); [discriminate|reflexivity].
  - rewrite H. reflexivity.
Qed.

Lemma has_dangling_iff d :
  has_dangling d = true <-> exists x, In x (plain_refnames d) /\ find_anchor d x = None.
Proof. unfold has_dangling. apply dangles_iff. Qed.

Lemma dangling_any_iff d :
  dangling_any d = true <-> exists x, In x (refnames d) /\ find_anchor d x = None.
Proof. unfold dangling_any. apply dangles_iff. Qed.

Lemma has_dangling_any d : has_dangling d = true -> dangling_any d = true.
Proof.
  rewrite has_dangling_iff, dangling_any_iff. intros (x & Hx & H).
  exists x. split; [apply refnames_split; left; exact Hx|exact H].
Qed.

Lemma dangling_any_plain d : dangling_any d = false -> has_dangling d = false.
Proof.
  intros H. destruct (has_dangling d) eqn:Q; [|reflexivity].
  rewrite (has_dangling_any d Q) in H. discriminate.
Qed.

Lemma nothing_dangles d :
  wf d = true -> has_dangling d = false -> counters_declared d = true -> dangling_any d = false.
Proof.
  intros Hwf Hdg Hd. apply not_true_is_false. intros Q. apply dangling_any_iff in Q. destruct Q as (x & Hx & Hn).
  apply refnames_split in Hx. destruct Hx as [Hp|Hc].
  - enough (X : has_dangling d = true) by congruence. apply has_dangling_iff. exists x. auto.
  - exact (counters_anchored d x Hwf Hd Hc Hn).
Qed.

Lemma load_no_dangling d s : shadowed d = false -> load d = Ok s -> dangling_any d = false.
Proof.
  intros Hs H. destruct (load_inv d s H) as (s0 & c & fx & W & R & _).
  apply not_true_is_false. intros Q. apply dangling_any_iff in Q. destruct Q as (x & Hx & Hn).
  destruct (walk_ok W) as (_ & (_ & _ & A3 & _) & _).
  unfold refnames, all_nodes in Hx. rewrite <- A3 in Hx. apply in_map_iff in Hx. destruct Hx as (e & <- & He).
  destruct (resolved_ref d s0 c fx e Hs W R He) as (n & Hn' & Ha & _).
  exact (find_anchor_some d n _ Hn' Ha Hn).
Qed.

Lemma load_dangles d :
  wf d = true -> shadowed d = false -> dangling_any d = true -> load d = Err ValueError.
Proof.
  intros Hwf Hs Hd. destruct (load_total d Hwf) as [[s H]|H]; [|exact H].
  rewrite (load_no_dangling d s Hs H) in Hd. discriminate.
Qed.

(* a queued name is a reference of the document; it has an anchor, and that is in the cache *)
Lemma walk_resolvable d s0 c fx :
  walk d [] [] [] = Ok (s0, c, fx) -> dangling_any d = false -> resolvable c fx = true.
Proof.
  intros W Hd. destruct (walk_ok W) as (_ & I & _). pose proof I as (_ & _ & _ & _ & A5).
  apply resolvable_spec. intros x Hx. destruct (A5 x Hx) as [[]|Hin].
  destruct (find_anchor d x) as [t|] eqn:Fa.
  - destruct (find_anchor_bears d x t Fa) as (sc & k & Hn & Ha).
    apply lookup_some_iff. exists t. exact (anchor_cached (e := (t, sc, k)) I Hn Ha).
  - enough (X : dangling_any d = true) by congruence. apply dangling_any_iff. exists x. auto.
Qed.

Lemma load_depends_ok d :
  wf d = true -> has_dangling d = false -> counters_declared d = true -> exists s, load d = Ok s.
Proof.
  intros Hwf Hdg Hd. unfold load. pose proof (walk_total d Hwf) as T.
  destruct (walk d [] [] []) as [[[s0 c] fx]|e] eqn:E; [|destruct T; congruence].
  rewrite (walk_resolvable d s0 c fx E (nothing_dangles d Hwf Hdg Hd)). eexists. reflexivity.
Qed.

Lemma load_depends_on d :
  wf d = true -> uniq_anchors d = true -> shadowed d = false ->
  has_dangling d = false -> counters_declared d = true ->
  exists s, load d = Ok s /\ attrs s = d /\ mirrors s d = true /\
            refs_resolved d s = true /\ map fst (stargets s) = refnames d /\ tables_bound d s = true.
Proof.
  intros Hwf Hu Hs Hdg Hd. destruct (load_depends_ok d Hwf Hdg Hd) as [s H].
  destruct (load_refs d s Hu Hs H) as [R N]. exists s.
  auto 7 using load_attrs, load_mirrors, load_tables_bound.
Qed.

Lemma load_exactly d :
  wf d = true -> shadowed d = false ->
  (is_ok (load d) = true <-> has_dangling d = false /\ counters_declared d = true).
Proof.
  intros Hwf Hs. split.
  - intros H. destruct (load d) as [s|e] eqn:E; [|discriminate].
    split; [|exact (load_declared d s Hs E)].
    apply dangling_any_plain. exact (load_no_dangling d s Hs E).
  - intros [Hdg Hd]. destruct (load_depends_ok d Hwf Hdg Hd) as [s H]. rewrite H. reflexivity.
Qed.

Lemma odo_forward_facts :
  wf odo_forward = true /\ uniq_anchors odo_forward = true /\ shadowed odo_forward = false /\
  dangling_any odo_forward = false /\ counters_declared odo_forward = false /\
  counters_placed odo_forward = false /\
  find_anchor odo_forward nX = Some [1%nat] /\ load odo_forward = Err ValueError.
Proof. vm_compute. repeat split. Qed.
