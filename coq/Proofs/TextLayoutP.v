(* Proofs for C07c / C12d / C12e: the documents Model/Pipeline.v computes from raw copybook text, read the way the loader and
   LocationMaker read them (Model/TextLayout.v layout_of_doc), ARE Model/Layout.v's build of the record description of the
   forest (item_of); hence C01c_layout / C06_layout / C01b_stored_is_read apply to the schema computed from the text, and two
   spellings of the same entries give the same layout and the same values.
   The core is the children loop docs_kids_r (a left fold that inserts and later UPDATES the oneOf of a union) against Layout's
   direct description assemble_d: the invariant inv, and  view (docs_kids_r ks acc) = ext (view acc) ks ++ assemble_d ks  (Qr);
   the bridge is a mutual induction on xtree / xforest (bridge_all).  A text enters only through reads_as (a printed copybook
   reads as its entries: PipelineP.printed_reads_as; PipelineP.reading_end_to_end gives its documents).  text_layout_ok / text_values_ok stand here, beside the theorems that take
   them as hypotheses: they join bridge_domain (Model/TextLayout.v) with the hypotheses of C01c_layout and C01b_stored_is_read -
   wf of Spec/LayoutWf.v, siblings_distinct / anchored_names_unique / nodupb of Spec/LayoutNamesWf.v - which Model/TextLayout.v
   does not import.  From section 5 on the file also rests on Spec/TextNoiseWf.v (reads_as), Proofs/LayoutOdoP.v and
   Proofs/RecordP.v. *)
From Coq Require Import NArith List Bool Arith.
Import ListNotations.
Require Import SR.Base.Res.
Require SR.Model.Structure SR.Model.Picture SR.Model.Estruct SR.Model.JsonType SR.Gen.JsonTypeParams.
Require Import SR.Model.Pipeline SR.Spec.Copybook SR.Proofs.PipelineP.
Require Import SR.Spec.Layout SR.Model.Layout SR.Proofs.LayoutP SR.Proofs.LayoutNamesP.
Require Import SR.Model.TextLayout.
Require SR.Proofs.StructureP.

Local Notation str := SR.Model.Pipeline.str.
Local Notation jdoc := SR.Model.Pipeline.jdoc.
Local Notation DObj := SR.Model.Pipeline.JObj.
Local Notation DArr := SR.Model.Pipeline.JArr.
Local Notation DStr := SR.Model.Pipeline.JStr.
Local Notation DInt := SR.Model.Pipeline.JInt.
Local Notation str_eqb := SR.Model.Structure.str_eqb.
Local Notation RD := SR.Model.Structure.REDEFINES_dash.

(* ================================================================ 0. the domains of the text theorems (decidable, on the entries) *)
(* the hypotheses of C01c_layout on a record description *)
Definition record_wf (t : item) : bool :=
  wf no_counters t && siblings_distinct t && anchored_names_unique t.

(* everything C07c_text_to_layout needs besides copybook_ok, as one boolean on the entries *)
Definition text_layout_ok (es : list centry) : bool :=
  bridge_domain es
  && match forest_of_entries es with Some xf => forallb (fun t => record_wf (item_of t)) xf | None => false end.

(* ... and what C07c_text_to_values needs: every elementary item has a kind, and all names of the record differ (the decoders are
   indexed by name) *)
Definition text_values_ok (es : list centry) : bool :=
  text_layout_ok es
  && match forest_of_entries es with
     | Some xf => forallb (fun t => kinds_defined t && nodupb (ids (item_of t))) xf
     | None => false
     end.

(* ================================================================ 1. names *)
Lemma shl_inj : forall c d a b, shl c (xI a) = shl d (xI b) -> c = d /\ a = b.
Proof.
  induction c as [|c IH]; intros [|d] a b H; cbn [shl] in H.
  - injection H as <-. split; reflexivity.
  - discriminate.
  - discriminate.
  - injection H as H. destruct (IH d a b H) as [-> ->]. split; reflexivity.
Qed.

Lemma shl_not_xH : forall c a, shl c (xI a) <> xH.
Proof. intros [|c] a H; cbn [shl] in H; discriminate. Qed.

Lemma name_pos_inj : forall s s', name_pos s = name_pos s' -> s = s'.
Proof.
  induction s as [|c s IH]; intros [|c' s'] H; cbn [name_pos] in H.
  - reflexivity.
  - symmetry in H. apply shl_not_xH in H. contradiction.
  - apply shl_not_xH in H. contradiction.
  - apply shl_inj in H. destruct H as [Hc Hs]. apply N2Nat.inj in Hc. subst c'. rewrite (IH s' Hs). reflexivity.
Qed.

Theorem name_id_inj : forall s s', name_id s = name_id s' -> s = s'.
Proof. intros s s' H. unfold name_id in H. injection H as H. apply name_pos_inj. exact H. Qed.

Lemma is_pre_split : forall p s, is_pre p s = true -> s = p ++ skipn (length p) s.
Proof.
  induction p as [|x p IH]; intros s H; [reflexivity|]. destruct s as [|y s]; cbn [is_pre] in H; [discriminate|].
  apply andb_true_iff in H as [H1 H2]. apply N.eqb_eq in H1. subst y. cbn [length skipn app]. rewrite <- (IH s H2). reflexivity.
Qed.

Lemma is_pre_app : forall p s, is_pre p (p ++ s) = true.
Proof. induction p as [|x p IH]; intros s; [reflexivity|]. cbn [app is_pre]. rewrite N.eqb_refl. apply IH. Qed.

Theorem key_of_inj : forall a b, key_of a = key_of b -> a = b.
Proof.
  intros a b H. unfold key_of in H. destruct (is_pre RD a) eqn:Pa, (is_pre RD b) eqn:Pb; try discriminate.
  - rewrite (is_pre_split _ _ Pa), (is_pre_split _ _ Pb). f_equal. apply name_id_inj. congruence.
  - apply name_id_inj. congruence.
Qed.

Lemma key_of_name : forall s, is_pre RD s = false -> key_of s = KName (name_id s).
Proof. intros s H. unfold key_of. rewrite H. reflexivity. Qed.

Lemma key_of_redef : forall t, key_of (redef_key t) = KRedef (name_id t).
Proof. intros t. unfold key_of, redef_key. rewrite is_pre_app, skipn_app, skipn_all, Nat.sub_diag. reflexivity. Qed.

Lemma existsb_str_notin : forall k l, existsb (str_eqb k) l = false <-> ~ In k l.
Proof.
  intros k l. split.
  - intros H I. apply Redef.existsb_str_In in I. congruence.
  - intros H. destruct (existsb (str_eqb k) l) eqn:E; [|reflexivity]. apply Redef.existsb_str_In in E. contradiction.
Qed.

Lemma existsb_name_id : forall k l, existsb (N.eqb (name_id k)) (map name_id l) = existsb (str_eqb k) l.
Proof.
  intros k. induction l as [|x l IH]; [reflexivity|]. cbn [map existsb]. rewrite IH. f_equal.
  destruct (str_eqb k x) eqn:E.
  - apply SR.Proofs.StructureP.str_eqb_eq in E. subst. apply N.eqb_refl.
  - apply N.eqb_neq. intros H. apply name_id_inj in H. subst. rewrite SR.Proofs.StructureP.str_eqb_refl in E. discriminate.
Qed.

Lemma nodup_strs_NoDup : forall l, nodup_strs l = true -> NoDup l.
Proof.
  induction l as [|a l IH]; intros H; [constructor|]. cbn [nodup_strs] in H. apply andb_true_iff in H as [H1 H2].
  apply negb_true_iff in H1. constructor; [apply existsb_str_notin; exact H1|apply IH; exact H2].
Qed.

(* ================================================================ 2. views of the emitted shapes *)
Definition subs (kvs : list (str * jdoc)) : list (str * view) := map (fun kv => (fst kv, view_of (snd kv))) kvs.

Lemma view_obj : forall kvs, view_of (DObj kvs) = mkview (schema_view kvs (subs kvs)) (props_view (subs kvs)) None.
Proof. reflexivity. Qed.

Lemma view_arr : forall l, view_of (DArr l) = mkview None None (alts_view (map view_of l)).
Proof. reflexivity. Qed.

Lemma sfind_subs : forall key kvs, sfind key (subs kvs) = option_map view_of (jfind key kvs).
Proof.
  intros key. induction kvs as [|[k v] kvs IH]; [reflexivity|]. unfold subs in *. cbn [map fst snd sfind jfind].
  destruct (str_eqb k key); [reflexivity|exact IH].
Qed.

Lemma subs_app : forall a b, subs (a ++ b) = subs a ++ subs b.
Proof. intros. apply map_app. Qed.

Lemma subs_cons : forall k v a, subs ((k, v) :: a) = (k, view_of v) :: subs a.
Proof. reflexivity. Qed.

Fixpoint papp (a b : props) : props := match a with PNil => b | PCons k s r => PCons k s (papp r b) end.
Fixpoint aapp (a b : jalts) : jalts := match a with ANil => b | ACons s r => ACons s (aapp r b) end.

Lemma papp_nil : forall a, papp a PNil = a.
Proof. induction a as [|k s r IH]; [reflexivity|]. cbn [papp]. rewrite IH. reflexivity. Qed.
Lemma papp_assoc : forall a b c, papp (papp a b) c = papp a (papp b c).
Proof. induction a as [|k s r IH]; intros; [reflexivity|]. cbn [papp]. rewrite IH. reflexivity. Qed.
Lemma aapp_nil : forall a, aapp a ANil = a.
Proof. induction a as [|s r IH]; [reflexivity|]. cbn [aapp]. rewrite IH. reflexivity. Qed.
Lemma aapp_assoc : forall a b c, aapp (aapp a b) c = aapp a (aapp b c).
Proof. induction a as [|s r IH]; intros; [reflexivity|]. cbn [aapp]. rewrite IH. reflexivity. Qed.

Lemma props_view_app : forall a b P Q, props_view a = Some P -> props_view b = Some Q -> props_view (a ++ b) = Some (papp P Q).
Proof.
  induction a as [|[k v] a IH]; intros b P Q HP HQ; cbn [props_view app] in *.
  - injection HP as <-. exact HQ.
  - destruct (v_js v) as [s|]; [|discriminate]. destruct (props_view a) as [P1|]; [|discriminate]. injection HP as <-.
    rewrite (IH b P1 Q eq_refl HQ). reflexivity.
Qed.

Lemma props_view_split : forall a b R, props_view (a ++ b) = Some R ->
  exists P Q, props_view a = Some P /\ props_view b = Some Q /\ R = papp P Q.
Proof.
  induction a as [|[k v] a IH]; intros b R H; cbn [props_view app] in *.
  - exists PNil, R. repeat split. exact H.
  - destruct (v_js v) as [s|]; [|discriminate]. destruct (props_view (a ++ b)) as [R1|] eqn:E; [|discriminate]. injection H as <-.
    destruct (IH b R1 E) as (P & Q & HP & HQ & ->). rewrite HP. exists (PCons (key_of k) s P), Q. repeat split. exact HQ.
Qed.

Lemma alts_view_app : forall a b A B, alts_view a = Some A -> alts_view b = Some B -> alts_view (a ++ b) = Some (aapp A B).
Proof.
  induction a as [|v a IH]; intros b A B HA HB; cbn [alts_view app] in *.
  - injection HA as <-. exact HB.
  - destruct (v_js v) as [s|]; [|discriminate]. destruct (alts_view a) as [A1|]; [|discriminate]. injection HA as <-.
    rewrite (IH b A1 B eq_refl HB). reflexivity.
Qed.

(* ---- json_type: the keyword lists it can emit, by computation from Gen/JsonTypeParams.v ---- *)
Definition triple_kvs (k : N * N * N) : R (list (str * str)) :=
  match k with (t, e, c) => rbind (type_kv t) (fun a => rbind (enc_kv e) (fun b => rbind (conv_kv c) (fun d => ROk (a ++ b ++ d)))) end.

Definition jt_candidates : list (N * N * N) :=
  SR.Gen.JsonTypeParams.jt_out_numeric :: SR.Gen.JsonTypeParams.jt_out_text :: map snd SR.Gen.JsonTypeParams.jt_branches.

Lemma chain_in : forall u bs k, SR.Model.JsonType.chain u bs = Ok k -> In k (map snd bs).
Proof.
  intros u. induction bs as [|[names out] bs IH]; intros k H; cbn [SR.Model.JsonType.chain] in H; [discriminate|].
  cbn [map snd]. destruct (SR.Model.Estruct.mem u names); [injection H as <-; left; reflexivity|right; apply IH; exact H].
Qed.

Lemma json_type_in : forall u txt k, SR.Model.JsonType.json_type u txt = Ok k -> In k jt_candidates.
Proof.
  intros u txt k H. unfold SR.Model.JsonType.json_type in H. unfold jt_candidates.
  destruct (SR.Model.Estruct.mem u SR.Gen.JsonTypeParams.jt_display).
  - injection H as <-. destruct (SR.Model.JsonType.numeric_text _ _ _); [left; reflexivity|right; left; reflexivity].
  - right. right. apply (chain_in u). exact H.
Qed.

Lemma json_type_kvs_in : forall x jt, json_type_kvs x = ROk jt -> exists k, In k jt_candidates /\ triple_kvs k = ROk jt.
Proof.
  intros x jt H. unfold json_type_kvs in H.
  destruct (SR.Model.JsonType.json_type (usage_number x) _) as [k|ex] eqn:E; [|discriminate].
  exists k. split; [apply (json_type_in _ _ _ E)|]. destruct k as [[t e] c]. exact H.
Qed.

(* the type keyword json_type emits is never array or object: the object stays atomic for the loader *)
Definition jt_atomic (jt : list (str * str)) : bool :=
  match jfind k_type (jstrs jt) with
  | Some (DStr ty) => negb (str_eqb ty v_array) && negb (str_eqb ty v_object)
  | Some _ => false
  | None => true
  end.

Lemma jt_candidates_atomic : forallb (fun k => match triple_kvs k with ROk jt => jt_atomic jt | _ => true end) jt_candidates = true.
Proof. vm_compute. reflexivity. Qed.

Lemma json_type_atomic : forall x jt, json_type_kvs x = ROk jt -> jt_atomic jt = true.
Proof.
  intros x jt H. destruct (json_type_kvs_in x jt H) as (k & I & E).
  pose proof jt_candidates_atomic as F. rewrite forallb_forall in F. specialize (F k I). rewrite E in F. exact F.
Qed.

Lemma jfind_app : forall key (a b : list (str * jdoc)),
  jfind key (a ++ b) = match jfind key a with Some v => Some v | None => jfind key b end.
Proof.
  intros key. induction a as [|[k v] a IH]; intros b; [reflexivity|]. cbn [app jfind]. destruct (str_eqb k key); [reflexivity|apply IH].
Qed.

Lemma jfind_none_notin : forall key (a : list (str * jdoc)), ~ In key (map fst a) -> jfind key a = None.
Proof. intros key a N. rewrite <- (app_nil_r a). exact (DefsR.jfind_app_other key a [] N). Qed.

Lemma map_fst_mid : forall (a1 a2 : list (str * jdoc)) k v v', map fst (a1 ++ (k, v) :: a2) = map fst (a1 ++ (k, v') :: a2).
Proof. intros. rewrite !map_app. reflexivity. Qed.

(* an object as a schema, with the sub-views looked up through the document *)
Lemma view_obj_js : forall kvs, v_js (view_of (DObj kvs)) =
  match jfind k_ref kvs with
  | Some (DStr (h :: tgt)) => if (h =? 35)%N then Some (JRef (key_of tgt)) else None
  | Some _ => None
  | None =>
      match jfind k_oneOf kvs with
      | Some d => option_map (JOne (anchor_view kvs)) (v_alts (view_of d))
      | None =>
          match jfind k_type kvs with
          | Some (DStr ty) =>
              if str_eqb ty v_array then array_view kvs (subs kvs)
              else if str_eqb ty v_object then
                match jfind k_properties kvs with
                | Some d => option_map (Layout.JObj (anchor_view kvs)) (v_props (view_of d))
                | None => None
                end
              else atom_view kvs
          | _ => atom_view kvs
          end
      end
  end.
Proof.
  intros kvs. rewrite view_obj. cbn [v_js]. unfold schema_view. rewrite !sfind_subs.
  destruct (jfind k_ref kvs) as [[?|?|?|?]|]; try reflexivity.
  destruct (jfind k_oneOf kvs); cbn [option_map]; [reflexivity|].
  destruct (jfind k_type kvs) as [[ty|?|?|?]|]; try reflexivity.
  destruct (str_eqb ty v_array); [reflexivity|]. destruct (str_eqb ty v_object); [|reflexivity].
  destruct (jfind k_properties kvs); reflexivity.
Qed.

Lemma view_placeholder : forall k, v_js (view_of (placeholder k)) = Some (JRef (key_of (xuname k))).
Proof. intros k. reflexivity. Qed.

Definition oneof_obj (key : str) (l : list jdoc) : jdoc := DObj [(k_oneOf, DArr l); (k_anchor, DStr key)].

Lemma view_oneof_eq : forall key l,
  v_js (view_of (oneof_obj key l)) = option_map (JOne (Some (key_of key))) (alts_view (map view_of l)).
Proof.
  intros key l. unfold oneof_obj. rewrite view_obj_js.
  change (jfind k_ref [(k_oneOf, DArr l); (k_anchor, DStr key)]) with (@None jdoc).
  change (jfind k_oneOf [(k_oneOf, DArr l); (k_anchor, DStr key)]) with (Some (DArr l)).
  cbv iota. rewrite view_arr. cbn [v_alts]. reflexivity.
Qed.

(* an elementary item's object: header, the keywords of json_type, then whatever follows (the lengths, or nothing) *)
Lemma view_atom_obj : forall hd un cobol jt tl n,
  jt_ok jt = true -> jt_atomic jt = true -> calcsize_text cobol = ROk n ->
  jfind k_ref (jstrs hd) = None -> jfind k_oneOf (jstrs hd) = None -> jfind k_type (jstrs hd) = None ->
  jfind k_anchor (jstrs hd) = Some (DStr un) -> jfind k_cobol (jstrs hd) = Some (DStr cobol) ->
  jfind k_ref tl = None -> jfind k_oneOf tl = None -> jfind k_type tl = None ->
  v_js (view_of (DObj (jstrs (hd ++ jt) ++ tl))) = Some (JAtom (Some (key_of un)) (N.to_nat n)).
Proof.
  intros hd un cobol jt tl n J A C H1 H2 H3 H4 H5 T1 T2 T3.
  rewrite view_obj_js. rewrite jstrs_app, <- app_assoc.
  assert (F : forall key, jt_key key = false -> jfind key (jstrs hd ++ jstrs jt ++ tl)
                                           = match jfind key (jstrs hd) with Some v => Some v | None => jfind key tl end).
  { intros key K. rewrite jfind_app. destruct (jfind key (jstrs hd)); [reflexivity|]. apply (jfind_jt key jt tl J K). }
  rewrite (F k_ref eq_refl), H1, T1. rewrite (F k_oneOf eq_refl), H2, T2.
  assert (AT : atom_view (jstrs hd ++ jstrs jt ++ tl) = Some (JAtom (Some (key_of un)) (N.to_nat n))).
  { unfold atom_view, anchor_view. rewrite (F k_cobol eq_refl), H5, (F k_anchor eq_refl), H4, C. reflexivity. }
  rewrite jfind_app, H3, jfind_app. unfold jt_atomic in A.
  destruct (jfind k_type (jstrs jt)) as [[ty|?|?|?]|]; try discriminate.
  - apply andb_true_iff in A as [A1 A2]. apply negb_true_iff in A1. apply negb_true_iff in A2. rewrite A1, A2. exact AT.
  - rewrite T3. exact AT.
Qed.

Lemma view_elem : forall name un cobol jt n, jt_ok jt = true -> jt_atomic jt = true -> calcsize_text cobol = ROk n ->
  v_js (view_of (DObj (jstrs ([(k_title, name); (k_anchor, un); (k_cobol, cobol)] ++ jt) ++ [(k_maxLength, DInt n); (k_minLength, DInt n)])))
  = Some (JAtom (Some (key_of un)) (N.to_nat n)).
Proof. intros name un cobol jt n J A C. apply (view_atom_obj [(k_title, name); (k_anchor, un); (k_cobol, cobol)] un cobol jt _ n J A C); reflexivity. Qed.

Lemma view_inner : forall un cobol jt n, jt_ok jt = true -> jt_atomic jt = true -> calcsize_text cobol = ROk n ->
  v_js (view_of (DObj (jstrs ([(k_anchor, un); (k_cobol, cobol)] ++ jt)))) = Some (JAtom (Some (key_of un)) (N.to_nat n)).
Proof.
  intros un cobol jt n J A C. rewrite <- (app_nil_r (jstrs _)).
  apply (view_atom_obj [(k_anchor, un); (k_cobol, cobol)] un cobol jt [] n J A C); reflexivity.
Qed.

(* OCCURS n / OCCURS DEPENDING ON c over the schema of one occurrence *)
Definition arr_js (a : option key) (o : occ) (its : js) : js :=
  match o with Times n => Layout.JArr a n its | Odo c => JOdo a c its | Once => its end.

Lemma max_items_cases : forall x mx, max_items_doc x = ROk mx ->
  (exists dep, mx = (k_maxItemsDependsOn, DObj [(k_ref, DStr (35%N :: dep))]) /\ occ_of x = Odo (name_id dep))
  \/ (exists c, mx = (k_maxItems, DInt c) /\ occ_of x = Times (N.to_nat c)).
Proof.
  intros x mx H. unfold max_items_doc in H. unfold occ_of. destruct (i_dep x) as [dep|].
  - injection H as <-. left. exists dep. split; reflexivity.
  - destruct (i_occ x) as [ds|]; [|discriminate]. injection H as <-. right. eexists. split; reflexivity.
Qed.

Lemma view_object : forall kvs props P,
  jfind k_ref kvs = None -> jfind k_oneOf kvs = None -> jfind k_type kvs = Some (DStr v_object) ->
  jfind k_properties kvs = Some (DObj props) -> props_view (subs props) = Some P ->
  v_js (view_of (DObj kvs)) = Some (Layout.JObj (anchor_view kvs) P).
Proof.
  intros kvs props P H1 H2 H3 H4 H. rewrite view_obj_js, H1, H2, H3.
  change (str_eqb v_object v_array) with false. change (str_eqb v_object v_object) with true. cbv iota.
  rewrite H4, view_obj. cbn [v_props option_map]. rewrite H. reflexivity.
Qed.

Lemma view_items : forall props P, props_view (subs props) = Some P ->
  v_js (view_of (DObj [(k_type, DStr v_object); (k_properties, DObj props)])) = Some (Layout.JObj None P).
Proof. intros props P H. refine (view_object _ props P _ _ _ _ H); reflexivity. Qed.

Lemma view_array : forall name cobol items mx x tl its,
  max_items_doc x = ROk mx -> v_js (view_of items) = Some its ->
  jfind k_ref tl = None -> jfind k_oneOf tl = None -> jfind k_maxItemsDependsOn tl = None ->
  v_js (view_of (DObj (jstrs [(k_title, name); (k_cobol, cobol); (k_type, v_array)] ++ (k_items, items) :: mx :: tl)))
  = Some (arr_js (anchor_view tl) (occ_of x) its).
Proof.
  intros name cobol items mx x tl its M I T1 T2 T3.
  destruct (max_items_cases x mx M) as [(dep & -> & ->)|(c & -> & ->)]; rewrite view_obj_js; unfold array_view; rewrite sfind_subs;
    set (kvs := jstrs _ ++ _).
  (* the keys of the object are closed terms but for those of tl: every lookup is decided by conversion *)
  - change (jfind k_ref kvs) with (jfind k_ref tl). change (jfind k_oneOf kvs) with (jfind k_oneOf tl). rewrite T1, T2.
    change (jfind k_type kvs) with (Some (DStr v_array)). change (jfind k_items kvs) with (Some items).
    change (jfind k_maxItemsDependsOn kvs) with (Some (DObj [(k_ref, DStr (35%N :: dep))])). change (anchor_view kvs) with (anchor_view tl).
    cbn [option_map]. rewrite I. reflexivity.
  - change (jfind k_ref kvs) with (jfind k_ref tl). change (jfind k_oneOf kvs) with (jfind k_oneOf tl). rewrite T1, T2.
    change (jfind k_type kvs) with (Some (DStr v_array)). change (jfind k_items kvs) with (Some items).
    change (jfind k_maxItemsDependsOn kvs) with (jfind k_maxItemsDependsOn tl). change (jfind k_maxItems kvs) with (Some (DInt c)).
    change (anchor_view kvs) with (anchor_view tl). cbn [option_map]. rewrite I, T3. reflexivity.
Qed.

Lemma view_array_pic : forall name un cobol jt mx x n,
  jt_ok jt = true -> jt_atomic jt = true -> calcsize_text cobol = ROk n -> max_items_doc x = ROk mx ->
  v_js (view_of (DObj (jstrs [(k_title, name); (k_cobol, cobol); (k_type, v_array)]
                       ++ [(k_items, DObj [(k_type, DStr v_object);
                                           (k_properties, DObj [(un, DObj (jstrs ([(k_anchor, un); (k_cobol, cobol)] ++ jt)))])]);
                           mx])))
  = Some (arr_js None (occ_of x) (Layout.JObj None (PCons (key_of un) (JAtom (Some (key_of un)) (N.to_nat n)) PNil))).
Proof.
  intros name un cobol jt mx x n J A C M.
  apply (view_array name cobol _ mx x [] _ M); try reflexivity.
  apply view_items. unfold subs. cbn [map fst snd props_view]. rewrite (view_inner un cobol jt n J A C). reflexivity.
Qed.

Lemma view_array_group : forall name un cobol props mx x P,
  max_items_doc x = ROk mx -> props_view (subs props) = Some P ->
  v_js (view_of (DObj (jstrs [(k_title, name); (k_cobol, cobol); (k_type, v_array)]
                       ++ [(k_items, DObj [(k_type, DStr v_object); (k_properties, DObj props)]); mx; (k_anchor, DStr un)])))
  = Some (arr_js (Some (key_of un)) (occ_of x) (Layout.JObj None P)).
Proof.
  intros name un cobol props mx x P M H.
  apply (view_array name cobol _ mx x [(k_anchor, DStr un)] _ M); try reflexivity.
  apply view_items. exact H.
Qed.

Lemma view_group : forall name un cobol props P, props_view (subs props) = Some P ->
  v_js (view_of (DObj (jstrs [(k_title, name); (k_anchor, un); (k_cobol, cobol); (k_type, v_object)] ++ [(k_properties, DObj props)])))
  = Some (Layout.JObj (Some (key_of un)) P).
Proof.
  intros name un cobol props P H. refine (view_object _ props P _ _ _ _ H); reflexivity.
Qed.


(* ================================================================ 3. the children loop *)
Fixpoint pkeys (P : props) : list key := match P with PNil => [] | PCons k _ r => k :: pkeys r end.

Lemma pkeys_view : forall a A, props_view (subs a) = Some A -> pkeys A = map key_of (map fst a).
Proof.
  induction a as [|[k v] a IH]; intros A H.
  - injection H as <-. reflexivity.
  - rewrite subs_cons in H. cbn [props_view] in H. destruct (v_js (view_of v)); [|discriminate].
    destruct (props_view (subs a)) as [A1|]; [|discriminate]. injection H as <-. cbn [pkeys map fst]. rewrite (IH A1 eq_refl). reflexivity.
Qed.

(* every union entry with the key of u gets more alternatives *)
Fixpoint add_alts (u : id) (extra : jalts) (P : props) : props :=
  match P with
  | PNil => PNil
  | PCons k s r =>
      PCons k (match k, s with
               | KRedef u', JOne a alts => if N.eqb u u' then JOne a (aapp alts extra) else s
               | _, _ => s
               end) (add_alts u extra r)
  end.

(* the properties built so far, after the children ks have added themselves to the unions they belong to *)
Fixpoint ext (P : props) (ks : items) : props :=
  match ks with
  | INil => P
  | ICons x xs => ext (match item_redef x with Some u => add_alts u (ACons (build_alt x) ANil) P | None => P end) xs
  end.

Lemma add_alts_papp : forall u e P Q, add_alts u e (papp P Q) = papp (add_alts u e P) (add_alts u e Q).
Proof. intros u e. induction P as [|k s r IH]; intros Q; [reflexivity|]. cbn [papp add_alts]. rewrite IH. reflexivity. Qed.

Lemma ext_papp : forall ks P Q, ext (papp P Q) ks = papp (ext P ks) (ext Q ks).
Proof.
  induction ks as [|x xs IH]; intros P Q; [reflexivity|]. cbn [ext]. destruct (item_redef x) as [u|]; [|apply IH].
  rewrite add_alts_papp. apply IH.
Qed.

Lemma add_alts_notin : forall u e P, ~ In (KRedef u) (pkeys P) -> add_alts u e P = P.
Proof.
  intros u e. induction P as [|k s r IH]; intros N; [reflexivity|]. cbn [pkeys In] in N. cbn [add_alts].
  rewrite IH by (intros I; apply N; right; exact I). f_equal.
  destruct k as [i|u']; [reflexivity|]. destruct s; try reflexivity.
  destruct (N.eqb u u') eqn:E; [|reflexivity]. apply N.eqb_eq in E. subst u'. exfalso. apply N. left. reflexivity.
Qed.

Lemma ext_nil : forall ks, ext PNil ks = PNil.
Proof. induction ks as [|x xs IH]; [reflexivity|]. cbn [ext]. destruct (item_redef x); cbn [add_alts]; exact IH. Qed.

Lemma ext_name1 : forall ks i s, ext (PCons (KName i) s PNil) ks = PCons (KName i) s PNil.
Proof. induction ks as [|x xs IH]; intros i s; [reflexivity|]. cbn [ext]. destruct (item_redef x); cbn [add_alts]; apply IH. Qed.

Lemma ext_one1 : forall ks u a A,
  ext (PCons (KRedef u) (JOne a A) PNil) ks = PCons (KRedef u) (JOne a (aapp A (alts_red u ks))) PNil.
Proof.
  induction ks as [|x xs IH]; intros u a A; cbn [ext alts_red]; [rewrite aapp_nil; reflexivity|].
  destruct (item_redef x) as [u'|]; [|apply IH]. cbn [add_alts]. rewrite (N.eqb_sym u' u).
  destruct (N.eqb u u'); rewrite IH; [|reflexivity]. rewrite aapp_assoc. reflexivity.
Qed.

Lemma item_id_of : forall k, item_id (item_of k) = name_id (xuname k).
Proof.
  intros [d b x kids]. cbn [item_of xuname xdde]. destruct (SR.Model.Structure.eocc _); [destruct (SR.Model.Structure.epic _); reflexivity|].
  destruct kids; reflexivity.
Qed.

Lemma item_redef_of : forall k, item_redef (item_of k) = option_map name_id (xredef k).
Proof.
  intros [d b x kids]. cbn [item_of xredef xdde]. unfold redef_of. destruct (SR.Model.Structure.eocc _); [destruct (SR.Model.Structure.epic _); reflexivity|].
  destruct kids; reflexivity.
Qed.

Lemma redef_targets_of : forall ks, redef_targets (items_of ks) = map name_id (xtargets ks).
Proof.
  induction ks as [|k r IH]; [reflexivity|]. cbn [items_of redef_targets xtargets]. rewrite item_redef_of, IH.
  destruct (xredef k); reflexivity.
Qed.

Lemma kid_ids_of : forall ks, kid_ids (items_of ks) = map name_id (xunames ks).
Proof. induction ks as [|k r IH]; [reflexivity|]. cbn [items_of kid_ids xunames map]. rewrite item_id_of, IH. reflexivity. Qed.

Lemma xeff_eq : forall k, xeff_redef k = if xbased k then Some (SR.Model.Structure.dde_name (SR.Model.Structure.de (xdde k))) else xredef k.
Proof. intros [d b x kids]. reflexivity. Qed.

Lemma bridge_ok_name : forall k, bridge_ok k = true -> is_pre RD (xuname k) = false.
Proof.
  intros [d b x kids] H. cbn [bridge_ok] in H. apply andb_true_iff in H as [H _]. apply negb_true_iff in H. exact H.
Qed.

Lemma bridge_names_f : forall ks, bridge_ok_f ks = true -> forall n, In n (xunames ks) -> is_pre RD n = false.
Proof.
  induction ks as [|k r IH]; intros B n I; [destruct I|]. cbn [bridge_ok_f] in B. apply andb_true_iff in B as [B1 B2].
  destruct I as [<-|I]; [apply bridge_ok_name; exact B1|apply IH; assumption].
Qed.

Lemma key_not_name : forall n t, is_pre RD n = false -> n <> redef_key t.
Proof. intros n t H E. subst n. unfold redef_key in H. rewrite is_pre_app in H. discriminate. Qed.

Lemma redef_key_inj : forall a b, redef_key a = redef_key b -> a = b.
Proof. intros a b H. unfold redef_key in H. apply app_inv_head in H. exact H. Qed.

Lemma docs_kids_r_cons : forall k r acc, docs_kids_r (XCons k r) acc =
  match xeff_redef k with
  | None => rbind (doc_r k) (fun dk => docs_kids_r r (jset (xuname k) dk acc))
  | Some tgt =>
      let key := redef_key tgt in
      let acc1 := match jfind key acc with Some _ => acc | None => acc ++ [(key, oneof_new key)] end in
      rbind (doc_r k) (fun dk => rbind (oneof_add key dk acc1) (fun acc2 => docs_kids_r r (jset (xuname k) (placeholder k) acc2)))
  end.
Proof. reflexivity. Qed.

Lemma oneof_add_obj : forall key dk a1 l a2, ~ In key (map fst a1) ->
  oneof_add key dk (a1 ++ (key, oneof_obj key l) :: a2) = ROk (a1 ++ (key, oneof_obj key (l ++ [dk])) :: a2).
Proof.
  intros key dk a1 l a2 N. unfold oneof_add. rewrite (Redef.jfind_mid key _ a1 a2 N). unfold oneof_obj.
  change (jfind k_oneOf [(k_oneOf, DArr l); (k_anchor, DStr key)]) with (Some (DArr l)). cbv iota.
  rewrite (Redef.jset_mid key _ _ a1 a2 N). reflexivity.
Qed.

Lemma view_snoc : forall acc P k d s, props_view (subs acc) = Some P -> v_js (view_of d) = Some s ->
  props_view (subs (acc ++ [(k, d)])) = Some (papp P (PCons (key_of k) s PNil)).
Proof.
  intros acc P k d s V D. rewrite subs_app. apply props_view_app; [exact V|]. rewrite subs_cons. cbn [props_view subs map]. rewrite D. reflexivity.
Qed.

Lemma pkeys_no_union : forall a A t, props_view (subs a) = Some A -> ~ In (redef_key t) (map fst a) -> ~ In (KRedef (name_id t)) (pkeys A).
Proof.
  intros a A t V N I. rewrite (pkeys_view _ _ V) in I. apply in_map_iff in I. destruct I as (e & E & I).
  rewrite <- key_of_redef in E. apply key_of_inj in E. subst e. exact (N I).
Qed.

(* ---- what the loop keeps of the properties acc it has built: they read as P, their keys differ, and the union of every
        redefined child met so far (bases) is among them ---- *)
Record inv (bases : list str) (acc : list (str * jdoc)) (P : props) : Prop := {
  inv_keys : NoDup (map fst acc);
  inv_view : props_view (subs acc) = Some P;
  inv_bases : forall t, In t bases -> exists l, jfind (redef_key t) acc = Some (oneof_obj (redef_key t) l) }.

Lemma inv_nil : inv [] [] PNil.
Proof. split; [constructor|reflexivity|intros t []]. Qed.

Lemma inv_snoc : forall bases acc P n d s, inv bases acc P -> ~ In n (map fst acc) -> v_js (view_of d) = Some s ->
  inv bases (acc ++ [(n, d)]) (papp P (PCons (key_of n) s PNil)).
Proof.
  intros bases acc P n d s [K V BS] F D. split.
  - rewrite map_app. apply NoDup_snoc; assumption.
  - apply view_snoc; assumption.
  - intros t I. destruct (BS t I) as (l & J). exists l. rewrite jfind_app, J. reflexivity.
Qed.

Lemma inv_open : forall bases acc P n d s, inv bases acc P -> ~ In (redef_key n) (map fst acc) -> v_js (view_of d) = Some s ->
  inv (n :: bases) (acc ++ [(redef_key n, oneof_obj (redef_key n) [d])])
      (papp P (PCons (KRedef (name_id n)) (JOne (Some (KRedef (name_id n))) (ACons s ANil)) PNil)).
Proof.
  intros bases acc P n d s I F D.
  assert (VO : v_js (view_of (oneof_obj (redef_key n) [d])) = Some (JOne (Some (key_of (redef_key n))) (ACons s ANil))).
  { rewrite view_oneof_eq. cbn [map alts_view]. rewrite D. reflexivity. }
  destruct (inv_snoc bases acc P _ _ _ I F VO) as [K V BS]. rewrite key_of_redef in V. split; [exact K|exact V|].
  intros t [<-|It]; [|exact (BS t It)].
  exists [d]. exact (Redef.jfind_mid _ _ acc [] F).
Qed.

(* a redefiner joins the union of its target: the entry is updated where it stands *)
Lemma inv_add : forall bases acc P t d s, inv bases acc P -> In t bases -> v_js (view_of d) = Some s ->
  exists acc', oneof_add (redef_key t) d acc = ROk acc' /\ map fst acc' = map fst acc
               /\ inv bases acc' (add_alts (name_id t) (ACons s ANil) P).
Proof.
  intros bases acc P t d s [K V BS] It D. destruct (BS t It) as (l & J).
  destruct (DefsR.jfind_split _ _ _ J) as (a1 & a2 & -> & NA).
  exists (a1 ++ (redef_key t, oneof_obj (redef_key t) (l ++ [d])) :: a2).
  split; [apply oneof_add_obj; exact NA|]. split; [apply map_fst_mid|]. split.
  - rewrite (map_fst_mid a1 a2 _ _ (oneof_obj (redef_key t) l)). exact K.
  - rewrite subs_app in V. destruct (props_view_split _ _ _ V) as (A1 & A2' & VA1 & VA2 & ->).
    rewrite subs_cons in VA2. cbn [props_view] in VA2. rewrite view_oneof_eq in VA2.
    destruct (alts_view (map view_of l)) as [A|] eqn:EA; cbn [option_map] in VA2; [|discriminate].
    destruct (props_view (subs a2)) as [A2|] eqn:VA2'; [|discriminate]. injection VA2 as <-.
    assert (EA' : alts_view (map view_of (l ++ [d])) = Some (aapp A (ACons s ANil))).
    { rewrite map_app. apply alts_view_app; [exact EA|]. cbn [map alts_view]. rewrite D. reflexivity. }
    rewrite subs_app, subs_cons. erewrite props_view_app; [|exact VA1|cbn [props_view]; rewrite view_oneof_eq, EA', VA2'; reflexivity].
    rewrite add_alts_papp, key_of_redef. cbn [add_alts]. rewrite N.eqb_refl.
    rewrite map_app in K. cbn [map fst] in K. apply NoDup_remove_2 in K.
    rewrite (add_alts_notin _ _ _ (pkeys_no_union _ _ _ VA1 NA)).
    rewrite (add_alts_notin _ _ A2) by (apply (pkeys_no_union _ _ _ VA2'); intros I; apply K, in_or_app; right; exact I).
    reflexivity.
  - intros t' I'. destruct (BS t' I') as (l' & J'). destruct (str_eqb (redef_key t) (redef_key t')) eqn:Q.
    + apply SR.Proofs.StructureP.str_eqb_eq in Q. rewrite <- Q. eexists. apply (Redef.jfind_mid _ _ a1 a2 NA).
    + exists l'. rewrite <- J', !jfind_app. destruct (jfind (redef_key t') a1); [reflexivity|]. cbn [jfind]. rewrite Q. reflexivity.
Qed.

(* the names of the children still to come, and the keys of their unions, are not taken *)
Definition fresh (keys : list str) (ks : xforest) : Prop :=
  forall n, In n (xunames ks) -> ~ In n keys /\ ~ In (redef_key n) keys.

(* the keys that come with the first child are its name and the key of its union *)
Lemma fresh_tail : forall keys keys' k r,
  fresh keys (XCons k r) -> nodup_strs (xunames (XCons k r)) = true -> is_pre RD (xuname k) = false ->
  (forall n, In n (xunames r) -> is_pre RD n = false) ->
  (forall e, In e keys' -> In e keys \/ e = xuname k \/ e = redef_key (xuname k)) ->
  fresh keys' r.
Proof.
  intros keys keys' k r FR ND NK NR EX n I.
  cbn [xunames nodup_strs] in ND. apply andb_true_iff in ND as [N1 _]. apply negb_true_iff in N1. apply existsb_str_notin in N1.
  destruct (FR n (or_intror I)) as [F1 F2]. split; intros J; destruct (EX _ J) as [J'|[E|E]].
  - exact (F1 J').
  - subst n. exact (N1 I).
  - exact (key_not_name n _ (NR n I) E).
  - exact (F2 J').
  - exact (key_not_name _ _ NK (eq_sym E)).
  - apply redef_key_inj in E. subst n. exact (N1 I).
Qed.

Definition Pt (t : xtree) : Prop :=
  bridge_ok t = true -> exists doc, doc_r t = ROk doc /\ v_js (view_of doc) = Some (build_alt (item_of t)).

(* the loop on the children ks, started on acc: the properties it returns read as what acc read as, the unions extended by
   the redefiners among ks, followed by Layout's direct description of ks *)
Definition Qr (ks : xforest) : Prop := forall bases acc P,
  bridge_ok_f ks = true -> kids_union_ok bases ks = true -> nodup_strs (xunames ks) = true ->
  inv bases acc P -> fresh (map fst acc) ks ->
  exists props, docs_kids_r ks acc = ROk props
                /\ props_view (subs props) = Some (papp (ext P (items_of ks)) (assemble_d (items_of ks))).

Lemma Qr_step : forall k r, Pt k -> Qr r -> Qr (XCons k r).
Proof.
  intros k r Pk IHr bases acc P B U ND I FR.
  cbn [bridge_ok_f] in B. apply andb_true_iff in B as [B1 B2].
  pose proof ND as ND0. cbn [xunames nodup_strs] in ND. apply andb_true_iff in ND as [_ N2].
  destruct (Pk B1) as (dk & Dk & Vk).
  pose proof (bridge_ok_name k B1) as NK. pose proof (bridge_names_f r B2) as NR.
  destruct (FR (xuname k) (or_introl eq_refl)) as [F1 F2].
  (* every case ends by putting a property under the child's own name and going on with the other children; the only key that may
     have come to acc before that is the key of the child's own union *)
  assert (go_on : forall d s bases' acc' P', v_js (view_of d) = Some s -> inv bases' acc' P' -> kids_union_ok bases' r = true ->
            (forall e, In e (map fst acc') -> In e (map fst acc) \/ e = redef_key (xuname k)) ->
            exists props, docs_kids_r r (jset (xuname k) d acc') = ROk props
              /\ props_view (subs props)
                 = Some (papp (papp (ext P' (items_of r)) (PCons (KName (name_id (xuname k))) s PNil)) (assemble_d (items_of r)))).
  { intros d s bases' acc' P' D I' U' KE.
    assert (F1' : ~ In (xuname k) (map fst acc')).
    { intros J. destruct (KE _ J) as [J'|E]; [exact (F1 J')|exact (key_not_name _ _ NK E)]. }
    rewrite (jset_fresh _ _ _ (proj2 (existsb_str_notin _ _) F1')).
    pose proof (inv_snoc _ _ _ _ _ _ I' F1' D) as I3. rewrite (key_of_name _ NK) in I3.
    destruct (IHr _ _ _ B2 U' N2 I3) as (props & Dp & Vp).
    { apply (fresh_tail (map fst acc) _ k r FR ND0 NK NR). intros e J. rewrite map_app in J. apply in_app_or in J.
      destruct J as [J|[<-|[]]]; [|right; left; reflexivity]. destruct (KE _ J) as [J'|E]; [left; exact J'|right; right; exact E]. }
    exists props. split; [exact Dp|]. rewrite Vp, ext_papp, ext_name1. reflexivity. }
  assert (VP : v_js (view_of (placeholder k)) = Some (JRef (KName (name_id (xuname k)))))
    by (rewrite <- (key_of_name _ NK); apply view_placeholder).
  cbn [kids_union_ok] in U. rewrite docs_kids_r_cons, xeff_eq.
  cbn [items_of ext assemble_d]. rewrite item_redef_of, item_id_of, redef_targets_of, existsb_name_id.
  destruct (xredef k) as [t|] eqn:XR; cbn [option_map].
  - (* a redefiner: its union exists already *)
    apply andb_true_iff in U as [U U2]. apply andb_true_iff in U as [U0 U1]. apply negb_true_iff in U0. rewrite U0.
    apply Redef.existsb_str_In in U1. destruct (inv_bases _ _ _ I t U1) as (l & J). cbv zeta. rewrite J, Dk. cbn [rbind].
    destruct (inv_add _ _ _ _ _ _ I U1 Vk) as (acc' & OA & KE & I'). rewrite OA. cbn [rbind].
    destruct (go_on _ _ _ _ _ VP I' U2) as (props & Dp & Vp); [intros e Je; left; rewrite <- KE; exact Je|].
    exists props. split; [exact Dp|]. rewrite Vp, papp_assoc. reflexivity.
  - apply andb_true_iff in U as [U U2]. apply andb_true_iff in U as [U0 U1]. apply Bool.eqb_prop in U0. rewrite <- U0.
    destruct (xbased k) eqn:XB.
    + (* the redefined item: it opens its union *)
      cbn [negb orb] in U1. apply SR.Proofs.StructureP.str_eqb_eq in U1. rewrite U1. cbv zeta.
      rewrite (jfind_none_notin _ _ F2), Dk. cbn [rbind].
      change (oneof_new (redef_key (xuname k))) with (oneof_obj (redef_key (xuname k)) []).
      rewrite (oneof_add_obj _ dk acc [] [] F2). cbn [rbind app].
      destruct (go_on _ _ _ _ _ VP (inv_open _ _ _ _ _ _ I F2 Vk) U2) as (props & Dp & Vp).
      { intros e J. rewrite map_app in J. apply in_app_or in J. destruct J as [J|[<-|[]]]; [left; exact J|right; reflexivity]. }
      exists props. split; [exact Dp|]. rewrite Vp, ext_papp, ext_one1, !papp_assoc. reflexivity.
    + (* an ordinary child *)
      rewrite Dk. cbn [rbind].
      destruct (go_on _ _ _ _ _ Vk I U2 (fun e J => or_introl J)) as (props & Dp & Vp).
      exists props. split; [exact Dp|]. rewrite Vp, papp_assoc. reflexivity.
Qed.

(* ================================================================ 4. the bridge *)
Lemma sib_ok_of : forall ks bases B, kids_union_ok bases ks = true -> (forall t, In t bases -> In (name_id t) B) ->
  sib_ok B (items_of ks) = true.
Proof.
  induction ks as [|k r IH]; intros bases B U SB; [reflexivity|]. cbn [kids_union_ok] in U. cbn [items_of sib_ok]. rewrite item_redef_of.
  destruct (xredef k) as [t|]; cbn [option_map].
  - apply andb_true_iff in U as [U U2]. apply andb_true_iff in U as [_ U1]. apply Redef.existsb_str_In in U1.
    apply andb_true_iff. split; [apply existsb_eqb_In; apply SB; exact U1|apply (IH bases); assumption].
  - apply andb_true_iff in U as [_ U2]. apply (IH _ _ U2). rewrite item_id_of. intros t I.
    destruct (xbased k); [destruct I as [<-|I]; [left; reflexivity|right; apply SB; exact I]|right; apply SB; exact I].
Qed.

Lemma assemble_of : forall ks, kids_union_ok [] ks = true -> nodup_strs (xunames ks) = true ->
  assemble (kid_alts (redef_targets (items_of ks)) (items_of ks)) [] (kid_alts (redef_targets (items_of ks)) (items_of ks))
  = assemble_d (items_of ks).
Proof.
  intros ks U ND.
  assert (NK : NoDup (kid_ids (items_of ks))).
  { rewrite kid_ids_of. apply (FinFun.Injective_map_NoDup name_id_inj), nodup_strs_NoDup, ND. }
  assert (SB : sib_ok [] (items_of ks) = true) by (apply (sib_ok_of ks [] [] U); intros t []).
  apply (assemble_flat_gen (redef_targets (items_of ks)) (items_of ks) INil [] []).
  - intros u. cbn. tauto.
  - intros y [].
  - intros u [].
  - exact NK.
  - exact SB.
  - intros y u. apply redef_targets_spec.
  - intros u. apply redef_targets_iff.
  - apply redefiner_not_target; assumption.
Qed.

(* below an OCCURS group nothing is redefined: the loop that refuses unions is the loop with unions, and Layout's direct
   description is the plain one *)
Lemma plain_no_targets : forall ks, kids_plain ks = true -> xtargets ks = [].
Proof.
  induction ks as [|k r IH]; intros KP; [reflexivity|]. cbn [kids_plain] in KP. apply andb_true_iff in KP as [KP KP2].
  apply andb_true_iff in KP as [_ K2]. cbn [xtargets]. destruct (xredef k); [discriminate|apply IH; exact KP2].
Qed.

Lemma plain_union_ok : forall ks bases, kids_plain ks = true -> kids_union_ok bases ks = true.
Proof.
  induction ks as [|k r IH]; intros bases KP; [reflexivity|]. pose proof (plain_no_targets _ KP) as T.
  cbn [kids_plain] in KP. apply andb_true_iff in KP as [KP KP2]. apply andb_true_iff in KP as [K1 K2].
  apply negb_true_iff in K1. cbn [kids_union_ok xtargets] in *. destruct (xredef k); [discriminate|].
  rewrite K1, T. apply IH. exact KP2.
Qed.

Lemma docs_kids_o_plain : forall ks acc, kids_plain ks = true -> docs_kids_o ks acc = docs_kids_r ks acc.
Proof.
  induction ks as [|k r IH]; intros acc KP; [reflexivity|]. cbn [kids_plain] in KP. apply andb_true_iff in KP as [KP KP2].
  apply andb_true_iff in KP as [K1 K2]. apply negb_true_iff in K1. rewrite docs_kids_r_cons. cbn [docs_kids_o]. rewrite xeff_eq, K1.
  destruct (xredef k); [discriminate|]. destruct (doc_r k); cbn [rbind]; [apply IH; exact KP2|reflexivity|reflexivity].
Qed.

Lemma is_rok_inv : forall (T : Type) (r : R T), is_rok r = true -> exists v, r = ROk v.
Proof. intros T [v|e|w] H; try discriminate. exists v. reflexivity. Qed.

Lemma occ_not_once : forall x mx, max_items_doc x = ROk mx -> occ_of x <> Once.
Proof. intros x mx M. destruct (max_items_cases x mx M) as [(dep & _ & ->)|(c & _ & ->)]; discriminate. Qed.

Lemma Pt_node : forall d b x kids, Qr kids -> Pt (XNode d b x kids).
Proof.
  intros d b x kids QR B. cbn [bridge_ok] in B. apply andb_true_iff in B as [NK B]. apply negb_true_iff in NK.
  pose proof (key_of_name _ NK) as KO. cbn [doc_r item_of].
  assert (FR : fresh (map fst (@nil (str * jdoc))) kids) by (intros n _; split; intros []).
  destruct (SR.Model.Structure.eocc (SR.Model.Structure.de d)).
  - apply andb_true_iff in B as [M B]. apply is_rok_inv in M. destruct M as (mx & M). rewrite M. cbn [rbind].
    pose proof (occ_not_once x mx M) as ON.
    destruct (SR.Model.Structure.epic (SR.Model.Structure.de d)).
    + apply andb_true_iff in B as [B _]. apply andb_true_iff in B as [J C]. apply is_rok_inv in J. destruct J as (jt & J).
      apply is_rok_inv in C. destruct C as (n & C). rewrite J. cbn [rbind]. eexists. split; [reflexivity|].
      rewrite (view_array_pic _ _ _ _ _ _ n (json_type_keys x jt J) (json_type_atomic x jt J) C M). rewrite KO.
      unfold width_of. rewrite C. cbn [build_alt]. destruct (occ_of x); [contradiction|reflexivity|reflexivity].
    + apply andb_true_iff in B as [B B3]. apply andb_true_iff in B as [B1 B2].
      destruct (QR [] [] PNil B3 (plain_union_ok _ _ B1) B2 inv_nil FR) as (props & Dp & Vp).
      rewrite (docs_kids_o_plain _ _ B1), Dp. cbn [rbind]. eexists. split; [reflexivity|].
      rewrite ext_nil, no_redef_assemble in Vp by (rewrite redef_targets_of, (plain_no_targets _ B1); reflexivity). cbn [papp] in Vp.
      rewrite (view_array_group _ _ _ _ _ _ _ M Vp), KO. cbn [build_alt]. destruct (occ_of x); [contradiction|reflexivity|reflexivity].
  - destruct kids as [|k r].
    + apply andb_true_iff in B as [J C]. apply is_rok_inv in J. destruct J as (jt & J). apply is_rok_inv in C. destruct C as (n & C).
      rewrite J, C. cbn [rbind]. eexists. split; [reflexivity|].
      rewrite (view_elem _ _ _ _ n (json_type_keys x jt J) (json_type_atomic x jt J) C), KO. unfold width_of. rewrite C. reflexivity.
    + apply andb_true_iff in B as [B B3]. apply andb_true_iff in B as [B1 B2].
      destruct (QR [] [] PNil B3 B1 B2 inv_nil FR) as (props & Dp & Vp).
      rewrite Dp. cbn [rbind]. eexists. split; [reflexivity|]. rewrite ext_nil in Vp. cbn [papp] in Vp.
      rewrite (view_group _ _ _ _ _ Vp), KO. cbn [build_alt]. rewrite (assemble_of _ B1 B2). reflexivity.
Qed.

Theorem bridge_all : (forall t, Pt t) /\ (forall ks, Qr ks).
Proof.
  apply xtree_xforest_ind.
  - intros d b x kids IH. apply Pt_node. exact IH.
  - intros bases acc P _ _ _ I _. exists acc. split; [reflexivity|]. cbn [items_of ext assemble_d]. rewrite papp_nil. exact (inv_view _ _ _ I).
  - intros k Pk r QR. apply Qr_step; assumption.
Qed.

(* the document of a tree of the forest IS the built record description (the first half of bridge_all), tree by tree *)
Theorem documents_are_built_forest : forall xf, forallb bridge_ok xf = true ->
  exists docs, docs_r xf = ROk docs /\ Forall2 (fun doc t => layout_of_doc doc = Some (build (item_of t))) docs xf.
Proof.
  induction xf as [|t xf IH]; intros B; cbn [docs_r].
  - exists []. split; [reflexivity|constructor].
  - cbn [forallb] in B. apply andb_true_iff in B as [B1 B2]. destruct (proj1 bridge_all t B1) as (doc & D & L).
    destruct (IH B2) as (docs & Ds & F). rewrite D, Ds. cbn [rbind]. exists (doc :: docs). split; [reflexivity|constructor; assumption].
Qed.


(* ================================================================ 5. from the text
   A text T enters only through reads_as T es (Spec/TextNoiseWf.v): the entries are in the clause domain and the sentences the
   text layer finds in T are theirs.  Every printed copybook reads as its entries (PipelineP.printed_reads_as); Proofs/TextNoiseP.v
   adds decorated copybooks and card decks. *)
Require Import SR.Spec.TextNoiseWf.
Require Import SR.Spec.Encode SR.Spec.Record SR.Model.Estruct SR.Model.LayoutValue SR.Model.RecordValue.
Require SR.Proofs.LayoutOdoP SR.Proofs.RecordP.
Local Open Scope nat_scope.
Local Notation erase := SR.Proofs.PipelineP.erase.
Local Notation erase_f := SR.Proofs.PipelineP.erase_f.

Lemma map_opt_layouts : forall docs (xf : list xtree),
  Forall2 (fun doc t => layout_of_doc doc = Some (build (item_of t))) docs xf ->
  map_opt layout_of_doc docs = Some (map (fun t => build (item_of t)) xf).
Proof.
  intros docs xf F. induction F as [|doc t docs xf H F IH]; [reflexivity|]. cbn [map_opt map]. rewrite H, IH. reflexivity.
Qed.

Lemma forest_of_entries_eq : forall es f, SR.Model.Structure.structure (map spec_entry es) = Ok f ->
  forest_of_entries es = annot_forest f (kept_infos (map spec_info es)).
Proof. intros es f H. unfold forest_of_entries. rewrite H. reflexivity. Qed.

Theorem reading_documents_are_built : forall (T : str) es, reads_as T es -> bridge_domain es = true ->
  exists f xf docs,
    SR.Model.Structure.structure (map spec_entry es) = Ok f
    /\ annot_forest f (kept_infos (map spec_info es)) = Some xf /\ map erase xf = f
    /\ concat (map xpre xf) = kept_infos (map spec_info es)
    /\ schemas_of_text T = Done (Ok docs)
    /\ Forall2 (fun doc t => layout_of_doc doc = Some (build (item_of t))) docs xf
    /\ layouts_of_text T = Some (map (fun t => build (item_of t)) xf).
Proof.
  intros T es RA BD. unfold bridge_domain, forest_of_entries in BD.
  destruct (SR.Model.Structure.structure (map spec_entry es)) as [f|e] eqn:Hf; [|discriminate].
  destruct (reading_end_to_end T es f RA Hf) as (xf & A & R & Q & S). rewrite A in BD. apply andb_true_iff in BD as [NW BO].
  destruct (documents_are_built_forest xf BO) as (docs & D & F).
  exists f, xf, docs. repeat split; try assumption.
  - rewrite (S NW), D. reflexivity.
  - unfold layouts_of_text. rewrite (S NW), D. cbn [to_outcome]. apply map_opt_layouts. exact F.
Qed.

Lemma reading_layouts : forall (T : str) es, reads_as T es -> bridge_domain es = true ->
  exists xf, forest_of_entries es = Some xf /\ layouts_of_text T = Some (map (fun t => build (item_of t)) xf).
Proof.
  intros T es RA BD. destruct (reading_documents_are_built T es RA BD) as (f & xf & docs & Hf & A & _ & _ & _ & _ & L).
  exists xf. split; [rewrite (forest_of_entries_eq es f Hf); exact A|exact L].
Qed.

Theorem reading_layouts_records : forall (T : str) es, reads_as T es -> bridge_domain es = true ->
  layouts_of_text T = option_map (map build) (records_of_entries es).
Proof.
  intros T es RA BD. destruct (reading_layouts T es RA BD) as (xf & FE & L).
  unfold records_of_entries. rewrite L, FE. cbn [option_map]. rewrite map_map. reflexivity.
Qed.

Lemma length_neq : forall (a b : str), length a <> length b -> a <> b.
Proof. intros a b H E. apply H. rewrite E. reflexivity. Qed.

Lemma one_record : forall es it, records_of_entries es = Some [it] -> exists t, forest_of_entries es = Some [t] /\ item_of t = it.
Proof.
  intros es it R. unfold records_of_entries in R. destruct (forest_of_entries es) as [[|t [|t2 xf]]|]; try discriminate R.
  injection R as R. exists t. split; [reflexivity|exact R].
Qed.

Theorem printed_layouts : forall es tail seqs, copybook_ok es tail seqs = true -> bridge_domain es = true ->
  layouts_of_text (print_copybook es tail seqs) = option_map (map build) (records_of_entries es).
Proof. intros es tail seqs OK. apply reading_layouts_records, printed_reads_as, OK. Qed.

(* the domain of the value theorems with the forest taken once: the form to evaluate on a concrete copybook *)
Lemma text_values_ok_eq : forall es, text_values_ok es =
  match forest_of_entries es with
  | Some xf => forallb (names_wf []) xf && forallb bridge_ok xf && forallb (fun t => record_wf (item_of t)) xf
               && forallb (fun t => kinds_defined t && nodupb (ids (item_of t))) xf
  | None => false
  end.
Proof. intros es. unfold text_values_ok, text_layout_ok, bridge_domain. destruct (forest_of_entries es); reflexivity. Qed.

Lemma values_ok_layout : forall es, text_values_ok es = true -> text_layout_ok es = true.
Proof. intros es TV. unfold text_values_ok in TV. apply andb_true_iff in TV as [TL _]. exact TL. Qed.

Lemma bridge_domain_tree : forall es xf t, bridge_domain es = true -> forest_of_entries es = Some xf -> In t xf -> bridge_ok t = true.
Proof.
  intros es xf t BD FE I. unfold bridge_domain in BD. rewrite FE in BD. apply andb_true_iff in BD as [_ B].
  rewrite forallb_forall in B. exact (B t I).
Qed.

Lemma layout_ok_bridge : forall es, text_layout_ok es = true -> bridge_domain es = true.
Proof. intros es TL. unfold text_layout_ok in TL. apply andb_true_iff in TL as [BD _]. exact BD. Qed.

Lemma layout_ok_record : forall es xf t, text_layout_ok es = true -> forest_of_entries es = Some xf -> In t xf ->
  wf no_counters (item_of t) = true /\ siblings_distinct (item_of t) = true /\ anchored_names_unique (item_of t) = true.
Proof.
  intros es xf t TL FE I. unfold text_layout_ok in TL. apply andb_true_iff in TL as [_ RW]. rewrite FE, forallb_forall in RW.
  specialize (RW t I). unfold record_wf in RW. apply andb_true_iff in RW as [RW W3]. apply andb_true_iff in RW as [W1 W2].
  split; [exact W1|split; [exact W2|exact W3]].
Qed.

(* the schema computed from the text, navigated, lands on the bytes the COBOL rules assign *)
Theorem reading_to_layout : forall (T : str) es, reads_as T es -> text_layout_ok es = true ->
  exists f xf schemas,
    SR.Model.Structure.structure (map spec_entry es) = Ok f
    /\ annot_forest f (kept_infos (map spec_info es)) = Some xf /\ map erase xf = f
    /\ concat (map xpre xf) = kept_infos (map spec_info es)
    /\ layouts_of_text T = Some schemas /\ length schemas = length xf
    /\ forall k s t, nth_error schemas k = Some s -> nth_error xf k = Some t ->
         s = build (item_of t)
         /\ forall (B : Type) (dcount : list B -> nat) (r : list B),
            exists v0, nav_of dcount r s = Ok v0
              /\ lstart (n_loc v0) = 0 /\ lend (n_loc v0) = extent no_counters (item_of t)
              /\ forall p v st, spec_nav no_counters (VItem (item_of t)) 0 p = inl (v, st) ->
                   exists nv, nav_path dcount r v0 p = Ok nv
                     /\ lstart (n_loc nv) = st /\ lend (n_loc nv) = st + view_size no_counters v
                     /\ nav_raw r nv = slice r st (st + view_size no_counters v).
Proof.
  intros T es RA TL.
  destruct (reading_documents_are_built T es RA (layout_ok_bridge es TL)) as (f & xf & docs & Hf & A & R & Q & _ & _ & L).
  exists f, xf, (map (fun t => build (item_of t)) xf).
  split; [exact Hf|]. split; [exact A|]. split; [exact R|]. split; [exact Q|]. split; [exact L|]. split; [apply map_length|].
  intros k s t Hs Ht. rewrite nth_error_map, Ht in Hs. injection Hs as <-. split; [reflexivity|].
  intros B dcount r.
  destruct (layout_ok_record es xf t TL (eq_trans (forest_of_entries_eq es f Hf) A) (nth_error_In _ _ Ht)) as (W1 & W2 & W3).
  apply layout_correct_names; assumption.
Qed.

(* ... and with OCCURS DEPENDING ON: composition with C06_layout *)
Theorem reading_to_layout_odo : forall (T : str) es, reads_as T es -> bridge_domain es = true ->
  exists xf schemas,
    forest_of_entries es = Some xf
    /\ layouts_of_text T = Some schemas /\ length schemas = length xf
    /\ forall k s t, nth_error schemas k = Some s -> nth_error xf k = Some t ->
         s = build (item_of t)
         /\ forall (B : Type) (dcount : list B -> nat) (r : list B) (e : env),
            SR.Proofs.LayoutOdoP.wfo e [] (item_of t) = true -> NoDup (ids (item_of t)) ->
            SR.Proofs.LayoutOdoP.Holds B dcount r e (item_of t) 0 ->
            exists v0, nav_of dcount r s = Ok v0
              /\ lstart (n_loc v0) = 0 /\ lend (n_loc v0) = extent e (item_of t)
              /\ forall p v st, spec_nav e (VItem (item_of t)) 0 p = inl (v, st) ->
                   exists nv, nav_path dcount r v0 p = Ok nv
                     /\ lstart (n_loc nv) = st /\ lend (n_loc nv) = st + view_size e v
                     /\ nav_raw r nv = slice r st (st + view_size e v)
                     /\ (forall x, v = VItem x -> is_table x = true ->
                           forall i, count e (item_oc x) <= i -> nav_index dcount r nv i = Err IndexError).
Proof.
  intros T es RA BD. destruct (reading_layouts T es RA BD) as (xf & FE & L).
  exists xf, (map (fun t => build (item_of t)) xf). split; [exact FE|]. split; [exact L|]. split; [apply map_length|].
  intros k s t Hs Ht. rewrite nth_error_map, Ht in Hs. injection Hs as <-. split; [reflexivity|].
  intros B dcount r e W ND H. apply SR.Proofs.LayoutOdoP.layout_correct_odo; assumption.
Qed.

(* B composed with C01b: what the specification's encoders store is what value() returns *)
Theorem reading_to_values : forall (T : str) es, reads_as T es -> text_values_ok es = true ->
  exists xf schemas,
    forest_of_entries es = Some xf
    /\ layouts_of_text T = Some schemas /\ length schemas = length xf
    /\ forall k s t, nth_error schemas k = Some s -> nth_error xf k = Some t ->
       forall (dcount : list N -> nat) (vals : assignment),
         record_ok (kinds_of t) vals no_counters (item_of t) = true ->
         forall p i sz st, elem_at no_counters (item_of t) p = Some (i, sz, st) ->
           own_storage no_counters (VItem (item_of t)) 0 p = true ->
           value_at (kinds_of t) dcount (spec_record (kinds_of t) vals no_counters (item_of t)) s p
           = Some (Ok (PAtom (py_of (stored (kinds_of t i) (vals p))))).
Proof.
  intros T es RA TV. unfold text_values_ok in TV. apply andb_true_iff in TV as [TL KD].
  destruct (reading_layouts T es RA (layout_ok_bridge es TL)) as (xf & FE & L). rewrite FE in KD.
  exists xf, (map (fun t => build (item_of t)) xf). split; [exact FE|]. split; [exact L|]. split; [apply map_length|].
  intros k s t Hs Ht dcount vals RO p i sz st EA OS. rewrite nth_error_map, Ht in Hs. injection Hs as <-.
  rewrite forallb_forall in KD. specialize (KD t (nth_error_In _ _ Ht)). apply andb_true_iff in KD as [_ ND].
  destruct (layout_ok_record es xf t TL FE (nth_error_In _ _ Ht)) as [W1 _].
  apply (SR.Proofs.RecordP.stored_is_read dcount (kinds_of t) vals no_counters (item_of t) W1 (nodupb_NoDup _ ND) RO p i sz st EA OS).
Qed.

(* ================================================================ 6. respelling: similar trees, the same record descriptions *)
Import Resp2.

Lemma occ_of_isim : forall x x', isim x x' -> occ_of x = occ_of x'.
Proof.
  intros x x' [M _]. unfold max_items_doc in M. unfold occ_of.
  destruct (i_dep x) as [dep|], (i_dep x') as [dep'|].
  - injection M as M. rewrite M. reflexivity.
  - destruct (i_occ x'); [injection M as M _; discriminate M|discriminate].
  - destruct (i_occ x); [injection M as M _; discriminate M|discriminate].
  - destruct (i_occ x) as [ds|], (i_occ x') as [ds'|]; try discriminate; [|reflexivity]. injection M as M. rewrite M. reflexivity.
Qed.

Definition hsim (k k' : xtree) : Prop :=
  xbased k = xbased k' /\ xredef k = xredef k' /\ xuname k = xuname k'
  /\ SR.Model.Structure.dde_name (SR.Model.Structure.de (xdde k)) = SR.Model.Structure.dde_name (SR.Model.Structure.de (xdde k')).

Lemma xsim2_hsim : forall k k', xsim2 k k' -> hsim k k'.
Proof.
  intros k k' S. destruct S as [d b x kids d' x' kids' (L & U & Nm & Rd & _) _ _]. unfold hsim, xredef, xuname. cbn [xbased xdde].
  repeat split; assumption.
Qed.

Lemma xunames_sim : forall ks ks', xsim2_f ks ks' -> xunames ks = xunames ks'.
Proof. intros ks ks' S. induction S as [|k r k' r' Sk Sr IH]; [reflexivity|]. cbn [xunames]. destruct (xsim2_hsim _ _ Sk) as (_ & _ & U & _). rewrite U, IH. reflexivity. Qed.

Lemma xtargets_sim : forall ks ks', xsim2_f ks ks' -> xtargets ks = xtargets ks'.
Proof. intros ks ks' S. induction S as [|k r k' r' Sk Sr IH]; [reflexivity|]. cbn [xtargets]. destruct (xsim2_hsim _ _ Sk) as (_ & Rd & _ & _). rewrite Rd, IH. reflexivity. Qed.

Lemma kids_plain_sim : forall ks ks', xsim2_f ks ks' -> kids_plain ks = kids_plain ks'.
Proof.
  intros ks ks' S. induction S as [|k r k' r' Sk Sr IH]; [reflexivity|]. cbn [kids_plain]. destruct (xsim2_hsim _ _ Sk) as (Bd & Rd & _ & _).
  rewrite Bd, Rd, IH. reflexivity.
Qed.

Lemma kids_union_ok_sim : forall ks ks', xsim2_f ks ks' -> forall bases, kids_union_ok bases ks = kids_union_ok bases ks'.
Proof.
  intros ks ks' S. induction S as [|k r k' r' Sk Sr IH]; intros bases; [reflexivity|]. cbn [kids_union_ok].
  destruct (xsim2_hsim _ _ Sk) as (Bd & Rd & U & Nm). rewrite Bd, Rd, U, Nm, (xtargets_sim _ _ Sr). destruct (xredef k'); rewrite !IH; reflexivity.
Qed.

Lemma kids_shape_sim : forall ks ks', xsim2_f ks ks' -> match ks, ks' with XNil, XNil => True | XCons _ _, XCons _ _ => True | _, _ => False end.
Proof. intros ks ks' S. destruct S; exact I. Qed.

Theorem sim_item_bridge :
  (forall t t', xsim2 t t' -> item_of t = item_of t' /\ bridge_ok t = bridge_ok t' /\ forall anc, names_wf anc t = names_wf anc t')
  /\ (forall ks ks', xsim2_f ks ks' -> items_of ks = items_of ks' /\ bridge_ok_f ks = bridge_ok_f ks'
                                       /\ forall anc, names_wf_f anc ks = names_wf_f anc ks').
Proof.
  apply xsim2_ind2.
  - intros d b x kids d' x' kids' (L & U & Nm & Rd & Ep & Eo & Cs) Hx Sk (IH1 & IH2 & IH3).
    pose proof (occ_of_isim _ _ Hx) as OC. destruct Hx as [Mx Jt].
    assert (W : width_of d = width_of d') by (unfold width_of; rewrite Cs; reflexivity).
    assert (RO : redef_of d = redef_of d') by (unfold redef_of; rewrite Rd; reflexivity).
    pose proof (kids_shape_sim _ _ Sk) as SH.
    split; [|split].
    + cbn [item_of]. rewrite <- Eo, <- Ep, <- U, <- W, <- OC, <- RO, <- IH1.
      destruct (SR.Model.Structure.eocc (SR.Model.Structure.de d)); [reflexivity|]. destruct kids, kids'; try contradiction; reflexivity.
    + cbn [bridge_ok]. rewrite <- Eo, <- Ep, <- U, <- Mx, <- Jt, <- Cs, <- IH2, <- (kids_plain_sim _ _ Sk), <- (xunames_sim _ _ Sk).
      rewrite <- (kids_union_ok_sim _ _ Sk []). destruct kids, kids'; try contradiction; reflexivity.
    + intros anc. cbn [names_wf]. rewrite <- U, <- IH3. reflexivity.
  - split; [reflexivity|split; [reflexivity|intros anc; reflexivity]].
  - intros k r k' r' Sk (K1 & K2 & K3) Sr (R1 & R2 & R3). split; [|split].
    + cbn [items_of]. rewrite K1, R1. reflexivity.
    + cbn [bridge_ok_f]. rewrite K2, R2. reflexivity.
    + intros anc. cbn [names_wf_f]. rewrite K3, R3. reflexivity.
Qed.

Lemma sim_forest : forall xf xf', Forall2 xsim2 xf xf' ->
  map item_of xf = map item_of xf' /\ forallb bridge_ok xf = forallb bridge_ok xf'
  /\ forallb (names_wf []) xf = forallb (names_wf []) xf'.
Proof.
  intros xf xf' F. induction F as [|t t' xf xf' H F (I1 & I2 & I3)]; [repeat split|].
  destruct (proj1 sim_item_bridge t t' H) as (K1 & K2 & K3). cbn [map forallb]. rewrite K1, K2, K3, I1, I2, I3. repeat split.
Qed.

(* ================================================================ 7. respelling: the same decoders *)
(* what estruct.unpack asks of a usage number: the tuple it belongs to, and the representative of its family *)
Definition same_unpack (u u' : N) : bool :=
  Bool.eqb (mem u SR.Gen.EstructParams.unpack_display) (mem u' SR.Gen.EstructParams.unpack_display)
  && Bool.eqb (mem u SR.Gen.EstructParams.unpack_packed) (mem u' SR.Gen.EstructParams.unpack_packed)
  && Bool.eqb (mem u SR.Gen.EstructParams.unpack_binary) (mem u' SR.Gen.EstructParams.unpack_binary)
  && (canon_usage u =? canon_usage u')%N.

(* the thirteen usage words with what the clause layer makes of them: two of them that it takes for one USAGE are decoded alike. *)
Definition family_words : list (N * str) := map (fun u => (u, SR.Spec.Clauses.norm_value 11 (word_of u))) R13.

Lemma family_unpack_table :
  forallb (fun p => forallb (fun q => negb (str_eqb (snd p) (snd q)) || same_unpack (fst p) (fst q)) family_words) family_words = true.
Proof. vm_compute. reflexivity. Qed.

Lemma family_unpack : forall u u', In u R13 -> In u' R13 ->
  SR.Spec.Clauses.norm_value 11 (word_of u) = SR.Spec.Clauses.norm_value 11 (word_of u') -> same_unpack u u' = true.
Proof.
  intros u u' Hu Hu' E. pose proof family_unpack_table as T. unfold family_words in T.
  rewrite forallb_forall in T. specialize (T _ (in_map _ _ _ Hu)). rewrite forallb_forall in T. specialize (T _ (in_map _ _ _ Hu')).
  cbn [fst snd] in T. rewrite E, SR.Proofs.StructureP.str_eqb_refl in T. exact T.
Qed.

Lemma usage_unpack : forall e e', SR.Spec.Clauses.normal (ce_dict e) = SR.Spec.Clauses.normal (ce_dict e') ->
  reparse_agrees e = true -> reparse_agrees e' = true ->
  same_unpack (usage_number (spec_info e)) (usage_number (spec_info e')) = true.
Proof. intros e e' N RA RA'. destruct (usage_same_family e e' N RA RA') as (I & I' & E). apply family_unpack; assumption. Qed.

Lemma kind_class : forall u u' es, same_unpack u u' = true ->
  kind_of_shape (shape_body u es) = kind_of_shape (shape_body u' es).
Proof.
  intros u u' es H. unfold same_unpack in H.
  apply andb_true_iff in H as [H H4]. apply andb_true_iff in H as [H H3]. apply andb_true_iff in H as [H1 H2].
  apply Bool.eqb_prop in H1, H2, H3. apply N.eqb_eq in H4. unfold shape_body.
  destruct (SR.Model.Picture.size_loop es 0) as [size|]; [|reflexivity]. cbv zeta.
  destruct (_ && _).
  - cbn [kind_of_shape]. rewrite H1, H2, H3, H4. reflexivity.
  - destruct es as [|[[| | |] [|c t]] [|? ?]]; try reflexivity. destruct (all_X (c :: t)); [|reflexivity].
    cbn [kind_of_shape]. rewrite H1. reflexivity.
Qed.

(* the text estruct parses for an entry *)
Definition ctext (e : SR.Model.Structure.entry) : str :=
  [fst (SR.Model.Structure.elv e); snd (SR.Model.Structure.elv e); 32%N] ++ SR.Model.Structure.etext e.

Lemma spec_entry_ctext : forall e, ctext (spec_entry e) = [ce_d1 e; ce_d2 e; 32%N] ++ SR.Model.RefFormat.compact (ce_body e).
Proof. reflexivity. Qed.

Lemma kind_agrees : forall e, reparse_agrees e = true ->
  kind_of_cobol (ctext (spec_entry e))
  = match est_formula (usage_number (spec_info e)) (i_pic (spec_info e)) with
    | ROk (u, es) => kind_of_shape (shape_body u es)
    | _ => None
    end.
Proof.
  intros e H. unfold kind_of_cobol, shape_of_cobol. rewrite spec_entry_ctext, (reparse_loop e H).
  destruct (est_formula _ _) as [[u es]|ex|w]; reflexivity.
Qed.

Lemma respell_kind : forall e e', same_clauses e e' -> ce_ok e = true -> ce_ok e' = true ->
  respelling_domain e = true -> respelling_domain e' = true ->
  kind_of_cobol (ctext (spec_entry e)) = kind_of_cobol (ctext (spec_entry e')).
Proof.
  intros e e' SC OK OK' RD RD'. pose proof (normal_same_clauses e e' SC OK OK') as N.
  unfold respelling_domain in RD, RD'. apply andb_true_iff in RD as [_ RA]. apply andb_true_iff in RD' as [_ RA'].
  assert (IP : i_pic (spec_info e) = i_pic (spec_info e')) by exact (lookup_verbatim 7 _ _ N (fun v => eq_refl)).
  pose proof (usage_unpack e e' N RA RA') as UC.
  rewrite (kind_agrees e RA), (kind_agrees e' RA'), <- IP. unfold est_formula.
  destruct (i_pic (spec_info e)) as [q|]; [|apply kind_class; exact UC].
  destruct (SR.Model.Picture.dec_normalize q) as [[es|ex]|]; try reflexivity. apply kind_class. exact UC.
Qed.

(* structure() on entries that also agree on the decoder's kind *)
Definition dsim3 (d d' : SR.Model.Structure.dde) : Prop :=
  dsim2 d d' /\ kind_of_cobol (SR.Model.Structure.cobol_of d) = kind_of_cobol (SR.Model.Structure.cobol_of d').
Definition esim3 (e e' : SR.Model.Structure.entry) : Prop := esim2 e e' /\ kind_of_cobol (ctext e) = kind_of_cobol (ctext e').

Lemma mk_ddes_sim3 : forall l l', Forall2 esim3 l l' -> forall c, Forall2 dsim3 (SR.Model.Structure.mk_ddes c l) (SR.Model.Structure.mk_ddes c l').
Proof.
  intros l l' F. induction F as [|e e' l l' [E2 K] F IH]; intros c; cbn [SR.Model.Structure.mk_ddes]; [constructor|].
  pose proof (mk_ddes_sim2 [e] [e'] (Forall2_cons _ _ E2 (Forall2_nil _)) c) as H1. cbn [SR.Model.Structure.mk_ddes] in H1.
  destruct E2 as (L & Nm & R1 & Ep & Eo & Cs).
  assert (IF : SR.Model.Structure.is_filler e' = SR.Model.Structure.is_filler e) by (unfold SR.Model.Structure.is_filler; rewrite Nm; reflexivity).
  rewrite IF in *. rewrite <- L in *. destruct (SR.Model.Structure.is_filler e); inversion H1 as [|? ? ? ? Hd _]; subst;
    (constructor; [split; [exact Hd|exact K]|apply IH]).
Qed.

Lemma dsim3_lv : forall d d', dsim3 d d' -> SR.Model.Structure.dlv d = SR.Model.Structure.dlv d'.
Proof. intros d d' [H _]. apply dsim2_lv. exact H. Qed.
Lemma dsim3_red : forall d d', dsim3 d d' -> SR.Model.Structure.eredef (SR.Model.Structure.de d) = SR.Model.Structure.eredef (SR.Model.Structure.de d').
Proof. intros d d' [H _]. apply dsim2_red. exact H. Qed.
Lemma dsim3_nm : forall d d', dsim3 d d' -> SR.Model.Structure.dde_name (SR.Model.Structure.de d) = SR.Model.Structure.dde_name (SR.Model.Structure.de d').
Proof. intros d d' [H _]. apply dsim2_nm. exact H. Qed.

Theorem kind_table_sim :
  (forall xt xt', tsim dsim3 (erase xt) (erase xt') -> kind_table xt = kind_table xt' /\ kinds_defined xt = kinds_defined xt')
  /\ (forall ks ks', Forall2 (tsim dsim3) (erase_f ks) (erase_f ks') ->
        kind_table_f ks = kind_table_f ks' /\ kinds_defined_f ks = kinds_defined_f ks').
Proof.
  apply xtree_xforest_ind.
  - intros d b x kids IH [d' b' x' kids'] T. cbn [erase] in T. inversion T as [? ? ? ? ? Hd Hk]; subst.
    destruct Hd as [(L & U & Nm & Rd & Ep & Eo & Cs) K]. destruct (IH kids' Hk) as [I1 I2].
    cbn [kind_table kinds_defined]. rewrite <- K, <- U, <- Eo, <- Ep, <- I1, <- I2.
    assert (SH : match kids, kids' with XNil, XNil => True | XCons _ _, XCons _ _ => True | _, _ => False end).
    { destruct kids, kids'; cbn [erase_f] in Hk; inversion Hk; exact I. }
    destruct (SR.Model.Structure.eocc (SR.Model.Structure.de d)); [split; reflexivity|]. destruct kids, kids'; try contradiction; split; reflexivity.
  - intros [|k' r'] T; cbn [erase_f] in T; inversion T. split; reflexivity.
  - intros k IHk r IHr [|k' r'] T; cbn [erase_f] in T; inversion T as [|? ? ? ? Hk Hr]; subst.
    destruct (IHk k' Hk) as [K1 K2]. destruct (IHr r' Hr) as [R1 R2]. cbn [kind_table_f kinds_defined_f]. rewrite K1, K2, R1, R2. split; reflexivity.
Qed.

Lemma kind_table_forest : forall xf xf', Forall2 (tsim dsim3) (map erase xf) (map erase xf') ->
  map kind_table xf = map kind_table xf' /\ map kinds_defined xf = map kinds_defined xf'.
Proof.
  induction xf as [|t xf IH]; intros [|t' xf'] SS; cbn [map] in SS; inversion SS as [|? ? ? ? Ht Tr]; subst; [split; reflexivity|].
  destruct (proj1 kind_table_sim t t' Ht) as [K1 K2]. destruct (IH xf' Tr) as [I1 I2]. cbn [map]. rewrite K1, K2, I1, I2. split; reflexivity.
Qed.

(* ================================================================ 8. respelling: two texts that read as two spellings of the same entries *)
Lemma respelling_forests : forall es es' xf, Forall2 same_clauses es es' ->
  forallb ce_ok es = true -> forallb ce_ok es' = true ->
  forallb respelling_domain es = true -> forallb respelling_domain es' = true ->
  forest_of_entries es = Some xf ->
  exists xf', forest_of_entries es' = Some xf' /\ Forall2 xsim2 xf xf'
              /\ map kind_table xf = map kind_table xf' /\ map kinds_defined xf = map kinds_defined xf'.
Proof.
  intros es es' xf SC OK OK' RD RD' FE. destruct (respelling_entries es es' SC OK OK' RD RD') as [ES2 IS].
  assert (ES : Forall2 esim3 (map spec_entry es) (map spec_entry es')).
  { apply respelling_pointwise; [|assumption..]. intros e e' S O O' D D'.
    split; [exact (proj1 (respell_sim3 e e' S O O' D D'))|apply respell_kind; assumption]. }
  pose proof (structure_ddes_sim dsim3 dsim3_lv dsim3_red dsim3_nm _ _ (mk_ddes_sim3 _ _ ES 0%N)) as S3.
  pose proof (structure_ddes_sim dsim2 dsim2_lv dsim2_red dsim2_nm _ _ (mk_ddes_sim2 _ _ ES2 0%N)) as S2.
  fold (SR.Model.Structure.structure (map spec_entry es)) in S2, S3. fold (SR.Model.Structure.structure (map spec_entry es')) in S2, S3.
  unfold forest_of_entries in *.
  destruct (SR.Model.Structure.structure (map spec_entry es)) as [f|e] eqn:Hf; [|discriminate].
  destruct (SR.Model.Structure.structure (map spec_entry es')) as [f'|e'] eqn:Hf'; [|contradiction].
  destruct (annot_of_structure es f Hf) as (xf0 & A & R & Q). rewrite A in FE. injection FE as ->.
  destruct (annot_of_structure es' f' Hf') as (xf' & A' & R' & Q').
  rewrite <- R, <- R' in S2, S3. exists xf'. split; [exact A'|]. split; [|apply kind_table_forest; exact S3].
  apply xsim2_forest; [exact S2|]. rewrite Q, Q'. apply kept_infos_sim. exact IS.
Qed.

Lemma forallb_map_eq : forall (X Y : Type) (g : X -> Y) (q : Y -> bool) (l : list X), forallb q (map g l) = forallb (fun x => q (g x)) l.
Proof. intros X Y g q. induction l as [|a l IH]; [reflexivity|]. cbn [map forallb]. rewrite IH. reflexivity. Qed.

(* the same record descriptions, the same layouts computed from the two texts *)
Theorem reading_respelling_layout : forall (T T' : str) es es',
  Forall2 same_clauses es es' -> reads_as T es -> reads_as T' es' ->
  forallb respelling_domain es = true -> forallb respelling_domain es' = true ->
  text_layout_ok es = true ->
  text_layout_ok es' = true
  /\ records_of_entries es = records_of_entries es'
  /\ exists schemas, layouts_of_text T = Some schemas /\ layouts_of_text T' = Some schemas.
Proof.
  intros T T' es es' SC RA RA' RD RD' TL. pose proof (layout_ok_bridge es TL) as BD.
  destruct (reading_layouts T es RA BD) as (xf & FE & L).
  destruct (respelling_forests es es' xf SC (proj1 RA) (proj1 RA') RD RD' FE) as (xf' & FE' & SIM & _).
  destruct (sim_forest _ _ SIM) as (I1 & I2 & I3).
  assert (BD' : bridge_domain es' = true).
  { unfold bridge_domain in *. rewrite FE in BD. rewrite FE', <- I2, <- I3. exact BD. }
  split; [|split].
  - unfold text_layout_ok in *. rewrite BD, FE in TL. rewrite BD', FE'.
    rewrite <- (forallb_map_eq _ _ item_of record_wf xf'), <- I1, forallb_map_eq. exact TL.
  - unfold records_of_entries. rewrite FE, FE'. cbn [option_map]. rewrite I1. reflexivity.
  - destruct (reading_layouts T' es' RA' BD') as (xf2 & FE2 & L2). rewrite FE' in FE2. injection FE2 as <-.
    exists (map (fun t => build (item_of t)) xf). split; [exact L|]. rewrite L2.
    rewrite <- (map_map item_of build xf), <- (map_map item_of build xf'), I1. reflexivity.
Qed.

(* ... hence the same place for every path in every record, and the same record length *)
Theorem reading_respelling_located : forall (T T' : str) es es',
  Forall2 same_clauses es es' -> reads_as T es -> reads_as T' es' ->
  forallb respelling_domain es = true -> forallb respelling_domain es' = true ->
  text_layout_ok es = true ->
  forall (B : Type) (dcount : list B -> nat) (r : list B) (k : nat) (p : list step),
    located T k dcount r p = located T' k dcount r p.
Proof.
  intros T T' es es' SC RA RA' RD RD' TL B dcount r k p.
  destruct (reading_respelling_layout T T' es es' SC RA RA' RD RD' TL) as (_ & _ & schemas & L & L').
  unfold located. rewrite L, L'. reflexivity.
Qed.

(* the value delivered for path p in record number k of the text, on the record instance r, each atom decoded by its own
   cobol text (kinds_of); None: no such record, or the decoders are not defined *)
Definition value_in_text (text : str) (xf : list xtree) (k : nat) (dcount : list N -> nat) (r : list N) (p : list step)
  : option (vres (pv pyval)) :=
  match layouts_of_text text, nth_error xf k with
  | Some ss, Some t => match nth_error ss k with Some s => Some (value_at (kinds_of t) dcount r s p) | None => None end
  | _, _ => None
  end.

Theorem reading_respelling_values : forall (T T' : str) es es',
  Forall2 same_clauses es es' -> reads_as T es -> reads_as T' es' ->
  forallb respelling_domain es = true -> forallb respelling_domain es' = true ->
  text_values_ok es = true ->
  text_values_ok es' = true
  /\ exists xf xf', forest_of_entries es = Some xf /\ forest_of_entries es' = Some xf'
       /\ map kinds_of xf = map kinds_of xf'
       /\ forall (k : nat) (dcount : list N -> nat) (r : list N) (p : list step),
            value_in_text T xf k dcount r p = value_in_text T' xf' k dcount r p.
Proof.
  intros T T' es es' SC RA RA' RD RD' TV. unfold text_values_ok in TV. apply andb_true_iff in TV as [TL KD].
  destruct (reading_respelling_layout T T' es es' SC RA RA' RD RD' TL) as (TL' & RE & schemas & L & L').
  destruct (reading_layouts T es RA (layout_ok_bridge es TL)) as (xf & FE & _).
  destruct (respelling_forests es es' xf SC (proj1 RA) (proj1 RA') RD RD' FE) as (xf' & FE' & _ & KT & KDf).
  assert (IT : map item_of xf = map item_of xf').
  { unfold records_of_entries in RE. rewrite FE, FE' in RE. injection RE as RE. exact RE. }
  assert (KO : map kinds_of xf = map kinds_of xf').
  { unfold kinds_of. rewrite <- (map_map kind_table table_kinds xf), <- (map_map kind_table table_kinds xf'), KT. reflexivity. }
  split.
  - unfold text_values_ok. rewrite TL', FE'. rewrite FE in KD. cbn [andb]. rewrite <- KD. clear - KDf IT.
    revert xf' KDf IT. induction xf as [|t xf IH]; intros [|t' xf'] K I; try discriminate; [reflexivity|].
    injection K as K1 K2. injection I as I1 I2. cbn [forallb]. rewrite K1, I1, (IH xf' K2 I2). reflexivity.
  - exists xf, xf'. split; [exact FE|]. split; [exact FE'|]. split; [exact KO|].
    intros k dcount r p. unfold value_in_text. rewrite L, L'.
    pose proof (f_equal (fun l => nth_error l k) KO) as NK. cbn beta in NK. rewrite !nth_error_map in NK.
    destruct (nth_error xf k) as [t|], (nth_error xf' k) as [t'|]; cbn [option_map] in NK; try discriminate; [|reflexivity].
    injection NK as NK. rewrite NK. reflexivity.
Qed.
