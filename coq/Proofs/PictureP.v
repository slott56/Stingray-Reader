(* Lemmas for C13: the two PICTURE scanners of Model/Picture.v against the specification Spec/Picture.v.
   A scan of the decoder-side scanner that is clean (every match has text, nothing but P is skipped) is read by the
   specification's automaton as the same symbols; what the properties compare - size, digit groups, class, the scan of
   an expansion - is then a function of that expansion, [flat] (items_same, dec_summary_dec, gen_class, expansion_ok,
   repeat_full; strict for the size loop).  The last part is about the pictures Spec/SchemaTruth.v prints
   (printed_numeric, printed_text). *)
From Coq Require Import NArith List Bool Lia Arith ZifyBool ZifyN ZifyNat Btauto.
Import ListNotations.
Require Import SR.Base.Res SR.Gen.PictureParams SR.Spec.Picture SR.Model.Picture.
(* The definitions that theorem statements (Props/) mention are in Spec/PictureWf.v. *)
Require Export SR.Spec.PictureWf.
Open Scope N_scope.
(* ZifyBool installs a hook that searches every [lia] goal for boolean constraints; no goal of this file needs it *)
Ltac Zify.zify_post_hook ::= idtac.

(* the tie to the source: the parameters harness/t1_c13.py read (Gen/PictureParams.v); a source edit that changes
   one makes these fail *)
Definition cls : list N := [65; 88; 57; 90; 48].
Lemma params_dec : dec_ci = false /\ dec_rep_class = cls /\ dec_run_class = cls.
Proof. repeat split; reflexivity. Qed.
Lemma params_gen : gen_ci = true /\ gen_rep_class = cls /\ gen_run_class = cls.
Proof. repeat split; reflexivity. Qed.

Definition incls (c : N) : bool := mem c cls.

Lemma span_app p s : s = fst (span p s) ++ snd (span p s).
Proof.
  induction s as [|c t IH]; simpl; [reflexivity|].
  destruct (p c); [|reflexivity].
  destruct (span p t) as [a b]; simpl in *. now rewrite IH at 1.
Qed.

Lemma span_all p s : forallb p (fst (span p s)) = true.
Proof.
  induction s as [|c t IH]; simpl; [reflexivity|].
  destruct (p c) eqn:E; [|reflexivity].
  destruct (span p t) as [a b]; simpl in *. now rewrite E, IH.
Qed.

Lemma span_ext p q s : (forall c, In c s -> p c = q c) -> span p s = span q s.
Proof.
  induction s as [|c t IH]; intros H; simpl; [reflexivity|].
  rewrite <- (H c (or_introl eq_refl)).
  rewrite IH; [reflexivity|]. intros d Hd. apply H. now right.
Qed.

Lemma repeat_tail_some t n rest :
  repeat_tail t = Some (n, rest) ->
  exists ds, t = 40 :: ds ++ 41 :: rest /\ ds <> [] /\ forallb is_nd ds = true /\ n = count_value ds.
Proof.
  unfold repeat_tail. destruct t as [|p t1]; [discriminate|].
  destruct (p =? 40) eqn:Ep; [|discriminate]. apply N.eqb_eq in Ep. subst p.
  pose proof (span_app is_nd t1) as Happ. pose proof (span_all is_nd t1) as Hall.
  destruct (span is_nd t1) as [ds r]. simpl in Happ, Hall.
  destruct ds as [|d ds']; [discriminate|].
  destruct r as [|q rest']; [discriminate|].
  destruct (q =? 41) eqn:Eq; [|discriminate]. apply N.eqb_eq in Eq. subst q.
  intros H. injection H as <- <-.
  exists (d :: ds'). repeat split; try assumption; try discriminate.
  now rewrite Happ.
Qed.

(* the shape of a match: the text it consumes and the element it becomes *)
Definition one_char (k : kind) : list N :=
  match k with KSign => [43; 45; 83] | KChar => [36; 44; 47; 42; 66] | KDecimal => [86; 46] | KDigit => [] end.

Inductive tok_shape (ci : bool) (rc uc : list N) : list N -> elt -> Prop :=
| TOne k c : mem (up ci c) (one_char k) = true -> tok_shape ci rc uc [c] (E k [c])
| TPair c d : up ci c = 68 /\ up ci d = 66 \/ up ci c = 67 /\ up ci d = 82 -> tok_shape ci rc uc [c; d] (E KSign [c; d])
| TRepeat c ds : mem (up ci c) rc = true -> ds <> [] -> forallb is_nd ds = true ->
    tok_shape ci rc uc (c :: 40 :: ds ++ [41]) (E KDigit (repeat c (N.to_nat (count_value ds))))
| TRun c run : forallb (fun d => mem (up ci d) uc) (c :: run) = true ->
    tok_shape ci rc uc (c :: run) (E KDigit (c :: run)).

Lemma token_at_shape ci rc uc s e rest :
  token_at ci rc uc s = Some (e, rest) -> exists pre, s = pre ++ rest /\ tok_shape ci rc uc pre e.
Proof.
  unfold token_at. destruct s as [|c t]; [discriminate|]. cbv zeta.
  assert (Hpair : forall k k', (up ci c =? k) && match t with d :: _ => up ci d =? k' | [] => false end = true ->
            exists d t', t = d :: t' /\ up ci c = k /\ up ci d = k').
  { intros k k' M. destruct t as [|d t']; [rewrite andb_false_r in M; discriminate|].
    apply andb_true_iff in M. destruct M as [Mc Md]. apply N.eqb_eq in Mc. apply N.eqb_eq in Md. now exists d, t'. }
  destruct (mem (up ci c) [43; 45; 83]) eqn:M1.
  { intros H. injection H as <- <-. exists [c]. split; [reflexivity|apply (TOne _ _ _ KSign), M1]. }
  destruct ((up ci c =? 68) && _) eqn:M2.
  { destruct (Hpair _ _ M2) as (d & t' & -> & Mc & Md). intros H. injection H as <- <-.
    exists [c; d]. split; [reflexivity|apply TPair; auto]. }
  destruct ((up ci c =? 67) && _) eqn:M3.
  { destruct (Hpair _ _ M3) as (d & t' & -> & Mc & Md). intros H. injection H as <- <-.
    exists [c; d]. split; [reflexivity|apply TPair; auto]. }
  destruct (mem (up ci c) [36; 44; 47; 42; 66]) eqn:M4.
  { intros H. injection H as <- <-. exists [c]. split; [reflexivity|apply (TOne _ _ _ KChar), M4]. }
  destruct (mem (up ci c) [86; 46]) eqn:M5.
  { intros H. injection H as <- <-. exists [c]. split; [reflexivity|apply (TOne _ _ _ KDecimal), M5]. }
  destruct (if mem (up ci c) rc then repeat_tail t else None) as [[n r]|] eqn:ER.
  { intros H. injection H as <- <-. destruct (mem (up ci c) rc) eqn:Mc; [|discriminate].
    destruct (repeat_tail_some _ _ _ ER) as (ds & -> & Hne & Hds & ->).
    exists (c :: 40 :: ds ++ [41]). split; [cbn [app]; rewrite <- app_assoc; reflexivity|now apply TRepeat]. }
  destruct (mem (up ci c) uc) eqn:Mu; [|discriminate].
  pose proof (span_app (fun d => mem (up ci d) uc) t) as Happ.
  pose proof (span_all (fun d => mem (up ci d) uc) t) as Hall.
  destruct (span (fun d => mem (up ci d) uc) t) as [run r]. cbn [fst snd] in Happ, Hall.
  intros H. injection H as <- <-. exists (c :: run). split; [cbn [app]; now rewrite <- Happ|].
  apply TRun. cbn [forallb]. now rewrite Mu.
Qed.

Lemma token_at_shorter ci rc uc s e rest :
  token_at ci rc uc s = Some (e, rest) -> (length rest < length s)%nat.
Proof.
  intros H. destruct (token_at_shape _ _ _ _ _ _ H) as (pre & -> & Hs). rewrite app_length.
  destruct Hs; cbn [length]; lia.
Qed.

(* induction over a scan: the empty string, a match and the scan of what follows it, a skipped character and the
        scan of the rest; the fuel plays no part *)
Lemma scan_ind ci rc uc (P : list N -> list item -> Prop) :
  P [] [] ->
  (forall c t e rest l, token_at ci rc uc (c :: t) = Some (e, rest) -> P rest l -> P (c :: t) (Tok e :: l)) ->
  (forall c t l, token_at ci rc uc (c :: t) = None -> P t l -> P (c :: t) (Skip c :: l)) ->
  forall s, P s (scan ci rc uc (length s) s).
Proof.
  intros Hnil Htok Hskip.
  enough (H : forall f s, (length s <= f)%nat -> P s (scan ci rc uc f s)) by (intros s; apply H, le_n).
  induction f as [|f IH]; intros [|c t] Hlen; try exact Hnil.
  { simpl in Hlen. lia. }
  cbn [scan]. destruct (token_at ci rc uc (c :: t)) as [[e rest]|] eqn:E.
  - apply (Htok _ _ _ _ _ E), IH. apply token_at_shorter in E. simpl in *. lia.
  - apply (Hskip _ _ _ E), IH. simpl in Hlen. lia.
Qed.

(* fuel = length is enough *)
Lemma scan_no_fuel ci rc uc s : existsb is_fuel (scan ci rc uc (length s) s) = false.
Proof. apply (scan_ind ci rc uc (fun _ l => existsb is_fuel l = false)); [reflexivity| |]; intros; assumption. Qed.

(* the decoder's clean scans and the specification's expansion *)
Definition item_text (i : item) : list N :=
  match i with Tok (E _ t) => t | Skip c => [c] | Fuel => [] end.
Definition flat (l : list item) : list N := map sp_upper (concat (map item_text l)).
(* a match with non-empty text, or a skipped P *)
Definition clean_item (i : item) : bool :=
  match i with
  | Tok (E _ (_ :: _)) => true
  | Skip c => (c =? 80) || (c =? 112)
  | _ => false
  end.
Definition clean (l : list item) : bool := forallb clean_item l.
Definition nond (s : list N) : bool := forallb (fun c => negb (is_nd c && negb (ascii_digit c))) s.
Definition st_free (st : sp_state) : Prop := st = Idle \/ exists u, st = Sym u.

Definition utext (i : item) : list N := map sp_upper (item_text i).

Lemma flat_cons i l : flat (i :: l) = utext i ++ flat l.
Proof. unfold flat. cbn [map concat]. apply map_app. Qed.

Lemma nond_app a b : nond (a ++ b) = true -> nond a = true /\ nond b = true.
Proof. unfold nond. rewrite forallb_app. apply andb_true_iff. Qed.

Lemma nond_cons c t : nond (c :: t) = true -> nond t = true.
Proof. apply (nond_app [c]). Qed.

(* a character known to be in a list of constants is each of them in turn *)
Ltac mem_split H :=
  unfold incls, cls, mem in H; cbn [existsb] in H;
  repeat (apply orb_true_iff in H; destruct H as [H|H]);
  try discriminate H; apply N.eqb_eq in H; subst.

Lemma mem_In c l : mem c l = true -> In c l.
Proof. intros H. apply existsb_exists in H. destruct H as (x & Hx & E). apply N.eqb_eq in E. now subst x. Qed.

Lemma mem_all (P : N -> Prop) l : Forall P l -> forall c, mem c l = true -> P c.
Proof. intros H c Hc. rewrite Forall_forall in H. apply H, mem_In, Hc. Qed.

(* the same for a statement about every member, checked on each *)
Ltac each tac := repeat (apply Forall_cons; [tac|]); apply Forall_nil.

Lemma incls_okc : forall c, incls c = true -> okc c = true.
Proof. refine (mem_all _ _ _). each reflexivity. Qed.

Lemma cls_okc t : forallb incls t = true -> forallb okc t = true.
Proof.
  intros H. apply forallb_forall. intros d Hd. apply incls_okc. revert d Hd. now apply forallb_forall.
Qed.

Lemma one_okc k c : mem c (one_char k) = true -> okc c = true.
Proof. intros M. destruct k; mem_split M; reflexivity. Qed.

(* from a free state the specification reads a one-character symbol as itself *)
Lemma okc_symbol : forall c, okc c = true ->
  sp_upper c = c /\ (c =? 40) = false /\ (c =? 68) = false /\ (c =? 67) = false /\ sp_single c = true.
Proof. refine (mem_all _ _ _). each ltac:(repeat split; reflexivity). Qed.

Lemma step_okc c st t : okc c = true -> st_free st -> sp_run st (c :: t) = option_map (cons c) (sp_run (Sym c) t).
Proof.
  intros Hc Hst. destruct (okc_symbol c Hc) as (Hu & H40 & H68 & H67 & Hs).
  destruct Hst as [->|[u ->]]; cbn [sp_run]; now rewrite Hu, H40, H68, H67, Hs.
Qed.

Lemma upper_okc run : forallb okc run = true -> map sp_upper run = run.
Proof.
  induction run as [|d r IH]; [reflexivity|]. cbn [forallb map]. intros H.
  apply andb_true_iff in H. destruct H as [Hd Hr]. rewrite (IH Hr).
  now destruct (okc_symbol d Hd) as [-> _].
Qed.

Lemma upper_cls run : forallb incls run = true -> map sp_upper run = run.
Proof. intros H. apply upper_okc, cls_okc, H. Qed.

Lemma step_run run : forall st rest X, st_free st -> forallb okc run = true ->
  (forall st', st_free st' -> sp_run st' rest = Some X) ->
  sp_run st (run ++ rest) = Some (run ++ X).
Proof.
  induction run as [|d r IH]; intros st rest X Hst Hall HX; [apply HX, Hst|].
  cbn [forallb] in Hall. apply andb_true_iff in Hall. destruct Hall as [Hd Hr].
  cbn [app]. rewrite (step_okc d st (r ++ rest) Hd Hst).
  rewrite (IH (Sym d) rest X); [reflexivity|right; now exists d|exact Hr|exact HX].
Qed.

Definition cv (n : N) (ds : list N) : N := fold_left (fun a d => a * 10 + (d - 48)) ds n.

Lemma step_digits ds : forall u n b rest, forallb sp_digit ds = true ->
  sp_run (Cnt u n b) (ds ++ 41 :: rest) =
  if (b || negb (match ds with [] => true | _ => false end)) && (0 <? cv n ds)
  then option_map (app (repeat u (N.to_nat (cv n ds - 1)))) (sp_run Idle rest) else None.
Proof.
  induction ds as [|d r IH]; intros u n b rest Hall.
  - cbn [app sp_run cv fold_left]. change (sp_digit 41) with false. cbv iota.
    change (41 =? 41) with true. cbn [andb negb orb]. rewrite orb_false_r. reflexivity.
  - cbn [forallb] in Hall. apply andb_true_iff in Hall. destruct Hall as [Hd Hr].
    cbn [app sp_run]. rewrite Hd. rewrite IH by assumption.
    cbn [cv fold_left negb orb]. rewrite orb_true_r. reflexivity.
Qed.

Lemma count_value_ascii ds : forallb sp_digit ds = true -> count_value ds = cv 0 ds.
Proof.
  unfold count_value, cv. generalize 0. induction ds as [|d r IH]; intros n Hall; [reflexivity|].
  cbn [forallb] in Hall. apply andb_true_iff in Hall. destruct Hall as [Hd Hr].
  cbn [fold_left]. rewrite IH by assumption.
  unfold nd_val. change (ascii_digit d) with (sp_digit d). now rewrite Hd.
Qed.

Lemma nd_ascii ds : forallb is_nd ds = true -> nond ds = true -> forallb sp_digit ds = true.
Proof.
  induction ds as [|d r IH]; [reflexivity|]. cbn [forallb nond]. unfold nond. cbn [forallb].
  intros H1 H2. apply andb_true_iff in H1. apply andb_true_iff in H2.
  destruct H1 as [Hd Hr]. destruct H2 as [Hd' Hr'].
  rewrite (IH Hr Hr'). rewrite Hd in Hd'. change (sp_digit d) with (ascii_digit d).
  destruct (ascii_digit d); [reflexivity|discriminate].
Qed.

Lemma forallb_repeat {A} (p : A -> bool) c k : p c = true -> forallb p (repeat c k) = true.
Proof. intros H. induction k as [|k IH]; [reflexivity|]. cbn [repeat forallb]. now rewrite H, IH. Qed.

Lemma step_repeat st c ds rest X :
  st_free st -> incls c = true -> ds <> [] -> forallb sp_digit ds = true -> (0 <? cv 0 ds) = true ->
  sp_run Idle rest = Some X ->
  sp_run st (c :: 40 :: ds ++ 41 :: rest) = Some (repeat c (N.to_nat (cv 0 ds)) ++ X).
Proof.
  intros Hst Hc Hne Hds Hpos HX.
  rewrite (step_okc c st _ (incls_okc c Hc) Hst).
  assert (Hr : sp_repeatable c = true) by (mem_split Hc; reflexivity).
  cbn [sp_run]. rewrite N.eqb_refl, Hr, step_digits, Hpos, HX by assumption.
  destruct ds; [contradiction|]. cbn [orb negb andb option_map].
  replace (N.to_nat (cv 0 (n :: ds))) with (S (N.to_nat (cv 0 (n :: ds) - 1))) by lia. reflexivity.
Qed.

Lemma step_pair st t X : st_free st -> sp_run Idle t = Some X ->
  sp_run st (68 :: 66 :: t) = Some (68 :: 66 :: X) /\ sp_run st (67 :: 82 :: t) = Some (67 :: 82 :: X).
Proof. intros [->|[u ->]] H; cbn; rewrite H; split; reflexivity. Qed.

Lemma step_P st c t : st_free st -> (c =? 80) || (c =? 112) = true ->
  utext (Skip c) = [80] /\ sp_run st (c :: t) = option_map (cons 80) (sp_run (Sym 80) t).
Proof.
  intros Hst H. apply orb_true_iff in H.
  destruct H as [H|H]; apply N.eqb_eq in H; subst c; destruct Hst as [->|[u ->]]; split; reflexivity.
Qed.

(* one match of the decoder's scanner is read by the specification as the same symbols, from any free state *)
Lemma shape_step pre e rest X st :
  tok_shape false cls cls pre e -> clean_item (Tok e) = true -> nond pre = true -> st_free st ->
  (forall st', st_free st' -> sp_run st' rest = Some X) ->
  sp_run st (pre ++ rest) = Some (utext (Tok e) ++ X).
Proof.
  intros Hs Hce Hnd Hst HX. pose proof (HX Idle (or_introl eq_refl)) as HI.
  destruct Hs as [k c M|c d M|c ds Mc Hne Hds|c run Hall]; cbn [up] in *; unfold utext; cbn [item_text].
  - assert (Hc : forallb okc [c] = true) by (cbn [forallb]; now rewrite (one_okc k c M)).
    rewrite (upper_okc _ Hc). now apply step_run.
  - destruct (step_pair st rest X Hst HI) as [Hdb Hcr]. now destruct M as [[-> ->]|[-> ->]].
  - cbn [app]. rewrite <- app_assoc. cbn [app].
    apply nond_cons, nond_cons, nond_app in Hnd. destruct Hnd as [Hnd _].
    pose proof (nd_ascii _ Hds Hnd) as Hasc. rewrite (count_value_ascii _ Hasc) in *.
    rewrite (upper_okc _ (forallb_repeat okc _ _ (incls_okc c Mc))).
    apply step_repeat; try assumption. destruct (N.to_nat (cv 0 ds)) eqn:E; [discriminate Hce|lia].
  - rewrite (upper_cls _ Hall). apply (step_run (c :: run)); [exact Hst|apply cls_okc, Hall|exact HX].
Qed.

Lemma clean_expand s : forall st, st_free st -> clean (dec_items s) = true -> nond s = true ->
  sp_run st s = Some (flat (dec_items s)).
Proof.
  apply (scan_ind false cls cls (fun s l => forall st, st_free st -> clean l = true -> nond s = true ->
                                                       sp_run st s = Some (flat l))).
  - intros st [->|[u ->]] _ _; reflexivity.
  - intros c t e rest l E IH st Hst Hcl Hnd. apply andb_true_iff in Hcl. destruct Hcl as [Hce Hcl].
    destruct (token_at_shape _ _ _ _ _ _ E) as (pre & Hs & Hshape).
    rewrite Hs in Hnd |- *. apply nond_app in Hnd. destruct Hnd as [Hnd1 Hnd2]. rewrite flat_cons.
    apply shape_step; try assumption. intros st' Hst'. now apply IH.
  - (* a skipped character: P or p, a symbol of the specification without a position *)
    intros c t l _ IH st Hst Hcl Hnd. apply andb_true_iff in Hcl. destruct Hcl as [Hce Hcl].
    apply nond_cons in Hnd. destruct (step_P st c t Hst Hce) as [Hu ->].
    rewrite flat_cons, Hu, (IH (Sym 80)); [reflexivity|right; now exists 80|assumption|assumption].
Qed.

Definition wf_elt (e : elt) : bool :=
  match e with
  | E KSign t => existsb (list_N_eqb t) [[43]; [45]; [83]; [68; 66]; [67; 82]]
  | E KChar t => match t with [c] => mem c [36; 44; 47; 42; 66] | _ => false end
  | E KDecimal t => match t with [c] => mem c [86; 46] | _ => false end
  | E KDigit t => forallb incls t
  end.
Definition wf_item (i : item) : bool := match i with Tok e => wf_elt e | _ => true end.

Lemma token_wf s e rest : token_at false cls cls s = Some (e, rest) -> wf_elt e = true.
Proof.
  intros H. destruct (token_at_shape _ _ _ _ _ _ H) as (pre & _ & Hs).
  destruct Hs as [k c M|c d M|c ds Mc _ _|c run Hall]; cbn [up] in *; cbn [wf_elt].
  - destruct k; first [exact M | mem_split M; reflexivity].
  - destruct M as [[-> ->]|[-> ->]]; reflexivity.
  - now apply forallb_repeat.
  - exact Hall.
Qed.

Lemma scan_wf s : forallb wf_item (dec_items s) = true.
Proof.
  apply (scan_ind false cls cls (fun _ l => forallb wf_item l = true)); [reflexivity| |].
  - intros c t e rest l E IH. cbn [forallb wf_item]. now rewrite (token_wf _ _ _ E).
  - intros c t l _ IH. exact IH.
Qed.

Lemma clean_ind (P : list item -> Prop) :
  P [] -> (forall i l, wf_item i = true -> clean_item i = true -> P l -> P (i :: l)) ->
  forall l, forallb wf_item l = true -> clean l = true -> P l.
Proof.
  intros Hnil Hcons. unfold clean. induction l as [|i l IH]; [intros _ _; exact Hnil|]. cbn [forallb]. intros H1 H2.
  apply andb_true_iff in H1. apply andb_true_iff in H2. apply Hcons; [tauto|tauto|]. apply IH; tauto.
Qed.

Lemma list_N_eqb_eq a : forall b, list_N_eqb a b = true -> a = b.
Proof.
  unfold list_N_eqb. induction a as [|x a IH]; intros [|y b] H; try discriminate H; [reflexivity|].
  cbn [length Nat.eqb combine forallb fst snd] in H.
  apply andb_true_iff in H. destruct H as [Hl H]. apply andb_true_iff in H. destruct H as [Hx H].
  apply N.eqb_eq in Hx. rewrite Hx, (IH b); [reflexivity|]. now rewrite Hl, H.
Qed.

(* a well-formed item of a clean scan is a run of data characters or one of fourteen items *)
Definition fixed_items : list item :=
  map (fun t => Tok (E KSign t)) [[43]; [45]; [83]; [68; 66]; [67; 82]]
  ++ map (fun c => Tok (E KChar [c])) [36; 44; 47; 42; 66]
  ++ map (fun c => Tok (E KDecimal [c])) [86; 46] ++ [Skip 80; Skip 112].

Lemma item_ind (P : item -> Prop) :
  Forall P fixed_items -> (forall c t, forallb incls (c :: t) = true -> P (Tok (E KDigit (c :: t)))) ->
  forall i, wf_item i = true -> clean_item i = true -> P i.
Proof.
  intros Hfix Hrun i Hwi Hci. rewrite Forall_forall in Hfix.
  destruct i as [[k t]|c|]; [| |discriminate].
  - destruct k; cbn [wf_item wf_elt] in Hwi.
    + apply Hfix. apply existsb_exists in Hwi. destruct Hwi as (x & Hin & Hx). apply list_N_eqb_eq in Hx. subst x.
      apply in_or_app. left. apply (in_map (fun t => Tok (E KSign t))), Hin.
    + apply Hfix. destruct t as [|c [|]]; try discriminate. apply in_or_app. right. apply in_or_app. left.
      apply (in_map (fun c => Tok (E KChar [c]))), mem_In, Hwi.
    + apply Hfix. destruct t as [|c [|]]; try discriminate. do 2 (apply in_or_app; right). apply in_or_app. left.
      apply (in_map (fun c => Tok (E KDecimal [c]))), mem_In, Hwi.
    + destruct t as [|c t]; [discriminate|]. now apply Hrun.
  - apply Hfix. do 3 (apply in_or_app; right). cbn [clean_item] in Hci. apply orb_true_iff in Hci.
    destruct Hci as [Hc|Hc]; apply N.eqb_eq in Hc; subst c; cbn; auto.
Qed.

(* a fact about the fourteen is checked on each *)
Ltac each_fixed tac := cbn [fixed_items map app]; each tac.

Lemma existsb_incl {A} (q : A -> bool) L t : incl t L -> existsb q L = false -> existsb q t = false.
Proof.
  intros Hin HL. destruct (existsb q t) eqn:E; [|reflexivity].
  apply existsb_exists in E. destruct E as (d & Hd & Hqd).
  rewrite <- HL. symmetry. apply existsb_exists. exists d. split; [apply Hin, Hd|exact Hqd].
Qed.

Lemma cls_none (q : N -> bool) t : existsb q cls = false -> forallb incls t = true -> existsb q t = false.
Proof.
  intros Hq Ht. apply (existsb_incl q cls); [|exact Hq]. intros d Hd. apply mem_In. revert d Hd. now apply forallb_forall.
Qed.

(* the size loop counts the positions of the expansion *)
Definition nvp (c : N) : bool := negb ((c =? 86) || (c =? 80)).

Lemma positions_app a b : sp_positions (a ++ b) = (sp_positions a + sp_positions b)%nat.
Proof. unfold sp_positions. now rewrite filter_app, app_length. Qed.

Lemma positions_cls t : forallb incls t = true -> sp_positions t = length t.
Proof.
  unfold sp_positions. induction t as [|d r IH]; [reflexivity|]. cbn [forallb filter]. intros H.
  apply andb_true_iff in H. destruct H as [Hd Hr].
  assert (Hn : negb ((d =? 86) || (d =? 80)) = true) by (mem_split Hd; reflexivity).
  rewrite Hn. cbn [length]. now rewrite (IH Hr).
Qed.

Definition item_size (i : item) : nat :=
  match i with
  | Tok (E KDecimal t) => if list_N_eqb t [46] then 1 else 0
  | Tok (E _ t) => length t
  | _ => 0
  end.

Lemma item_positions : forall i, wf_item i = true -> clean_item i = true -> sp_positions (utext i) = item_size i.
Proof.
  refine (item_ind _ _ _); [each_fixed reflexivity|]. intros c t Ht.
  unfold utext. cbn [item_text item_size]. rewrite (upper_cls _ Ht). now apply positions_cls.
Qed.

Lemma size_clean : forall l, forallb wf_item l = true -> clean l = true ->
  forall acc, size_loop (elems l) acc = Ok (acc + sp_positions (flat l))%nat.
Proof.
  refine (clean_ind _ _ _); [intros acc; cbn; f_equal; lia|]. intros i l Hwi Hci IH acc.
  rewrite flat_cons, positions_app, (item_positions i Hwi Hci), Nat.add_assoc, <- IH.
  destruct i as [[k [|c t]]|c|]; try discriminate Hci; [destruct k; reflexivity|cbn [elems item_size]; f_equal; lia].
Qed.

(* the specification accepts no foreign character *)
Definition st_ok (st : sp_state) : Prop := match st with Pair x => x = 66 \/ x = 82 | _ => True end.
Definition st_nc (st : sp_state) : Prop := match st with Cnt _ _ _ => False | _ => True end.

Lemma cons_some {A} (x : A) o e : option_map (cons x) o = Some e -> exists e', o = Some e' /\ e = x :: e'.
Proof. destruct o as [e'|]; [|discriminate]. intros H. injection H as <-. now exists e'. Qed.

(* a symbol read from a free state *)
Lemma sym_step c t e :
  (if sp_upper c =? 68 then option_map (cons 68) (sp_run (Pair 66) t)
   else if sp_upper c =? 67 then option_map (cons 67) (sp_run (Pair 82) t)
   else if sp_single (sp_upper c) then option_map (cons (sp_upper c)) (sp_run (Sym (sp_upper c)) t)
   else None) = Some e ->
  sp_single (sp_upper c) || sp_mem (sp_upper c) [68; 67; 82] = true /\
  exists st' e', st_ok st' /\ st_nc st' /\ sp_run st' t = Some e' /\ e = sp_upper c :: e'.
Proof.
  destruct (sp_upper c =? 68) eqn:E68; [|destruct (sp_upper c =? 67) eqn:E67; [|destruct (sp_single (sp_upper c)) eqn:ES; [|discriminate]]];
    intros H; apply cons_some in H; destruct H as (e' & Hr & ->).
  - apply N.eqb_eq in E68. rewrite E68. split; [reflexivity|]. exists (Pair 66), e'. cbn. auto.
  - apply N.eqb_eq in E67. rewrite E67. split; [reflexivity|]. exists (Pair 82), e'. cbn. auto.
  - split; [reflexivity|]. exists (Sym (sp_upper c)), e'. cbn. auto.
Qed.

(* one step of the specification's automaton: the character read is not foreign, and outside a repeat count it is
   emitted upper-cased *)
Lemma sp_run_cons st c t e : st_ok st -> sp_run st (c :: t) = Some e ->
  sp_foreign c = false /\ exists st' e', st_ok st' /\ sp_run st' t = Some e' /\
    (st_nc st -> (c =? 40) = false -> st_nc st' /\ e = sp_upper c :: e').
Proof.
  intros Hok H. unfold sp_foreign. rewrite negb_false_iff.
  destruct st as [|v|v n b|x]; cbn [sp_run] in H; cbv zeta in H.
  - destruct (c =? 40) eqn:E40; [discriminate|]. destruct (sym_step _ _ _ H) as (Hf & st' & e' & H1 & H2 & H3 & H4).
    split; [now rewrite Hf|]. exists st', e'. auto.
  - destruct (c =? 40) eqn:E40.
    + destruct (sp_repeatable v); [|discriminate]. split; [now rewrite ?orb_true_r|].
      exists (Cnt v 0 false), e. split; [exact I|]. split; [exact H|]. intros _ HE. discriminate HE.
    + destruct (sym_step _ _ _ H) as (Hf & st' & e' & H1 & H2 & H3 & H4). split; [now rewrite Hf|]. exists st', e'. auto.
  - destruct (sp_digit c) eqn:ED.
    + split; [now rewrite ?orb_true_r|]. exists (Cnt v (n * 10 + (c - 48)) true), e. split; [exact I|]. split; [exact H|contradiction].
    + destruct ((c =? 41) && b && (0 <? n)) eqn:EC; [|discriminate].
      apply andb_true_iff in EC. destruct EC as [EC _]. apply andb_true_iff in EC. destruct EC as [EC _].
      destruct (sp_run Idle t) as [e'|] eqn:Er; [|discriminate].
      split; [now rewrite EC, ?orb_true_r|]. exists Idle, e'. split; [exact I|]. split; [exact Er|contradiction].
  - destruct (sp_upper c =? x) eqn:EX; [|discriminate]. apply N.eqb_eq in EX.
    apply cons_some in H. destruct H as (e' & Er & ->). split.
    + rewrite EX. destruct Hok as [-> | ->]; reflexivity.
    + exists Idle, e'. rewrite EX. split; [exact I|]. split; [exact Er|]. intros _ _. split; [exact I|reflexivity].
Qed.

Lemma sp_no_foreign s : forall st e, st_ok st -> sp_run st s = Some e ->
  forallb (fun c => negb (sp_foreign c)) s = true.
Proof.
  induction s as [|c t IH]; intros st e Hok H; [reflexivity|].
  destruct (sp_run_cons _ _ _ _ Hok H) as (Hf & st' & e' & Hok' & Hr & _).
  cbn [forallb]. rewrite Hf. exact (IH _ _ Hok' Hr).
Qed.

Lemma expand_no_foreign s e : sp_expand s = Some e -> forallb (fun c => negb (sp_foreign c)) s = true.
Proof. destruct s as [|c t]; [reflexivity|]. apply (sp_no_foreign _ Idle e I). Qed.

Lemma known_bad_false s : known_bad s = false ->
  kb_nomatch s = false /\ kb_nd s = false /\ kb_lower s = false /\ kb_skip s = false /\
  kb_zero s = false /\ kb_lastonly s = false /\ kb_zeropos s = false /\ kb_repnum s = false.
Proof.
  unfold known_bad, known_code.
  destruct (kb_nomatch s); [discriminate|]. destruct (kb_nd s); [discriminate|].
  destruct (kb_lower s); [discriminate|]. destruct (kb_skip s); [discriminate|].
  destruct (kb_zero s); [discriminate|]. destruct (kb_lastonly s); [discriminate|].
  destruct (kb_zeropos s); [discriminate|]. destruct (kb_repnum s); [discriminate|].
  intros _. repeat split; reflexivity.
Qed.

Lemma existsb_false_forallb {A} (p : A -> bool) l : existsb p l = false -> forallb (fun x => negb (p x)) l = true.
Proof.
  induction l as [|x l IH]; [reflexivity|]. cbn [existsb forallb]. intros H.
  apply orb_false_iff in H. destruct H as [Hx Hl]. now rewrite Hx, IH.
Qed.

Lemma clean_of l : existsb is_fuel l = false -> existsb bad_skip l = false ->
  existsb empty_elt (elems l) = false -> clean l = true.
Proof.
  induction l as [|i l IH]; [reflexivity|]. intros H1 H2 H3.
  cbn [existsb] in H1, H2. apply orb_false_iff in H1. apply orb_false_iff in H2.
  destruct H1 as [H1 H1']. destruct H2 as [H2 H2'].
  unfold clean. cbn [forallb].
  destruct i as [[k t]|c|]; [| |discriminate].
  - cbn [elems existsb] in H3. apply orb_false_iff in H3. destruct H3 as [H3 H3'].
    destruct t; [discriminate|]. cbn [clean_item andb]. apply IH; assumption.
  - cbn [elems] in H3. cbn [bad_skip] in H2. apply negb_false_iff in H2.
    cbn [clean_item]. rewrite H2. cbn [andb]. apply IH; assumption.
Qed.

Lemma dec_no_fuel s : existsb is_fuel (dec_items s) = false.
Proof. apply scan_no_fuel. Qed.

Lemma ends_nonempty l : ends_with_tok l = true -> l <> [].
Proof. destruct l; [discriminate|discriminate]. Qed.

Lemma kb_dec_false s : kb_dec s = false ->
  kb_nd s = false /\ (ends_with_tok (dec_items s) && existsb bad_skip (dec_items s)) = false /\
  existsb empty_elt (elems (dec_items s)) = false /\ kb_lastonly s = false /\ kb_zeropos s = false.
Proof.
  unfold kb_dec. intros H. repeat (apply orb_false_iff in H; destruct H as [H ?]). repeat split; assumption.
Qed.

Lemma kb_dec_weaker s : known_bad s = false -> kb_dec s = false.
Proof.
  intros H. destruct (known_bad_false s H) as (_ & Hnd & _ & Hskip & Hzero & Hlo & Hzp & _).
  unfold kb_skip in Hskip. apply orb_false_iff in Hskip. destruct Hskip as [Hskip _].
  unfold kb_zero in Hzero. apply orb_false_iff in Hzero. destruct Hzero as [Hzero _].
  unfold kb_dec. now rewrite Hnd, Hskip, Hzero, Hlo, Hzp.
Qed.

Lemma accepted_facts s : kb_dec s = false -> ends_with_tok (dec_items s) = true ->
  clean (dec_items s) = true /\ sp_expand s = Some (flat (dec_items s)) /\
  size_loop (elems (dec_items s)) 0 = Ok (sp_positions (flat (dec_items s))).
Proof.
  intros Hkb Hend. destruct (kb_dec_false s Hkb) as (Hnd & Hskip & Hzero & _).
  rewrite Hend in Hskip. cbn [andb] in Hskip.
  pose proof (clean_of _ (dec_no_fuel s) Hskip Hzero) as Hclean.
  split; [exact Hclean|]. split.
  - destruct s as [|c t]; [discriminate|]. unfold sp_expand.
    apply clean_expand; [now left|exact Hclean|apply existsb_false_forallb, Hnd].
  - now rewrite (size_clean _ (scan_wf s) Hclean).
Qed.

Lemma dec_normalize_eq s :
  dec_normalize s = Some (if ends_with_tok (dec_items s) then Ok (elems (dec_items s)) else Err ValueError).
Proof. unfold dec_normalize. cbv zeta. now rewrite dec_no_fuel. Qed.

Lemma strict s : known_bad s = false ->
  dec_parse s = Some (Err ValueError) \/
  exists r v, dec_parse s = Some (Ok r) /\ sp_parse s = Some v /\ p_size r = positions v /\
              forallb (fun c => negb (sp_foreign c)) s = true.
Proof.
  intros Hkb. unfold dec_parse. rewrite dec_normalize_eq.
  destruct (ends_with_tok (dec_items s)) eqn:Hend; [right|left; reflexivity].
  destruct (accepted_facts s (kb_dec_weaker s Hkb) Hend) as (Hclean & Hexp & Hsize).
  rewrite Hsize. eexists. exists (sp_summary (flat (dec_items s))).
  split; [reflexivity|]. split; [unfold sp_parse; now rewrite Hexp|]. split; [reflexivity|].
  exact (expand_no_foreign _ _ Hexp).
Qed.

(* the two scanners agree when no lower-case picture letter occurs *)
Definition lowtrig (c : N) : bool := mem c [97; 98; 99; 100; 112; 114; 115; 118; 120; 122; 383].
Definition consts : list N := [43; 45; 83; 68; 66; 67; 82; 36; 44; 47; 42; 86; 46; 65; 88; 57; 90; 48].

Definition lower_letters : list N := map N.of_nat (seq 97 26).

Lemma lower_letter c : (97 <=? c) && (c <=? 122) = true -> In c lower_letters.
Proof. intros R. apply in_map_iff. exists (N.to_nat c). split; [apply N2Nat.id|apply in_seq; lia]. Qed.

(* IGNORECASE changes only lower-case letters and U+017F; outside the trigger of finding 3 it maps no character to or
   from a letter of the pattern: the 26 letters are checked against the 18 constants *)
Lemma up_eqb c k : lowtrig c = false -> mem k consts = true -> (up true c =? k) = (c =? k).
Proof.
  intros Hl Hk. apply mem_In in Hk. unfold up. destruct ((97 <=? c) && (c <=? 122)) eqn:R.
  - assert (T : forallb (fun c => forallb (fun k => lowtrig c || Bool.eqb (c - 32 =? k) (c =? k)) consts) lower_letters = true)
      by (vm_compute; reflexivity).
    rewrite forallb_forall in T. specialize (T c (lower_letter c R)).
    rewrite forallb_forall in T. specialize (T k Hk). rewrite Hl in T. apply eqb_prop, T.
  - destruct (c =? 383) eqn:E; [|reflexivity]. apply N.eqb_eq in E. subst c. discriminate Hl.
Qed.

Lemma up_mem c l : lowtrig c = false -> forallb (fun k => mem k consts) l = true -> mem (up true c) l = mem c l.
Proof.
  intros Hl. induction l as [|k l IH]; [reflexivity|]. cbn [forallb]. intros H.
  apply andb_true_iff in H. destruct H as [Hk Hin].
  unfold mem. cbn [existsb]. rewrite (up_eqb c k Hl Hk). f_equal. apply IH, Hin.
Qed.

Definition nolow (s : list N) : bool := forallb (fun c => negb (lowtrig c)) s.

(* every test of token_at compares a character with constants of the pattern *)
Lemma token_at_same s : nolow s = true -> token_at true cls cls s = token_at false cls cls s.
Proof.
  destruct s as [|c t]; [reflexivity|]. unfold nolow. cbn [forallb]. intros H.
  apply andb_true_iff in H. destruct H as [Hc Ht]. apply negb_true_iff in Hc.
  unfold token_at. cbv zeta.
  rewrite (up_mem c [43; 45; 83] Hc), (up_mem c [36; 44; 47; 42; 66] Hc), (up_mem c [86; 46] Hc), (up_mem c cls Hc),
    (up_eqb c 68 Hc), (up_eqb c 67 Hc) by reflexivity.
  assert (Hhead : forall k, mem k consts = true ->
            match t with d :: _ => up true d =? k | [] => false end = match t with d :: _ => d =? k | [] => false end).
  { intros k Hk. destruct t as [|d t']; [reflexivity|]. cbn [forallb] in Ht.
    apply andb_true_iff in Ht. destruct Ht as [Hd _]. apply negb_true_iff in Hd. now apply up_eqb. }
  rewrite (Hhead 66), (Hhead 82) by reflexivity.
  rewrite (span_ext (fun d => mem (up true d) cls) (fun d => mem d cls) t); [reflexivity|].
  intros d Hd. rewrite forallb_forall in Ht. specialize (Ht d Hd). apply negb_true_iff in Ht. now apply up_mem.
Qed.

Lemma scan_same f : forall s, nolow s = true -> scan true cls cls f s = scan false cls cls f s.
Proof.
  induction f as [|f IH]; intros s H; [destruct s; reflexivity|].
  destruct s as [|c t]; [reflexivity|]. cbn [scan].
  rewrite (token_at_same _ H).
  destruct (token_at false cls cls (c :: t)) as [[e rest]|] eqn:E.
  - f_equal. apply IH. destruct (token_at_shape _ _ _ _ _ _ E) as (pre & Hpre & _).
    unfold nolow in *. rewrite Hpre, forallb_app in H. apply andb_true_iff in H. tauto.
  - f_equal. apply IH. unfold nolow in *. cbn [forallb] in H. apply andb_true_iff in H. tauto.
Qed.

Lemma items_same s : kb_lower s = false -> gen_items s = dec_items s.
Proof. intros H. apply scan_same, existsb_false_forallb, H. Qed.

Lemma gen_normalize_eq s :
  gen_normalize s = Some (match elems (gen_items s) with
                          | [] => Err IndexError
                          | _ :: _ => if ends_with_tok (gen_items s) then Ok (elems (gen_items s)) else Err ValueError
                          end).
Proof.
  unfold gen_normalize. cbv zeta.
  assert (H : existsb is_fuel (gen_items s) = false) by apply scan_no_fuel. now rewrite H.
Qed.

Lemma mem_app_false c a b : mem c (a ++ b) = false -> mem c a = false /\ mem c b = false.
Proof. unfold mem. rewrite existsb_app. apply orb_false_iff. Qed.

(* a string without parentheses scans to itself *)
(* without an opening parenthesis no repeat can match: a match's text is exactly the text it consumed *)
Lemma token_text ci rc uc s k txt rest :
  token_at ci rc uc s = Some (E k txt, rest) -> mem 40 s = false -> s = txt ++ rest.
Proof.
  intros H Hp. destruct (token_at_shape _ _ _ _ _ _ H) as (pre & -> & Hs).
  apply mem_app_false in Hp. destruct Hp as [Hp _].
  inversion Hs; subst; try reflexivity.
  unfold mem in Hp. cbn [existsb] in Hp. rewrite N.eqb_refl, orb_true_r in Hp. discriminate Hp.
Qed.

Lemma flat_plain s : mem 40 s = false -> flat (dec_items s) = map sp_upper s.
Proof.
  apply (scan_ind false cls cls (fun s l => mem 40 s = false -> flat l = map sp_upper s)); [reflexivity| |].
  - intros c t [k txt] rest l E IH Hp. rewrite flat_cons, (token_text _ _ _ _ _ _ _ E Hp), map_app.
    rewrite (token_text _ _ _ _ _ _ _ E Hp) in Hp. apply mem_app_false in Hp. f_equal. now apply IH.
  - intros c t l _ IH Hp. rewrite flat_cons. cbn [utext item_text map app]. f_equal. apply IH.
    unfold mem in *. cbn [existsb] in Hp. apply orb_false_iff in Hp. tauto.
Qed.

Lemma upper_idem c : sp_upper (sp_upper c) = sp_upper c.
Proof.
  unfold sp_upper. destruct ((97 <=? c) && (c <=? 122)) eqn:R; [|now rewrite R].
  apply andb_true_iff in R. destruct R as [R1 R2]. apply N.leb_le in R1. apply N.leb_le in R2.
  destruct ((97 <=? c - 32) && (c - 32 <=? 122)) eqn:R'; [|reflexivity].
  apply andb_true_iff in R'. destruct R' as [R3 R4]. apply N.leb_le in R3. lia.
Qed.

Lemma flat_upper l : map sp_upper (flat l) = flat l.
Proof. unfold flat. rewrite map_map. apply map_ext. intros c. apply upper_idem. Qed.

(* the generator's classification is the specification's (outside the known findings) *)
(* without a parenthesis the specification reads a string as itself, upper-cased *)
Lemma sp_run_plain s : forall st e, st_ok st -> st_nc st -> mem 40 s = false -> sp_run st s = Some e -> e = map sp_upper s.
Proof.
  induction s as [|c t IH]; intros st e Hok Hnc Hp H.
  { destruct st; cbn in H; try discriminate; now injection H as <-. }
  unfold mem in Hp. cbn [existsb] in Hp. apply orb_false_iff in Hp. destruct Hp as [Hc Hpt]. rewrite N.eqb_sym in Hc.
  destruct (sp_run_cons _ _ _ _ Hok H) as (_ & st' & e' & Hok' & Hr & Hpl).
  destruct (Hpl Hnc Hc) as [Hnc' ->]. cbn [map]. f_equal. exact (IH _ _ Hok' Hnc' Hpt Hr).
Qed.

Lemma class_pointwise c : lowtrig c = false -> upper_in_SVP9 c = sp_mem (sp_upper c) [83; 86; 80; 57].
Proof.
  intros Hl. unfold sp_upper. destruct ((97 <=? c) && (c <=? 122)) eqn:R.
  - assert (T : forallb (fun c => lowtrig c || Bool.eqb (upper_in_SVP9 c) (sp_mem (c - 32) [83; 86; 80; 57])) lower_letters = true)
      by (vm_compute; reflexivity).
    rewrite forallb_forall in T. specialize (T c (lower_letter c R)). rewrite Hl in T. apply eqb_prop, T.
  - (* not a lower-case letter: p s v and U+017F are excluded, the other four tests are the same on both sides *)
    unfold lowtrig, upper_in_SVP9, sp_mem, mem in *. cbn [existsb] in *.
    repeat (apply orb_false_iff in Hl; destruct Hl as [? Hl]).
    repeat match goal with H : (c =? _) = false |- _ => rewrite ?H; clear H end.
    destruct (c =? 57), (c =? 80), (c =? 83), (c =? 86); reflexivity.
Qed.

Lemma class_plain s : nolow s = true -> forallb upper_in_SVP9 s = sp_numeric (map sp_upper s).
Proof.
  induction s as [|c t IH]; [reflexivity|]. unfold nolow. cbn [forallb map]. intros H.
  apply andb_true_iff in H. destruct H as [Hc Ht]. apply negb_true_iff in Hc.
  unfold sp_numeric in *. cbn [forallb]. rewrite (class_pointwise _ Hc). f_equal. now apply IH.
Qed.

Lemma forallb_paren s : mem 40 s = true -> forallb upper_in_SVP9 s = false.
Proof.
  induction s as [|c t IH]; [discriminate|]. unfold mem. cbn [existsb forallb]. intros H.
  apply orb_true_iff in H. destruct H as [H|H].
  - apply N.eqb_eq in H. subst c. reflexivity.
  - unfold mem in IH. rewrite (IH H). apply andb_false_r.
Qed.

Lemma gen_class s v : known_bad s = false -> sp_parse s = Some v -> gen_numeric s = numeric v.
Proof.
  intros Hkb Hv. destruct (known_bad_false s Hkb) as (_ & _ & Hl & _ & _ & _ & _ & Hrep).
  unfold kb_repnum in Hrep. rewrite Hv in Hrep.
  unfold sp_parse in Hv. destruct (sp_expand s) as [e|] eqn:He; [|discriminate]. injection Hv as <-.
  destruct s as [|c t]; [discriminate|]. unfold sp_expand in He.
  unfold gen_numeric. destruct (mem 40 (c :: t)) eqn:P.
  - rewrite andb_true_r in Hrep. rewrite Hrep. now apply forallb_paren.
  - pose proof (sp_run_plain _ Idle _ I I P He) as ->. cbn [sp_summary numeric].
    apply class_plain. apply existsb_false_forallb. exact Hl.
Qed.

(* the decoder's classification is the specification's *)
(* what digit_groups computes: the last sign text, the last point text, the digits before and after the first point *)
Definition kind_eqb (a b : kind) : bool :=
  match a, b with KSign, KSign | KChar, KChar | KDecimal, KDecimal | KDigit, KDigit => true | _, _ => false end.

Fixpoint last_txt (k : kind) (es : list elt) (acc : list N) : list N :=
  match es with
  | [] => acc
  | E k' t :: r => match t with
                   | [] => last_txt k r acc
                   | _ :: _ => if kind_eqb k k' then last_txt k r t else last_txt k r acc
                   end
  end.

Definition digits_of (e : elt) : list N :=
  match e with E KDigit t => t | E KChar t => repeat 57 (count_star t) | _ => [] end.
Definition is_point (e : elt) : bool := match e with E KDecimal (_ :: _) => true | _ => false end.

Fixpoint int_part (es : list elt) : list N :=
  match es with [] => [] | e :: r => if is_point e then [] else digits_of e ++ int_part r end.
Fixpoint frac_part (es : list elt) : list N :=
  match es with [] => [] | e :: r => if is_point e then flat_map digits_of r else frac_part r end.

Lemma groups_loop_eq es : forall frac g, groups_loop es frac g =
  {| g_sign := last_txt KSign es (g_sign g);
     g_int := g_int g ++ (if frac then [] else int_part es);
     g_sep := last_txt KDecimal es (g_sep g);
     g_frac := g_frac g ++ (if frac then flat_map digits_of es else frac_part es) |}.
Proof.
  induction es as [|[k [|x t]] r IH]; intros frac g.
  - destruct g, frac; cbn; now rewrite !app_nil_r.
  - cbn [groups_loop]. rewrite IH. destruct k, frac; reflexivity.
  - destruct k, frac; cbn [groups_loop]; rewrite IH; cbn; now rewrite <- ?app_assoc.
Qed.

Lemma digit_groups_eq es : digit_groups es =
  {| g_sign := last_txt KSign es []; g_int := int_part es; g_sep := last_txt KDecimal es []; g_frac := frac_part es |}.
Proof. unfold digit_groups. now rewrite groups_loop_eq. Qed.

Lemma parts_app es : int_part es ++ frac_part es = flat_map digits_of es.
Proof.
  induction es as [|e r IH]; [reflexivity|]. cbn [int_part frac_part flat_map]. destruct (is_point e) eqn:E.
  - destruct e as [[] [|]]; try discriminate E. reflexivity.
  - now rewrite <- app_assoc, IH.
Qed.

Lemma all9_app a b : all9 (a ++ b) = all9 a && all9 b.
Proof. apply forallb_app. Qed.
Lemma all9_nines k : all9 (repeat 57 k) = true.
Proof. induction k; [reflexivity|]. cbn [repeat all9 forallb]. exact IHk. Qed.

(* the same four in terms of the items *)
Definition signchar (c : N) : bool := mem c [43; 45; 83; 68; 67].
Definition nonS (c : N) : bool := mem c [43; 45; 68; 67].
Definition pointchar (c : N) : bool := mem c [86; 46].

Definition isS (i : item) : bool := match i with Tok (E KSign t) => list_N_eqb t [83] | _ => true end.
Definition isV (i : item) : bool := match i with Tok (E KDecimal t) => list_N_eqb t [86] | _ => true end.
Definition isD9 (i : item) : bool := match i with Tok (E KDigit t) => all9 t | _ => true end.
Definition isNE (i : item) : bool := match i with Tok (E KChar _) => false | _ => true end.

Lemma digits_items l : all9 (flat_map digits_of (elems l)) = forallb isD9 l.
Proof.
  induction l as [|i l IH]; [reflexivity|]. destruct i as [[k t]|c|]; cbn [elems flat_map forallb isD9]; try exact IH.
  rewrite all9_app, IH. destruct k; cbn [digits_of]; rewrite ?all9_nines; reflexivity.
Qed.

Lemma edit_items l : clean l = true -> negb (has_edit (elems l)) = forallb isNE l.
Proof.
  unfold has_edit. induction l as [|i l IH]; intros Hcl; [reflexivity|].
  unfold clean in Hcl. cbn [forallb] in Hcl. apply andb_true_iff in Hcl. destruct Hcl as [Hci Hcl].
  destruct i as [[k t]|c|]; [| |discriminate]; cbn [elems forallb isNE existsb].
  - rewrite negb_orb, (IH Hcl). destruct t; [discriminate|]. destruct k; reflexivity.
  - now rewrite (IH Hcl).
Qed.

Lemma last_of_none p t o : existsb p t = false -> last_of p t o = o.
Proof.
  revert o. induction t as [|d r IH]; intros o; [reflexivity|]. cbn [existsb last_of]. intros H.
  apply orb_false_iff in H. destruct H as [Hd Hr]. rewrite Hd. now apply IH.
Qed.

Lemma last_of_app p a b o : last_of p (a ++ b) o = last_of p b (last_of p a o).
Proof. revert o. induction a as [|c a IH]; intros o; [reflexivity|]. cbn [app last_of]. apply IH. Qed.

Lemma cls_numeric t : forallb incls t = true -> sp_numeric t = all9 t.
Proof.
  unfold sp_numeric, all9. induction t as [|d r IH]; [reflexivity|]. cbn [forallb]. intros H.
  apply andb_true_iff in H. destruct H as [Hd Hr]. rewrite (IH Hr). f_equal.
  mem_split Hd; reflexivity.
Qed.

Lemma item_facts : forall i, wf_item i = true -> clean_item i = true ->
  existsb nonS (utext i) = negb (isS i) /\
  existsb (N.eqb 46) (utext i) = negb (isV i) /\
  sp_numeric (utext i) = isS i && isV i && isD9 i && isNE i.
Proof.
  refine (item_ind _ _ _); [each_fixed ltac:(repeat split; reflexivity)|]. intros c t Ht.
  unfold utext. cbn [item_text]. rewrite (upper_cls _ Ht). cbn [isS isV isD9 isNE andb negb]. repeat split.
  - apply cls_none; [reflexivity|exact Ht].
  - apply cls_none; [reflexivity|exact Ht].
  - rewrite andb_true_r. now apply cls_numeric.
Qed.

Lemma flat_nonS : forall l, forallb wf_item l = true -> clean l = true ->
  existsb nonS (flat l) = negb (forallb isS l).
Proof.
  refine (clean_ind _ _ _); [reflexivity|]. intros i l Hwi Hci IH.
  destruct (item_facts i Hwi Hci) as (Fa & _).
  rewrite flat_cons, existsb_app, Fa, IH. cbn [forallb]. now rewrite negb_andb.
Qed.

Lemma flat_dot : forall l, forallb wf_item l = true -> clean l = true ->
  existsb (N.eqb 46) (flat l) = negb (forallb isV l).
Proof.
  refine (clean_ind _ _ _); [reflexivity|]. intros i l Hwi Hci IH.
  destruct (item_facts i Hwi Hci) as (_ & Fb & _).
  rewrite flat_cons, existsb_app, Fb, IH. cbn [forallb]. now rewrite negb_andb.
Qed.

Lemma flat_numeric : forall l, forallb wf_item l = true -> clean l = true ->
  sp_numeric (flat l) = forallb isS l && forallb isV l && forallb isD9 l && forallb isNE l.
Proof.
  refine (clean_ind _ _ _); [reflexivity|]. intros i l Hwi Hci IH.
  destruct (item_facts i Hwi Hci) as (_ & _ & Fc).
  rewrite flat_cons. unfold sp_numeric in *. rewrite forallb_app, Fc, IH. cbn [forallb].
  (* both sides are the conjunction of the same eight *)
  btauto.
Qed.

Definition sign_txt (x : N) : list N := if x =? 68 then [68; 66] else if x =? 67 then [67; 82] else [x].
Definition otxt_s (o : option N) : list N := match o with None => [] | Some x => sign_txt x end.
Definition otxt_p (o : option N) : list N := match o with None => [] | Some x => [x] end.

Lemma item_sign : forall i, wf_item i = true -> clean_item i = true -> forall l o,
  last_txt KSign (elems (i :: l)) (otxt_s o) = last_txt KSign (elems l) (otxt_s (last_of signchar (utext i) o)).
Proof.
  refine (item_ind _ _ _); [each_fixed ltac:(intros l o; reflexivity)|]. intros c t Ht l o.
  unfold utext. cbn [item_text]. rewrite (upper_cls _ Ht), last_of_none; [reflexivity|].
  apply cls_none; [reflexivity|exact Ht].
Qed.

Lemma item_point : forall i, wf_item i = true -> clean_item i = true -> forall l o,
  last_txt KDecimal (elems (i :: l)) (otxt_p o) = last_txt KDecimal (elems l) (otxt_p (last_of pointchar (utext i) o)).
Proof.
  refine (item_ind _ _ _); [each_fixed ltac:(intros l o; reflexivity)|]. intros c t Ht l o.
  unfold utext. cbn [item_text]. rewrite (upper_cls _ Ht), last_of_none; [reflexivity|].
  apply cls_none; [reflexivity|exact Ht].
Qed.

Lemma last_sign : forall l, forallb wf_item l = true -> clean l = true ->
  forall o, last_txt KSign (elems l) (otxt_s o) = otxt_s (last_of signchar (flat l) o).
Proof.
  refine (clean_ind _ _ _); [reflexivity|]. intros i l Hwi Hci IH o.
  now rewrite flat_cons, last_of_app, (item_sign i Hwi Hci), IH.
Qed.

Lemma last_point : forall l, forallb wf_item l = true -> clean l = true ->
  forall o, last_txt KDecimal (elems l) (otxt_p o) = otxt_p (last_of pointchar (flat l) o).
Proof.
  refine (clean_ind _ _ _); [reflexivity|]. intros i l Hwi Hci IH o.
  now rewrite flat_cons, last_of_app, (item_point i Hwi Hci), IH.
Qed.

Lemma last_of_sat p e : forall o x, last_of p e o = Some x -> o = Some x \/ (p x = true /\ In x e).
Proof.
  induction e as [|c e IH]; intros o x H; [now left|].
  cbn [last_of] in H. destruct (IH _ _ H) as [H1|[H1 H2]].
  - destruct (p c) eqn:Ep; [|now left]. injection H1 as <-. right. split; [assumption|now left].
  - right. split; [assumption|now right].
Qed.

Lemma last_of_some p e : forall o, existsb p e = true -> last_of p e o <> None.
Proof.
  induction e as [|c e IH]; intros o H; [discriminate|].
  cbn [existsb] in H. cbn [last_of]. destruct (p c) eqn:Ep.
  - intros Hn. destruct (existsb p e) eqn:Ee; [now apply (IH (Some c))|].
    rewrite (last_of_none _ _ _ Ee) in Hn. discriminate.
  - apply IH. exact H.
Qed.

Lemma existsb_mono {A} (p q : A -> bool) l : (forall x, p x = true -> q x = true) ->
  existsb p l = true -> existsb q l = true.
Proof.
  intros Hpq. rewrite !existsb_exists. intros [x [H1 H2]]. exists x. split; [assumption|now apply Hpq].
Qed.

Definition signok (t : list N) : bool := list_N_eqb t [] || list_N_eqb t [83] || list_N_eqb t [115].
Definition sepok (t : list N) : bool := list_N_eqb t [86] || list_N_eqb t [118] || list_N_eqb t [].

(* digit_groups keeps the LAST character of a class P; zoned_decimal asks whether it is the good one g.  Unless the
   trigger of finding 8 holds (a bad one occurs and the last is g), that is the same as: no bad one occurs at all *)
Lemma last_is_good (P Q : N -> bool) g e :
  (forall x, Q x = true -> P x = true) -> (forall x, P x = true -> Q x = false -> x = g) ->
  (existsb Q e && is_some_N (last_of P e None) g) = false ->
  match last_of P e None with None => true | Some x => x =? g end = negb (existsb Q e).
Proof.
  intros HQP HPg H. destruct (last_of P e None) as [x|] eqn:E.
  - destruct (last_of_sat _ _ _ _ E) as [H0|[Hx Hin]]; [discriminate|].
    destruct (existsb Q e) eqn:A; [exact H|].
    apply N.eqb_eq, HPg; [exact Hx|]. destruct (Q x) eqn:Qx; [|reflexivity].
    assert (existsb Q e = true) by (apply existsb_exists; now exists x). congruence.
  - destruct (existsb Q e) eqn:A; [|reflexivity].
    exfalso. apply (last_of_some P e None); [|exact E]. eapply existsb_mono; [exact HQP|exact A].
Qed.

Lemma signok_glue e :
  (existsb nonS e && is_some_N (last_of signchar e None) 83) = false ->
  signok (otxt_s (last_of signchar e None)) = negb (existsb nonS e).
Proof.
  intros H. rewrite <- (last_is_good signchar nonS 83 e); [| | |exact H].
  - destruct (last_of signchar e None) as [x|] eqn:E; [|reflexivity].
    destruct (last_of_sat _ _ _ _ E) as [H0|[Hx _]]; [discriminate|]. mem_split Hx; reflexivity.
  - intros x Hx. mem_split Hx; reflexivity.
  - intros x Hx Hn. mem_split Hx; try discriminate Hn; reflexivity.
Qed.

Lemma sepok_glue e :
  (existsb (N.eqb 46) e && is_some_N (last_of pointchar e None) 86) = false ->
  sepok (otxt_p (last_of pointchar e None)) = negb (existsb (N.eqb 46) e).
Proof.
  intros H. rewrite <- (last_is_good pointchar (N.eqb 46) 86 e); [| | |exact H].
  - destruct (last_of pointchar e None) as [x|] eqn:E; [|reflexivity].
    destruct (last_of_sat _ _ _ _ E) as [H0|[Hx _]]; [discriminate|]. mem_split Hx; reflexivity.
  - intros x Hx. apply N.eqb_eq in Hx. now subst x.
  - intros x Hx Hn. mem_split Hx; try discriminate Hn; reflexivity.
Qed.

(* zoned_decimal on a clean scan = the expansion is numeric (and some position exists) *)
Lemma zoned_numeric l n : forallb wf_item l = true -> clean l = true -> lastonly (flat l) = false ->
  zoned_decimal (elems l) n = negb (Nat.eqb n 0) && sp_numeric (flat l).
Proof.
  intros Hwf Hcl Hlo. unfold zoned_decimal. rewrite digit_groups_eq. cbv zeta. cbn [g_sign g_int g_sep g_frac].
  apply orb_false_iff in Hlo. destruct Hlo as [Hlo1 Hlo2].
  pose proof (signok_glue _ Hlo1) as Gs. pose proof (sepok_glue _ Hlo2) as Gp.
  rewrite <- (last_sign l Hwf Hcl None), (flat_nonS l Hwf Hcl), negb_involutive in Gs.
  rewrite <- (last_point l Hwf Hcl None), (flat_dot l Hwf Hcl), negb_involutive in Gp.
  unfold signok, otxt_s in Gs. unfold sepok, otxt_p in Gp.
  rewrite Gs, Gp, (flat_numeric l Hwf Hcl), <- (digits_items l), <- parts_app, all9_app, <- (edit_items l Hcl).
  (* the same conjuncts in another order *)
  btauto.
Qed.

(* digit_groups counts what the specification counts *)
Lemma cls_data t : forallb incls t = true -> filter sp_data t = t.
Proof.
  induction t as [|d r IH]; [reflexivity|]. cbn [forallb filter]. intros H.
  apply andb_true_iff in H. destruct H as [Hd Hr]. rewrite (IH Hr).
  assert (Hs : sp_data d = true) by (mem_split Hd; reflexivity). now rewrite Hs.
Qed.

(* a point item is one point character; any other item has no point and as many data characters as digits *)
Lemma item_parts : forall i, wf_item i = true -> clean_item i = true ->
  if existsb is_point (elems [i]) then exists c, utext i = [c] /\ sp_point c = true /\ sp_data c = false
  else existsb sp_point (utext i) = false /\
       length (filter sp_data (utext i)) = length (flat_map digits_of (elems [i])).
Proof.
  refine (item_ind _ _ _); [each_fixed ltac:(first [split; reflexivity | eexists; repeat split; reflexivity])|].
  intros c t Ht. unfold utext. cbn [item_text elems existsb is_point orb flat_map digits_of].
  rewrite (upper_cls _ Ht), (cls_data _ Ht), app_nil_r. split; [|reflexivity].
  apply cls_none; [reflexivity|exact Ht].
Qed.

Lemma int_app u r : existsb sp_point u = false -> sp_int (u ++ r) = (length (filter sp_data u) + sp_int r)%nat.
Proof.
  induction u as [|c u IH]; [reflexivity|]. cbn [existsb app sp_int filter]. intros H.
  apply orb_false_iff in H. destruct H as [Hc Hu]. rewrite Hc, (IH Hu).
  destruct (sp_data c); reflexivity.
Qed.
Lemma frac_app u r : existsb sp_point u = false -> sp_frac (u ++ r) = sp_frac r.
Proof.
  induction u as [|c u IH]; [reflexivity|]. cbn [existsb app sp_frac]. intros H.
  apply orb_false_iff in H. destruct H as [Hc Hu]. now rewrite Hc, (IH Hu).
Qed.

Lemma parts_len : forall l, forallb wf_item l = true -> clean l = true ->
  length (int_part (elems l)) = sp_int (flat l) /\ length (frac_part (elems l)) = sp_frac (flat l) /\
  length (flat_map digits_of (elems l)) = length (filter sp_data (flat l)).
Proof.
  refine (clean_ind _ _ _); [repeat split; reflexivity|]. intros i l Hwi Hci (I1 & I2 & I3).
  pose proof (item_parts i Hwi Hci) as F. rewrite flat_cons.
  destruct i as [e|c|]; [| |discriminate Hci]; cbn [elems existsb flat_map] in *.
  - rewrite orb_false_r, app_nil_r in F. cbn [int_part frac_part]. destruct (is_point e) eqn:Ep.
    + destruct F as (c & -> & Fp & Fd). cbn [app sp_int sp_frac filter]. rewrite Fp, Fd.
      destruct e as [[] [|]]; try discriminate Ep. repeat split; exact I3.
    + destruct F as [Fp Fc]. rewrite (int_app _ _ Fp), (frac_app _ _ Fp), filter_app, !app_length, Fc, I1, I2, I3.
      repeat split; reflexivity.
  - destruct F as [Fp Fc]. rewrite (int_app _ _ Fp), (frac_app _ _ Fp), filter_app, app_length, Fc, I1, I2, I3.
    repeat split; reflexivity.
Qed.

Lemma groups_flat l : forallb wf_item l = true -> clean l = true ->
  g_sign (digit_groups (elems l)) = otxt_s (last_of signchar (flat l) None) /\
  length (g_int (digit_groups (elems l))) = sp_int (flat l) /\
  length (g_frac (digit_groups (elems l))) = sp_frac (flat l).
Proof.
  intros Hwf Hcl. rewrite digit_groups_eq. cbn [g_sign g_int g_frac].
  destruct (parts_len l Hwf Hcl) as (L1 & L2 & _). repeat split; try assumption. apply (last_sign l Hwf Hcl None).
Qed.

(* what dec_parse returns on an accepted string outside the decoder's findings, in terms of the expansion *)
Lemma dec_parse_ok s r : dec_parse s = Some (Ok r) -> ends_with_tok (dec_items s) = true.
Proof.
  unfold dec_parse. rewrite dec_normalize_eq. destruct (ends_with_tok (dec_items s)); [reflexivity|discriminate].
Qed.

Lemma dec_parse_shape s r : kb_dec s = false -> dec_parse s = Some (Ok r) ->
  let l := dec_items s in
  (clean l = true /\ forallb wf_item l = true /\ ends_with_tok l = true /\ sp_expand s = Some (flat l)) /\
  p_size r = sp_positions (flat l) /\ g_sign (p_groups r) = otxt_s (last_of signchar (flat l) None) /\
  length (g_int (p_groups r)) = sp_int (flat l) /\ length (g_frac (p_groups r)) = sp_frac (flat l) /\
  p_zoned r = negb (Nat.eqb (sp_positions (flat l)) 0) && sp_numeric (flat l).
Proof.
  intros Hkb Hr l. pose proof (dec_parse_ok _ _ Hr) as Hend. pose proof (scan_wf s) as Hwf.
  destruct (accepted_facts s Hkb Hend) as (Hcl & Hexp & Hsize). fold l in Hcl, Hexp, Hsize, Hend, Hwf.
  unfold dec_parse in Hr. rewrite dec_normalize_eq in Hr. fold l in Hr. rewrite Hend, Hsize in Hr. injection Hr as <-.
  destruct (kb_dec_false s Hkb) as (_ & _ & _ & Hlo & _). unfold kb_lastonly in Hlo. rewrite Hexp in Hlo.
  destruct (groups_flat l Hwf Hcl) as (G1 & G2 & G3). cbn [p_size p_groups p_zoned].
  repeat split; try assumption. now apply zoned_numeric.
Qed.

(* scanning an expansion again *)

(* a string every character of which the decoder scanner matches or is P *)
Fixpoint vf (e : list N) : bool :=
  match e with
  | [] => true
  | c :: t =>
      if c =? 68 then match t with d :: t' => (d =? 66) && vf t' | [] => false end
      else if c =? 67 then match t with d :: t' => (d =? 82) && vf t' | [] => false end
      else okc c && vf t
  end.

Lemma okc_cons : forall c, okc c = true -> forall t, vf (c :: t) = vf t.
Proof. refine (mem_all _ _ _). each ltac:(intros t; reflexivity). Qed.

Lemma vf_drop u r : forallb okc u = true -> vf (u ++ r) = vf r.
Proof.
  induction u as [|c u IH]; intros Hu; [reflexivity|]. cbn [forallb] in Hu.
  apply andb_true_iff in Hu. destruct Hu as [Hc Hu]. cbn [app]. rewrite (okc_cons c Hc). now apply IH.
Qed.

Lemma vf_utext : forall i, wf_item i = true -> clean_item i = true -> forall r, vf (utext i ++ r) = vf r.
Proof.
  refine (item_ind _ _ _); [each_fixed ltac:(intros r; reflexivity)|]. intros c t Ht r.
  unfold utext. cbn [item_text]. rewrite (upper_cls _ Ht). apply vf_drop, cls_okc, Ht.
Qed.

Lemma vf_flat : forall l, forallb wf_item l = true -> clean l = true -> vf (flat l) = true.
Proof.
  refine (clean_ind _ _ _); [reflexivity|]. intros i l Hwi Hci IH. now rewrite flat_cons, (vf_utext i Hwi Hci).
Qed.

(* a match in such a string is no repeat, so it has text; what follows it is such a string again *)
Lemma vf_token pre e rest : tok_shape false cls cls pre e -> vf (pre ++ rest) = true ->
  clean_item (Tok e) = true /\ vf rest = true.
Proof.
  intros Hs Hv. destruct Hs as [k c M|c d M|c ds Mc _ _|c run Hall]; cbn [up] in *.
  - split; [reflexivity|]. rewrite (vf_drop [c]) in Hv; [exact Hv|]. cbn [forallb]. now rewrite (one_okc k c M).
  - split; [reflexivity|]. now destruct M as [[-> ->]|[-> ->]].
  - cbn [app] in Hv. rewrite (okc_cons c (incls_okc c Mc)) in Hv. discriminate Hv.
  - split; [reflexivity|]. rewrite (vf_drop (c :: run)) in Hv; [exact Hv|apply cls_okc, Hall].
Qed.

Lemma token_data c t : incls c = true ->
  token_at false cls cls (c :: t) =
  match repeat_tail t with
  | Some (n, rest) => Some (E KDigit (repeat c (N.to_nat n)), rest)
  | None => Some (E KDigit (c :: fst (span incls t)), snd (span incls t))
  end.
Proof.
  unfold token_at. cbn [up]. cbv zeta. change (fun d : N => mem d cls) with incls.
  destruct (repeat_tail t) as [[n rest]|]; [|destruct (span incls t) as [a b]];
    revert c; refine (mem_all _ _ _); each reflexivity.
Qed.

(* the only character of such a string that the scanner skips is P *)
Lemma okc_skipped : forall c, okc c = true -> forall t,
  token_at false cls cls (c :: t) = None -> incls c = false -> c = 80.
Proof. refine (mem_all _ _ _). each ltac:(intros t E Ec; first [reflexivity | discriminate E | discriminate Ec]). Qed.

Lemma vf_skip c t : token_at false cls cls (c :: t) = None -> vf (c :: t) = true -> c = 80 /\ vf t = true.
Proof.
  intros E Hv. cbn [vf] in Hv.
  destruct (c =? 68) eqn:E68.
  { apply N.eqb_eq in E68. subst c. destruct t as [|d t']; [discriminate|].
    apply andb_true_iff in Hv. destruct Hv as [Hd _]. apply N.eqb_eq in Hd. subst d. discriminate E. }
  destruct (c =? 67) eqn:E67.
  { apply N.eqb_eq in E67. subst c. destruct t as [|d t']; [discriminate|].
    apply andb_true_iff in Hv. destruct Hv as [Hd _]. apply N.eqb_eq in Hd. subst d. discriminate E. }
  apply andb_true_iff in Hv. destruct Hv as [Hc Hv]. split; [|exact Hv].
  destruct (incls c) eqn:Ec; [|exact (okc_skipped c Hc t E Ec)].
  rewrite (token_data c t Ec) in E. destruct (repeat_tail t) as [[n rest]|]; discriminate E.
Qed.

Lemma rescan_clean e : vf e = true -> clean (dec_items e) = true.
Proof.
  apply (scan_ind false cls cls (fun e l => vf e = true -> clean l = true)); [reflexivity| |].
  - intros c t e' rest l E IH Hv. destruct (token_at_shape _ _ _ _ _ _ E) as (pre & Hs & Hshape).
    rewrite Hs in Hv. destruct (vf_token _ _ _ Hshape Hv) as [Hce Hv']. unfold clean. cbn [forallb].
    rewrite Hce. exact (IH Hv').
  - intros c t l E IH Hv. destruct (vf_skip _ _ E Hv) as [-> Hv']. exact (IH Hv').
Qed.

(* acceptance: the last character decides *)
Fixpoint endsP (e : list N) : bool :=
  match e with [] => false | c :: t => match t with [] => c =? 80 | _ :: _ => endsP t end end.

Lemma endsP_app a b : b <> [] -> endsP (a ++ b) = endsP b.
Proof.
  intros Hb. induction a as [|c a IH]; [reflexivity|]. cbn [app endsP].
  destruct (a ++ b) eqn:E; [|exact IH]. destruct a; [contradiction|discriminate].
Qed.

Lemma endsP_cls t : forallb incls t = true -> endsP t = false.
Proof.
  induction t as [|d r IH]; [reflexivity|]. cbn [forallb endsP]. intros H.
  apply andb_true_iff in H. destruct H as [Hd Hr]. destruct r; [mem_split Hd; reflexivity|now apply IH].
Qed.

Lemma utext_ends : forall i, wf_item i = true -> clean_item i = true ->
  utext i <> [] /\ endsP (utext i) = negb (is_tok i).
Proof.
  refine (item_ind _ _ _); [each_fixed ltac:(split; [discriminate|reflexivity])|]. intros c t Ht.
  unfold utext. cbn [item_text]. rewrite (upper_cls _ Ht). split; [discriminate|now apply endsP_cls].
Qed.

Lemma ends_flat : forall l, forallb wf_item l = true -> clean l = true -> l <> [] ->
  flat l <> [] /\ ends_with_tok l = negb (endsP (flat l)).
Proof.
  refine (clean_ind _ _ _); [intros H; contradiction|]. intros i l Hwi Hci IH _.
  destruct (utext_ends i Hwi Hci) as [Hu He]. rewrite flat_cons. split.
  - destruct (utext i); [contradiction|discriminate].
  - cbn [ends_with_tok]. destruct l as [|j l'].
    + change (flat []) with (@nil N). rewrite app_nil_r, He. now rewrite negb_involutive.
    + destruct IH as [Hne IH]; [discriminate|]. now rewrite endsP_app.
Qed.

(* the expansion of an accepted picture is accepted and is no known finding *)
Definition alpha_chars : list N := [43; 45; 83; 36; 44; 47; 42; 66; 86; 46; 65; 88; 57; 90; 48; 80] ++ [68; 67; 82].

Lemma utext_alpha : forall i, wf_item i = true -> clean_item i = true -> forallb alpha (utext i) = true.
Proof.
  refine (item_ind _ _ _); [each_fixed reflexivity|]. intros c t Ht.
  unfold utext. cbn [item_text]. rewrite (upper_cls _ Ht). apply forallb_forall. intros d Hd.
  rewrite forallb_forall in Ht. unfold alpha. now rewrite (incls_okc d (Ht d Hd)).
Qed.

Lemma flat_alpha : forall l, forallb wf_item l = true -> clean l = true -> forallb alpha (flat l) = true.
Proof.
  refine (clean_ind _ _ _); [reflexivity|]. intros i l Hwi Hci IH.
  now rewrite flat_cons, forallb_app, (utext_alpha i Hwi Hci).
Qed.

Lemma alpha_none (q : N -> bool) e : existsb q alpha_chars = false -> forallb alpha e = true -> existsb q e = false.
Proof.
  intros Hq He. apply (existsb_incl q alpha_chars); [|exact Hq]. intros d Hd.
  rewrite forallb_forall in He. specialize (He d Hd). apply orb_true_iff in He.
  apply in_or_app. destruct He as [He|He]; [left|right]; apply mem_In, He.
Qed.

Lemma alpha_ascii e : forallb alpha e = true -> kb_nd e = false.
Proof. now apply alpha_none. Qed.

Lemma ends_elems l : ends_with_tok l = true -> elems l <> [].
Proof.
  induction l as [|i l IH]; [discriminate|]. cbn [ends_with_tok]. destruct l as [|j l'].
  - destruct i; cbn; try discriminate.
  - intros H. specialize (IH H). destruct i; cbn [elems]; [discriminate|exact IH|exact IH].
Qed.

Lemma clean_no_bad l : clean l = true -> existsb bad_skip l = false /\ existsb empty_elt (elems l) = false.
Proof.
  unfold clean. induction l as [|i l IH]; [split; reflexivity|]. cbn [forallb]. intros H.
  apply andb_true_iff in H. destruct H as [Hi Hl]. destruct (IH Hl) as [I1 I2].
  destruct i as [[k t]|c|]; [| |discriminate]; cbn [existsb elems bad_skip clean_item] in *.
  - destruct t; [discriminate|]. cbn [empty_elt orb]. split; assumption.
  - rewrite Hi. cbn [negb orb]. split; assumption.
Qed.

Lemma flat_nil_inv l : forallb wf_item l = true -> clean l = true -> flat l = [] -> l = [].
Proof.
  intros Hwf Hcl H. destruct l as [|i l]; [reflexivity|].
  exfalso. apply (ends_flat (i :: l) Hwf Hcl); [discriminate|exact H].
Qed.

Lemma rescan l : forallb wf_item l = true -> clean l = true -> l <> [] ->
  clean (dec_items (flat l)) = true /\ flat (dec_items (flat l)) = flat l /\
  ends_with_tok (dec_items (flat l)) = ends_with_tok l.
Proof.
  intros Hwf Hcl Hne. pose proof (flat_alpha l Hwf Hcl) as Ha.
  assert (Hcl' : clean (dec_items (flat l)) = true) by now apply rescan_clean, vf_flat.
  assert (Hfl : flat (dec_items (flat l)) = flat l).
  { rewrite flat_plain; [apply flat_upper|]. now apply (alpha_none (N.eqb 40)). }
  repeat split; try assumption.
  destruct (ends_flat l Hwf Hcl Hne) as [Hfne He].
  destruct (ends_flat _ (scan_wf (flat l)) Hcl') as [_ He'].
  { intros H. rewrite H in Hfl. now symmetry in Hfl. }
  now rewrite He', Hfl.
Qed.

Lemma expansion_not_bad e : forallb alpha e = true -> clean (dec_items e) = true ->
  ends_with_tok (dec_items e) = true -> sp_expand e = Some e -> lastonly e = false ->
  Nat.eqb (sp_positions e) 0 = false -> known_bad e = false.
Proof.
  intros Ha Hcl Hend Hexp Hlo Hzp.
  pose proof (alpha_ascii e Ha) as Knd.
  assert (Klow : kb_lower e = false) by now apply alpha_none.
  assert (Hnp : mem 40 e = false) by now apply alpha_none.
  destruct (clean_no_bad _ Hcl) as [Nb Ne].
  unfold known_bad, known_code, kb_nomatch, kb_skip, kb_zero, kb_lastonly, kb_zeropos, kb_repnum, sp_parse.
  rewrite (items_same e Klow), Knd, Klow, Nb, Ne, Hexp, Hlo. cbn [option_map sp_summary positions].
  rewrite Hzp, Hnp, !andb_false_r.
  destruct (elems (dec_items e)) eqn:E; [now apply ends_elems in Hend|reflexivity].
Qed.

Lemma expansion_ok s e r : known_bad s = false -> sp_expand s = Some e -> dec_parse s = Some (Ok r) ->
  known_bad e = false /\ ends_with_tok (dec_items e) = true /\ flat (dec_items e) = e /\ sp_expand e = Some e /\
  flat (dec_items s) = e.
Proof.
  intros Hkb Hexp Hr.
  destruct (dec_parse_shape s r (kb_dec_weaker s Hkb) Hr) as ((Hcl & Hwf & Hend & Hexp') & _).
  rewrite Hexp in Hexp'. injection Hexp' as He.
  pose proof (flat_alpha _ Hwf Hcl) as Ha.
  destruct (rescan _ Hwf Hcl (ends_nonempty _ Hend)) as (Hcl' & Hfl & Hend').
  rewrite Hend in Hend'. rewrite <- He in *.
  assert (Hexp2 : sp_expand e = Some e).
  { rewrite <- Hfl at 2. destruct e as [|c t]; [discriminate Hend'|]. unfold sp_expand.
    apply clean_expand; [now left|exact Hcl'|apply existsb_false_forallb, alpha_ascii, Ha]. }
  destruct (known_bad_false s Hkb) as (_ & _ & _ & _ & _ & Klo & Kzp & _).
  unfold kb_lastonly in Klo. unfold kb_zeropos, sp_parse in Kzp. rewrite Hexp in Klo, Kzp.
  repeat split; try assumption. now apply expansion_not_bad.
Qed.

Lemma dec_parse_accept e : known_bad e = false -> ends_with_tok (dec_items e) = true ->
  exists r', dec_parse e = Some (Ok r').
Proof.
  intros Hkb Hend. destruct (accepted_facts e (kb_dec_weaker e Hkb) Hend) as (_ & _ & Hsize).
  unfold dec_parse. rewrite dec_normalize_eq, Hend, Hsize. eexists. reflexivity.
Qed.

Lemma repeat_full s e r : known_bad s = false -> sp_expand s = Some e -> dec_parse s = Some (Ok r) ->
  exists r', dec_parse e = Some (Ok r') /\ p_size r' = p_size r /\
    g_sign (p_groups r') = g_sign (p_groups r) /\
    length (g_int (p_groups r')) = length (g_int (p_groups r)) /\
    length (g_frac (p_groups r')) = length (g_frac (p_groups r)) /\ p_zoned r' = p_zoned r.
Proof.
  intros Hkb Hexp Hr.
  destruct (expansion_ok s e r Hkb Hexp Hr) as (Hkb' & Hend' & Hfl' & Hexp' & Hfl).
  destruct (dec_parse_accept e Hkb' Hend') as [r' Hr']. exists r'. split; [exact Hr'|].
  (* both results are the same functions of the same expansion *)
  destruct (dec_parse_shape s r (kb_dec_weaker s Hkb) Hr) as (_ & F1 & F2 & F3 & F4 & F5).
  destruct (dec_parse_shape e r' (kb_dec_weaker e Hkb') Hr') as (_ & F1' & F2' & F3' & F4' & F5').
  rewrite Hfl in *. rewrite Hfl' in *. repeat split; congruence.
Qed.

(* the decoder's size, digit groups and class are the specification's, for every accepted string outside its findings *)
Lemma dec_summary_dec s r : kb_dec s = false -> dec_parse s = Some (Ok r) ->
  exists v, sp_parse s = Some v /\ p_size r = positions v /\ length (g_int (p_groups r)) = int_digits v /\
            length (g_frac (p_groups r)) = frac_digits v /\ p_zoned r = numeric v /\
            forallb (fun c => negb (sp_foreign c)) s = true.
Proof.
  intros Hkb Hr. destruct (dec_parse_shape s r Hkb Hr) as ((_ & _ & _ & Hexp) & Hsz & _ & Hi & Hf & Hz).
  destruct (kb_dec_false s Hkb) as (_ & _ & _ & _ & Hzp). unfold kb_zeropos, sp_parse in Hzp.
  rewrite Hexp in Hzp. cbn [option_map sp_summary positions] in Hzp. rewrite Hzp in Hz.
  exists (sp_summary (flat (dec_items s))). unfold sp_parse. rewrite Hexp.
  repeat split; try assumption. exact (expand_no_foreign _ _ Hexp).
Qed.

Require SR.Spec.SchemaTruth.

(* the bridge to the abstract pictures of the codec properties (Spec/SchemaTruth.v) *)
Notation ddf := SchemaTruth.dec_digits_fuel.
Notation dec_text := SchemaTruth.dec_text.
Notation prun := SchemaTruth.run.
Notation pic_text := SchemaTruth.pic_text.

(* the decimal numeral of k: ASCII digits, not empty, value k *)
Lemma dd_app f : forall n acc, ddf f n acc = ddf f n [] ++ acc.
Proof.
  induction f as [|f IH]; intros n acc; [reflexivity|]. cbn [SchemaTruth.dec_digits_fuel]. cbv zeta.
  destruct (n / 10 =? 0); [reflexivity|].
  rewrite (IH (n / 10) ((48 + n mod 10) :: acc)), (IH (n / 10) [48 + n mod 10]).
  now rewrite <- app_assoc.
Qed.

Lemma cv_app n a b : cv n (a ++ b) = cv (cv n a) b.
Proof. unfold cv. apply fold_left_app. Qed.

Lemma dd_val f : forall n, (N.to_nat n < f)%nat -> cv 0 (ddf f n []) = n.
Proof.
  induction f as [|f IH]; intros n Hn; [inversion Hn|]. cbn [SchemaTruth.dec_digits_fuel]. cbv zeta.
  assert (Hd : forall q, cv q [48 + n mod 10] = 10 * q + n mod 10).
  { intros q. cbn [cv fold_left]. now rewrite (N.add_comm 48), N.add_sub, N.mul_comm. }
  destruct (n / 10 =? 0) eqn:E.
  - apply N.eqb_eq in E. rewrite Hd, <- E. symmetry. now apply N.div_mod.
  - apply N.eqb_neq in E. rewrite dd_app, cv_app, IH, Hd; [symmetry; now apply N.div_mod|].
    assert (n / 10 < n) by (apply N.div_lt; [destruct n; [now elim E|]|]; reflexivity). clear - H Hn. lia.
Qed.

Lemma dd_digits f : forall n acc, forallb sp_digit acc = true -> forallb sp_digit (ddf f n acc) = true.
Proof.
  induction f as [|f IH]; intros n acc Ha; [exact Ha|]. cbn [SchemaTruth.dec_digits_fuel]. cbv zeta.
  assert (Hd : forallb sp_digit ((48 + n mod 10) :: acc) = true).
  { cbn [forallb]. rewrite Ha, andb_true_r. unfold sp_digit.
    pose proof (N.mod_lt n 10 ltac:(lia)). lia. }
  destruct (n / 10 =? 0); [exact Hd|]. now apply IH.
Qed.

Lemma dd_nonempty f n acc : ddf (S f) n acc <> [].
Proof.
  cbn [SchemaTruth.dec_digits_fuel]. cbv zeta. destruct (n / 10 =? 0); [discriminate|].
  rewrite dd_app. intros H. apply app_eq_nil in H. destruct H as [_ H]. discriminate.
Qed.

Lemma dec_text_facts k :
  forallb sp_digit (dec_text k) = true /\ dec_text k <> [] /\ count_value (dec_text k) = N.of_nat k.
Proof.
  unfold SchemaTruth.dec_text. split; [now apply dd_digits|]. split; [apply dd_nonempty|].
  rewrite count_value_ascii by now apply dd_digits. apply dd_val. lia.
Qed.

Lemma span_digits ds rest : forallb sp_digit ds = true -> span is_nd (ds ++ 41 :: rest) = (ds, 41 :: rest).
Proof.
  induction ds as [|d r IH]; intros H.
  - cbn [app span]. change (is_nd 41) with false. reflexivity.
  - cbn [forallb] in H. apply andb_true_iff in H. destruct H as [Hd Hr]. cbn [app span].
    unfold is_nd at 1. change (ascii_digit d) with (sp_digit d). rewrite Hd. cbn [orb]. now rewrite (IH Hr).
Qed.

Lemma repeat_tail_count k rest : repeat_tail (40 :: dec_text k ++ 41 :: rest) = Some (N.of_nat k, rest).
Proof.
  destruct (dec_text_facts k) as (Hd & Hne & Hv). unfold repeat_tail. change (40 =? 40) with true. cbv iota.
  rewrite (span_digits _ _ Hd). destruct (dec_text k) eqn:E; [contradiction|].
  change (41 =? 41) with true. cbv iota. now rewrite Hv.
Qed.

Lemma scan_fuel_irrel ci rc uc f1 : forall f2 s, (length s <= f1)%nat -> (length s <= f2)%nat ->
  scan ci rc uc f1 s = scan ci rc uc f2 s.
Proof.
  induction f1 as [|f1 IH]; intros f2 s H1 H2.
  { destruct s; [destruct f2; reflexivity|simpl in H1; lia]. }
  destruct s as [|c t]; [destruct f2; reflexivity|].
  destruct f2 as [|f2]; [simpl in H2; lia|]. cbn [scan].
  destruct (token_at ci rc uc (c :: t)) as [[e rest]|] eqn:E.
  - f_equal. pose proof (token_at_shorter _ _ _ _ _ _ E) as Hsh.
    apply IH; clear - H1 H2 Hsh; simpl in *; lia.
  - f_equal. apply IH; clear - H1 H2; simpl in *; lia.
Qed.

Lemma items_tok s e rest : token_at false cls cls s = Some (e, rest) -> dec_items s = Tok e :: dec_items rest.
Proof.
  intros H. pose proof (token_at_shorter _ _ _ _ _ _ H) as Hsh.
  destruct s as [|c t]; [discriminate|]. change (dec_items (c :: t)) with (scan false cls cls (S (length t)) (c :: t)).
  cbn [scan]. rewrite H. f_equal.
  apply scan_fuel_irrel; [clear - Hsh; simpl in Hsh; lia|apply le_n].
Qed.

(* what may follow a run of data characters: nothing, or a character that neither continues nor counts it *)
Definition stop (rest : list N) : bool :=
  match rest with [] => true | d :: _ => negb (incls d) && negb (d =? 40) end.

Lemma span_repeat c k rest : incls c = true -> stop rest = true ->
  span incls (repeat c k ++ rest) = (repeat c k, rest).
Proof.
  intros Hc Hs. induction k as [|k IH].
  - cbn [repeat app]. destruct rest as [|d r]; [reflexivity|]. cbn [span stop] in *.
    apply andb_true_iff in Hs. destruct Hs as [Hd _]. apply negb_true_iff in Hd. now rewrite Hd.
  - cbn [repeat app span]. now rewrite Hc, IH.
Qed.

Lemma repeat_tail_stop c k rest : incls c = true -> stop rest = true -> repeat_tail (repeat c k ++ rest) = None.
Proof.
  intros Hc Hs. unfold repeat_tail. destruct k as [|k].
  - cbn [repeat app]. destruct rest as [|d r]; [reflexivity|]. cbn [stop] in Hs.
    apply andb_true_iff in Hs. destruct Hs as [_ Hd]. apply negb_true_iff in Hd. now rewrite Hd.
  - cbn [repeat app]. assert (Hp : (c =? 40) = false) by (mem_split Hc; reflexivity). now rewrite Hp.
Qed.

Lemma items_run c rep k rest : incls c = true -> stop rest = true ->
  dec_items (prun c rep k ++ rest) =
  map Tok (match k with O => [] | S _ => [E KDigit (repeat c k)] end) ++ dec_items rest.
Proof.
  intros Hc Hs. destruct k as [|k]; [reflexivity|]. apply items_tok.
  unfold SchemaTruth.run. destruct rep.
  - cbn [app]. rewrite <- app_assoc. cbn [app].
    rewrite (token_data c _ Hc), (repeat_tail_count (S k) rest), Nat2N.id. reflexivity.
  - cbn [repeat app]. rewrite (token_data c _ Hc), (repeat_tail_stop c k rest Hc Hs), (span_repeat c k rest Hc Hs).
    reflexivity.
Qed.

Lemma items_S t : dec_items (83 :: t) = Tok (E KSign [83]) :: dec_items t.
Proof. apply items_tok. reflexivity. Qed.
Lemma items_V t : dec_items (86 :: t) = Tok (E KDecimal [86]) :: dec_items t.
Proof. apply items_tok. reflexivity. Qed.

Lemma num_items s m n ri rf : dec_items (pic_text (SchemaTruth.PNum s m n ri rf)) = map Tok (num_elems s m n).
Proof.
  unfold SchemaTruth.pic_text, num_elems. rewrite !map_app.
  assert (Hfrac : dec_items (match n with O => [] | S _ => 86 :: prun 57 rf n end)
                  = map Tok (match n with O => [] | S _ => [E KDecimal [86]; E KDigit (repeat 57 n)] end)).
  { destruct n as [|n']; [reflexivity|].
    rewrite items_V, <- (app_nil_r (prun 57 rf (S n'))), items_run by reflexivity. reflexivity. }
  rewrite <- Hfrac. destruct s; cbn [app map].
  - rewrite items_S, items_run; [reflexivity|reflexivity|destruct n; reflexivity].
  - rewrite items_run; [reflexivity|reflexivity|destruct n; reflexivity].
Qed.

Lemma text_items alpha k rep : (1 <= k)%nat ->
  dec_items (pic_text (SchemaTruth.PText alpha k rep)) = [Tok (E KDigit (repeat (text_char alpha) k))].
Proof.
  intros Hk. unfold SchemaTruth.pic_text. rewrite <- (app_nil_r (prun _ rep k)).
  rewrite items_run; [destruct k; [lia|reflexivity]|destruct alpha; reflexivity|reflexivity].
Qed.

Lemma ends_map_tok es : es <> [] -> ends_with_tok (map Tok es) = true.
Proof.
  induction es as [|e es IH]; [contradiction|]. intros _. cbn [map ends_with_tok].
  destruct es as [|e' es']; [reflexivity|]. apply IH. discriminate.
Qed.
Lemma elems_map_tok es : elems (map Tok es) = es.
Proof. induction es as [|e es IH]; [reflexivity|]. cbn [map elems]. now rewrite IH. Qed.

Lemma size_digit c k r acc : size_loop (E KDigit (repeat c (S k)) :: r) acc = size_loop r (acc + S k)%nat.
Proof. cbn [repeat size_loop length]. now rewrite repeat_length. Qed.

Lemma size_sign r acc : size_loop (E KSign [83] :: r) acc = size_loop r (acc + 1)%nat.
Proof. reflexivity. Qed.
Lemma size_V r acc : size_loop (E KDecimal [86] :: r) acc = size_loop r (acc + 0)%nat.
Proof. reflexivity. Qed.

Lemma num_size s m n : size_loop (num_elems s m n) 0 = Ok ((if s then 1 else 0) + m + n)%nat.
Proof.
  unfold num_elems. destruct s, m as [|m], n as [|n]; cbn [app];
    repeat (rewrite size_sign || rewrite size_V || rewrite size_digit); cbn [size_loop]; f_equal; lia.
Qed.

Definition num_groups (s : bool) (m n : nat) : groups :=
  {| g_sign := if s then [83] else []; g_int := repeat 57 m;
     g_sep := match n with O => [] | S _ => [86] end; g_frac := repeat 57 n |}.

Lemma num_groups_eq s m n : digit_groups (num_elems s m n) = num_groups s m n.
Proof. destruct s, m, n; reflexivity. Qed.

Lemma num_zoned s m n : (1 <= m + n)%nat ->
  zoned_decimal (num_elems s m n) ((if s then 1 else 0) + m + n) = true.
Proof.
  intros H. unfold zoned_decimal. rewrite num_groups_eq. cbv zeta. cbn [num_groups g_sign g_int g_sep g_frac].
  rewrite !all9_nines.
  assert (H0 : Nat.eqb ((if s then 1 else 0) + m + n) 0 = false) by (apply Nat.eqb_neq; destruct s; lia).
  rewrite H0. assert (He : has_edit (num_elems s m n) = false) by (destruct s, m, n; reflexivity). rewrite He.
  destruct s, n; reflexivity.
Qed.

Lemma num_nonempty s m n : (1 <= m + n)%nat -> num_elems s m n <> [].
Proof. unfold num_elems. destruct s, m, n; cbn; try discriminate. lia. Qed.

Lemma digit_nolow ds : forallb sp_digit ds = true -> existsb lowtrig ds = false.
Proof.
  induction ds as [|d r IH]; [reflexivity|]. cbn [forallb existsb]. intros H.
  apply andb_true_iff in H. destruct H as [Hd Hr]. rewrite (IH Hr), orb_false_r.
  unfold sp_digit in Hd. unfold lowtrig, mem. cbn [existsb]. lia.
Qed.

Lemma repeat_nolow c k : lowtrig c = false -> existsb lowtrig (repeat c k) = false.
Proof. intros H. induction k as [|k IH]; [reflexivity|]. cbn [repeat existsb]. now rewrite H, IH. Qed.

Lemma run_nolow c rep k : lowtrig c = false -> existsb lowtrig (prun c rep k) = false.
Proof.
  intros H. unfold SchemaTruth.run. destruct k as [|k]; [reflexivity|]. destruct rep.
  - cbn [existsb]. rewrite H, existsb_app.
    destruct (dec_text_facts (S k)) as (Hd & _). rewrite (digit_nolow _ Hd). reflexivity.
  - now apply repeat_nolow.
Qed.

Lemma pic_nolow p : kb_lower (pic_text p) = false.
Proof.
  unfold kb_lower. change (fun c : N => mem c [97; 98; 99; 100; 112; 114; 115; 118; 120; 122; 383]) with lowtrig.
  destruct p as [s m n ri rf|alpha k rep]; unfold SchemaTruth.pic_text.
  - rewrite !existsb_app, (run_nolow 57 ri m) by reflexivity.
    assert (Hs : existsb lowtrig (if s then [83] else []) = false) by (destruct s; reflexivity). rewrite Hs.
    destruct n as [|n]; [reflexivity|]. cbn [existsb orb]. now rewrite (run_nolow 57 rf (S n)).
  - apply run_nolow. destruct alpha; reflexivity.
Qed.

Lemma printed_generator p es : dec_normalize (pic_text p) = Some (Ok es) -> gen_normalize (pic_text p) = Some (Ok es).
Proof.
  rewrite gen_normalize_eq, dec_normalize_eq, (items_same _ (pic_nolow p)).
  destruct (ends_with_tok (dec_items (pic_text p))) eqn:E; [|discriminate].
  intros H. injection H as <-. pose proof (ends_elems _ E) as Hne.
  destruct (elems (dec_items (pic_text p))); [contradiction|reflexivity].
Qed.

Lemma printed_elements p : pic_nonempty p = true ->
  exists es, dec_normalize (pic_text p) = Some (Ok es) /\ gen_normalize (pic_text p) = Some (Ok es) /\
             es = match p with
                  | SchemaTruth.PNum s m n _ _ => num_elems s m n
                  | SchemaTruth.PText alpha k _ => [E KDigit (repeat (text_char alpha) k)]
                  end.
Proof.
  intros H.
  enough (Hd : dec_normalize (pic_text p) = Some (Ok match p with
                  | SchemaTruth.PNum s m n _ _ => num_elems s m n
                  | SchemaTruth.PText alpha k _ => [E KDigit (repeat (text_char alpha) k)]
                  end)) by (eexists; split; [exact Hd|split; [apply printed_generator, Hd|reflexivity]]).
  rewrite dec_normalize_eq. destruct p as [s m n ri rf|alpha k rep]; cbn [pic_nonempty] in H; apply Nat.leb_le in H.
  - rewrite (num_items s m n ri rf), (ends_map_tok _ (num_nonempty s m n H)), elems_map_tok. reflexivity.
  - rewrite (text_items alpha k rep H). reflexivity.
Qed.

(* finding 4, exactly: the generator calls a printed numeric picture numeric iff no digit run is written with a count *)
Lemma run_svp9 rep k : forallb upper_in_SVP9 (prun 57 rep k) = negb (rep && negb (Nat.eqb k 0)).
Proof.
  unfold SchemaTruth.run. destruct k as [|k]; [now rewrite andb_false_r|]. destruct rep; [reflexivity|].
  cbn [andb negb]. induction (S k) as [|j IH]; [reflexivity|]. cbn [repeat forallb]. exact IH.
Qed.

Lemma gen_numeric_forallb s : s <> [] -> gen_numeric s = forallb upper_in_SVP9 s.
Proof. destruct s; [contradiction|reflexivity]. Qed.

Lemma printed_numeric_class s m n ri rf : (1 <= m + n)%nat ->
  gen_numeric (pic_text (SchemaTruth.PNum s m n ri rf)) = negb (SchemaTruth.written_with_repeat (SchemaTruth.PNum s m n ri rf)).
Proof.
  intros H. rewrite gen_numeric_forallb.
  - unfold SchemaTruth.pic_text, SchemaTruth.written_with_repeat. rewrite !forallb_app, run_svp9.
    assert (Hs : forallb upper_in_SVP9 (if s then [83] else []) = true) by (destruct s; reflexivity). rewrite Hs.
    rewrite negb_orb. cbn [andb]. f_equal.
    destruct n as [|n]; [now rewrite andb_false_r|]. cbn [forallb]. rewrite run_svp9. reflexivity.
  - intros E. apply (num_nonempty s m n H). pose proof (num_items s m n ri rf) as Hi. rewrite E in Hi.
    now destruct (num_elems s m n).
Qed.

Lemma printed_numeric s m n ri rf : (1 <= m + n)%nat ->
  exists r, dec_parse (pic_text (SchemaTruth.PNum s m n ri rf)) = Some (Ok r) /\
    p_size r = ((if s then 1 else 0) + m + n)%nat /\
    g_sign (p_groups r) = (if s then [83] else []) /\
    length (g_int (p_groups r)) = m /\ length (g_frac (p_groups r)) = n /\
    g_int (p_groups r) = repeat 57 m /\ g_frac (p_groups r) = repeat 57 n /\
    p_zoned r = true.
Proof.
  intros H. eexists. split.
  - unfold dec_parse. rewrite dec_normalize_eq, (num_items s m n ri rf).
    rewrite (ends_map_tok _ (num_nonempty s m n H)), elems_map_tok, num_size, num_groups_eq, (num_zoned s m n H).
    reflexivity.
  - cbn [p_size p_groups p_zoned num_groups g_sign g_int g_frac]. rewrite !repeat_length. repeat split; reflexivity.
Qed.

Lemma printed_text alpha k rep : (1 <= k)%nat ->
  exists r, dec_parse (pic_text (SchemaTruth.PText alpha k rep)) = Some (Ok r) /\
    p_size r = k /\ p_zoned r = false /\ g_sign (p_groups r) = [] /\ g_frac (p_groups r) = [].
Proof.
  intros H. destruct k as [|k]; [lia|]. eexists. split.
  - unfold dec_parse. rewrite dec_normalize_eq, (text_items alpha (S k) rep H).
    cbn [ends_with_tok is_tok elems]. rewrite size_digit. reflexivity.
  - (* A and X are not 9 *)
    cbn [p_size p_zoned p_groups]. repeat split; destruct alpha; reflexivity.
Qed.
