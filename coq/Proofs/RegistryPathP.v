(* Lemmas for C14c: from a path to its name (Model/RegistryPath.v) and from the name to its suffix
   ([path_suffix], Model/Registry.v). *)
From Coq Require Import NArith List Bool Arith Lia.
Import ListNotations.
Require Import SR.Model.Registry SR.Model.RegistryPath SR.Proofs.ListFactsP.
Open Scope N_scope.

Lemma not_in_app {A} (x : A) l1 l2 : ~ In x (l1 ++ l2) <-> ~ In x l1 /\ ~ In x l2.
Proof. rewrite in_app_iff. tauto. Qed.

Lemma last_app_nonempty {A} (l1 l2 : list A) d : l2 <> [] -> last (l1 ++ l2) d = last l2 d.
Proof.
  intros H. induction l1 as [|x l1 IH]; [reflexivity|].
  cbn [app]. destruct (l1 ++ l2) eqn:E; [apply app_eq_nil in E as [_ E]; contradiction|].
  cbn [last]. exact IH.
Qed.

Lemma last_piece (c : N) (d : str) : ~ In c d \/ exists a b, d = a ++ c :: b /\ ~ In c b.
Proof.
  induction d as [|x d IH] using rev_ind; [left; intros []|].
  destruct (N.eq_dec x c) as [->|Hx].
  - right. exists d, []. split; [reflexivity|intros []].
  - destruct IH as [H|(a & b & -> & Hb)].
    + left. apply not_in_app. split; [exact H|]. intros [E|[]]. exact (Hx E).
    + right. exists a, (b ++ [x]). split; [rewrite <- app_assoc; reflexivity|].
      apply not_in_app. split; [exact Hb|]. intros [E|[]]. exact (Hx E).
Qed.

Lemma split_slash_nonempty p : split_slash p <> [].
Proof.
  destruct p as [|c t]; cbn [split_slash]; [discriminate|].
  destruct (c =? slash); [discriminate|]. destruct (split_slash t); discriminate.
Qed.

Lemma split_noslash s : ~ In slash s -> split_slash s = [s].
Proof.
  induction s as [|c t IH]; intros H; cbn [split_slash]; [reflexivity|].
  apply not_in_cons in H as [Hc Ht].
  destruct (N.eqb_spec c slash) as [->|_]; [contradiction|].
  rewrite (IH Ht). reflexivity.
Qed.

Lemma split_app_slash a b : split_slash (a ++ slash :: b) = split_slash a ++ split_slash b.
Proof.
  induction a as [|c t IH]; cbn [app split_slash].
  - rewrite N.eqb_refl. reflexivity.
  - rewrite IH. destruct (c =? slash); [reflexivity|].
    destruct (split_slash t) as [|h r] eqn:E; [exfalso; exact (split_slash_nonempty t E)|]. reflexivity.
Qed.

Lemma split_pieces_noslash p : Forall (fun x => ~ In slash x) (split_slash p).
Proof.
  induction p as [|c t IH]; cbn [split_slash]; [constructor; [intros []|constructor]|].
  destruct (N.eqb_spec c slash) as [->|Hc]; [constructor; [intros []|exact IH]|].
  destruct (split_slash t) as [|h r]; [constructor; [|constructor]|].
  - intros [H|[]]. exact (Hc H).
  - inversion IH as [|? ? Hh Hr]; subst. constructor; [|exact Hr].
    intros [H|H]; [exact (Hc H)|exact (Hh H)].
Qed.

Definition tail_of (p : str) : list str := filter keep_part (split_slash p).

Lemma tail_of_slash t : tail_of (slash :: t) = tail_of t.
Proof. unfold tail_of. cbn [split_slash]. rewrite N.eqb_refl. reflexivity. Qed.

(* the root that splitroot takes off is one, two or three slashes, and leading slashes add no piece *)
Lemma path_tail_eq p : path_tail p = tail_of p.
Proof.
  destruct p as [|c0 t0]; [reflexivity|].
  unfold path_tail, splitroot.
  destruct (N.eqb_spec c0 slash) as [->|_]; [|reflexivity].
  rewrite tail_of_slash.
  destruct t0 as [|c1 t1]; [reflexivity|].
  destruct (N.eqb_spec c1 slash) as [->|_]; [|reflexivity].
  destruct t1 as [|c2 t2]; [cbn [snd]; rewrite tail_of_slash; reflexivity|].
  destruct (c2 =? slash); cbn [snd]; [reflexivity|rewrite tail_of_slash; reflexivity].
Qed.

Lemma tail_app_slash a b : tail_of (a ++ slash :: b) = tail_of a ++ tail_of b.
Proof. unfold tail_of. rewrite split_app_slash, filter_app. reflexivity. Qed.

Lemma tail_noslash s : ~ In slash s -> tail_of s = if keep_part s then [s] else [].
Proof. intros H. unfold tail_of. rewrite (split_noslash s H). reflexivity. Qed.

Lemma path_name_eq p : path_name p = last (tail_of p) [].
Proof. unfold path_name. rewrite path_tail_eq. reflexivity. Qed.

(* the part after the last slash decides, when it is a name ... *)
Lemma path_name_after_slash a b : tail_of b <> [] -> path_name (a ++ slash :: b) = path_name b.
Proof. intros H. rewrite !path_name_eq, tail_app_slash. apply last_app_nonempty. exact H. Qed.

(* ... and is skipped when it is not *)
Lemma path_name_skip a b : tail_of b = [] -> path_name (a ++ slash :: b) = path_name a.
Proof. intros H. rewrite !path_name_eq, tail_app_slash, H, app_nil_r. reflexivity. Qed.

Lemma path_name_noslash s : ~ In slash s -> keep_part s = true -> path_name s = s.
Proof. intros H K. rewrite path_name_eq, (tail_noslash s H), K. reflexivity. Qed.

Lemma path_name_last a b : ~ In slash b -> keep_part b = true -> path_name (a ++ slash :: b) = b.
Proof.
  intros H K. rewrite path_name_after_slash; [apply path_name_noslash; assumption|].
  rewrite (tail_noslash b H), K. discriminate.
Qed.

Lemma keep_part_app a b : a <> [] -> b <> [] -> keep_part (a ++ b) = true.
Proof.
  intros Ha Hb. destruct a as [|x a]; [contradiction|]. cbn [app keep_part].
  destruct (a ++ b) eqn:E; [|reflexivity]. apply app_eq_nil in E as [_ E]. contradiction.
Qed.

(* the name of dir ++ stem ++ rest, stem and rest non-empty and slash-free: what follows the last slash of
   dir, then stem ++ rest (two characters at least, so the piece is kept) *)
Lemma name_of_dir_stem (dir stem rest : str) : stem <> [] -> rest <> [] -> ~ In slash (stem ++ rest) ->
  exists seg0, path_name (dir ++ stem ++ rest) = (seg0 ++ stem) ++ rest.
Proof.
  intros Hstem Hrest Hs.
  assert (K : forall seg0, keep_part ((seg0 ++ stem) ++ rest) = true).
  { intros seg0. apply keep_part_app; [|exact Hrest]. intros E. apply app_eq_nil in E as [_ E]. contradiction. }
  destruct (last_piece slash dir) as [H|(a & b & -> & Hb)].
  - exists dir. rewrite app_assoc. apply path_name_noslash; [|apply K].
    rewrite <- app_assoc. apply not_in_app. split; assumption.
  - exists b. rewrite <- !app_assoc. cbn [app]. rewrite !app_assoc. apply path_name_last; [|apply K].
    rewrite <- app_assoc. apply not_in_app. split; assumption.
Qed.

Lemma path_name_noslash_any p : ~ In slash (path_name p).
Proof.
  rewrite path_name_eq. unfold tail_of.
  assert (H : Forall (fun x => ~ In slash x) (filter keep_part (split_slash p))).
  { apply Forall_forall. intros x Hx. apply filter_In in Hx as [Hx _].
    pose proof (split_pieces_noslash p) as F. rewrite Forall_forall in F. apply F. exact Hx. }
  induction (filter keep_part (split_slash p)) as [|x l IH]; [intros []|].
  inversion H as [|? ? Hx Hl]; subst. destruct l as [|y l']; [exact Hx|]. apply IH. exact Hl.
Qed.

(* name.rfind('.'), without the running index and the accumulator of [rfind_dot] *)
Fixpoint rfind (s : str) : option nat :=
  match s with
  | [] => None
  | c :: t => match rfind t with
              | Some k => Some (S k)
              | None => if c =? dot then Some O else None
              end
  end.

Lemma rfind_dot_eq s : forall i acc,
  rfind_dot s i acc = match rfind s with Some k => Some (i + k)%nat | None => acc end.
Proof.
  induction s as [|c t IH]; intros i acc; cbn [rfind_dot rfind]; [reflexivity|].
  rewrite IH. destruct (rfind t) as [k|]; [f_equal; lia|].
  destruct (c =? dot); [f_equal; lia|reflexivity].
Qed.

Lemma path_suffix_rfind s :
  path_suffix s = match rfind s with
                  | Some i => if (0 <? i)%nat && (i <? length s - 1)%nat then skipn i s else []
                  | None => []
                  end.
Proof. unfold path_suffix. rewrite rfind_dot_eq. destruct (rfind s); reflexivity. Qed.

Lemma rfind_none s : ~ In dot s -> rfind s = None.
Proof.
  induction s as [|c t IH]; intros H; cbn [rfind]; [reflexivity|].
  apply not_in_cons in H as [Hc Ht]. rewrite (IH Ht).
  destruct (N.eqb_spec c dot) as [->|_]; [contradiction|reflexivity].
Qed.

Lemma rfind_app a e : ~ In dot e -> rfind (a ++ dot :: e) = Some (length a).
Proof.
  intros H. induction a as [|c a IH]; cbn [app rfind length].
  - rewrite (rfind_none e H), N.eqb_refl. reflexivity.
  - rewrite IH. reflexivity.
Qed.

(* the last dot of the name starts the suffix when something stands before it and something after it *)
Lemma path_suffix_dot a e : a <> [] -> e <> [] -> ~ In dot e -> path_suffix (a ++ dot :: e) = dot :: e.
Proof.
  intros Ha He Hd. rewrite path_suffix_rfind, (rfind_app a e Hd), skipn_exact.
  assert (H1 : (0 <? length a)%nat = true) by (apply Nat.ltb_lt; destruct a; [contradiction|cbn; lia]).
  assert (H2 : (length a <? length (a ++ dot :: e) - 1)%nat = true).
  { apply Nat.ltb_lt. rewrite app_length. cbn [length]. destruct e; [contradiction|cbn [length]; lia]. }
  rewrite H1, H2. reflexivity.
Qed.

Lemma path_suffix_trailing_dot a : path_suffix (a ++ [dot]) = [].
Proof.
  rewrite path_suffix_rfind, (rfind_app a []) by (intros []).
  assert (H : (length a <? length (a ++ [dot]) - 1)%nat = false).
  { apply Nat.ltb_ge. rewrite app_length. cbn [length]. lia. }
  rewrite H, andb_false_r. reflexivity.
Qed.

Lemma path_suffix_leading_dot e : ~ In dot e -> path_suffix (dot :: e) = [].
Proof. intros H. rewrite path_suffix_rfind, (rfind_app [] e H : rfind (dot :: e) = _). reflexivity. Qed.

Lemma path_suffix_nodot s : ~ In dot s -> path_suffix s = [].
Proof. intros H. rewrite path_suffix_rfind, (rfind_none s H). reflexivity. Qed.

Lemma path_suffix_shape s :
  path_suffix s = [] \/
  exists a e, s = a ++ dot :: e /\ a <> [] /\ e <> [] /\ ~ In dot e /\ path_suffix s = dot :: e.
Proof.
  destruct (last_piece dot s) as [H|(a & e & -> & He)]; [left; apply path_suffix_nodot; exact H|].
  destruct a as [|x a]; [left; apply path_suffix_leading_dot; exact He|].
  destruct e as [|y e]; [left; apply path_suffix_trailing_dot|].
  right. exists (x :: a), (y :: e). repeat split; try discriminate; [exact He|].
  apply path_suffix_dot; [discriminate|discriminate|exact He].
Qed.

Lemma reg_style_iff s : reg_style s = true <-> exists e, s = dot :: e /\ e <> [] /\ ~ In dot e /\ ~ In slash e.
Proof.
  split.
  - destruct s as [|c e]; cbn [reg_style]; [discriminate|]. intros H.
    apply andb_prop in H as [H H3]. apply andb_prop in H as [H1 H2].
    apply N.eqb_eq in H1. subst c. exists e. split; [reflexivity|].
    split; [destruct e; [discriminate H2|discriminate]|].
    rewrite forallb_forall in H3. split; intros Hin; apply H3 in Hin; apply andb_prop in Hin as [A B].
    + rewrite N.eqb_refl in A. discriminate A.
    + rewrite N.eqb_refl in B. discriminate B.
  - intros (e & -> & He & Hd & Hs). cbn [reg_style]. rewrite N.eqb_refl. cbn [andb].
    destruct e as [|x e']; [contradiction|]. cbn [negb andb]. apply forallb_forall. intros y Hy.
    apply andb_true_intro. split; apply negb_true_iff, N.eqb_neq; intros ->; [exact (Hd Hy)|exact (Hs Hy)].
Qed.

Lemma dot_noslash e : ~ In slash e -> ~ In slash (dot :: e).
Proof. intros H [E|E]; [discriminate E|exact (H E)]. Qed.

(* dir ++ stem ++ sfx: whatever stands in front (directories with dots, leading slashes, dots inside
   the stem), a non-empty slash-free stem followed by a registered-style suffix has that suffix *)
Lemma suffix_exact (dir stem sfx : str) :
  stem <> [] -> ~ In slash stem -> reg_style sfx = true -> suffix_of_path (dir ++ stem ++ sfx) = sfx.
Proof.
  intros Hne Hns Hsty. apply reg_style_iff in Hsty. destruct Hsty as (e & -> & He & Hd & Hs).
  destruct (name_of_dir_stem dir stem (dot :: e) Hne) as (seg0 & Hname); [discriminate| |].
  { apply not_in_app. split; [exact Hns|exact (dot_noslash e Hs)]. }
  unfold suffix_of_path. rewrite Hname. apply path_suffix_dot; [|exact He|exact Hd].
  intros E. apply app_eq_nil in E as [_ E]. contradiction.
Qed.

(* a trailing '..' component is kept as the name, and is not resolved: no suffix *)
Lemma suffix_dotdot p : suffix_of_path (p ++ [slash; dot; dot]) = [] /\ suffix_of_path [dot; dot] = [].
Proof.
  split; [|reflexivity]. unfold suffix_of_path. rewrite (path_name_last p [dot; dot]); [reflexivity|intros [E|[E|[]]]; discriminate E|reflexivity].
Qed.

(* a name that begins with its only dot (a dot-file) has no suffix *)
Lemma suffix_dotfile (dir e : str) :
  dir = [] \/ (exists d, dir = d ++ [slash]) -> e <> [] -> ~ In dot e -> ~ In slash e ->
  suffix_of_path (dir ++ dot :: e) = [].
Proof.
  intros Hdir He Hd Hs. pose proof (dot_noslash e Hs) as Hn.
  assert (K : keep_part (dot :: e) = true) by (destruct e; [contradiction|reflexivity]).
  unfold suffix_of_path. destruct Hdir as [->|(d & ->)].
  - cbn [app]. rewrite (path_name_noslash _ Hn K). apply path_suffix_leading_dot. exact Hd.
  - rewrite <- app_assoc. cbn [app]. rewrite (path_name_last _ _ Hn K). apply path_suffix_leading_dot. exact Hd.
Qed.

Lemma suffix_name_ends_in_dot (dir stem : str) :
  stem <> [] -> ~ In slash stem -> suffix_of_path (dir ++ stem ++ [dot]) = [].
Proof.
  intros Hne Hns.
  destruct (name_of_dir_stem dir stem [dot] Hne) as (seg0 & Hname); [discriminate| |].
  { apply not_in_app. split; [exact Hns|]. intros [E|[]]. discriminate E. }
  unfold suffix_of_path. rewrite Hname. apply path_suffix_trailing_dot.
Qed.

Lemma suffix_dirs_do_not_count (dir name : str) :
  name <> [] -> ~ In dot name -> ~ In slash name -> suffix_of_path (dir ++ slash :: name) = [].
Proof.
  intros Hne Hd Hs. unfold suffix_of_path.
  assert (K : keep_part name = true).
  { destruct name as [|c [|c' t]]; [contradiction| |reflexivity]. cbn [keep_part].
    apply negb_true_iff, N.eqb_neq. intros ->. apply Hd. left. reflexivity. }
  rewrite (path_name_last _ _ Hs K). apply path_suffix_nodot. exact Hd.
Qed.

Lemma no_piece_tail t : no_piece t = true <-> tail_of t = [].
Proof. unfold no_piece, tail_of. destruct (filter keep_part (split_slash t)); split; intros H; try reflexivity; discriminate H. Qed.

Lemma trailing_skip (q t : str) : trailing t = true -> path_name (q ++ t) = path_name q.
Proof.
  destruct t as [|c t']; intros H; [rewrite app_nil_r; reflexivity|].
  cbn [trailing] in H. apply andb_prop in H as [Hc Hn]. apply N.eqb_eq in Hc. subst c.
  apply path_name_skip. apply no_piece_tail. exact Hn.
Qed.

Lemma trailing_extend (t b : str) : trailing t = true -> tail_of b = [] -> trailing (t ++ slash :: b) = true.
Proof.
  intros Ht Hb. destruct t as [|c t']; cbn [app trailing].
  - rewrite N.eqb_refl. apply no_piece_tail. exact Hb.
  - cbn [trailing] in Ht. apply andb_prop in Ht as [Hc Hn]. rewrite Hc. cbn [andb].
    apply no_piece_tail. rewrite tail_app_slash, Hb, app_nil_r. apply no_piece_tail. exact Hn.
Qed.

Lemma name_decomp (nm s : str) : ~ In slash nm -> path_suffix nm = s -> s <> [] ->
  exists stem, nm = stem ++ s /\ stem <> [] /\ ~ In slash stem /\ reg_style s = true.
Proof.
  intros Hns Hs Hne. destruct (path_suffix_shape nm) as [H|(a & e & Hn & Ha & He & Hd & Hsx)].
  - rewrite H in Hs. subst s. contradiction.
  - rewrite Hsx in Hs. subst s. exists a. rewrite Hn in Hns.
    apply not_in_app in Hns as [Hna Hne']. apply not_in_cons in Hne' as [_ Hse].
    repeat split; [exact Hn|exact Ha|exact Hna|].
    apply reg_style_iff. exists e. repeat split; assumption.
Qed.

Lemma suffix_rule_if (dir stem s t : str) :
  stem <> [] -> ~ In slash stem -> reg_style s = true -> trailing t = true ->
  suffix_of_path (dir ++ stem ++ s ++ t) = s.
Proof.
  intros H1 H2 H3 H4. unfold suffix_of_path.
  replace (dir ++ stem ++ s ++ t) with ((dir ++ stem ++ s) ++ t) by (rewrite <- !app_assoc; reflexivity).
  rewrite (trailing_skip _ t H4). apply (suffix_exact dir stem s H1 H2 H3).
Qed.

(* by induction on the length: take off what follows the last slash when it is not a name *)
Lemma suffix_rule_only_if : forall (n : nat) (p s : str), (length p <= n)%nat ->
  suffix_of_path p = s -> s <> [] ->
  exists dir stem t, p = dir ++ stem ++ s ++ t /\ stem <> [] /\ ~ In slash stem /\ reg_style s = true /\ trailing t = true.
Proof.
  induction n as [|n IH]; intros p s Hlen Hs Hne.
  - destruct p; [|cbn in Hlen; lia]. subst s. exfalso. apply Hne. reflexivity.
  - unfold suffix_of_path in Hs. destruct (last_piece slash p) as [Hno|(a & b & -> & Hb)].
    + rewrite path_name_eq, (tail_noslash p Hno) in Hs.
      destruct (keep_part p) eqn:K; [|subst s; exfalso; apply Hne; reflexivity].
      cbn [last] in Hs. destruct (name_decomp p s Hno Hs Hne) as (stem & -> & H1 & H2 & H3).
      exists [], stem, []. rewrite app_nil_r. repeat split; assumption.
    + destruct (keep_part b) eqn:K.
      * rewrite (path_name_last a b Hb K) in Hs.
        destruct (name_decomp b s Hb Hs Hne) as (stem & -> & H1 & H2 & H3).
        exists (a ++ [slash]), stem, []. rewrite app_nil_r, <- app_assoc. repeat split; assumption.
      * assert (Tb : tail_of b = []) by (rewrite (tail_noslash b Hb), K; reflexivity).
        rewrite (path_name_skip a b Tb) in Hs.
        assert (Hla : (length a <= n)%nat) by (rewrite app_length in Hlen; cbn [length] in Hlen; lia).
        destruct (IH a s Hla Hs Hne) as (dir & stem & t & -> & H1 & H2 & H3 & H4).
        exists dir, stem, (t ++ slash :: b). rewrite <- !app_assoc.
        repeat split; try assumption. apply trailing_extend; assumption.
Qed.
