(* C15: the loader [walk] / [load] of Model/SchemaMaker.v.  One equation says what [walk] does at a node of each
   kind ([walk_node]); one induction over the document ([walk_ok_all]) gives everything a successful walk
   establishes: the mirror, the invariant [inv] of cache and fix-up list, and the place of every
   DependsOnArraySchema among the references.  Resolution, navigation and the witnesses follow.
   When the walk succeeds is the subject of Proofs/SchemaMakerOdoP.v. *)
From Coq Require Import ZArith List Bool Lia.
Import ListNotations.
Require Import SR.Base.Res SR.Spec.JsonDoc SR.Spec.JsonDocOdo SR.Gen.SchemaMakerParams SR.Model.SchemaMaker.
(* the example and witness documents that occur in theorem statements (Props/) are defined in Spec/SchemaMakerWitness.v *)
Require Export SR.Spec.SchemaMakerWitness.
Require SR.Proofs.ListFactsP.

Lemma str_eqb_iff a : forall b, str_eqb a b = true <-> a = b.
Proof. exact (ListFactsP.Nlist_eqb_eq a). Qed.

Lemma str_eqb_refl s : str_eqb s s = true.
Proof. apply str_eqb_iff. reflexivity. Qed.

Lemma str_eqb_eq a b : str_eqb a b = true -> a = b.
Proof. apply str_eqb_iff. Qed.

Lemma str_eqb_false a b : str_eqb a b = false -> a <> b.
Proof. intros H E. subst b. rewrite str_eqb_refl in H. discriminate. Qed.

Lemma ostr_eqb_iff a b : ostr_eqb a b = true <-> a = b.
Proof.
  destruct a as [x|], b as [y|]; simpl; try easy.
  rewrite str_eqb_iff. split; [intros ->; reflexivity|intros [= ->]; reflexivity].
Qed.

Lemma extra_eqb_iff a : forall b, extra_eqb a b = true <-> a = b.
Proof.
  induction a as [|[k v] a IH]; intros [|[k' v'] b]; simpl; try easy.
  rewrite !andb_true_iff, !str_eqb_iff, IH. split.
  - intros [[-> ->] ->]. reflexivity.
  - intros [= -> -> ->]. auto.
Qed.

Lemma scal_eqb_iff a b : scal_eqb a b = true <-> a = b.
Proof.
  destruct a as [a1 a2 a3 a4 a5 a6], b as [b1 b2 b3 b4 b5 b6]. unfold scal_eqb. simpl.
  rewrite !andb_true_iff, !ostr_eqb_iff, extra_eqb_iff. split.
  - intros [[[[[-> ->] ->] ->] ->] ->]. reflexivity.
  - intros [= -> -> -> -> -> ->]. auto 6.
Qed.

Lemma path_eqb_iff a : forall b, path_eqb a b = true <-> a = b.
Proof.
  induction a as [|x a IH]; intros [|y b]; simpl; try easy.
  rewrite andb_true_iff, Nat.eqb_eq, IH. split.
  - intros [-> ->]. reflexivity.
  - intros [= -> ->]. auto.
Qed.

Lemma kind_eqb_eq a b : kind_eqb a b = true -> a = b.
Proof. destruct a, b; simpl; try discriminate; reflexivity. Qed.

Scheme js_mut := Induction for js Sort Prop
with oalts_mut := Induction for oalts Sort Prop
with alts_mut := Induction for alts Sort Prop
with ojs_mut := Induction for ojs Sort Prop
with oprops_mut := Induction for oprops Sort Prop
with props_mut := Induction for props Sort Prop.
Combined Scheme js_all_ind from js_mut, oalts_mut, alts_mut, ojs_mut, oprops_mut, props_mut.

(* the optional children of a node folded into its case *)
Lemma js_triple_ind (Pj : js -> Prop) (Pa : alts -> Prop) (Pp : props -> Prop) :
  (forall sc o i p,
      (forall l, o = OASome l -> Pa l) -> (forall x, i = OJSome x -> Pj x) -> (forall l, p = OPSome l -> Pp l) ->
      Pj (Node sc o i p)) ->
  Pa ANil -> (forall x r, Pj x -> Pa r -> Pa (ACons x r)) ->
  Pp PNil -> (forall k x r, Pj x -> Pp r -> Pp (PCons k x r)) ->
  (forall d, Pj d) /\ (forall l, Pa l) /\ (forall l, Pp l).
Proof.
  intros HN HA0 HA1 HP0 HP1.
  destruct (js_all_ind Pj (fun o => forall l, o = OASome l -> Pa l) Pa
                       (fun i => forall x, i = OJSome x -> Pj x)
                       (fun p => forall l, p = OPSome l -> Pp l) Pp) as (H1 & _ & H3 & _ & _ & H6); auto.
  - discriminate.
  - intros l Hl l' [= <-]. exact Hl.
  - discriminate.
  - intros x Hx x' [= <-]. exact Hx.
  - discriminate.
  - intros l Hl l' [= <-]. exact Hl.
Qed.

Lemma js_eqb_iff_all :
  (forall a b, js_eqb a b = true <-> a = b) /\ (forall a b, oalts_eqb a b = true <-> a = b) /\
  (forall a b, alts_eqb a b = true <-> a = b) /\ (forall a b, ojs_eqb a b = true <-> a = b) /\
  (forall a b, oprops_eqb a b = true <-> a = b) /\ (forall a b, props_eqb a b = true <-> a = b).
Proof.
  apply js_all_ind.
  - intros sc o IHo i IHi p IHp [sc' o' i' p']. cbn [js_eqb].
    rewrite !andb_true_iff, scal_eqb_iff, IHo, IHi, IHp. split.
    + intros [[[-> ->] ->] ->]. reflexivity.
    + intros [= -> -> -> ->]. auto.
  - intros [|l]; simpl; easy.
  - intros l IH [|l']; cbn [oalts_eqb]; [easy|]. rewrite IH. split; congruence.
  - intros [|y r]; simpl; easy.
  - intros x IHx r IHr [|y r']; cbn [alts_eqb]; [easy|].
    rewrite andb_true_iff, IHx, IHr. split; [intros [-> ->]; reflexivity|intros [= -> ->]; auto].
  - intros [|x]; simpl; easy.
  - intros x IH [|x']; cbn [ojs_eqb]; [easy|]. rewrite IH. split; congruence.
  - intros [|l]; simpl; easy.
  - intros l IH [|l']; cbn [oprops_eqb]; [easy|]. rewrite IH. split; congruence.
  - intros [|k y r]; simpl; easy.
  - intros k x IHx r IHr [|k' y r']; cbn [props_eqb]; [easy|].
    rewrite !andb_true_iff, str_eqb_iff, IHx, IHr. split; [intros [[-> ->] ->]; reflexivity|intros [= -> -> ->]; auto].
Qed.

Lemma js_eqb_refl d : js_eqb d d = true.
Proof. apply js_eqb_iff_all. reflexivity. Qed.

Lemma mirrors_meaning s d :
  mirrors s d = true -> attrs s = d /\ kind_of s = shape_of_keywords d.
Proof.
  destruct d as [sc o i p]. intros H.
  assert (H' : js_eqb (attrs s) (Node sc o i p) && kind_eqb (kind_of s) (shape_kw sc o i p) = true).
  { destruct s; cbn [mirrors] in H; apply andb_true_iff in H; destruct H as [H _]; exact H. }
  apply andb_true_iff in H'. destruct H' as [H1 H2].
  split; [apply js_eqb_iff_all; exact H1|apply kind_eqb_eq; exact H2].
Qed.

Lemma lookup_In {T} x (l : list (str * T)) t : lookup x l = Some t -> In (x, t) l.
Proof.
  induction l as [|[k v] r IH]; simpl; [discriminate|].
  destruct (str_eqb x k) eqn:E.
  - intros [= <-]. apply str_eqb_eq in E. subst k. left. reflexivity.
  - intros H. right. apply IH. exact H.
Qed.

Lemma lookup_some_iff {T} x (l : list (str * T)) : lookup x l <> None <-> exists t, In (x, t) l.
Proof.
  split.
  - destruct (lookup x l) as [t|] eqn:E; [|congruence]. intros _. exists t. apply lookup_In. exact E.
  - intros (t & H). induction l as [|[k v] r IH]; simpl; [contradiction|].
    destruct H as [[= -> ->]|H].
    + rewrite str_eqb_refl. discriminate.
    + destruct (str_eqb x k); [discriminate|]. apply IH. exact H.
Qed.

Lemma mem_In x l : mem x l = true <-> In x l.
Proof. exact (ListFactsP.existsb_Nlist_eqb_In x l). Qed.

Lemma lookup_nodup {T} (l : list (str * T)) x t :
  nodup_str (map fst l) = true -> In (x, t) l -> lookup x l = Some t.
Proof.
  induction l as [|[k v] r IH]; simpl; [contradiction|].
  intros Hnd [[= -> ->]|H].
  - rewrite str_eqb_refl. reflexivity.
  - apply andb_true_iff in Hnd. destruct Hnd as [Hk Hr].
    destruct (str_eqb x k) eqn:E; [|apply IH; assumption].
    apply str_eqb_eq in E. subst k. apply negb_true_iff in Hk.
    assert (M : mem x (map fst r) = true) by (apply mem_In; apply (in_map fst _ _ H)).
    congruence.
Qed.

(* the source's ATOMIC set is the specification's *)
Lemma in_atomic_spec t : in_atomic t = is_atomic t.
Proof.
  unfold in_atomic, is_atomic, mem, atomic_types.
  change atomic_names with [s_boolean; s_integer; s_null; s_number; s_string]. cbn [existsb].
  destruct (str_eqb t s_null), (str_eqb t s_boolean), (str_eqb t s_integer); reflexivity.
Qed.

Definition props_or_nil (p : oprops) : props := match p with OPSome l => l | OPNone => PNil end.

(* The source tests raw keywords one after the other; that selects the branch of the kind [shape_kw]
   computes.  An array without "items" walks the empty dict: KeyError.  (KOneOf means a non-empty
   oneOf, so its OANone branch never runs.) *)
Lemma walk_node sc o i p rp c fx :
  walk (Node sc o i p) rp c fx =
  match shape_kw sc o i p with
  | KOneOf =>
      match o with
      | OASome l =>
          match walk_alts l rp 0 c fx with
          | Ok (ss, c1, fx1) => finish sc rp (LOneOf (Node sc o i p) ss) c1 fx1
          | Err e => Err e
          end
      | OANone => Err OtherError
      end
  | KRef =>
      match ref_name (k_ref sc) with
      | Some name =>
          match lookup name c with
          | Some t => finish sc rp (LRefTo (Node sc o i p) (Some t)) c fx
          | None => finish sc rp (LRefTo (Node sc o i p) None) c ((rev rp, name) :: fx)
          end
      | None => Err AssertionError
      end
  | KAtomic => finish sc rp (LAtomic (Node sc o i p)) c fx
  | KArray =>
      match i with
      | OJSome x =>
          match walk x (0%nat :: rp) c fx with
          | Ok (it, c1, fx1) => finish sc rp (LArray (Node sc o i p) it) c1 fx1
          | Err e => Err e
          end
      | OJNone => Err KeyError
      end
  | KDepends =>
      match i with
      | OJSome x =>
          match walk x (0%nat :: rp) c fx with
          | Ok (it, c1, fx1) =>
              match ref_name (k_mido sc) with
              | Some name =>
                  match lookup name c1 with
                  | Some t => finish sc rp (LDepends (Node sc o i p) it t) c1 fx1
                  | None => Err ValueError
                  end
              | None => Err AssertionError
              end
          | Err e => Err e
          end
      | OJNone => Err KeyError
      end
  | KObject =>
      match walk_props (props_or_nil p) rp 0 c fx with
      | Ok (ps, c1, fx1) => finish sc rp (LObject (Node sc o i p) ps) c1 fx1
      | Err e => Err e
      end
  | KBad => match k_type sc with None => Err KeyError | Some _ => Err ValueError end
  end.
Proof.
  unfold shape_kw, ref_name.
  destruct o as [|[|y r]]; cbn [walk nonempty_alts]; [| |reflexivity].
  (* no oneOf and an empty one alike: $ref, then type *)
  all: destruct (k_ref sc) as [[|ch name]|]; cbn [nonempty_str]; [|destruct (N.eqb ch hash); reflexivity|].
  all: destruct (k_type sc) as [t|]; [|reflexivity].
  all: rewrite in_atomic_spec.
  all: destruct (is_atomic t); [reflexivity|].
  all: destruct (str_eqb t s_array || has_items i);
    [|destruct (str_eqb t s_object || has_props p); [destruct p|]; reflexivity].
  all: destruct (k_mido sc) as [[|ch name]|], i as [|x]; try reflexivity.
  all: destruct (N.eqb ch hash); reflexivity.
Qed.

Lemma ref_name_nonempty r name : ref_name r = Some name -> nonempty_str r = true.
Proof. destruct r as [[|ch s]|]; simpl; try discriminate. reflexivity. Qed.

Definition dnode := (path * scal * kind)%type.
Definition entry (e : dnode) : str * path := (cache_key (snd (fst e)), fst (fst e)).

Definition tgt_ok (c : cache) (fx : fixups) (e : str * option path) : Prop :=
  match snd e with
  | Some t => In (fst e, t) c
  | None => In (fst e) (map snd fx)
  end.

(* walking the nodes [ns] (document order) from cache c and fixups fx gives c2, fx2 and a piece of
   graph holding the references [tg] *)
Definition inv (ns : list dnode) (tg : list (str * option path)) (c : cache) (fx : fixups)
           (c2 : cache) (fx2 : fixups) : Prop :=
  (forall e, In e c2 <-> In e c \/ In e (map entry ns)) /\
  Forall (tgt_ok c2 fx2) tg /\
  map fst tg = flat_map ref_entry ns /\
  incl fx fx2 /\
  (forall x, In x (map snd fx2) -> In x (map snd fx) \/ In x (flat_map ref_entry ns)).

Lemma tgt_ok_mono c fx c2 fx2 tg :
  incl c c2 -> incl fx fx2 -> Forall (tgt_ok c fx) tg -> Forall (tgt_ok c2 fx2) tg.
Proof.
  intros Hc Hf. apply Forall_impl. intros e. unfold tgt_ok. destruct (snd e).
  - apply Hc.
  - apply incl_map. exact Hf.
Qed.

Lemma inv_nil c fx : inv [] [] c fx c fx.
Proof.
  unfold inv. simpl. repeat split; try tauto.
  - constructor.
  - apply incl_refl.
Qed.

Lemma inv_incl ns tg c fx c2 fx2 : inv ns tg c fx c2 fx2 -> incl c c2.
Proof. intros (H & _) e He. apply H. left. exact He. Qed.

Lemma inv_app {ns1 tg1 ns2 tg2 c fx c1 fx1 c2 fx2} :
  inv ns1 tg1 c fx c1 fx1 -> inv ns2 tg2 c1 fx1 c2 fx2 -> inv (ns1 ++ ns2) (tg1 ++ tg2) c fx c2 fx2.
Proof.
  intros (A1 & A2 & A3 & A4 & A5) I. pose proof I as (B1 & B2 & B3 & B4 & B5).
  unfold inv. split; [|split; [|split; [|split]]].
  - intros e. rewrite B1, A1, map_app, in_app_iff. apply or_assoc.
  - apply Forall_app. split; [|exact B2].
    apply (tgt_ok_mono c1 fx1); [exact (inv_incl _ _ _ _ _ _ I)|exact B4|exact A2].
  - rewrite map_app, flat_map_app, A3, B3. reflexivity.
  - eapply incl_tran; eassumption.
  - intros x H. rewrite flat_map_app, in_app_iff. apply B5 in H. destruct H as [H|H]; [|auto].
    apply A5 in H. destruct H; auto.
Qed.

(* The node itself is written to the cache after its children [ns], under its key; [tg0] are the
   references it holds itself, [fx2] the fix-up list with what it may have queued. *)
Lemma inv_node n tg0 {ns tg c fx c1 fx1 fx2} :
  inv ns tg c fx c1 fx1 -> ref_entry n = map fst tg0 -> Forall (tgt_ok c1 fx2) tg0 -> incl fx1 fx2 ->
  (forall x, In x (map snd fx2) -> In x (map snd fx1) \/ In x (ref_entry n)) ->
  inv (n :: ns) (tg0 ++ tg) c fx (entry n :: c1) fx2.
Proof.
  intros (A1 & A2 & A3 & A4 & A5) Hr Ht Hf Hx.
  unfold inv. split; [|split; [|split; [|split]]].
  - intros e. simpl. rewrite A1. split; intros [H|[H|H]]; auto.
  - apply Forall_app. split.
    + apply (tgt_ok_mono c1 fx2); [apply incl_tl; apply incl_refl|apply incl_refl|exact Ht].
    + apply (tgt_ok_mono c1 fx1); [apply incl_tl; apply incl_refl|exact Hf|exact A2].
  - simpl. rewrite map_app, Hr, A3. reflexivity.
  - eapply incl_tran; eassumption.
  - intros x H. simpl. rewrite in_app_iff. destruct (Hx x H) as [H1|H1]; [|auto].
    apply A5 in H1. destruct H1; auto.
Qed.

Lemma inv_post n ns tg c fx c1 fx1 :
  inv ns tg c fx c1 fx1 -> ref_entry n = [] -> inv (n :: ns) tg c fx (entry n :: c1) fx1.
Proof.
  intros I Hr. apply (inv_node n [] I); [exact Hr|constructor|apply incl_refl|auto].
Qed.

Lemma inv_post_dep n name t ns tg c fx c1 fx1 :
  inv ns tg c fx c1 fx1 -> ref_entry n = [name] -> In (name, t) c1 ->
  inv (n :: ns) ((name, Some t) :: tg) c fx (entry n :: c1) fx1.
Proof.
  intros I Hr Hin. apply (inv_node n [(name, Some t)] I); [exact Hr| |apply incl_refl|auto].
  constructor; [exact Hin|constructor].
Qed.

Lemma inv_ref_pending n name rpath c fx :
  ref_entry n = [name] -> inv [n] [(name, None)] c fx (entry n :: c) ((rpath, name) :: fx).
Proof.
  intros Hr. apply (inv_node n [(name, None)] (inv_nil c fx)); [exact Hr| |apply incl_tl, incl_refl|].
  - constructor; [left; reflexivity|constructor].
  - intros x [<-|H]; [right; rewrite Hr; left; reflexivity|left; exact H].
Qed.

(* [e] fits the names R: its references are among them and, having no $anchor, it is not cached under one of them *)
Definition fits (R : list str) (e : dnode) : Prop :=
  (k_anchor (snd (fst e)) = None -> ~ In (cache_key (snd (fst e))) R) /\ incl (ref_entry e) R.

(* what the cache holds afterwards: every sub-schema bearing an anchor, under it *)
Lemma anchor_cached {ns tg c fx c2 fx2} {e : dnode} {x} :
  inv ns tg c fx c2 fx2 -> In e ns -> k_anchor (snd (fst e)) = Some x -> In (x, fst (fst e)) c2.
Proof.
  intros (A1 & _) He Ha. apply A1. right. apply in_map_iff. exists e. split; [|exact He].
  unfold entry, cache_key. rewrite Ha. reflexivity.
Qed.

(* ... and under a name of R nothing else, when the nodes fit R *)
Lemma cached_anchor {R ns tg c fx c2 fx2 x t} :
  inv ns tg c fx c2 fx2 -> Forall (fits R) ns -> In x R -> In (x, t) c2 ->
  In (x, t) c \/ exists e, In e ns /\ k_anchor (snd (fst e)) = Some x /\ fst (fst e) = t.
Proof.
  intros (A1 & _) Hf Hx Hc. apply A1 in Hc. destruct Hc as [Hc|Hc]; [left; exact Hc|right].
  apply in_map_iff in Hc. destruct Hc as (e & [= Ek Ep] & He). exists e.
  split; [exact He|]. split; [|exact Ep].
  rewrite Forall_forall in Hf. destruct (Hf e He) as [Hs _].
  unfold cache_key in Ek, Hs. destruct (k_anchor (snd (fst e))) as [a|]; [rewrite Ek; reflexivity|].
  rewrite Ek in Hs. elim (Hs eq_refl Hx).
Qed.

Lemma fits_doc d : shadowed d = false -> Forall (fits (refnames d)) (all_nodes d).
Proof.
  intros Hs. apply Forall_forall. intros e He. split.
  - intros Ha Hin. enough (S : shadowed d = true) by congruence.
    unfold shadowed. apply existsb_exists. exists (cache_key (snd (fst e))). split; [|apply mem_In; exact Hin].
    apply in_flat_map. exists e. split; [exact He|]. unfold anon_key. rewrite Ha. left. reflexivity.
  - intros x Hx. apply in_flat_map. exists e. auto.
Qed.

(* each DependsOnArraySchema [st] is one of the references [tg], under the name its maxItemsDependsOn gives *)
Definition sites_linked (st : list (js * path)) (tg : list (str * option path)) : Prop :=
  forall a t, In (a, t) st -> exists x, ref_name (k_mido (scal_of a)) = Some x /\ In (x, Some t) tg.

Lemma sites_linked_app {st1 tg1 st2 tg2} :
  sites_linked st1 tg1 -> sites_linked st2 tg2 -> sites_linked (st1 ++ st2) (tg1 ++ tg2).
Proof.
  intros H1 H2 a t H. apply in_app_iff in H. destruct H as [H|H].
  - destruct (H1 a t H) as (x & Hx & Hin). exists x. auto with datatypes.
  - destruct (H2 a t H) as (x & Hx & Hin). exists x. auto with datatypes.
Qed.

Lemma walk_ok_all :
  (forall d rp c fx,
     match walk d rp c fx with
     | Ok (s, c2, fx2) =>
         mirrors s d = true /\ inv (nodes d rp) (stargets s) c fx c2 fx2 /\
         sites_linked (depends_sites s) (stargets s)
     | Err _ => True
     end) /\
  (forall l rp n c fx,
     match walk_alts l rp n c fx with
     | Ok (ss, c2, fx2) =>
         mirrors_alts ss l = true /\ inv (nodes_alts l rp n) (stargets_list ss) c fx c2 fx2 /\
         sites_linked (depends_sites_list ss) (stargets_list ss)
     | Err _ => True
     end) /\
  (forall l rp n c fx,
     match walk_props l rp n c fx with
     | Ok (ps, c2, fx2) =>
         mirrors_props ps l = true /\ inv (nodes_props l rp n) (stargets_props ps) c fx c2 fx2 /\
         sites_linked (depends_sites_props ps) (stargets_props ps)
     | Err _ => True
     end).
Proof.
  apply js_triple_ind.
  - intros sc o i p IHo IHi IHp rp c fx.
    rewrite walk_node. cbn [nodes]. unfold finish.
    (* the kinds in the order KAtomic, KArray, KDepends, KObject, KOneOf, KRef, KBad *)
    destruct (shape_kw sc o i p) eqn:Sh.
    + split; [|split].
      * cbn [mirrors attrs kind_of]. rewrite js_eqb_refl, Sh. reflexivity.
      * apply (inv_post (rev rp, sc, KAtomic)); [apply inv_nil|reflexivity].
      * intros a t [].
    + destruct i as [|x]; [exact I|]. specialize (IHi x eq_refl (0%nat :: rp) c fx).
      destruct (walk x (0%nat :: rp) c fx) as [[[it c1] fx1]|e]; [|exact I].
      destruct IHi as (M & J & L). split; [|split].
      * cbn [mirrors attrs kind_of]. rewrite js_eqb_refl, Sh, M. reflexivity.
      * apply (inv_post (rev rp, sc, KArray)); [exact J|reflexivity].
      * exact L.
    + (* array with maxItemsDependsOn: the counter is looked up after the items *)
      destruct i as [|x]; [exact I|]. specialize (IHi x eq_refl (0%nat :: rp) c fx).
      destruct (walk x (0%nat :: rp) c fx) as [[[it c1] fx1]|e]; [|exact I].
      destruct (ref_name (k_mido sc)) as [name|] eqn:En; [|exact I].
      destruct (lookup name c1) as [t|] eqn:El; [|exact I].
      destruct IHi as (M & J & L). split; [|split].
      * cbn [mirrors attrs kind_of]. rewrite js_eqb_refl, Sh, M. reflexivity.
      * cbn [stargets scal_of]. rewrite En.
        apply (inv_post_dep (rev rp, sc, KDepends)); [exact J| |apply lookup_In; exact El].
        unfold ref_entry. simpl. rewrite En. reflexivity.
      * cbn [stargets depends_sites scal_of]. rewrite En.
        apply (@sites_linked_app [_] [_]); [|exact L].
        intros a t' [[= <- <-]|[]]. exists name. split; [exact En|left; reflexivity].
    + destruct p as [|l]; cbn [props_or_nil walk_props].
      * split; [|split].
        -- cbn [mirrors attrs kind_of]. rewrite js_eqb_refl, Sh. reflexivity.
        -- apply (inv_post (rev rp, sc, KObject)); [apply inv_nil|reflexivity].
        -- intros a t [].
      * specialize (IHp l eq_refl rp 0%nat c fx).
        destruct (walk_props l rp 0 c fx) as [[[ps c1] fx1]|e]; [|exact I].
        destruct IHp as (M & J & L). split; [|split].
        -- cbn [mirrors attrs kind_of]. rewrite js_eqb_refl, Sh, M. reflexivity.
        -- apply (inv_post (rev rp, sc, KObject)); [exact J|reflexivity].
        -- exact L.
    + destruct o as [|l]; [exact I|]. specialize (IHo l eq_refl rp 0%nat c fx).
      destruct (walk_alts l rp 0 c fx) as [[[ss c1] fx1]|e]; [|exact I].
      destruct IHo as (M & J & L). split; [|split].
      * cbn [mirrors attrs kind_of]. rewrite js_eqb_refl, Sh, M. reflexivity.
      * apply (inv_post (rev rp, sc, KOneOf)); [exact J|reflexivity].
      * exact L.
    + (* $ref: bound now, or queued for resolve() *)
      destruct (ref_name (k_ref sc)) as [name|] eqn:En; [|exact I].
      assert (Re : ref_entry (rev rp, sc, KRef) = [name]) by (unfold ref_entry; simpl; rewrite En; reflexivity).
      destruct (lookup name c) as [t|] eqn:El; (split; [|split]).
      * cbn [mirrors attrs kind_of]. rewrite js_eqb_refl, Sh. reflexivity.
      * cbn [stargets scal_of]. rewrite En.
        apply inv_post_dep; [apply inv_nil|exact Re|apply lookup_In; exact El].
      * intros a t' [].
      * cbn [mirrors attrs kind_of]. rewrite js_eqb_refl, Sh. reflexivity.
      * cbn [stargets scal_of]. rewrite En. apply inv_ref_pending. exact Re.
      * intros a t' [].
    + destruct (k_type sc); exact I.
  - intros rp n c fx. split; [reflexivity|]. split; [apply inv_nil|intros a t []].
  - intros x r IHx IHr rp n c fx. cbn [walk_alts nodes_alts].
    specialize (IHx (n :: rp) c fx). destruct (walk x (n :: rp) c fx) as [[[s c1] fx1]|e]; [|exact I].
    specialize (IHr rp (S n) c1 fx1). destruct (walk_alts r rp (S n) c1 fx1) as [[[ss c2] fx2]|e]; [|exact I].
    destruct IHx as (M1 & I1 & L1), IHr as (M2 & I2 & L2). split; [|split].
    + cbn [mirrors_alts]. rewrite M1, M2. reflexivity.
    + exact (inv_app I1 I2).
    + exact (sites_linked_app L1 L2).
  - intros rp n c fx. split; [reflexivity|]. split; [apply inv_nil|intros a t []].
  - intros k x r IHx IHr rp n c fx. cbn [walk_props nodes_props].
    specialize (IHx (n :: rp) c fx). destruct (walk x (n :: rp) c fx) as [[[s c1] fx1]|e]; [|exact I].
    specialize (IHr rp (S n) c1 fx1). destruct (walk_props r rp (S n) c1 fx1) as [[[ps c2] fx2]|e]; [|exact I].
    destruct IHx as (M1 & I1 & L1), IHr as (M2 & I2 & L2). split; [|split].
    + cbn [mirrors_props]. rewrite str_eqb_refl, M1, M2. reflexivity.
    + exact (inv_app I1 I2).
    + exact (sites_linked_app L1 L2).
Qed.

Lemma walk_ok {d rp c fx s c2 fx2} :
  walk d rp c fx = Ok (s, c2, fx2) ->
  mirrors s d = true /\ inv (nodes d rp) (stargets s) c fx c2 fx2 /\ sites_linked (depends_sites s) (stargets s).
Proof. intros E. pose proof (proj1 walk_ok_all d rp c fx) as W. rewrite E in W. exact W. Qed.

Scheme schema_mut := Induction for schema Sort Prop
with slist_mut := Induction for slist Sort Prop
with sprops_mut := Induction for sprops Sort Prop.
Combined Scheme schema_all_ind from schema_mut, slist_mut, sprops_mut.

Definition fill (c : cache) (e : str * option path) : str * option path :=
  (fst e, match snd e with Some t => Some t | None => lookup (fst e) c end).

Lemma stargets_patch_all c :
  (forall s, stargets (patch c s) = map (fill c) (stargets s)) /\
  (forall ss, stargets_list (patch_list c ss) = map (fill c) (stargets_list ss)) /\
  (forall ps, stargets_props (patch_props c ps) = map (fill c) (stargets_props ps)).
Proof.
  apply schema_all_ind.
  - reflexivity.
  - intros a it IH. exact IH.
  - intros a it IH t. cbn [patch stargets]. rewrite map_app, IH.
    destruct (ref_name (k_mido (scal_of a))); reflexivity.
  - intros a ps IH. exact IH.
  - intros a ss IH. exact IH.
  - intros a [t|]; cbn [patch stargets]; destruct (ref_name (k_ref (scal_of a))); reflexivity.
  - reflexivity.
  - intros x IHx r IHr. cbn [patch_list stargets_list]. rewrite map_app, IHx, IHr. reflexivity.
  - reflexivity.
  - intros k x IHx r IHr. cbn [patch_props stargets_props]. rewrite map_app, IHx, IHr. reflexivity.
Qed.

Lemma depends_sites_patch_all c :
  (forall s, depends_sites (patch c s) = depends_sites s) /\
  (forall ss, depends_sites_list (patch_list c ss) = depends_sites_list ss) /\
  (forall ps, depends_sites_props (patch_props c ps) = depends_sites_props ps).
Proof.
  apply schema_all_ind.
  - reflexivity.
  - intros a it IH. exact IH.
  - intros a it IH t. cbn [patch depends_sites]. rewrite IH. reflexivity.
  - intros a ps IH. exact IH.
  - intros a ss IH. exact IH.
  - intros a [t|]; reflexivity.
  - reflexivity.
  - intros x IHx r IHr. cbn [patch_list depends_sites_list]. rewrite IHx, IHr. reflexivity.
  - reflexivity.
  - intros k x IHx r IHr. cbn [patch_props depends_sites_props]. rewrite IHx, IHr. reflexivity.
Qed.

Lemma attrs_patch c s : attrs (patch c s) = attrs s.
Proof. destruct s as [a|a it|a it t|a ps|a ss|a [t|]]; reflexivity. Qed.

Lemma kind_of_patch c s : kind_of (patch c s) = kind_of s.
Proof. destruct s as [a|a it|a it t|a ps|a ss|a [t|]]; reflexivity. Qed.

(* [mirrors] does not look at the targets *)
Lemma mirrors_patch_all c :
  (forall s d, mirrors (patch c s) d = mirrors s d) /\
  (forall ss l, mirrors_alts (patch_list c ss) l = mirrors_alts ss l) /\
  (forall ps l, mirrors_props (patch_props c ps) l = mirrors_props ps l).
Proof.
  apply schema_all_ind.
  - reflexivity.
  - intros a it IH [sc o i p]. cbn [mirrors patch attrs kind_of]. destruct i as [|x]; [reflexivity|].
    rewrite IH. reflexivity.
  - intros a it IH t [sc o i p]. cbn [mirrors patch attrs kind_of]. destruct i as [|x]; [reflexivity|].
    rewrite IH. reflexivity.
  - intros a ps IH [sc o i p]. cbn [mirrors patch attrs kind_of]. destruct p as [|l]; rewrite IH; reflexivity.
  - intros a ss IH [sc o i p]. cbn [mirrors patch attrs kind_of]. destruct o as [|l]; [reflexivity|].
    rewrite IH. reflexivity.
  - intros a [t|] [sc o i p]; reflexivity.
  - reflexivity.
  - intros x IHx r IHr [|y l]; cbn [mirrors_alts patch_list]; [reflexivity|]. rewrite IHx, IHr. reflexivity.
  - reflexivity.
  - intros k x IHx r IHr [|k' y l]; cbn [mirrors_props patch_props]; [reflexivity|]. rewrite IHx, IHr. reflexivity.
Qed.

Lemma load_inv d s :
  load d = Ok s ->
  exists s0 c fx, walk d [] [] [] = Ok (s0, c, fx) /\ resolvable c fx = true /\ s = patch c s0.
Proof.
  unfold load. destruct (walk d [] [] []) as [[[s0 c] fx]|e] eqn:E; [|discriminate].
  destruct (resolvable c fx) eqn:R; [|discriminate].
  intros [= <-]. exists s0, c, fx. auto.
Qed.

Lemma load_mirrors d s : load d = Ok s -> mirrors s d = true.
Proof.
  intros H. destruct (load_inv d s H) as (s0 & c & fx & W & _ & ->).
  rewrite (proj1 (mirrors_patch_all c)). apply (walk_ok W).
Qed.

Lemma load_attrs d s : load d = Ok s -> attrs s = d.
Proof. intros H. apply mirrors_meaning. apply load_mirrors. exact H. Qed.

Lemma in_anchor_entry (e : dnode) x t :
  In (x, t) (anchor_entry e) <-> k_anchor (snd (fst e)) = Some x /\ fst (fst e) = t.
Proof.
  unfold anchor_entry. destruct (k_anchor (snd (fst e))) as [a|]; simpl; [|easy]. split.
  - intros [[= -> ->]|[]]. auto.
  - intros [[= ->] ->]. auto.
Qed.

Lemma in_anchor_entries (ns : list dnode) x t :
  In (x, t) (flat_map anchor_entry ns) <->
  exists e, In e ns /\ k_anchor (snd (fst e)) = Some x /\ fst (fst e) = t.
Proof.
  rewrite in_flat_map. split; intros (e & He & Ha); exists e; (split; [exact He|]); apply in_anchor_entry; exact Ha.
Qed.

Lemma find_anchor_bears d x t :
  find_anchor d x = Some t -> exists sc k, In (t, sc, k) (all_nodes d) /\ k_anchor sc = Some x.
Proof.
  unfold find_anchor. intros H. apply lookup_In, in_anchor_entries in H.
  destruct H as ([[pth sc] k] & Hn & Ha & <-). exists sc, k. auto.
Qed.

Lemma find_anchor_some d (e : dnode) x :
  In e (all_nodes d) -> k_anchor (snd (fst e)) = Some x -> find_anchor d x <> None.
Proof.
  intros He Ha. apply lookup_some_iff. exists (fst (fst e)). apply in_anchor_entries. exists e. auto.
Qed.

Lemma find_anchor_of d (e : dnode) x :
  uniq_anchors d = true -> In e (all_nodes d) -> k_anchor (snd (fst e)) = Some x ->
  find_anchor d x = Some (fst (fst e)).
Proof.
  intros Hu He Ha. apply (lookup_nodup _ _ _ Hu). apply in_anchor_entries. exists e. auto.
Qed.

Lemma resolvable_spec c fx : resolvable c fx = true <-> forall x, In x (map snd fx) -> lookup x c <> None.
Proof.
  unfold resolvable. rewrite forallb_forall. split.
  - intros H x Hin. apply in_map_iff in Hin. destruct Hin as (f & <- & Hf).
    specialize (H f Hf). destruct (lookup (snd f) c); discriminate.
  - intros H f Hf. specialize (H (snd f) (in_map snd _ _ Hf)).
    destruct (lookup (snd f) c); [reflexivity|congruence].
Qed.

(* resolve() leaves every reference with an entry of the final cache under its name *)
Lemma fill_bound c fx e :
  resolvable c fx = true -> tgt_ok c fx e -> exists t, snd (fill c e) = Some t /\ In (fst e, t) c.
Proof.
  intros R. unfold tgt_ok, fill. simpl. destruct (snd e) as [t|]; intros H.
  - exists t. auto.
  - destruct (lookup (fst e) c) as [t|] eqn:El; [|elim (proj1 (resolvable_spec c fx) R _ H El)].
    exists t. split; [reflexivity|apply lookup_In; exact El].
Qed.

(* with no title shadowing, what resolve() leaves in a reference is a sub-schema bearing the anchor *)
Lemma resolved_ref d s0 c fx e :
  shadowed d = false -> walk d [] [] [] = Ok (s0, c, fx) -> resolvable c fx = true -> In e (stargets s0) ->
  exists n, In n (all_nodes d) /\ k_anchor (snd (fst n)) = Some (fst e) /\ snd (fill c e) = Some (fst (fst n)).
Proof.
  intros Hs W R He. destruct (walk_ok W) as (_ & I & _). pose proof I as (_ & A2 & A3 & _).
  rewrite Forall_forall in A2. destruct (fill_bound c fx e R (A2 e He)) as (t & Et & Hc).
  assert (Hx : In (fst e) (refnames d)) by (unfold refnames, all_nodes; rewrite <- A3; apply in_map; exact He).
  destruct (cached_anchor I (fits_doc d Hs) Hx Hc) as [[]|(n & Hn & Ha & <-)].
  exists n. auto.
Qed.

Lemma load_refs d s :
  uniq_anchors d = true -> shadowed d = false -> load d = Ok s ->
  refs_resolved d s = true /\ map fst (stargets s) = refnames d.
Proof.
  intros Hu Hs H. destruct (load_inv d s H) as (s0 & c & fx & W & R & ->).
  unfold refs_resolved. rewrite (proj1 (stargets_patch_all c)). split.
  - apply forallb_forall. intros e' He'. apply in_map_iff in He'. destruct He' as (e & <- & He).
    destruct (resolved_ref d s0 c fx e Hs W R He) as (n & Hn & Ha & Et).
    rewrite Et. cbn [fst fill is_some andb]. rewrite (find_anchor_of d n _ Hu Hn Ha).
    apply path_eqb_iff. reflexivity.
  - rewrite map_map. apply (walk_ok W).
Qed.

Lemma load_sites_linked d s : load d = Ok s -> sites_linked (depends_sites s) (stargets s).
Proof.
  intros H. destruct (load_inv d s H) as (s0 & c & fx & W & _ & ->).
  destruct (walk_ok W) as (_ & _ & L).
  rewrite (proj1 (depends_sites_patch_all c)), (proj1 (stargets_patch_all c)).
  intros a t Hs. destruct (L a t Hs) as (x & Hx & Hin). exists x. split; [exact Hx|].
  exact (in_map (fill c) _ _ Hin).
Qed.

Lemma load_tables_bound d s :
  uniq_anchors d = true -> shadowed d = false -> load d = Ok s -> tables_bound d s = true.
Proof.
  intros Hu Hs H. destruct (load_refs d s Hu Hs H) as [R _].
  unfold refs_resolved in R. rewrite forallb_forall in R.
  apply forallb_forall. intros [a t] He.
  destruct (load_sites_linked d s H a t He) as (x & Hx & Hin).
  unfold site_bound. simpl. rewrite Hx. exact (R _ Hin).
Qed.

Lemma witness_shadow_facts :
  wf witness_shadow = true /\ uniq_anchors witness_shadow = true /\ shadowed witness_shadow = true /\
  match load witness_shadow with Ok s => refs_resolved witness_shadow s = false | Err _ => False end.
Proof. vm_compute. repeat split. Qed.

Lemma witness_title_only_facts :
  wf witness_title_only = true /\ uniq_anchors witness_title_only = true /\
  shadowed witness_title_only = true /\ has_dangling witness_title_only = true /\
  is_ok (load witness_title_only) = true.
Proof. vm_compute. repeat split. Qed.

Lemma idx_norm (len : nat) (z : Z) :
  norm_index len z =
  (let n := Z.of_nat len in
   let j := if (z <? 0)%Z then (z + n)%Z else z in
   if (j <? 0)%Z || (n <=? j)%Z then None else Some (Z.to_nat j)).
Proof.
  unfold norm_index. cbv zeta.
  destruct (Z.ltb_spec z 0), (Z.leb_spec 0 z); try lia.
  - destruct (Z.leb_spec 0 (z + Z.of_nat len)), (Z.ltb_spec (z + Z.of_nat len) 0),
      (Z.leb_spec (Z.of_nat len) (z + Z.of_nat len)); simpl; try reflexivity; exfalso; lia.
  - destruct (Z.ltb_spec z (Z.of_nat len)), (Z.ltb_spec z 0), (Z.leb_spec (Z.of_nat len) z);
      simpl; try reflexivity; exfalso; lia.
Qed.

(* Python indexing of parsed JSON, as modelled, is the specification's plain indexing *)
Lemma py_getitem_spec v st : py_getitem v st = index1 v st.
Proof.
  destruct st as [k|z]; destruct v as [| b | n | s | l | m]; try reflexivity.
  - cbn [py_getitem index1]. rewrite idx_norm. cbv zeta. destruct (_ || _); reflexivity.
  - cbn [py_getitem index1]. rewrite idx_norm. cbv zeta. destruct (_ || _); reflexivity.
Qed.

Lemma nav_step_value root s v st s' v' : nav_step root s v st = Ok (s', v') -> index1 v st = Ok v'.
Proof.
  unfold nav_step. rewrite py_getitem_spec.
  destruct (stype root s) as [t|]; [|discriminate].
  destruct st as [k|z].
  - destruct (negb (str_eqb t s_object)); [discriminate|].
    destruct (deref (ssize root) root s) as [[| | |a ps| |]|]; try discriminate.
    destruct (props_get ps k); [|discriminate].
    destruct (index1 v (SName k)); [|discriminate]. intros [= _ <-]. reflexivity.
  - destruct (negb (str_eqb t s_array)); [discriminate|].
    destruct (deref (ssize root) root s) as [[|a it|a it t'| | |]|], (index1 v (SIndex z)); try discriminate.
    + intros [= _ <-]. reflexivity.
    + intros [= _ <-]. reflexivity.
Qed.

Lemma navigate_value root p : forall s v s' v',
  navigate root s v p = Ok (s', v') -> index_json v p = Ok v'.
Proof.
  induction p as [|st q IH]; intros s v s' v' H; simpl in H.
  - injection H as _ <-. reflexivity.
  - destruct (nav_step root s v st) as [[s1 v1]|e] eqn:E; [|discriminate].
    simpl. rewrite (nav_step_value _ _ _ _ _ _ E). eapply IH. exact H.
Qed.

Lemma nav_value_sound root v p x : nav_value root v p = Ok x -> index_json v p = Ok x.
Proof.
  unfold nav_value. destruct (navigate root root v p) as [[s' v']|e] eqn:E; [|discriminate].
  intros [= <-]. eapply navigate_value. exact E.
Qed.

Lemma conforms_eq root s v :
  conforms root s v =
  match deref (ssize root) root s with
  | Ok (LObject a ps) =>
      ostr_eqb (k_type (scal_of a)) (Some s_object) &&
      match v with JDict m => conforms_dict root ps m | _ => false end
  | Ok (LArray a it) | Ok (LDepends a it _) =>
      ostr_eqb (k_type (scal_of a)) (Some s_array) &&
      match v with JList l => conforms_list root it l | _ => false end
  | Ok _ => match v with JNull | JBool _ | JInt _ => true | _ => false end
  | Err _ => false
  end.
Proof. destruct v; reflexivity. Qed.

Lemma conforms_dict_get root ps m k x :
  conforms_dict root ps m = true -> jget m k = Some x ->
  exists sub, props_get ps k = Some sub /\ conforms root sub x = true.
Proof.
  induction m as [|k' v r IH]; cbn [conforms_dict jget]; [discriminate|].
  intros H G. apply andb_true_iff in H. destruct H as [H1 H2].
  destruct (str_eqb k k') eqn:E; [|apply IH; assumption].
  apply str_eqb_eq in E. subst k'. injection G as <-.
  destruct (props_get ps k) as [sub|]; [|discriminate]. exists sub. auto.
Qed.

Lemma conforms_list_nth root it l : forall n x,
  conforms_list root it l = true -> jnth l n = Some x -> conforms root it x = true.
Proof.
  induction l as [|y r IH]; intros n x; cbn [conforms_list jnth]; [discriminate|].
  intros H G. apply andb_true_iff in H. destruct H as [H1 H2].
  destruct n as [|n]; [injection G as <-; exact H1|]. eapply IH; eassumption.
Qed.

Lemma scalar_not_indexable v st x :
  match v with JNull | JBool _ | JInt _ => true | _ => false end = true -> index1 v st = Ok x -> False.
Proof. destruct v; try discriminate; destruct st; discriminate. Qed.

Lemma index_list_nth l z x : index1 (JList l) (SIndex z) = Ok x -> exists n, jnth l n = Some x.
Proof.
  cbn [index1]. destruct (norm_index (jlen l) z) as [n|]; [|discriminate].
  destruct (jnth l n) as [y|] eqn:E; [|discriminate]. intros [= <-]. exists n. exact E.
Qed.

Lemma nav_step_complete root s v st x :
  conforms root s v = true -> index1 v st = Ok x ->
  exists s', nav_step root s v st = Ok (s', x) /\ conforms root s' x = true.
Proof.
  intros C I. rewrite conforms_eq in C. unfold nav_step, stype. rewrite py_getitem_spec, I.
  destruct (deref (ssize root) root s) as [[a|a it|a it t|a ps|a ss|a tg]|e]; try discriminate;
    try (exfalso; eapply scalar_not_indexable; eassumption).
  all: apply andb_true_iff in C; destruct C as [C1 C2]; apply ostr_eqb_iff in C1.
  all: cbn [bind type_of attrs]; rewrite C1; cbn [negb].
  (* an array, with maxItemsDependsOn or without *)
  1, 2: destruct v as [| | | |l|]; try discriminate.
  1, 2: destruct st as [k|z]; [discriminate|].
  1, 2: destruct (index_list_nth _ _ _ I) as (n & Hn).
  1, 2: exists it; split; [reflexivity|eapply conforms_list_nth; eassumption].
  (* an object *)
  destruct v as [| | | | |m]; try discriminate.
  destruct st as [k|z]; [|discriminate]. cbn [index1] in I.
  destruct (jget m k) as [y|] eqn:G; [|discriminate]. injection I as <-.
  destruct (conforms_dict_get _ _ _ _ _ C2 G) as (sub & Hs & Hc).
  exists sub. rewrite Hs. auto.
Qed.

Lemma navigate_complete root p : forall s v x,
  conforms root s v = true -> index_json v p = Ok x ->
  exists s', navigate root s v p = Ok (s', x) /\ conforms root s' x = true.
Proof.
  induction p as [|st q IH]; intros s v x C I; simpl in I.
  - injection I as <-. exists s. split; [reflexivity|exact C].
  - destruct (index1 v st) as [y|e] eqn:E; [|discriminate].
    destruct (nav_step_complete _ _ _ _ _ C E) as (s1 & N & C1).
    destruct (IH s1 y x C1 I) as (s2 & N2 & C2).
    exists s2. split; [|exact C2]. simpl. rewrite N. exact N2.
Qed.
