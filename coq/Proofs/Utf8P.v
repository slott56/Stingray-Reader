(* Model/Utf8.v: decoding inverts encoding on every sequence of Unicode scalar values.
   The decoder is first followed on a sequence given by its payload digits (base 64); the quotients and remainders
   the encoder computes are put in at the end. *)
From Coq Require Import NArith List Bool Lia Arith.
Import ListNotations.
Require Import SR.Model.Utf8.
Open Scope N_scope.

(* the range tests on a lead byte lo + q *)
Lemma lead_ge lo q k : (k <=? lo) = true -> (lo + q <? k) = false.
Proof. intros H. apply N.leb_le in H. apply N.ltb_ge. lia. Qed.

Lemma lead_lt lo q k : q < k - lo -> (lo + q <? k) = true.
Proof. intros H. apply N.ltb_lt. lia. Qed.

Lemma lead_payload lo q : lo + q - lo = q.
Proof. lia. Qed.

Lemma cont_ok x : x < 64 -> cont (128 + x) = Some x.
Proof.
  intros H. unfold cont.
  rewrite (proj2 (N.leb_le 128 (128 + x)) (N.le_add_r 128 x)), (lead_lt 128 x 192 H), lead_payload. reflexivity.
Qed.

Lemma scalar_max c : scalar c = true -> c <= 1114111.
Proof.
  unfold scalar. intros H. apply orb_prop in H as [H|H]; [apply N.ltb_lt in H; lia|].
  apply andb_prop in H as [_ H]. apply N.leb_le. exact H.
Qed.

Lemma scalar_gap c : scalar c = true -> (55296 <=? c) && (c <=? 57343) = false.
Proof. unfold scalar. rewrite !N.ltb_antisym. destruct (55296 <=? c), (c <=? 57343); easy. Qed.

(* In each of the three: the lead byte is found in its range, the payload put together is c ([E], read backwards),
   and c passes the decoder's checks against overlong forms, surrogates and the upper limit. *)
Lemma decode2 c q r0 rest fuel : c = q * 64 + r0 -> q < 32 -> r0 < 64 -> (c <? 128) = false ->
  utf8_decode (S fuel) (192 + q :: 128 + r0 :: rest) = option_map (cons c) (utf8_decode fuel rest).
Proof.
  intros E Hq H0 L. cbn [utf8_decode]. rewrite (cont_ok r0 H0). cbn zeta.
  rewrite !lead_ge, (lead_lt 192 q 224 Hq), lead_payload, <- E, L by reflexivity. reflexivity.
Qed.

Lemma decode3 c q r1 r0 rest fuel : c = (q * 64 + r1) * 64 + r0 -> q < 16 -> r1 < 64 -> r0 < 64 ->
  (c <? 2048) = false -> scalar c = true ->
  utf8_decode (S fuel) (224 + q :: 128 + r1 :: 128 + r0 :: rest) = option_map (cons c) (utf8_decode fuel rest).
Proof.
  intros E Hq H1 H0 L Hs. cbn [utf8_decode]. rewrite (cont_ok r1 H1), (cont_ok r0 H0). cbn zeta.
  rewrite !lead_ge, (lead_lt 224 q 240 Hq), lead_payload, <- E, L, (scalar_gap c Hs) by reflexivity. reflexivity.
Qed.

Lemma decode4 c q r2 r1 r0 rest fuel : c = ((q * 64 + r2) * 64 + r1) * 64 + r0 -> q < 8 -> r2 < 64 -> r1 < 64 -> r0 < 64 ->
  (c <? 65536) = false -> scalar c = true ->
  utf8_decode (S fuel) (240 + q :: 128 + r2 :: 128 + r1 :: 128 + r0 :: rest)
  = option_map (cons c) (utf8_decode fuel rest).
Proof.
  intros E Hq H2 H1 H0 L Hs. cbn [utf8_decode]. rewrite (cont_ok r2 H2), (cont_ok r1 H1), (cont_ok r0 H0). cbn zeta.
  rewrite !lead_ge, (lead_lt 240 q 248 Hq), lead_payload, <- E, L by reflexivity.
  rewrite (proj2 (N.ltb_ge 1114111 c) (scalar_max c Hs)). reflexivity.
Qed.

(* the last digit of c in base b and what stands before it *)
Lemma N_digit b c : b <> 0 -> c mod b < b /\ c = c / b * b + c mod b.
Proof. intros Hb. split; [apply N.mod_lt; exact Hb|]. rewrite N.mul_comm. apply N.div_mod. exact Hb. Qed.

Lemma div64_lt c k : c < 64 * k -> c / 64 < k.
Proof. apply N.div_lt_upper_bound. discriminate. Qed.

Lemma decode_char c rest fuel : scalar c = true ->
  utf8_decode (S fuel) (utf8_char c ++ rest) = option_map (cons c) (utf8_decode fuel rest).
Proof.
  intros Hs. unfold utf8_char.
  change 4096 with (64 * 64). change 262144 with (64 * 64 * 64). rewrite <- !N.div_div by discriminate.
  assert (H64 : 64 <> 0) by discriminate.
  destruct (N_digit 64 c H64) as [H0 E0], (N_digit 64 (c / 64) H64) as [H1 E1], (N_digit 64 (c / 64 / 64) H64) as [H2 E2].
  destruct (c <? 128) eqn:L1.
  { cbn [app utf8_decode]. rewrite L1. reflexivity. }
  destruct (c <? 2048) eqn:L2.
  { apply decode2; [exact E0|apply div64_lt, N.ltb_lt, L2|exact H0|exact L1]. }
  destruct (c <? 65536) eqn:L3.
  { apply decode3; [rewrite <- E1; exact E0|apply div64_lt, div64_lt, N.ltb_lt, L3|exact H1|exact H0|exact L2|exact Hs]. }
  apply decode4; [rewrite <- E2, <- E1; exact E0| |exact H2|exact H1|exact H0|exact L3|exact Hs].
  apply div64_lt, div64_lt, div64_lt. apply (N.le_lt_trans _ 1114111); [exact (scalar_max c Hs)|reflexivity].
Qed.

Lemma utf8_char_length c : (1 <= length (utf8_char c))%nat.
Proof. unfold utf8_char. destruct (c <? 128), (c <? 2048), (c <? 65536); apply le_n_S, Nat.le_0_l. Qed.

Lemma utf8_decode_encode : forall s fuel, forallb scalar s = true -> (length (utf8 s) <= fuel)%nat ->
  utf8_decode fuel (utf8 s) = Some s.
Proof.
  induction s as [|c s IH]; intros fuel Hs Hf.
  - destruct fuel; reflexivity.
  - cbn [forallb] in Hs. apply andb_prop in Hs as [Hc Hs].
    change (utf8 (c :: s)) with (utf8_char c ++ utf8 s) in *. rewrite app_length in Hf.
    pose proof (utf8_char_length c). destruct fuel as [|fuel]; [lia|].
    rewrite (decode_char c _ fuel Hc), IH by (assumption || lia). reflexivity.
Qed.

(* reading back the file written with encoding utf-8 gives the characters *)
Lemma utf8_roundtrip s : forallb scalar s = true -> utf8_decode (length (utf8 s)) (utf8 s) = Some s.
Proof. intros H. apply utf8_decode_encode; [exact H|apply Nat.le_refl]. Qed.
