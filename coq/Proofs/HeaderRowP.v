(* What Model/HeaderRow.v computes.  The dict a comprehension builds keeps a repeated key at its FIRST place and gives
   it its LAST value ([keys_dict_of], [find_dict_of]); hence the heading-row schema of ANY heading row reads a name from
   the last column it heads and lists one value per distinct name (known finding K-duplicate-heading-last-wins of
   property C09), and under pairwise distinct names the i-th name reads the i-th cell.  Then: column permutations, the
   external schema, the binding calls, explicit positions. *)
From Coq Require Import NArith List Bool Arith Permutation.
Import ListNotations.
Require Import SR.Base.Res SR.Spec.Table SR.Spec.DupHeadings SR.Model.HeaderRow.
Require Import SR.Proofs.HeadingAnchorP.
Require SR.Proofs.ListFactsP.
(* k_title, k_anchor, k_type, k_string occur in theorem statements (Props/) and live in Spec/HeaderRowKeys.v *)
Require Export SR.Spec.HeaderRowKeys.

Lemma key_eqb_eq a : forall b, key_eqb a b = true <-> a = b.
Proof. exact (ListFactsP.Nlist_eqb_eq a). Qed.

Lemma key_eqb_refl a : key_eqb a a = true.
Proof. apply key_eqb_eq. reflexivity. Qed.

Lemma key_eqb_neq a b : a <> b -> key_eqb a b = false.
Proof. intros H. apply not_true_iff_false. rewrite key_eqb_eq. exact H. Qed.

Lemma key_eqb_sym a b : key_eqb a b = key_eqb b a.
Proof. apply eq_true_iff_eq. rewrite !key_eqb_eq. split; congruence. Qed.

Lemma existsb_key_in k l : existsb (key_eqb k) l = true <-> In k l.
Proof. exact (ListFactsP.existsb_Nlist_eqb_In k l). Qed.

Lemma existsb_key_notin k l : ~ In k l -> existsb (key_eqb k) l = false.
Proof. intros H. apply not_true_iff_false. rewrite existsb_key_in. exact H. Qed.

(* "conversion": the keyword under which ExternalSchemaLoader puts the dataType cell (rule_external_property) *)
Definition k_conversion : key := [99; 111; 110; 118; 101; 114; 115; 105; 111; 110]%N.

(* The rules read from the source.  Gen/HeaderRowParams.v is regenerated from src/stingray/workbook.py and
   schema_instance.py on every run (harness/t1_workbook.py).  The lemmas named rule_* say which rules the proofs
   of this file rely on; each is closed by computation on the regenerated values, so an edit of the rule in the source
   stops it (and with it Props/C09.vo, Props/C03.vo, Props/C10.vo) from compiling. *)

(* HeadingRowSchemaLoader.header: the property of a heading is keyed by str(heading) and gets
   title = the heading, $anchor = name_cleaner(str(heading)), type string, position = the enumerate counter,
   counted from 0; an empty sheet gives no schema *)
Lemma rule_heading_property :
  hdr_key = E_str E_item
  /\ hdr_props = [(k_title, E_item); (k_anchor, E_clean (E_str E_item)); (k_type, E_text k_string); (k_position, E_count)].
Proof. split; reflexivity. Qed.

Lemma rule_heading_enumerate : hdr_enum_start = 0.
Proof. reflexivity. Qed.

Lemma rule_heading_empty_sheet : hdr_on_empty = None.
Proof. reflexivity. Qed.

(* SchemaLoader.body, and the body() HeadingRowSchemaLoader uses, return the source unchanged *)
Lemma rule_body_kind {I} (keep : body_pred -> I -> bool) l (src : list I) : body_rows keep (body_kind_of l) src = src.
Proof. destruct l; reflexivity. Qed.

Lemma rule_body l (src : sheet) : body l src = src.
Proof. apply rule_body_kind. Qed.

Lemma rule_body_base {I} (keep : body_pred -> I -> bool) (src : list I) : body_rows keep body_base src = src.
Proof. reflexivity. Qed.

(* Sheet.row_iter: header() first, body() on the SAME iterator (what header left), the schema header built is
   bound when there is one (otherwise the bound schema stays), every instance one Row *)
Lemma rule_row_iter {S I} keep (hdr : list I -> res (option S * list I)) bk preset src :
  sheet_row_iter keep hdr bk preset src
  = bind (hdr src) (fun hr =>
      let sch := match fst hr with Some s => Some s | None => preset end in
      let rows := body_rows keep bk (snd hr) in
      match rows, sch with
      | _ :: _, None => Err AttributeError
      | _, _ => Ok (sch, rows)
      end).
Proof.
  unfold sheet_row_iter. destruct (hdr src) as [[[s|] rest]|e]; [| |reflexivity]; cbn [bind fst snd].
  - change ri_rows with B_source. change ri_same_iterator with true. cbn [body_rows].
    destruct (body_rows keep bk rest); reflexivity.
  - change ri_guard with G_truthy. change ri_rows with B_source. change ri_same_iterator with true.
    cbn [bind fst snd body_rows]. destruct (body_rows keep bk rest), preset; reflexivity.
Qed.

(* Sheet.set_schema installs the do-nothing loader *)
Lemma rule_set_schema st s : bind_step st (SetSchema s) = (NoLoader, Some s).
Proof. reflexivity. Qed.

(* WBNav.name: the position attribute whenever the property HAS one (position 0 included), otherwise the
   index of the name among the properties; a missing cell is the [None] marker *)
Lemma rule_position s k e :
  position_of s k e = match e_pos e with Some p => p | None => key_index (keys s) k end.
Proof. unfold position_of. destruct (e_pos e); reflexivity. Qed.

Lemma rule_absent : absent_result = Ok None.
Proof. reflexivity. Qed.

Lemma rule_position_keyword : nav_pos_attr = k_position.
Proof. reflexivity. Qed.

Lemma nav_name_unfold s k r :
  nav_name s k r
  = match find_entry s k with
    | None => Err KeyError
    | Some e => Ok (nth_error r (match e_pos e with Some p => p | None => key_index (keys s) k end))
    end.
Proof.
  unfold nav_name. destruct (find_entry s k) as [e|]; [|reflexivity].
  rewrite rule_position, rule_absent. destruct (nth_error r _); reflexivity.
Qed.

(* Row.values: one value per schema property, in property order *)
Lemma rule_values s r : values s r = collect (map (fun k => nav_name s k r) (keys s)).
Proof. reflexivity. Qed.

(* ExternalSchemaLoader.load: the property of a row is keyed by its name cell and reads the three attributes
   name, description, dataType; position = the enumerate counter, counted from 0; META_SCHEMA puts them in
   columns 0, 1, 2 *)
Lemma rule_external_property :
  ext_key = E_field k_name
  /\ ext_props = [(k_title, E_field k_name); (k_anchor, E_clean (E_field k_name)); (k_type, E_text k_string);
                  (k_position, E_count); (k_description, E_field k_description); (k_conversion, E_field k_dataType)].
Proof. split; reflexivity. Qed.

Lemma rule_external_enumerate : ext_enum_start = 0.
Proof. reflexivity. Qed.

Lemma rule_meta_schema :
  meta_schema = [mk_entry k_name (Some 0); mk_entry k_description (Some 1); mk_entry k_dataType (Some 2)].
Proof. reflexivity. Qed.

Lemma last_index_cases k hs :
  match last_index key_eqb k hs with
  | Some i => nth_error hs i = Some k /\ forall j, i < j -> nth_error hs j <> Some k
  | None => ~ In k hs
  end.
Proof.
  induction hs as [|h t IH]; cbn [last_index]; [intros []|].
  destruct (last_index key_eqb k t) as [i|].
  - destruct IH as [H1 H2]. split; [exact H1|].
    intros [|j] Hj; [destruct (Nat.nlt_0_r _ Hj)|]. apply H2, Nat.succ_lt_mono, Hj.
  - destruct (key_eqb h k) eqn:E.
    + apply key_eqb_eq in E. subst h. split; [reflexivity|].
      intros [|j] Hj Hn; [destruct (Nat.lt_irrefl _ Hj)|]. apply IH. exact (nth_error_In t j Hn).
    + intros [->|Hin]; [rewrite key_eqb_refl in E; discriminate|exact (IH Hin)].
Qed.

Lemma last_index_none k hs : last_index key_eqb k hs = None <-> ~ In k hs.
Proof.
  pose proof (last_index_cases k hs) as H. destruct (last_index key_eqb k hs) as [i|].
  - split; [discriminate|]. intros Hn. destruct H as [H _]. destruct (Hn (nth_error_In hs i H)).
  - split; [intros _; exact H|reflexivity].
Qed.

Lemma last_index_spec k hs i :
  last_index key_eqb k hs = Some i <->
  (nth_error hs i = Some k /\ forall j, i < j -> nth_error hs j <> Some k).
Proof.
  pose proof (last_index_cases k hs) as H. destruct (last_index key_eqb k hs) as [i'|].
  - destruct H as [H3 H4]. split; [intros E; injection E as <-; split; assumption|].
    intros [H1 H2]. destruct (Nat.lt_trichotomy i i') as [Hlt|[->|Hlt]]; [|reflexivity|].
    + destruct (H2 i' Hlt H3).
    + destruct (H4 i Hlt H1).
  - split; [discriminate|]. intros [H1 _]. destruct (H (nth_error_In hs i H1)).
Qed.

Lemma last_index_distinct hs i k : NoDup hs -> nth_error hs i = Some k -> last_index key_eqb k hs = Some i.
Proof.
  intros Hnd Hi. apply last_index_spec. split; [exact Hi|].
  intros j Hj Hn. apply (Nat.lt_neq i j Hj).
  apply (proj1 (NoDup_nth_error hs) Hnd i j); [|rewrite Hi, Hn; reflexivity].
  apply nth_error_Some. rewrite Hi. discriminate.
Qed.

(* a further column adds its name at the end unless the name was there already; with first_names [] = [] this
   equation determines first_names, and what else is said of it below is read off it *)
Lemma dedup_snoc seen hs k :
  dedup key_eqb seen (hs ++ [k])
  = dedup key_eqb seen hs ++ (if existsb (key_eqb k) seen || existsb (key_eqb k) hs then [] else [k]).
Proof.
  revert seen. induction hs as [|h t IH]; intros seen; cbn [app dedup existsb].
  - rewrite orb_false_r. destruct (existsb (key_eqb k) seen); reflexivity.
  - destruct (existsb (key_eqb h) seen) eqn:E.
    + rewrite IH. f_equal. destruct (key_eqb k h) eqn:Ek; [|reflexivity].
      apply key_eqb_eq in Ek. subst k. rewrite E. reflexivity.
    + rewrite IH. cbn [app existsb]. f_equal. f_equal.
      rewrite (orb_comm (key_eqb k h)), orb_assoc. reflexivity.
Qed.

Lemma first_names_snoc (hs : list key) k :
  first_names key_eqb (hs ++ [k])
  = first_names key_eqb hs ++ (if existsb (key_eqb k) hs then [] else [k]).
Proof. apply dedup_snoc. Qed.

Lemma first_names_in (hs : list key) k : In k (first_names key_eqb hs) <-> In k hs.
Proof.
  induction hs as [|a hs IH] using rev_ind; [reflexivity|].
  rewrite first_names_snoc, !in_app_iff, IH.
  destruct (existsb (key_eqb a) hs) eqn:E; [|reflexivity].
  apply existsb_key_in in E. split; [intros [H|[]]; left; exact H|].
  intros [H|[<-|[]]]; left; assumption.
Qed.

Lemma existsb_first_names k (hs : list key) :
  existsb (key_eqb k) (first_names key_eqb hs) = existsb (key_eqb k) hs.
Proof. apply eq_true_iff_eq. rewrite !existsb_key_in. apply first_names_in. Qed.

Lemma first_names_nodup (hs : list key) : NoDup (first_names key_eqb hs).
Proof.
  induction hs as [|a hs IH] using rev_ind; [constructor|].
  rewrite first_names_snoc. destruct (existsb (key_eqb a) hs) eqn:E; [rewrite app_nil_r; exact IH|].
  apply (Permutation_NoDup (Permutation_cons_append _ a)). constructor; [|exact IH].
  rewrite first_names_in, <- existsb_key_in, E. discriminate.
Qed.

Lemma first_names_distinct (hs : list key) : NoDup hs -> first_names key_eqb hs = hs.
Proof.
  induction hs as [|a hs IH] using rev_ind; intros H; [reflexivity|].
  apply NoDup_remove in H. rewrite app_nil_r in H. destruct H as [H Ha].
  rewrite first_names_snoc, (IH H), (existsb_key_notin a hs Ha). reflexivity.
Qed.

Lemma first_names_shorter (hs : list key) : ~ NoDup hs -> length (first_names key_eqb hs) < length hs.
Proof.
  intros H. destruct (le_lt_dec (length hs) (length (first_names key_eqb hs))) as [L|L]; [|exact L].
  destruct H. eapply NoDup_incl_NoDup; [apply first_names_nodup|exact L|].
  intros k. apply first_names_in.
Qed.

Lemma repeated_spec (hs : list key) : repeated key_eqb hs = true <-> ~ NoDup hs.
Proof.
  induction hs as [|h t IH]; cbn [repeated]; [split; [discriminate|intros H; destruct H; constructor]|].
  rewrite orb_true_iff, IH, existsb_key_in. split.
  - intros [H|H] Hnd; inversion Hnd; subst; contradiction.
  - intros H. destruct (in_dec (list_eq_dec N.eq_dec) h t) as [Hin|Hnin]; [left; exact Hin|].
    right. intros Hnd. apply H. constructor; assumption.
Qed.

Lemma find_entry_key s k e : find_entry s k = Some e -> In e s /\ e_key e = k.
Proof.
  intros H. apply find_some in H. destruct H as [Hin E].
  split; [exact Hin|apply key_eqb_eq, E].
Qed.

Lemma find_entry_none s k : ~ In k (keys s) -> find_entry s k = None.
Proof.
  intros H. destruct (find_entry s k) as [e|] eqn:F; [|reflexivity].
  destruct (find_entry_key s k e F) as [Hin <-]. destruct H. apply in_map, Hin.
Qed.

Lemma find_entry_in s k p :
  NoDup (keys s) -> In (mk_entry k p) s -> find_entry s k = Some (mk_entry k p).
Proof.
  induction s as [|a s IH]; intros Hnd Hin; [destruct Hin|].
  inversion Hnd as [|x l Hnotin Hnd']; subst. unfold find_entry. cbn [find].
  destruct Hin as [->|Hin]; [cbn [e_key]; rewrite key_eqb_refl; reflexivity|].
  rewrite key_eqb_neq; [exact (IH Hnd' Hin)|].
  intros E. apply Hnotin. rewrite E. exact (in_map e_key s _ Hin).
Qed.

Lemma find_entry_app s t k :
  find_entry (s ++ t) k = match find_entry s k with Some x => Some x | None => find_entry t k end.
Proof.
  unfold find_entry. induction s as [|a s IH]; cbn [app find]; [reflexivity|].
  destruct (key_eqb (e_key a) k); [reflexivity|exact IH].
Qed.

Lemma find_entry_map f s k :
  (forall x, e_key (f x) = e_key x) -> find_entry (map f s) k = option_map f (find_entry s k).
Proof.
  intros Hf. unfold find_entry. induction s as [|a s IH]; cbn [map find]; [reflexivity|].
  rewrite Hf. destruct (key_eqb (e_key a) k); [reflexivity|exact IH].
Qed.

Lemma has_key_find s k : has_key s k = if find_entry s k then true else false.
Proof.
  unfold has_key, find_entry. induction s as [|a s IH]; cbn [existsb find]; [reflexivity|].
  destruct (key_eqb (e_key a) k); [reflexivity|exact IH].
Qed.

Lemma has_key_keys s k : has_key s k = existsb (key_eqb k) (keys s).
Proof.
  unfold has_key, keys. induction s as [|a s IH]; cbn [map existsb]; [reflexivity|].
  rewrite IH, key_eqb_sym. reflexivity.
Qed.

Lemma replace_key e x : e_key (if key_eqb (e_key x) (e_key e) then e else x) = e_key x.
Proof.
  destruct (key_eqb (e_key x) (e_key e)) eqn:E; [|reflexivity].
  symmetry. apply key_eqb_eq, E.
Qed.

Lemma keys_dict_set s e :
  keys (dict_set s e) = if has_key s (e_key e) then keys s else keys s ++ [e_key e].
Proof.
  unfold dict_set, keys. destruct (has_key s (e_key e)); [|apply map_app].
  rewrite map_map. apply map_ext. apply replace_key.
Qed.

(* d[k] = v, then d.get(k') *)
Lemma find_dict_set s e k :
  find_entry (dict_set s e) k = if key_eqb (e_key e) k then Some e else find_entry s k.
Proof.
  unfold dict_set. rewrite has_key_find. destruct (find_entry s (e_key e)) as [x|] eqn:F.
  - (* the key is there: its entry is replaced where it stands *)
    rewrite find_entry_map by apply replace_key.
    destruct (key_eqb (e_key e) k) eqn:E.
    + apply key_eqb_eq in E. subst k. rewrite F. cbn [option_map].
      rewrite (proj2 (find_entry_key _ _ _ F)), key_eqb_refl. reflexivity.
    + destruct (find_entry s k) as [y|] eqn:G; [|reflexivity]. cbn [option_map].
      rewrite (proj2 (find_entry_key _ _ _ G)), key_eqb_sym, E. reflexivity.
  - (* a new key goes to the end *)
    rewrite find_entry_app. cbn [find_entry find]. destruct (key_eqb (e_key e) k) eqn:E.
    + apply key_eqb_eq in E. subst k. rewrite F. reflexivity.
    + destruct (find_entry s k); reflexivity.
Qed.

(* a comprehension stores its items one after the other *)
Lemma dict_of_snoc es e : dict_of (es ++ [e]) = dict_set (dict_of es) e.
Proof. apply fold_left_app. Qed.

Lemma keys_snoc es e : keys (es ++ [e]) = keys es ++ [e_key e].
Proof. apply map_last. Qed.

(* its keys: every key at its FIRST place *)
Lemma keys_dict_of es : keys (dict_of es) = first_names key_eqb (keys es).
Proof.
  induction es as [|e es IH] using rev_ind; [reflexivity|].
  rewrite keys_snoc, dict_of_snoc, keys_dict_set, has_key_keys, IH, first_names_snoc, existsb_first_names.
  destruct (existsb (key_eqb (e_key e)) (keys es)); [rewrite app_nil_r|]; reflexivity.
Qed.

(* its values: every key holds its LAST value *)
Lemma find_dict_of es k : find_entry (dict_of es) k = find_entry (rev es) k.
Proof.
  induction es as [|e es IH] using rev_ind; [reflexivity|].
  rewrite dict_of_snoc, find_dict_set, IH, rev_unit. reflexivity.
Qed.

Lemma dict_of_nodup es : NoDup (keys es) -> dict_of es = es.
Proof.
  induction es as [|e es IH] using rev_ind; intros H; [reflexivity|].
  rewrite keys_snoc in H. apply NoDup_remove in H. rewrite app_nil_r in H. destruct H as [H He].
  rewrite dict_of_snoc, (IH H). unfold dict_set. rewrite has_key_keys, (existsb_key_notin _ _ He). reflexivity.
Qed.

Lemma header_item_ok n c : header_item n c = Ok (mk_entry (str_of c) (Some n)).
Proof.
  unfold header_item, comp_item. destruct rule_heading_property as [-> ->].
  cbn [eval eval_props bind en_item en_count str_val].
  destruct (anchor_of_spec (str_of c)) as (a & Ha & _). rewrite Ha.
  cbn [bind key_of_val]. reflexivity.
Qed.

Fixpoint positioned (n : nat) (ks : list key) : list entry :=
  match ks with
  | [] => []
  | k :: t => mk_entry k (Some n) :: positioned (S n) t
  end.

Lemma header_entries_ok first : forall n,
  header_entries n first = Ok (positioned n (map str_of first)).
Proof.
  induction first as [|c t IH]; intros n; cbn [header_entries map positioned]; [reflexivity|].
  rewrite header_item_ok. cbn [bind]. rewrite IH. reflexivity.
Qed.

Lemma header_schema_ok first :
  header_schema first = Ok (dict_of (positioned 0 (map str_of first))).
Proof. unfold header_schema. rewrite rule_heading_enumerate, header_entries_ok. reflexivity. Qed.

Lemma keys_positioned ks : forall n, keys (positioned n ks) = ks.
Proof. induction ks as [|k t IH]; intros n; cbn [positioned keys map]; [reflexivity|]. f_equal. apply IH. Qed.

Lemma positioned_with_positions ks : forall n,
  map (fun e => (e_key e, e_pos e)) (positioned n ks)
  = map (fun p => (fst p, Some (snd p))) (combine ks (seq n (length ks))).
Proof. induction ks as [|k t IH]; intros n; simpl; [reflexivity|]. rewrite IH. reflexivity. Qed.

Lemma find_rev_positioned ks : forall n k,
  find_entry (rev (positioned n ks)) k
  = option_map (fun i => mk_entry k (Some (n + i))) (last_index key_eqb k ks).
Proof.
  induction ks as [|a t IH]; intros n k; cbn [positioned rev last_index]; [reflexivity|].
  rewrite find_entry_app, IH. destruct (last_index key_eqb k t) as [i|]; cbn [option_map].
  - rewrite Nat.add_succ_r. reflexivity.
  - cbn [find_entry find e_key]. destruct (key_eqb a k) eqn:E; [|reflexivity].
    apply key_eqb_eq in E. subst a. cbn [option_map]. rewrite Nat.add_0_r. reflexivity.
Qed.

Lemma nav_missing s k r : ~ In k (keys s) -> nav_name s k r = Err KeyError.
Proof. intros H. rewrite nav_name_unfold, find_entry_none; [reflexivity|exact H]. Qed.

Lemma collect_map_ok {X T} (f : X -> res T) (g : X -> T) l :
  (forall x, In x l -> f x = Ok (g x)) -> collect (map f l) = Ok (map g l).
Proof.
  induction l as [|x l IH]; intros H; cbn [map collect]; [reflexivity|].
  rewrite (H x (or_introl eq_refl)), IH; [reflexivity|].
  intros y Hy. apply H. right. exact Hy.
Qed.

Lemma map_by_seq {A B} (f : A -> B) (g : nat -> B) l : forall n,
  (forall i x, nth_error l i = Some x -> f x = g (n + i)) -> map f l = map g (seq n (length l)).
Proof.
  induction l as [|a l IH]; intros n H; cbn [map length seq]; [reflexivity|]. f_equal.
  - rewrite (H 0 a eq_refl), Nat.add_0_r. reflexivity.
  - apply IH. intros i x Hi. rewrite (H (S i) x Hi), Nat.add_succ_r. reflexivity.
Qed.

Lemma map_nth_error_nil {T} len : forall start, map (@nth_error T []) (seq start len) = repeat None len.
Proof.
  induction len as [|len IH]; intros start; simpl; [reflexivity|].
  rewrite IH. destruct start; reflexivity.
Qed.

Lemma cells_by_seq {T} (r : list T) : forall n,
  map (nth_error r) (seq 0 n) = cells_in_header_order n r.
Proof.
  unfold cells_in_header_order.
  induction r as [|c t IH]; intros n.
  - rewrite map_nth_error_nil, firstn_nil. simpl. rewrite Nat.sub_0_r. reflexivity.
  - destruct n as [|n]; [reflexivity|].
    cbn [seq map nth_error firstn length app Nat.sub]. f_equal.
    rewrite <- seq_shift, map_map. cbn [nth_error]. apply IH.
Qed.

(* The heading-row schema of ANY heading row; ks = the names str(heading) of the first row, repeated ones included.
   Asking for a name: the cell under the LAST column headed by it; KeyError for any other name *)
Lemma nav_heading ks k r :
  nav_name (dict_of (positioned 0 ks)) k r
  = match last_wins_value key_eqb ks k r with Some v => Ok v | None => Err KeyError end.
Proof.
  rewrite nav_name_unfold, find_dict_of, find_rev_positioned. unfold last_wins_value.
  destruct (last_index key_eqb k ks); reflexivity.
Qed.

Lemma keys_heading ks : keys (dict_of (positioned 0 ks)) = first_names key_eqb ks.
Proof. rewrite keys_dict_of, keys_positioned. reflexivity. Qed.

(* the value list: one value per DISTINCT name, in order of first occurrence, read from the last column *)
Lemma values_heading ks r :
  values (dict_of (positioned 0 ks)) r = Ok (last_wins_values key_eqb ks r).
Proof.
  rewrite rule_values, keys_heading. unfold last_wins_values. apply collect_map_ok.
  intros k Hk. rewrite nav_heading. unfold last_wins_value.
  destruct (last_index key_eqb k ks) as [i|] eqn:E; [reflexivity|].
  apply last_index_none in E. destruct E. apply first_names_in, Hk.
Qed.

Lemma not_header first s r k :
  header_schema first = Ok s -> ~ In k (map str_of first) -> nav_name s k r = Err KeyError.
Proof.
  intros Hs Hk. rewrite header_schema_ok in Hs. injection Hs as <-.
  apply nav_missing. rewrite keys_heading, first_names_in. exact Hk.
Qed.

(* with distinct names the last-wins reading IS the property's reading (C09_by_name / C09_values) *)
Lemma last_wins_values_distinct {C} (hs : list key) (r : list C) :
  NoDup hs -> last_wins_values key_eqb hs r = cells_in_header_order (length hs) r.
Proof.
  intros Hnd. unfold last_wins_values. rewrite (first_names_distinct _ Hnd), <- cells_by_seq.
  apply (map_by_seq _ _ hs 0). intros i k Hi.
  rewrite (last_index_distinct hs i k Hnd Hi). reflexivity.
Qed.

Lemma nav_heading_distinct ks i k r :
  NoDup ks -> nth_error ks i = Some k -> nav_name (dict_of (positioned 0 ks)) k r = Ok (nth_error r i).
Proof.
  intros Hnd Hi. rewrite nav_heading. unfold last_wins_value.
  rewrite (last_index_distinct ks i k Hnd Hi). reflexivity.
Qed.

(* positions that hold the same cell in every row are one position: a row of a + 1 cells has a cell at a *)
Lemma nth_error_same_le {X} (x : X) a b : (forall r : list X, nth_error r a = nth_error r b) -> b <= a.
Proof.
  intros R. specialize (R (repeat x (S a))). rewrite nth_error_repeat in R by apply Nat.lt_succ_diag_r.
  apply Nat.lt_succ_r. rewrite <- (repeat_length x (S a)). apply nth_error_Some. rewrite <- R. discriminate.
Qed.

(* the hypothesis is exactly what is needed: a heading row whose every header reads its own column
   has pairwise distinct names *)
Lemma by_name_needs_distinct (h : row) (s : schema) :
  (forall (r : row) (i : nat) (c : cell), nth_error h i = Some c -> nav_name s (str_of c) r = Ok (nth_error r i)) ->
  NoDup (map str_of h).
Proof.
  intros H. apply NoDup_nth_error. intros i j Hi E.
  rewrite map_length in Hi. rewrite !nth_error_map in E.
  destruct (nth_error h i) as [ci|] eqn:Ei; [|destruct (proj2 (nth_error_Some h i) Hi Ei)].
  destruct (nth_error h j) as [cj|] eqn:Ej; [|discriminate]. injection E as E.
  (* two headers of one name read the same cell of every row *)
  assert (forall r : row, nth_error r i = nth_error r j) as R.
  { intros r. pose proof (H r i ci Ei) as A. rewrite E, (H r j cj Ej) in A. injection A as A. symmetry. exact A. }
  apply Nat.le_antisymm; [apply (nth_error_same_le ci j i)|apply (nth_error_same_le ci i j)]; congruence.
Qed.

Lemma row_iter_heading pre sh :
  row_iter HeadingRow pre sh
  = match sh with
    | [] => Ok (pre, [])
    | h :: body => Ok (Some (dict_of (positioned 0 (map str_of h))), body)
    end.
Proof.
  unfold row_iter. rewrite rule_row_iter. destruct sh as [|h body]; cbn [header].
  - rewrite rule_heading_empty_sheet. destruct pre; reflexivity.
  - rewrite header_schema_ok. cbn [bind fst snd]. rewrite rule_body_kind. destruct body; reflexivity.
Qed.

(* rows delivered = every physical row after the first; never raises *)
Lemma rows_tl (sh : sheet) pre :
  exists os, row_iter HeadingRow pre sh = Ok (os, data_rows sh).
Proof. rewrite row_iter_heading. destruct sh; eexists; reflexivity. Qed.

Lemma rows_schema first rest pre :
  exists s, header_schema first = Ok s /\ row_iter HeadingRow pre (first :: rest) = Ok (Some s, rest).
Proof. eexists. split; [apply header_schema_ok|apply row_iter_heading]. Qed.

Lemma rows_empty pre : row_iter HeadingRow pre [] = Ok (pre, []).
Proof. apply row_iter_heading. Qed.

Lemma row_iter_inv h body pre os rows :
  row_iter HeadingRow pre (h :: body) = Ok (os, rows) ->
  os = Some (dict_of (positioned 0 (map str_of h))) /\ rows = body.
Proof. rewrite row_iter_heading. intros H. injection H as <- <-. split; reflexivity. Qed.

Lemma rows_noloader s (data : sheet) : row_iter NoLoader (Some s) data = Ok (Some s, data).
Proof.
  unfold row_iter. rewrite rule_row_iter. cbn [header bind fst snd].
  rewrite rule_body_kind. destruct data; reflexivity.
Qed.

Lemma by_name_table h body pre os rows :
  row_iter HeadingRow pre (h :: body) = Ok (os, rows) -> NoDup (map str_of h) ->
  exists s, os = Some s /\
    forall r i c, nth_error h i = Some c -> nav_name s (str_of c) r = Ok (nth_error r i).
Proof.
  intros H Hnd. destruct (row_iter_inv _ _ _ _ _ H) as [-> _].
  eexists. split; [reflexivity|].
  intros r i c Hc. exact (nav_heading_distinct _ i _ r Hnd (map_nth_error str_of i h Hc)).
Qed.

Lemma values_table h body pre os rows :
  row_iter HeadingRow pre (h :: body) = Ok (os, rows) -> NoDup (map str_of h) ->
  exists s, os = Some s /\
    forall r, values s r = Ok (cells_in_header_order (length h) r).
Proof.
  intros H Hnd. destruct (row_iter_inv _ _ _ _ _ H) as [-> _].
  eexists. split; [reflexivity|].
  intros r. rewrite values_heading, (last_wins_values_distinct _ r Hnd), map_length. reflexivity.
Qed.

Lemma key_index_nth ks : forall i k,
  NoDup ks -> nth_error ks i = Some k -> key_index ks k = i.
Proof.
  induction ks as [|a ks IH]; intros [|i] k Hnd H; try discriminate; cbn [nth_error key_index] in *.
  - injection H as ->. rewrite key_eqb_refl. reflexivity.
  - inversion Hnd as [|x l Hnotin Hnd']; subst.
    rewrite key_eqb_neq; [f_equal; exact (IH i k Hnd' H)|].
    intros ->. exact (Hnotin (nth_error_In ks i H)).
Qed.

Lemma keys_bare names : keys (map (fun k => mk_entry k None) names) = names.
Proof. unfold keys. rewrite map_map. apply map_id. Qed.

Lemma hand_schema_distinct names :
  NoDup names -> hand_schema names = map (fun k => mk_entry k None) names.
Proof. intros H. apply dict_of_nodup. rewrite keys_bare. exact H. Qed.

Lemma keys_hand names : NoDup names -> keys (hand_schema names) = names.
Proof. intros H. rewrite (hand_schema_distinct names H). apply keys_bare. Qed.

(* no position attribute: the i-th name reads the column of its index *)
Lemma nav_hand names i k r :
  NoDup names -> nth_error names i = Some k -> nav_name (hand_schema names) k r = Ok (nth_error r i).
Proof.
  intros Hnd Hi. pose proof (keys_hand names Hnd) as K.
  rewrite nav_name_unfold, K, (find_entry_in (hand_schema names) k None).
  - cbn [e_pos]. rewrite (key_index_nth names i k Hnd Hi). reflexivity.
  - rewrite K. exact Hnd.
  - rewrite (hand_schema_distinct names Hnd). exact (in_map _ names k (nth_error_In names i Hi)).
Qed.

Lemma values_hand names r :
  NoDup names -> values (hand_schema names) r = Ok (cells_in_header_order (length names) r).
Proof.
  intros Hnd. rewrite rule_values, (keys_hand names Hnd), <- cells_by_seq.
  rewrite (collect_map_ok _ (fun k => nth_error r (key_index names k))).
  - f_equal. apply (map_by_seq _ _ names 0).
    intros i k Hi. rewrite (key_index_nth names i k Hnd Hi). reflexivity.
  - intros k Hk. destruct (In_nth_error _ _ Hk) as [i Hi].
    rewrite (nav_hand names i k r Hnd Hi), (key_index_nth names i k Hnd Hi). reflexivity.
Qed.

Lemma Forall2_map_nth {X} (h h' : list X) pi d :
  Forall2 (fun c' j => nth_error h j = Some c') h' pi -> h' = map (fun j => nth j h d) pi.
Proof.
  induction 1 as [|x j l l' Hxj HF IH]; simpl; [reflexivity|].
  rewrite (nth_error_nth h j d Hxj). f_equal. exact IH.
Qed.

Lemma map_nth_seq {X} (h : list X) d : map (fun j => nth j h d) (seq 0 (length h)) = h.
Proof.
  induction h as [|c t IH]; simpl; [reflexivity|].
  f_equal. rewrite <- seq_shift, map_map. exact IH.
Qed.

Lemma perm_by_name h h' pi r r' c :
  NoDup (map str_of h) ->
  Permutation pi (seq 0 (length h)) ->
  Forall2 (fun c' j => nth_error h j = Some c') h' pi ->
  (forall i j, nth_error pi i = Some j -> nth_error r' i = nth_error r j) ->
  In c h ->
  nav_name (dict_of (positioned 0 (map str_of h'))) (str_of c) r'
  = nav_name (dict_of (positioned 0 (map str_of h))) (str_of c) r.
Proof.
  intros Hnd Hperm Hh' Hr Hin.
  (* h' lists the cells of h in the order pi *)
  pose proof (Forall2_map_nth h h' pi c Hh') as E.
  (* c heads column j of h and column i of h', where pi i = j *)
  destruct (In_nth_error _ _ Hin) as [j Hj].
  assert (In j pi) as Hjpi.
  { apply (Permutation_in j (Permutation_sym Hperm)), in_seq.
    split; [apply Nat.le_0_l|]. apply nth_error_Some. rewrite Hj. discriminate. }
  destruct (In_nth_error _ _ Hjpi) as [i Hi].
  assert (nth_error h' i = Some c) as Hc'.
  { rewrite E, nth_error_map, Hi. cbn [option_map]. rewrite (nth_error_nth h j c Hj). reflexivity. }
  (* so the names of h' are those of h in another order *)
  assert (NoDup (map str_of h')) as Hnd'.
  { apply (Permutation_NoDup (l := map str_of h)); [|exact Hnd].
    apply Permutation_map. rewrite E, <- (map_nth_seq h c) at 1.
    apply Permutation_map, Permutation_sym, Hperm. }
  rewrite (nav_heading_distinct _ i _ r' Hnd' (map_nth_error str_of i h' Hc')).
  rewrite (nav_heading_distinct _ j _ r Hnd (map_nth_error str_of j h Hj)).
  rewrite (Hr i j Hi). reflexivity.
Qed.

(* the boolean tests of Spec/Table.v mean what the hypotheses above say *)
Lemma is_perm_sound pi n : is_perm pi n = true -> Permutation pi (seq 0 n).
Proof.
  unfold is_perm. intros H. apply andb_true_iff in H. destruct H as [Hlen Hall].
  apply Nat.eqb_eq in Hlen. apply Permutation_sym.
  apply NoDup_Permutation_bis.
  - apply seq_NoDup.
  - rewrite seq_length, Hlen. apply le_n.
  - intros j Hj. rewrite forallb_forall in Hall. specialize (Hall j Hj).
    apply existsb_exists in Hall. destruct Hall as (x & Hx & E).
    apply Nat.eqb_eq in E. subst x. exact Hx.
Qed.

Lemma in_combine_seq {X} (p : list X) : forall a i x,
  nth_error p i = Some x -> In (a + i, x) (combine (seq a (length p)) p).
Proof.
  induction p as [|y p IH]; intros a [|i] x H; try discriminate; cbn [nth_error] in H.
  - injection H as ->. left. rewrite Nat.add_0_r. reflexivity.
  - right. rewrite Nat.add_succ_r. apply (IH (S a)). exact H.
Qed.

Lemma reordered_sound {T} (teqb : T -> T -> bool) pi (l l' : list T) :
  (forall a b, teqb a b = true -> a = b) ->
  reordered teqb pi l l' = true ->
  forall i j, nth_error pi i = Some j -> nth_error l' i = nth_error l j.
Proof.
  intros Hsound H i j Hi. unfold reordered in H. rewrite forallb_forall in H.
  specialize (H _ (in_combine_seq pi 0 i j Hi)). cbn [fst snd Nat.add] in H.
  destruct (nth_error l' i) as [x|], (nth_error l j) as [y|]; try discriminate; [|reflexivity].
  f_equal. apply Hsound. exact H.
Qed.

Lemma nav_meta_name r : nav_name meta_schema k_name r = Ok (nth_error r 0).
Proof. rewrite nav_name_unfold. reflexivity. Qed.

Lemma nav_meta_description r : nav_name meta_schema k_description r = Ok (nth_error r 1).
Proof. rewrite nav_name_unfold. reflexivity. Qed.

Lemma nav_meta_dataType r : nav_name meta_schema k_dataType r = Ok (nth_error r 2).
Proof. rewrite nav_name_unfold. reflexivity. Qed.

(* one row of the metadata sheet under META_SCHEMA: a text name cell gives the property, anything else TypeError *)
Lemma ext_entry_meta n r :
  ext_entry meta_schema n r
  = match nth_error r 0 with Some (Txt t) => Ok (mk_entry t (Some n)) | _ => Err TypeError end.
Proof.
  unfold ext_entry, comp_item. destruct rule_external_property as [-> ->].
  cbn [eval eval_props bind en_item en_count en_field].
  rewrite nav_meta_name, nav_meta_description, nav_meta_dataType. cbn [bind].
  destruct (nth_error r 0) as [[t|id rp]|]; [|reflexivity|reflexivity].
  destruct (anchor_of_spec t) as (a & Ha & _). rewrite Ha. cbn [bind key_of_val]. reflexivity.
Qed.

Lemma ext_load_meta_entries meta :
  ext_load_meta meta = bind (ext_entries meta_schema 0 meta) (fun es => Ok (dict_of es)).
Proof.
  unfold ext_load_meta, ext_load. rewrite rows_noloader. cbn [bind fst snd].
  rewrite rule_external_enumerate. reflexivity.
Qed.

Lemma ext_entries_ok meta : forall names n,
  first_cells meta = Some (map Txt names) ->
  ext_entries meta_schema n meta = Ok (positioned n names).
Proof.
  induction meta as [|[|c r] meta IH]; intros names n H; cbn [first_cells] in H; [|discriminate|].
  - destruct names; [reflexivity|discriminate].
  - destruct (first_cells meta) as [cs|]; [|discriminate].
    destruct names as [|k names]; [discriminate|]. injection H as -> ->.
    cbn [ext_entries]. rewrite ext_entry_meta. cbn [nth_error bind].
    rewrite (IH names (S n) eq_refl). reflexivity.
Qed.

Lemma ext_load_ok meta names :
  first_cells meta = Some (map Txt names) ->
  ext_load_meta meta = Ok (dict_of (positioned 0 names)).
Proof. intros H. rewrite ext_load_meta_entries, (ext_entries_ok meta names 0 H). reflexivity. Qed.

(* a row of the metadata sheet without a text first cell makes load() raise TypeError *)
Lemma ext_load_bad_row meta : first_cells meta = None -> ext_load_meta meta = Err TypeError.
Proof.
  intros H. rewrite ext_load_meta_entries.
  assert (forall n, ext_entries meta_schema n meta = Err TypeError) as G; [|rewrite G; reflexivity].
  induction meta as [|[|c r] meta IH]; intros n; cbn [first_cells] in H; [discriminate| |];
    cbn [ext_entries]; rewrite ext_entry_meta; [reflexivity|].
  destruct (first_cells meta); [discriminate|]. cbn [nth_error].
  destruct c as [t|id rp]; [|reflexivity]. cbn [bind]. rewrite (IH eq_refl). reflexivity.
Qed.

Lemma external meta names s :
  first_cells meta = Some (map Txt names) -> NoDup names ->
  ext_load_meta meta = Ok s ->
  map (fun e => (e_key e, e_pos e)) s
    = map (fun p => (fst p, Some (snd p))) (with_positions names)
  /\ (forall data, row_iter NoLoader (Some s) data = Ok (Some s, data))
  /\ (forall k r, nav_name s k r = nav_name (hand_schema names) k r)
  /\ (forall i k r, nth_error names i = Some k -> nav_name s k r = Ok (nth_error r i))
  /\ (forall r, values s r = Ok (cells_in_header_order (length names) r)
             /\ values (hand_schema names) r = Ok (cells_in_header_order (length names) r)).
Proof.
  intros H Hnd Hs. rewrite (ext_load_ok meta names H) in Hs. injection Hs as <-.
  split.
  { rewrite dict_of_nodup by (rewrite keys_positioned; exact Hnd). apply positioned_with_positions. }
  split; [intros data; apply rows_noloader|].
  split.
  { intros k r. destruct (in_dec (list_eq_dec N.eq_dec) k names) as [Hin|Hnot].
    - destruct (In_nth_error _ _ Hin) as [i Hi].
      rewrite (nav_heading_distinct names i k r Hnd Hi), (nav_hand names i k r Hnd Hi). reflexivity.
    - rewrite !nav_missing; [reflexivity| |].
      + rewrite (keys_hand names Hnd). exact Hnot.
      + rewrite keys_heading, first_names_in. exact Hnot. }
  split; [intros i k r; apply nav_heading_distinct, Hnd|].
  intros r. rewrite values_heading, (last_wins_values_distinct names r Hnd), (values_hand names r Hnd).
  split; reflexivity.
Qed.

Lemma bind_all_snoc bs b : bind_all (bs ++ [b]) = bind_step (bind_all bs) b.
Proof. unfold bind_all. rewrite fold_left_app. reflexivity. Qed.

(* a schema written by hand with a position for every name, in any order: what hand_schema_at builds under distinct names *)
Definition declared (decl : list (key * nat)) : schema :=
  map (fun kp => mk_entry (fst kp) (Some (snd kp))) decl.

Lemma keys_declared decl : keys (declared decl) = map fst decl.
Proof. unfold keys, declared. rewrite map_map. reflexivity. Qed.

Lemma hand_schema_at_distinct decl : NoDup (map fst decl) -> hand_schema_at decl = declared decl.
Proof. intros H. apply (dict_of_nodup (declared decl)). rewrite keys_declared. exact H. Qed.

Lemma find_declared decl k :
  find_entry (declared decl) k
  = option_map (fun p => mk_entry k (Some p)) (declared_position key_eqb decl k).
Proof.
  unfold find_entry. induction decl as [|[k0 p] decl IH]; [reflexivity|].
  cbn [declared map find declared_position fst snd e_key].
  destruct (key_eqb k0 k) eqn:E; [|exact IH]. apply key_eqb_eq in E. subst k0. reflexivity.
Qed.

Lemma nav_declared decl k p r :
  NoDup (map fst decl) -> In (k, p) decl -> nav_name (declared decl) k r = Ok (nth_error r p).
Proof.
  intros Hnd Hin. rewrite nav_name_unfold.
  rewrite (find_entry_in (declared decl) k (Some p)).
  - reflexivity.
  - rewrite keys_declared. exact Hnd.
  - exact (in_map (fun kp => mk_entry (fst kp) (Some (snd kp))) decl (k, p) Hin).
Qed.

Lemma values_declared decl r :
  NoDup (map fst decl) -> values (declared decl) r = Ok (cells_at decl r).
Proof.
  intros Hnd. rewrite rule_values, keys_declared, map_map. unfold cells_at. apply collect_map_ok.
  intros [k p] Hin. exact (nav_declared decl k p r Hnd Hin).
Qed.
