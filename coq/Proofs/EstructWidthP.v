(* Lemmas behind Props/C02c.v, Props/C04c.v and the counter decoder of Props/C06c.v:
   the width of the specification's images, the size function on each usage family (symbolic, every
   digit count), the split of C04's enumeration, the signed-DISPLAY extra byte, and the zoned counter decoder.
   Main lemmas: length_enc_packed, length_enc_zoned, length_enc_be; packed_field, display_unsigned_field, binary_field;
   display_signed_extra_byte; cfg_ok_split, C04_exact, C04c_exact; dcount_zoned_enc. *)
From Coq Require Import ZArith NArith List Bool Lia Arith ZifyBool ZifyN ZifyNat.
Import ListNotations.
Require Import SR.Base.Res SR.Base.Dec SR.Gen.EstructParams SR.Spec.Encode SR.Spec.Fits SR.Spec.SizeCfg SR.Spec.SizeSplit.
Require Import SR.Model.Estruct SR.Model.ZonedCounter SR.Proofs.EstructP.
Open Scope N_scope.

(* the width of the images *)

Lemma length_pack_pairs l : length (pack_pairs l) = (length l / 2)%nat.
Proof.
  induction l as [|a|a b t IH] using list_pair_ind; [reflexivity|reflexivity|].
  cbn [pack_pairs length]. rewrite IH. lia.
Qed.

(* packed decimal: digits plus a sign nibble, two per byte, whatever the digits and the sign nibble are *)
Lemma length_enc_packed ds s : length (enc_packed ds s) = spec_packed_width (length ds).
Proof.
  unfold enc_packed, spec_packed_width.
  destruct (Nat.even (length (ds ++ [s]))) eqn:He; rewrite length_pack_pairs.
  - apply Nat.even_spec in He. destruct He as [k Hk].
    rewrite app_length in *. cbn [length] in *. lia.
  - assert (Ho : Nat.odd (length (ds ++ [s])) = true) by (rewrite <- Nat.negb_even, He; reflexivity).
    apply Nat.odd_spec in Ho. destruct Ho as [k Hk].
    cbn [length]. rewrite app_length in *. cbn [length] in *. lia.
Qed.

(* zoned decimal: one byte per digit, the sign costs nothing *)
Lemma length_enc_zoned ds z : length (enc_zoned ds z) = length ds.
Proof.
  induction ds as [|d t IH]; [reflexivity|].
  destruct t as [|e t']; [reflexivity|]. rewrite enc_zoned_cons2. cbn [length] in *. rewrite IH. reflexivity.
Qed.

(* binary: w bytes, whatever the value *)
Lemma length_enc_be w v : length (enc_be w v) = w.
Proof. unfold enc_be. apply length_to_be. Qed.

(* the size function, family by family, every digit count *)

Lemma usage_calc_packed u : In u packed_spellings -> mem u calc_display = false /\ mem u calc_packed = true.
Proof. unfold packed_spellings. cbn [In]. intros [<-|[<-|[<-|[]]]]; split; reflexivity. Qed.

Lemma usage_calc_binary u : In u binary_spellings ->
  mem u calc_display = false /\ mem u calc_packed = false /\ mem u calc_float4 = false
  /\ mem u calc_float8 = false /\ mem u calc_binary = true.
Proof. unfold binary_spellings. cbn [In]. intros [<-|[<-|[<-|[<-|[<-|[]]]]]]; repeat split; reflexivity. Qed.

Lemma calcsize_packed u s m n : In u packed_spellings -> (1 <= m + n)%nat ->
  calcsize u (mkpic s m n) = Ok (N.of_nat (spec_packed_width (m + n))).
Proof.
  intros Hu Hmn. destruct (usage_calc_packed u Hu) as [H1 H2].
  unfold calcsize, picture_size, sign_positions. cbn [p_signed p_int p_frac]. rewrite H1, H2.
  replace (calc_packed_mode =? 0) with true by reflexivity.
  destruct (_ =? 0) eqn:E0; [destruct s; lia|].
  f_equal. unfold spec_packed_width. destruct s; lia.
Qed.

Lemma calcsize_display s m n : (1 <= m + n)%nat ->
  calcsize display_spelling (mkpic s m n) = Ok (N.of_nat (spec_display_width s (m + n))).
Proof.
  intros Hmn. unfold calcsize, picture_size. cbn [p_signed p_int p_frac].
  replace (mem display_spelling calc_display) with true by reflexivity.
  destruct (_ =? 0) eqn:E0; [destruct s; lia|].
  f_equal. unfold spec_display_width. destruct s; lia.
Qed.

(* binary: the S is counted as a digit when the size class is chosen *)
Lemma calcsize_binary_any u s m n : In u binary_spellings -> (1 <= m + n)%nat ->
  calcsize u (mkpic s m n)
  = Ok (let size := (if s then 1 else 0) + N.of_nat m + N.of_nat n in
        if size <? 5 then 2 else if (5 <=? size) && (size <? 10) then 4 else 8).
Proof.
  intros Hu Hmn. destruct (usage_calc_binary u Hu) as (H1 & H2 & H3 & H4 & H5).
  unfold calcsize, picture_size. cbn [p_signed p_int p_frac]. rewrite H1, H2, H3, H4, H5.
  destruct (_ =? 0) eqn:E0; [destruct s; lia|reflexivity].
Qed.

Lemma calcsize_binary u s m n w : In u binary_spellings -> spec_binary_width (m + n) = Some w ->
  s && ((m + n =? 4)%nat || (m + n =? 9)%nat) = false ->
  calcsize u (mkpic s m n) = Ok (N.of_nat w).
Proof.
  intros Hu Hw Hk. apply spec_binary_width_iff in Hw.
  rewrite calcsize_binary_any by (exact Hu || lia). cbv zeta.
  destruct Hw as [[-> H]|[[-> H]|[-> H]]]; destruct s; cbn [andb] in Hk.
  all: destruct (_ <? 5) eqn:E1; [reflexivity || lia|].
  all: destruct (_ && _) eqn:E2; reflexivity || lia.
Qed.

(* the finding K-signed-binary-size: a signed item of 4 or 9 digits falls into the next size class -
   twice the width of the image *)
Lemma calcsize_binary_signed_4_9 u m n w : In u binary_spellings -> spec_binary_width (m + n) = Some w ->
  ((m + n =? 4)%nat || (m + n =? 9)%nat) = true ->
  calcsize u (mkpic true m n) = Ok (N.of_nat (2 * w)).
Proof.
  intros Hu Hw Hk. apply spec_binary_width_iff in Hw.
  rewrite calcsize_binary_any by (exact Hu || lia). cbv zeta.
  destruct Hw as [[-> H]|[[-> H]|[-> H]]].
  all: destruct (_ <? 5) eqn:E1; [lia|].
  all: destruct (_ && _) eqn:E2; reflexivity || lia.
Qed.

(* the field has the width of the image *)

Lemma packed_field u s m n ds sg : In u packed_spellings -> (1 <= m + n)%nat -> length ds = (m + n)%nat ->
  calcsize u (mkpic s m n) = Ok (N.of_nat (length (enc_packed ds sg))).
Proof. intros Hu Hmn Hl. rewrite length_enc_packed, Hl. apply calcsize_packed; assumption. Qed.

Lemma display_unsigned_field m n ds z : (1 <= m + n)%nat -> length ds = (m + n)%nat ->
  calcsize display_spelling (mkpic false m n) = Ok (N.of_nat (length (enc_zoned ds z))).
Proof. intros Hmn Hl. rewrite length_enc_zoned, Hl, calcsize_display by assumption. reflexivity. Qed.

Lemma binary_field u s m n w v : In u binary_spellings -> spec_binary_width (m + n) = Some w ->
  s && ((m + n =? 4)%nat || (m + n =? 9)%nat) = false ->
  calcsize u (mkpic s m n) = Ok (N.of_nat (length (enc_be w v))).
Proof. intros. rewrite length_enc_be. apply calcsize_binary; assumption. Qed.

(* signed DISPLAY: what the decoder does with the extra byte *)

(* The field of a signed DISPLAY item is one byte b followed by (or preceded by - the layout does not say) the
   image.  The decoder takes the LOW NIBBLE OF EVERY BYTE of the buffer as a digit and the sign from the zone of
   the LAST byte.  With the image at the end of the field, the FIRST byte of the field - the position the S was
   counted for - is read as one more, most significant, digit: *)
Lemma display_signed_extra_byte p ds z b :
  ds <> [] -> forallb is_digit ds = true -> valid_sign z = true -> (length ds <= 27)%nat ->
  is_digit (lo b) = true ->
  unpack display_spelling p (b :: enc_zoned ds z)
  = Ok (VDec (mkdec (is_neg_sign z) (lo b * 10 ^ N.of_nat (length ds) + val ds) (- Z.of_nat (p_frac p)))).
Proof.
  intros Hne Hd Hs Hl Hb. pose proof (valid_sign_lt z Hs) as Hz.
  destruct (zoned_last ds z Hne Hd Hz) as (l & r & Hrev & Hhi).
  assert (Hd' : forallb is_digit (map lo (b :: enc_zoned ds z)) = true).
  { cbn [map forallb]. rewrite Hb, zoned_lo by assumption. exact Hd. }
  unfold unpack. rewrite usage_display, (unpack_zoned_digits p _ l (r ++ [b]) Hd') by (cbn [rev]; rewrite Hrev; reflexivity).
  cbn [map] in *. rewrite zoned_lo in * by assumption.
  rewrite Hhi, zoned_neg_spec, number_exact, val_cons; [reflexivity|].
  apply val_lt_limit; [exact Hd'|cbn [length]; lia].
Qed.

(* C04: the enumeration, conjunct by conjunct *)

Lemma size_okb_iff c : size_okb c = true <-> size_is_listed c.
Proof.
  destruct c as [[[u s] m] n]. unfold size_okb, size_is_listed. split.
  - destruct (spec_size u s m n) as [sz|]; [|discriminate]. destruct (calcsize u (mkpic s m n)) as [x|e]; [|discriminate].
    cbn [res_N_eqb]. intros H. apply N.eqb_eq in H. subst. exists sz. split; reflexivity.
  - intros (sz & -> & ->). cbn [res_N_eqb]. apply N.eqb_refl.
Qed.

Lemma decoder_okb_iff c : decoder_okb c = true <-> decoder_takes_listed c.
Proof.
  destruct c as [[[u s] m] n]. unfold decoder_okb, decoder_takes_listed. split.
  - destruct (spec_size u s m n) as [sz|]; [|discriminate]. intros H. exists sz. split; [reflexivity|exact H].
  - intros (sz & -> & H). exact H.
Qed.

Lemma size_decoder_iff c : size_okb c && decoder_okb c = true <-> size_and_decoder c.
Proof.
  rewrite andb_true_iff, size_okb_iff, decoder_okb_iff.
  destruct c as [[[u s] m] n]. unfold size_is_listed, decoder_takes_listed, size_and_decoder. split.
  - intros [(sz & H1 & H2) (sz' & H1' & H3)]. rewrite H1 in H1'. injection H1' as <-. exists sz. auto.
  - intros (sz & H1 & H2 & H3). split; exists sz; auto.
Qed.

Lemma struct_okb_iff c : struct_okb c = true <-> struct_is_listed c.
Proof.
  destruct c as [[[u s] m] n]. unfold struct_okb, struct_is_listed. split.
  - destruct (spec_size u s m n) as [sz|]; [|discriminate]. destruct (struct_calcsize u (mkpic s m n)) as [x|e]; [|discriminate].
    cbn [res_N_eqb]. intros H. apply N.eqb_eq in H. subst. exists sz. split; reflexivity.
  - intros (sz & -> & ->). cbn [res_N_eqb]. apply N.eqb_refl.
Qed.

Lemma struct_same_okb_iff c : struct_same_okb c = true <-> struct_same_as_size c.
Proof.
  destruct c as [[[u s] m] n]. unfold struct_same_okb, struct_same_as_size. split.
  - destruct (calcsize u (mkpic s m n)) as [sz|]; [|discriminate]. destruct (struct_calcsize u (mkpic s m n)) as [x|e]; [|discriminate].
    cbn [res_N_eqb]. intros H. apply N.eqb_eq in H. subst. exists sz. split; reflexivity.
  - intros (sz & -> & ->). cbn [res_N_eqb]. apply N.eqb_refl.
Qed.

Lemma text_okb_iff c : text_okb c = true <-> text_is_listed c.
Proof.
  destruct c as [[[u s] m] n]. unfold text_okb, text_is_listed. split.
  - intros H Hu. subst u. rewrite N.eqb_refl in H. cbn [negb orb] in H.
    destruct (spec_size display_spelling s m n) as [sz|]; [|discriminate]. apply N.eqb_eq in H. rewrite H. reflexivity.
  - intros H. destruct (u =? display_spelling) eqn:E; [|reflexivity]. apply N.eqb_eq in E. rewrite (H E).
    cbn [negb orb]. apply N.eqb_refl.
Qed.

(* Every report depends on the picture through its sign and its digit total only: m integer and n fraction digits
   give what m + n integer digits give.  So the 4914 configurations are judged on the 13 x 2 x 18 totals. *)
Definition row_ok (c : cfg) : bool :=
  let size_ok := size_okb c in
  let decoder_ok := decoder_okb c in
     Bool.eqb (is_none (known_bad_size c)) (size_ok && decoder_ok)
  && Bool.eqb (is_none (known_bad_calcsize c)) size_ok
  && Bool.eqb (is_none (known_bad_decoder c)) decoder_ok
  && Bool.eqb (is_none (known_bad_struct c)) (struct_okb c)
  && Bool.eqb (is_none (known_bad_struct_same c)) (struct_same_okb c)
  && text_okb c.

Definition totals : list cfg :=
  flat_map (fun u => flat_map (fun s => map (fun d => (N.of_nat u, s, d, 0%nat)) (seq 1 18)) [false; true]) (seq 0 13).

Lemma totals_ok : forallb row_ok totals = true.
Proof. vm_compute. reflexivity. Qed.

Lemma picture_size_total s m n : picture_size (mkpic s m n) = picture_size (mkpic s (m + n) 0).
Proof. unfold picture_size. cbn [p_signed p_int p_frac]. lia. Qed.

Lemma bin_width_total t1 t2 t3 incl s m n :
  bin_width t1 t2 t3 incl true (mkpic s m n) = bin_width t1 t2 t3 incl true (mkpic s (m + n) 0).
Proof. unfold bin_width. cbn [p_int p_frac]. now rewrite Nat2N.inj_add, N.add_0_r. Qed.

Lemma calcsize_total u s m n : calcsize u (mkpic s m n) = calcsize u (mkpic s (m + n) 0).
Proof. unfold calcsize, sign_positions. now rewrite picture_size_total. Qed.

Lemma struct_calcsize_total u s m n : struct_calcsize u (mkpic s m n) = struct_calcsize u (mkpic s (m + n) 0).
Proof.
  unfold struct_calcsize. rewrite picture_size_total. unfold sbin_counts_fraction. now rewrite bin_width_total.
Qed.

(* whether a decoder accepts a buffer does not depend on the scale it gives the result *)
Lemma unpack_ok_total u s m n buffer :
  is_ok (unpack u (mkpic s m n) buffer) = is_ok (unpack u (mkpic s (m + n) 0) buffer).
Proof.
  unfold unpack, unpack_zoned, unpack_packed_dec, unpack_binary_int, bin_counts_fraction. rewrite bin_width_total.
  destruct (mem u unpack_display); [destruct (_ && _); [reflexivity|destruct (rev buffer); reflexivity]|].
  destruct (mem u unpack_packed); [|reflexivity].
  destruct (rev (split_nibbles buffer)) as [|sign_half rdigits]; [reflexivity|].
  destruct (_ && _); [reflexivity|destruct (rev rdigits); reflexivity].
Qed.

Lemma decoder_accepts_total u s m n w : decoder_accepts u (mkpic s m n) w = decoder_accepts u (mkpic s (m + n) 0) w.
Proof. unfold decoder_accepts. destruct w; [reflexivity|apply unpack_ok_total]. Qed.

Lemma row_ok_total u s m n : row_ok (u, s, m, n) = row_ok (u, s, (m + n)%nat, 0%nat).
Proof.
  unfold row_ok, size_okb, decoder_okb, struct_okb, struct_same_okb, text_okb, text_calcsize,
    known_bad_size, known_bad_calcsize, known_bad_decoder, known_bad_struct, known_bad_struct_same, signed_binary_4_9.
  replace (spec_size u s (m + n) 0) with (spec_size u s m n) by (unfold spec_size; now rewrite Nat.add_0_r).
  rewrite <- calcsize_total, <- struct_calcsize_total, <- picture_size_total, Nat.add_0_r.
  destruct (spec_size u s m n) as [sz|]; [rewrite <- decoder_accepts_total|]; reflexivity.
Qed.

Lemma cfgs_total u s m n : In (u, s, m, n) cfgs -> In (u, s, (m + n)%nat, 0%nat) totals.
Proof.
  unfold cfgs, totals, digit_pairs. intros H.
  apply in_flat_map in H. destruct H as (u' & Hu & H). apply in_flat_map in H. destruct H as (s' & Hs & H).
  apply in_map_iff in H. destruct H as ([m' n'] & E & H). cbn [fst snd] in E. injection E as <- <- <- <-.
  apply in_flat_map in H. destruct H as (m'' & Hm & H). apply in_map_iff in H. destruct H as (n'' & E & Hn).
  injection E as -> ->. apply in_seq in Hm. apply in_seq in Hn.
  apply in_flat_map. exists u'. split; [exact Hu|]. apply in_flat_map. exists s'. split; [exact Hs|].
  apply in_map_iff. exists (m' + n')%nat. split; [reflexivity|]. apply in_seq.
  destruct (m' =? 0)%nat eqn:E0; [apply Nat.eqb_eq in E0|apply Nat.eqb_neq in E0]; lia.
Qed.

Lemma C04c_enumeration : forallb row_ok cfgs = true.
Proof.
  apply forallb_forall. intros [[[u s] m] n] Hin. rewrite row_ok_total.
  pose proof totals_ok as H. rewrite forallb_forall in H. apply H, cfgs_total, Hin.
Qed.

Lemma C04c_row c : In c cfgs ->
  is_none (known_bad_size c) = size_okb c && decoder_okb c
  /\ is_none (known_bad_calcsize c) = size_okb c
  /\ is_none (known_bad_decoder c) = decoder_okb c
  /\ is_none (known_bad_struct c) = struct_okb c
  /\ is_none (known_bad_struct_same c) = struct_same_okb c
  /\ text_okb c = true.
Proof.
  intros Hin. pose proof C04c_enumeration as H. rewrite forallb_forall in H. specialize (H c Hin).
  unfold row_ok in H. cbv zeta in H. repeat (apply andb_true_iff in H; destruct H as [H ?]).
  repeat split; try (apply eqb_prop; assumption); assumption.
Qed.

(* every statement, with its exception set, on one configuration of the enumeration: outside the set it holds,
   inside it fails *)
Lemma C04c_exact c : In c cfgs ->
  (is_none (known_bad_size c) = true <-> size_and_decoder c)
  /\ (is_none (known_bad_calcsize c) = true <-> size_is_listed c)
  /\ (is_none (known_bad_decoder c) = true <-> decoder_takes_listed c)
  /\ (is_none (known_bad_struct c) = true <-> struct_is_listed c)
  /\ (is_none (known_bad_struct_same c) = true <-> struct_same_as_size c)
  /\ text_is_listed c.
Proof.
  intros Hin. destruct (C04c_row c Hin) as (H1 & H2 & H3 & H4 & H5 & H6). rewrite H1, H2, H3, H4, H5.
  rewrite size_decoder_iff, size_okb_iff, decoder_okb_iff, struct_okb_iff, struct_same_okb_iff, <- text_okb_iff.
  tauto.
Qed.

Lemma C04c_size_lemma c : In c cfgs -> known_bad_calcsize c = None -> size_is_listed c.
Proof. intros Hin Hk. apply (C04c_exact c Hin). rewrite Hk. reflexivity. Qed.

(* the split loses nothing: the four conjuncts together are [cfg_ok] *)
Lemma cfg_ok_split c : cfg_ok c = size_okb c && decoder_okb c && struct_okb c && text_okb c.
Proof.
  destruct c as [[[u s] m] n]. unfold cfg_ok, size_okb, decoder_okb, struct_okb, text_okb.
  destruct (spec_size u s m n) as [sz|]; reflexivity.
Qed.

(* C04's one boolean and its exception set are the conjunction of the above: the set is exact *)
Lemma C04_exact c : In c cfgs -> is_none (known_bad_C04 c) = cfg_ok c.
Proof.
  intros Hin. destruct (C04c_row c Hin) as (H1 & _ & _ & H4 & _ & H6).
  rewrite cfg_ok_split, <- H1, <- H4, H6, andb_true_r.
  destruct c as [[[u s] m] n]. unfold known_bad_C04, known_bad_size, known_bad_struct, signed_binary_4_9.
  destruct (is_binary u && s && _), (is_float u), (is_packed u); reflexivity.
Qed.

(* members of the enumeration used in the non-vacuity examples of Props/C04c.v *)
Lemma cfgs_examples :
  In (8, true, 5%nat, 2%nat) cfgs /\ In (10, true, 4%nat, 0%nat) cfgs
  /\ In (6, false, 7%nat, 0%nat) cfgs /\ In (11, true, 3%nat, 2%nat) cfgs.
Proof. repeat split; apply cfgs_complete; lia. Qed.

(* the zoned counter decoder *)

Lemma pos_sign_valid z : In z pos_signs -> valid_sign z = true /\ is_neg_sign z = false.
Proof. unfold pos_signs. cbn [In]. intros [<-|[<-|[<-|[<-|[]]]]]; split; reflexivity. Qed.

Lemma dcount_zoned_enc ds z :
  ds <> [] -> forallb is_digit ds = true -> (length ds <= 28)%nat -> In z pos_signs ->
  dcount_zoned (enc_zoned ds z) = N.to_nat (val ds).
Proof.
  intros Hne Hd Hl Hz. destruct (pos_sign_valid z Hz) as [Hv Hn].
  unfold dcount_zoned. change 11 with display_spelling.
  rewrite (C02_zoned (counter_pic (enc_zoned ds z)) ds z Hne Hd Hv Hl). rewrite Hn.
  unfold int_of_decimal, counter_pic. cbn [neg coef dexp p_frac Z.of_nat Z.opp Z.leb Z.compare].
  rewrite Z.pow_0_r. lia.
Qed.
