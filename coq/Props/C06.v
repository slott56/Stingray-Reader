(* C06 - OCCURS DEPENDING ON: each record is laid out by its own counter value.
   Only the property theorems; the lemmas are in Proofs/OdoStreamP.v (the flat family) and Proofs/OdoStreamRowsP.v
   (set_schema, the readers over any family).

   Vocabulary.
     Spec/Layout.v     record descriptions (item), count vectors (env), extent / ext1 / count / kid_start / find_kid.
     Spec/OdoStream.v  flat_odo t: one 01 group whose children are, in any order and number, fixed elementary items
                       (the counters among them), elementary tables and tables of a one-level group of fixed elementary
                       items, each table OCCURS n or OCCURS DEPENDING ON an EARLIER fixed elementary child; names distinct;
                       no REDEFINES.  counters_hold dcount e t r: the bytes of r at each counter's specification offset
                       decode to e(counter).  spec_bufs B file lens: file[0:B], file[n1:n1+B], file[n1+n2:...], ...
     Model/Layout.v    build (copybook entry -> JSON schema), nav_of (LocationMaker.from_instance from offset 0),
                       nav_name / nav_index (NDNav.name / NDNav.index), locations (LArr start size item_size count ...).
     Model/OdoStream.v row_loop / rows_N / rows_V / rows_VB / rows_F: COBOL_EBCDIC_Sheet.set_schema + row_iter over the RECFM
                       readers of Model/Recfm.v; a row = (buffer handed to Row(), navigator built on it); the lrecl
                       argument is what the caller passed to COBOL_EBCDIC_File (None, Some 0, Some n).
   [dcount] (decoding of a counter field) and the element type of records are arbitrary.
   The flat family is proved completely, file framing included (theorems C06_stream_N, _V, _VB, _F).  The general nested shapes (ODO tables
   inside non-repeated groups, sibling groups, next to REDEFINES unions) have the layout theorem C06_layout at the end of
   this file (Proofs/LayoutOdoP.v, extending C01's development) and their composition with the file readers in
   Props/C06d.v; ODO inside a table or a REDEFINES member is covered by the correspondence run only. *)
From Coq Require Import NArith List.
Import ListNotations.
Require Import SR.Base.Res SR.Gen.RecfmParams SR.Spec.Recfm SR.Model.Recfm.
Require Import SR.Spec.Layout SR.Model.Layout SR.Spec.OdoStream SR.Model.OdoStream SR.Proofs.OdoStreamRowsP SR.Proofs.OdoStreamP.
Open Scope nat_scope.

(* (1) ONE record.  For every flat record description, every count vector and every record that carries it:
   the walk succeeds; the record ends at the specification's length; every child is found by name at the
   specification's start with the specification's size; a table has exactly e(counter) occurrences, occurrence i
   lies at start + i * (length of one occurrence), and an index at or beyond the count is refused with IndexError. *)
Theorem C06_layout_flat : forall (B : Type) (dcount : list B -> nat) (t : item) (e : env) (r : list B),
  flat_odo t = true -> counters_hold dcount e t r ->
  exists v, nav_of dcount r (build t) = Ok v
    /\ lstart (n_loc v) = 0 /\ lend (n_loc v) = extent e t
    /\ forall k x, find_kid (item_kids t) k = Some x ->
       exists o vk, kid_start e (item_kids t) k = Some o
         /\ nav_name v (KName k) = Ok vk
         /\ lstart (n_loc vk) = o /\ lsize (n_loc vk) = extent e x
         /\ (is_table x = true ->
               (exists sub sch, n_loc vk = LArr o (extent e x) (ext1 e x) (count e (item_oc x)) sub sch)
               /\ (forall i, i < count e (item_oc x) ->
                     exists vi, nav_index dcount r vk i = Ok vi
                       /\ lstart (n_loc vi) = o + i * ext1 e x /\ lsize (n_loc vi) = ext1 e x)
               /\ (forall i, count e (item_oc x) <= i -> nav_index dcount r vk i = Err IndexError)).
Proof. exact (@layout_flat). Qed.
Print Assumptions C06_layout_flat.

(* (1b) Inside occurrence i < e(counter) of a table: an elementary table's occurrence holds its element at
   start + i * width; a group table's occurrence holds every member at start + i * (length of one occurrence) + the
   member's specification offset inside the group. *)
Theorem C06_layout_flat_occurrence : forall (B : Type) (dcount : list B -> nat) (t : item) (e : env) (r : list B),
  flat_odo t = true -> counters_hold dcount e t r ->
  exists v, nav_of dcount r (build t) = Ok v
    /\ forall k x, find_kid (item_kids t) k = Some x -> is_table x = true ->
       exists o vk, kid_start e (item_kids t) k = Some o /\ nav_name v (KName k) = Ok vk
         /\ forall i, i < count e (item_oc x) ->
            exists vi, nav_index dcount r vk i = Ok vi
              /\ match x with
                 | Elem n sz _ _ => exists vj, nav_name vi (KName n) = Ok vj /\ n_loc vj = LAtom (o + i * sz) sz
                 | Group _ _ _ gks =>
                     forall j y, find_kid gks j = Some y ->
                       exists oj vj, kid_start e gks j = Some oj /\ nav_name vi (KName j) = Ok vj
                         /\ n_loc vj = LAtom (o + i * ext1 e x + oj) (extent e y)
                 end.
Proof. exact (@layout_flat_occurrence). Qed.
Print Assumptions C06_layout_flat_occurrence.

(* Frame: the walk reads the record only at its counter fields, which lie inside the record; whatever follows the
   record in the reader's buffer does not change the navigator. *)
Theorem C06_frame : forall (B : Type) (dcount : list B -> nat) (t : item) (e : env) (r more : list B),
  flat_odo t = true -> extent e t <= length r -> counters_hold dcount e t r ->
  nav_of dcount (r ++ more) (build t) = nav_of dcount r (build t).
Proof.
  intros B dcount t e r more Hf Hlen Hc. rewrite (nav_flat dcount t e r Hf Hc).
  apply nav_flat; [exact Hf|apply counters_frame; assumption].
Qed.
Print Assumptions C06_frame.

(* (2) A FILE of records without length headers (RECFM N), any buffer size B > 0, any element type.
   For every flat description, every sequence of count vectors e_1..e_k and records r_j of length extent e_j t
   (between 1 and B) carrying e_j: the row loop on the concatenation ends normally after exactly k rows, file and
   buffer empty; the buffer of row j is the file from the offset where record j-1 ended (cut at B elements), so
   its head is r_j; the navigator of row j is the one the schema walk gives on r_j alone (to which (1) applies) and
   it ends at extent e_j t = length r_j, which is what the loop announces to the reader. *)
Theorem C06_stream_N_any_buffer : forall (A : Type) (dcount : list A -> nat) (B : nat) (kind : N) (t : item)
    (es : list env) (rs : list (list A)),
  0 < B -> flat_odo t = true ->
  Forall2 (fun e r => length r = extent e t /\ counters_hold dcount e t r) es rs ->
  legal_N B rs = true ->
  exists rows s',
    row_loop dcount (S (length (write_N rs))) 0 kind B (build t) (N_init B (write_N rs)) = (rows, Done, s')
    /\ map (@row_buf A) rows = spec_bufs B (write_N rs) (map (@length A) rs)
    /\ heads (map (@length A) rs) (map (@row_buf A) rows) = rs
    /\ Forall2 (fun rw r => nav_of dcount r (build t) = Ok (row_nav rw)) rows rs
    /\ Forall2 (fun rw e => lend (n_loc (row_nav rw)) = extent e t) rows es
    /\ buf s' = [] /\ rest s' = [].
Proof.
  intros A dcount B kind t es rs HB Hf.
  exact (family_stream_N_any_buffer dcount (build t) _ (fun e => extent e t) (framed_flat dcount t Hf) B kind es rs HB).
Qed.
Print Assumptions C06_stream_N_any_buffer.

(* The same through set_schema and rows(), with the buffer size and the refill expression class read from the current
   source (Gen/RecfmParams.v), for ANY lrecl argument: None (what the docstring of COBOL_EBCDIC_File asks for with an
   OCCURS DEPENDING ON layout), 0, or any number (RECFM_N ignores it). *)
Theorem C06_stream_N : forall (A : Type) (dcount : list A -> nat) (kind : N) (lrecl : option nat) (t : item)
    (es : list env) (rs : list (list A)),
  flat_odo t = true ->
  Forall2 (fun e r => length r = extent e t /\ counters_hold dcount e t r) es rs ->
  legal_N (N.to_nat buffer_size) rs = true ->
  exists rows s',
    rows_N dcount kind lrecl (build t) (write_N rs) = Ok (rows, Done, s')
    /\ map (@row_buf A) rows = spec_bufs (N.to_nat buffer_size) (write_N rs) (map (@length A) rs)
    /\ heads (map (@length A) rs) (map (@row_buf A) rows) = rs
    /\ Forall2 (fun rw r => nav_of dcount r (build t) = Ok (row_nav rw)) rows rs
    /\ Forall2 (fun rw e => lend (n_loc (row_nav rw)) = extent e t) rows es
    /\ buf s' = [] /\ rest s' = [].
Proof.
  intros A dcount kind lrecl t es rs Hf.
  exact (family_stream_N dcount (build t) _ (fun e => extent e t) (framed_flat dcount t Hf) kind lrecl es rs).
Qed.
Print Assumptions C06_stream_N.

(* RECFM V: the reader delivers exactly the records (C05_V); each row's navigator is the walk on its record.  Any lrecl. *)
Theorem C06_stream_V : forall (dcount : list N -> nat) (kind : N) (lrecl : option nat) (t : item)
    (es : list env) (rs : list (list N)),
  flat_odo t = true ->
  Forall2 (fun e r => length r = extent e t /\ counters_hold dcount e t r) es rs ->
  legal_V rs = true ->
  exists rows,
    rows_V dcount kind lrecl (build t) (write_V rs) = Ok (rows, Done)
    /\ map (@row_buf N) rows = rs
    /\ Forall2 (fun rw r => nav_of dcount r (build t) = Ok (row_nav rw)) rows rs
    /\ Forall2 (fun rw e => lend (n_loc (row_nav rw)) = extent e t) rows es.
Proof.
  intros dcount kind lrecl t es rs Hf HF _.
  exact (family_stream_V dcount (build t) _ (fun e => extent e t) (framed_flat dcount t Hf) kind lrecl es rs HF).
Qed.
Print Assumptions C06_stream_V.

(* RECFM VB: every legal blocking of the records (C05_VB).  Any lrecl. *)
Theorem C06_stream_VB : forall (dcount : list N -> nat) (kind : N) (lrecl : option nat) (t : item)
    (ess : list (list env)) (blocks : list (list (list N))),
  flat_odo t = true ->
  Forall2 (Forall2 (fun e r => length r = extent e t /\ counters_hold dcount e t r)) ess blocks ->
  legal_VB blocks = true ->
  exists rows,
    rows_VB dcount kind lrecl (build t) (write_VB blocks) = Ok (rows, Done)
    /\ map (@row_buf N) rows = concat blocks
    /\ Forall2 (fun rw r => nav_of dcount r (build t) = Ok (row_nav rw)) rows (concat blocks)
    /\ Forall2 (fun rw e => lend (n_loc (row_nav rw)) = extent e t) rows (concat ess).
Proof.
  intros dcount kind lrecl t ess blocks Hf.
  exact (family_stream_VB dcount (build t) _ (fun e => extent e t) (framed_flat dcount t Hf) kind lrecl ess blocks).
Qed.
Print Assumptions C06_stream_VB.

(* RECFM F / FB: the variable-length records stored in a fixed-length file, every record followed by padding up to the
   LRECL (any padding bytes): the reader cuts the file at the LRECL (C05_F), each row's buffer is the stored record, and its
   navigator is the walk on the record itself - laid out by that record's own counters, ending at its own extent. *)
Theorem C06_stream_F : forall (dcount : list N -> nat) (kind : N) (lrecl : nat) (t : item)
    (es : list env) (rs ps : list (list N)),
  flat_odo t = true ->
  Forall2 (fun e r => length r = extent e t /\ counters_hold dcount e t r) es rs ->
  Forall2 (fun r p => exists more, p = r ++ more) rs ps ->
  legal_F lrecl ps = true ->
  exists rows,
    rows_F dcount kind (Some lrecl) (build t) (write_F ps) = Ok (rows, Done)
    /\ map (@row_buf N) rows = ps
    /\ Forall2 (fun rw r => nav_of dcount r (build t) = Ok (row_nav rw)) rows rs
    /\ Forall2 (fun rw e => lend (n_loc (row_nav rw)) = extent e t) rows es.
Proof.
  intros dcount kind lrecl t es rs ps Hf.
  exact (family_stream_F dcount (build t) _ (fun e => extent e t) (framed_flat dcount t Hf) kind lrecl es rs ps).
Qed.
Print Assumptions C06_stream_F.

(* lrecl None (or 0) with an OCCURS DEPENDING ON layout, any schema s holding such a table and any file (fix 64e9f81;
   the rule is read from workbook.COBOL_EBCDIC_Sheet.set_schema into Gen/LayoutParams.v): from_schema() cannot compute a
   record length, set_schema keeps None, and RECFM N, V and VB - which never use the length - deliver exactly what they
   deliver with any positive lrecl; RECFM F has nothing to cut the file with and raises TypeError when the first row is
   asked for, before any row is delivered. *)
Theorem C06_lrecl_none : forall (dcount : list N -> nat) (kind : N) (lrecl : option nat) (n : nat) (s : js) (file : list N),
  lrecl = None \/ lrecl = Some 0 -> js_has_odo s = true ->
  rows_N dcount kind lrecl s file = rows_N dcount kind (Some (S n)) s file
  /\ rows_V dcount kind lrecl s file = rows_V dcount kind (Some (S n)) s file
  /\ rows_VB dcount kind lrecl s file = rows_VB dcount kind (Some (S n)) s file
  /\ rows_F dcount kind lrecl s file = Ok ([], Raised TypeError).
Proof.
  intros dcount kind lrecl n s file Hl H. unfold rows_N, rows_V, rows_VB, rows_F.
  rewrite (set_schema_none dcount lrecl s Hl H), set_schema_unf. repeat split; reflexivity.
Qed.
Print Assumptions C06_lrecl_none.

(* RECFM N over any element type *)
Theorem C06_lrecl_none_N : forall (A : Type) (dcount : list A -> nat) (kind : N) (lrecl : option nat) (n : nat) (s : js)
    (file : list A),
  lrecl = None \/ lrecl = Some 0 -> js_has_odo s = true ->
  rows_N dcount kind lrecl s file = rows_N dcount kind (Some (S n)) s file.
Proof.
  intros A dcount kind lrecl n s file Hl H. unfold rows_N.
  rewrite (set_schema_none dcount lrecl s Hl H), set_schema_unf. reflexivity.
Qed.
Print Assumptions C06_lrecl_none_N.

(* What fix 64e9f81 repaired (finding K-odo-lrecl-none): without the try around from_schema() - no exception caught -
   set_schema itself raises ValueError for every schema holding an ODO table, so no row is delivered whatever the
   file and the reader (rows_N / rows_V / rows_VB / rows_F all start with set_schema). *)
Theorem C06_lrecl_none_old_refuted : forall (A : Type) (dcount : list A -> nat) (s : js),
  js_has_odo s = true ->
  set_schema_with dcount [] 0 None s = Err ValueError /\ set_schema_with dcount [] 0 (Some 0) s = Err ValueError.
Proof.
  intros A dcount s H. unfold set_schema_with. rewrite (from_schema_odo dcount s H). split; reflexivity.
Qed.
Print Assumptions C06_lrecl_none_old_refuted.

(* What fix fdac88e repaired, seen through the row loop: with the refill of the original tree (mode 1:
   read(K - used)) records are lost.  K = 8, three records of 5 elements (counter 1, one occurrence). *)
Theorem C06_stream_old_refuted :
  exists (B : nat) (t : item) (es : list env) (rs : list (list nat)),
    flat_odo t = true /\ legal_N B rs = true
    /\ Forall2 (fun e r => length r = extent e t /\ counters_hold (hd 0) e t r) es rs
    /\ heads (map (@length nat) rs)
         (map (@row_buf nat) (fst (fst (row_loop (hd 0) (S (length (write_N rs))) 1 0 B (build t) (N_init B (write_N rs))))))
       <> rs.
Proof. exact old_refill_refuted. Qed.
Print Assumptions C06_stream_old_refuted.

(* non-vacuity: the hypotheses are satisfiable, with two tables, two counters and records of different length *)

(* 01 R.  05 C1 PIC 99.  05 A PIC X(5).  05 T1 PIC X(3) OCCURS 0 TO 9 DEPENDING ON C1.  05 M PIC X(4).
          05 C2 PIC 9.   05 G OCCURS 0 TO 3 DEPENDING ON C2.  10 G1 PIC XX.  10 G2 PIC X(3).   05 Z PIC X(6). *)
Example C06_family_example :
  flat_odo ex_tree = true /\ js_has_odo (build ex_tree) = true.
Proof. split; reflexivity. Qed.

Example C06_record_example :
  counters_hold ex_dcount ex_e1 ex_tree ex_r1 /\ length ex_r1 = extent ex_e1 ex_tree
  /\ counters_hold ex_dcount ex_e2 ex_tree ex_r2 /\ length ex_r2 = extent ex_e2 ex_tree
  /\ length ex_r1 <> length ex_r2.
Proof. exact ex_records_ok. Qed.

Example C06_stream_example :
  Forall2 (fun e r => length r = extent e ex_tree /\ counters_hold ex_dcount e ex_tree r) [ex_e1; ex_e2; ex_e1] [ex_r1; ex_r2; ex_r1]
  /\ legal_N 32 [ex_r1; ex_r2; ex_r1] = true /\ legal_N (N.to_nat buffer_size) [ex_r1; ex_r2; ex_r1] = true
  /\ legal_V [ex_r1; ex_r2; ex_r1] = true /\ legal_VB [[ex_r1; ex_r2]; [ex_r1]] = true.
Proof.
  destruct ex_records_ok as (C1 & L1 & C2 & L2 & _).
  split; [repeat constructor; assumption|]. repeat split; vm_compute; reflexivity.
Qed.

(* C06 in general form (Proofs/LayoutOdoP.v, extending C01's development): OCCURS DEPENDING ON tables -
   elementary or group - anywhere a non-repeated item may stand: in the record, in nested non-repeated
   groups, in sibling groups, next to REDEFINES unions; each counter an elementary non-repeated item
   outside every union and table that comes earlier in the record ([wfo]); names pairwise distinct.
   For EVERY such record description, EVERY count vector e and EVERY record r (over any element type)
   that carries e at the places of its non-repeated elementary items ([Holds]): every navigation path
   lands on the bytes the COBOL rules assign for THIS record's counts, the number of occurrences of a
   table is its counter's value, an index at or beyond it is IndexError, and the record ends at its
   extent. *)
Require Import SR.Proofs.LayoutP SR.Proofs.LayoutOdoP.

Theorem C06_layout : forall (B : Type) (dcount : list B -> nat) (r : list B) (e : env) (t : item),
  wfo e [] t = true -> NoDup (ids t) -> Holds B dcount r e t 0 ->
  exists v0, nav_of dcount r (build t) = Ok v0
    /\ lstart (n_loc v0) = 0 /\ lend (n_loc v0) = extent e t
    /\ forall p v st, spec_nav e (VItem t) 0 p = inl (v, st) ->
         exists nv, nav_path dcount r v0 p = Ok nv
           /\ lstart (n_loc nv) = st /\ lend (n_loc nv) = st + view_size e v
           /\ nav_raw r nv = slice r st (st + view_size e v)
           /\ (forall x, v = VItem x -> is_table x = true ->
                 forall i, count e (item_oc x) <= i -> nav_index dcount r nv i = Err IndexError).
Proof. exact layout_correct_odo. Qed.
Print Assumptions C06_layout.

(* Non-vacuity: 01 R. 05 N PIC 9. 05 G. 10 A PIC X(2). 10 T OCCURS 0 TO 9 DEPENDING ON N PIC X(3).
   05 S. 10 U OCCURS DEPENDING ON N. 15 V PIC X. 05 Z PIC X(2).  (ids R=1 N=2 G=3 A=4 T=5 S=6 U=7 V=8 Z=9)
   with N = 2 in a record whose first byte decodes to 2: T[1] is at 6-9, U[1].V at 10-11, Z at 11-13. *)
Definition odo_tree : item :=
  Group 1%N Once None
    (ICons (Elem 2%N 1 Once None)
    (ICons (Group 3%N Once None (ICons (Elem 4%N 2 Once None) (ICons (Elem 5%N 3 (Odo 2%N) None) INil)))
    (ICons (Group 6%N Once None (ICons (Group 7%N (Odo 2%N) None (ICons (Elem 8%N 1 Once None) INil)) INil))
    (ICons (Elem 9%N 2 Once None) INil)))).

Definition odo_env : env := fun c => if N.eqb c 2 then 2 else 0.

Example C06_layout_example :
  wfo odo_env [] odo_tree = true
  /\ extent odo_env odo_tree = 13
  /\ spec_nav odo_env (VItem odo_tree) 0 [PName 3%N; PName 5%N; PIndex 1] = inl (VOcc (Elem 5%N 3 (Odo 2%N) None), 6)
  /\ spec_nav odo_env (VItem odo_tree) 0 [PName 6%N; PName 7%N; PIndex 1; PName 8%N] = inl (VItem (Elem 8%N 1 Once None), 10)
  /\ spec_nav odo_env (VItem odo_tree) 0 [PName 9%N] = inl (VItem (Elem 9%N 2 Once None), 11).
Proof. vm_compute. repeat split; reflexivity. Qed.
