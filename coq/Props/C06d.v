(* C06, fourth layer - the FILE-level theorems of Props/C06.v (C06_frame, C06_stream_N_any_buffer, _N, _V, _VB, _F) lifted
   from the flat family (flat_odo) to the GENERAL OCCURS DEPENDING ON family of C06_layout (wfo, Proofs/LayoutOdoP.v):
   ODO tables - elementary or group - anywhere a non-repeated item may stand (in the record, in nested non-repeated
   groups, in sibling groups, next to REDEFINES unions), each counter an elementary non-repeated item outside every
   union and table that comes earlier in the record; names pairwise distinct.
   Companion of Props/C06.v; only property theorems; the lemmas are in Proofs/OdoStreamGeneralP.v and Proofs/OdoStreamRowsP.v.
   No engine of its own: the models (Model/Layout.v, Model/OdoStream.v, Model/Recfm.v) and the correspondence run are
   those of C06.

   Hypotheses, as in C06_layout, per record r with count vector e:
     wfo e [] t = true      t belongs to the family (e enters only through the lengths compared inside REDEFINES unions)
     NoDup (ids t)          names pairwise distinct
     Holds A dcount r e t 0 r carries e at the place of every non-repeated elementary item outside unions
     length r = extent e t  r is exactly as long as the description says for e
   [dcount] (decoding of a counter field) and, for RECFM N, the element type are arbitrary.

   How the proofs are organised (Proofs/OdoStreamRowsP.v): the row loop and the record readers are proved ONCE for any
   schema, over the interface [framed dcount schema r v] = "on every buffer that begins with r the schema walk gives
   navigator v, and v ends at length r" (C06d_stream_any_family below), and from there for any family of records whose
   members are framed (family_stream_N_any_buffer, _N, _V, _VB, _F); the flat family is an instance (the five theorems of Props/C06.v:
   Proofs/OdoStreamP.v framed_flat) and so is the general family, by C06_layout and the frame lemma C06d_frame
   (Proofs/OdoStreamGeneralP.v framed_general). *)
From Coq Require Import NArith List.
Import ListNotations.
Require Import SR.Base.Res SR.Gen.RecfmParams SR.Spec.Recfm SR.Model.Recfm.
Require Import SR.Spec.Layout SR.Model.Layout SR.Spec.OdoStream SR.Model.OdoStream.
Require Import SR.Proofs.LayoutP SR.Proofs.LayoutOdoP SR.Proofs.OdoStreamRowsP SR.Proofs.OdoStreamGeneralP.
Open Scope nat_scope.

(* Frame, general family: the walk fetches counters only, each registered where it lies, and all of them lie inside
   the record; whatever follows the record in the buffer handed to Row() - the next records of the read-ahead buffer,
   the padding of a fixed-length record - does not change the navigator. *)
Theorem C06d_frame : forall (B : Type) (dcount : list B -> nat) (r more : list B) (e : env) (t : item),
  wfo e [] t = true -> NoDup (ids t) -> Holds B dcount r e t 0 -> extent e t <= length r ->
  nav_of dcount (r ++ more) (build t) = nav_of dcount r (build t).
Proof. exact nav_frame_general. Qed.
Print Assumptions C06d_frame.

(* the same without the record hypothesis: any walk of a member of the family that succeeds on r and ends inside r is
   the walk on every extension of r *)
Theorem C06d_frame_walk : forall (B : Type) (dcount : list B -> nat) (r more : list B) (e : env) (t : item) (v : nav),
  wfo e [] t = true -> NoDup (ids t) -> nav_of dcount r (build t) = Ok v -> lsize (n_loc v) <= length r ->
  nav_of dcount (r ++ more) (build t) = Ok v.
Proof. exact nav_frame_walk. Qed.
Print Assumptions C06d_frame_walk.

(* The row loop over RECFM N for ANY schema and any family of records, through the interface alone: records r_j with
   navigators v_j such that [framed dcount schema r_j v_j]. *)
Theorem C06d_stream_any_family : forall (A : Type) (dcount : list A -> nat) (schema : js) (B : nat), 0 < B ->
  forall (kind : N) (rs : list (list A)) (vs : list nav),
  Forall2 (framed dcount schema) rs vs -> legal_N B rs = true ->
  exists rows s',
    row_loop dcount (S (length (write_N rs))) 0 kind B schema (N_init B (write_N rs)) = (rows, Done, s')
    /\ map (@row_buf A) rows = spec_bufs B (write_N rs) (map (@length A) rs)
    /\ heads (map (@length A) rs) (map (@row_buf A) rows) = rs
    /\ map (@row_nav A) rows = vs
    /\ buf s' = [] /\ rest s' = [].
Proof. exact (@stream_N_any_buffer_abs). Qed.
Print Assumptions C06d_stream_any_family.

(* (2) A FILE of records without length headers (RECFM N), any buffer size B > 0, any element type.
   For every description of the general family, every sequence of count vectors e_1..e_k and records r_j of length
   extent e_j t (between 1 and B) carrying e_j: the row loop on the concatenation ends normally after exactly k rows,
   file and buffer empty; the buffer of row j is the file from the offset where record j-1 ended (cut at B elements),
   so its head is r_j; the navigator of row j is the one the schema walk gives on r_j alone - to which C06_layout
   applies: every navigation path lands on the bytes the COBOL rules assign for r_j's OWN counts - and it ends at
   extent e_j t = length r_j, which is what the loop announces to the reader. *)
Theorem C06d_stream_N_any_buffer : forall (A : Type) (dcount : list A -> nat) (B : nat) (kind : N) (t : item)
    (es : list env) (rs : list (list A)),
  0 < B -> NoDup (ids t) ->
  Forall2 (fun e r => wfo e [] t = true /\ length r = extent e t /\ Holds A dcount r e t 0) es rs ->
  legal_N B rs = true ->
  exists rows s',
    row_loop dcount (S (length (write_N rs))) 0 kind B (build t) (N_init B (write_N rs)) = (rows, Done, s')
    /\ map (@row_buf A) rows = spec_bufs B (write_N rs) (map (@length A) rs)
    /\ heads (map (@length A) rs) (map (@row_buf A) rows) = rs
    /\ Forall2 (fun rw r => nav_of dcount r (build t) = Ok (row_nav rw)) rows rs
    /\ Forall2 (fun rw e => lend (n_loc (row_nav rw)) = extent e t) rows es
    /\ buf s' = [] /\ rest s' = [].
Proof.
  intros A dcount B kind t es rs HB Hnd.
  exact (family_stream_N_any_buffer dcount (build t) _ (fun e => extent e t) (framed_general dcount t Hnd) B kind es rs HB).
Qed.
Print Assumptions C06d_stream_N_any_buffer.

(* The same through set_schema and rows(), with the buffer size and the refill expression class read from the current
   source (Gen/RecfmParams.v), for ANY lrecl argument (None, 0, any number: set_schema never fails, RECFM_N ignores it). *)
Theorem C06d_stream_N : forall (A : Type) (dcount : list A -> nat) (kind : N) (lrecl : option nat) (t : item)
    (es : list env) (rs : list (list A)),
  NoDup (ids t) ->
  Forall2 (fun e r => wfo e [] t = true /\ length r = extent e t /\ Holds A dcount r e t 0) es rs ->
  legal_N (N.to_nat buffer_size) rs = true ->
  exists rows s',
    rows_N dcount kind lrecl (build t) (write_N rs) = Ok (rows, Done, s')
    /\ map (@row_buf A) rows = spec_bufs (N.to_nat buffer_size) (write_N rs) (map (@length A) rs)
    /\ heads (map (@length A) rs) (map (@row_buf A) rows) = rs
    /\ Forall2 (fun rw r => nav_of dcount r (build t) = Ok (row_nav rw)) rows rs
    /\ Forall2 (fun rw e => lend (n_loc (row_nav rw)) = extent e t) rows es
    /\ buf s' = [] /\ rest s' = [].
Proof.
  intros A dcount kind lrecl t es rs Hnd.
  exact (family_stream_N dcount (build t) _ (fun e => extent e t) (framed_general dcount t Hnd) kind lrecl es rs).
Qed.
Print Assumptions C06d_stream_N.

(* RECFM V: the reader delivers exactly the records (C05_V); each row's navigator is the walk on its record.  Any lrecl. *)
Theorem C06d_stream_V : forall (dcount : list N -> nat) (kind : N) (lrecl : option nat) (t : item)
    (es : list env) (rs : list (list N)),
  NoDup (ids t) ->
  Forall2 (fun e r => wfo e [] t = true /\ length r = extent e t /\ Holds N dcount r e t 0) es rs ->
  legal_V rs = true ->
  exists rows,
    rows_V dcount kind lrecl (build t) (write_V rs) = Ok (rows, Done)
    /\ map (@row_buf N) rows = rs
    /\ Forall2 (fun rw r => nav_of dcount r (build t) = Ok (row_nav rw)) rows rs
    /\ Forall2 (fun rw e => lend (n_loc (row_nav rw)) = extent e t) rows es.
Proof.
  intros dcount kind lrecl t es rs Hnd HF _.
  exact (family_stream_V dcount (build t) _ (fun e => extent e t) (framed_general dcount t Hnd) kind lrecl es rs HF).
Qed.
Print Assumptions C06d_stream_V.

(* RECFM VB: every legal blocking of the records (C05_VB).  Any lrecl. *)
Theorem C06d_stream_VB : forall (dcount : list N -> nat) (kind : N) (lrecl : option nat) (t : item)
    (ess : list (list env)) (blocks : list (list (list N))),
  NoDup (ids t) ->
  Forall2 (Forall2 (fun e r => wfo e [] t = true /\ length r = extent e t /\ Holds N dcount r e t 0)) ess blocks ->
  legal_VB blocks = true ->
  exists rows,
    rows_VB dcount kind lrecl (build t) (write_VB blocks) = Ok (rows, Done)
    /\ map (@row_buf N) rows = concat blocks
    /\ Forall2 (fun rw r => nav_of dcount r (build t) = Ok (row_nav rw)) rows (concat blocks)
    /\ Forall2 (fun rw e => lend (n_loc (row_nav rw)) = extent e t) rows (concat ess).
Proof.
  intros dcount kind lrecl t ess blocks Hnd.
  exact (family_stream_VB dcount (build t) _ (fun e => extent e t) (framed_general dcount t Hnd) kind lrecl ess blocks).
Qed.
Print Assumptions C06d_stream_VB.

(* RECFM F / FB: the variable-length records stored in a fixed-length file, every record followed by padding up to the
   LRECL (any padding bytes): the reader cuts the file at the LRECL (C05_F), each row's buffer is the stored record, and
   its navigator is the walk on the record itself - laid out by that record's own counters, ending at its own extent. *)
Theorem C06d_stream_F : forall (dcount : list N -> nat) (kind : N) (lrecl : nat) (t : item)
    (es : list env) (rs ps : list (list N)),
  NoDup (ids t) ->
  Forall2 (fun e r => wfo e [] t = true /\ length r = extent e t /\ Holds N dcount r e t 0) es rs ->
  Forall2 (fun r p => exists more, p = r ++ more) rs ps ->
  legal_F lrecl ps = true ->
  exists rows,
    rows_F dcount kind (Some lrecl) (build t) (write_F ps) = Ok (rows, Done)
    /\ map (@row_buf N) rows = ps
    /\ Forall2 (fun rw r => nav_of dcount r (build t) = Ok (row_nav rw)) rows rs
    /\ Forall2 (fun rw e => lend (n_loc (row_nav rw)) = extent e t) rows es.
Proof.
  intros dcount kind lrecl t es rs ps Hnd.
  exact (family_stream_F dcount (build t) _ (fun e => extent e t) (framed_general dcount t Hnd) kind lrecl es rs ps).
Qed.
Print Assumptions C06d_stream_F.

(* set_schema never raises, whatever the schema and the lrecl argument (the only failures of from_schema() are the
   ValueError of an ODO array without instance and of an empty oneOf, both caught since fix 64e9f81) *)
Theorem C06d_set_schema_total : forall (A : Type) (dcount : list A -> nat) (lrecl : option nat) (s : js),
  exists l, set_schema dcount lrecl s = Ok l.
Proof. exact (@set_schema_total_any). Qed.
Print Assumptions C06d_set_schema_total.

(* non-vacuity: a description OUTSIDE the flat family - an ODO table inside a nested group, followed by an item of
   that group, by a group table inside a sibling group and by an item of the record - and two records of it with
   different counts (1 and 3) and different lengths (11 and 21).
   01 R.  05 N PIC 9.
          05 G.  10 A PIC X(2).  10 T PIC X(3) OCCURS 0 TO 9 DEPENDING ON N.  10 B PIC X.
          05 H.  10 U OCCURS 0 TO 9 DEPENDING ON N.  15 V PIC X.  15 W PIC X.
          05 Z PIC X(2).        (ids: R=1 N=2 G=3 A=4 T=5 B=6 H=7 U=8 V=9 W=10 Z=11) *)
Example C06d_family_example :
  NoDup (ids gen_tree) /\ wfo gen_e1 [] gen_tree = true /\ wfo gen_e2 [] gen_tree = true
  /\ flat_odo gen_tree = false /\ js_has_odo (build gen_tree) = true.
Proof.
  split; [apply nodupb_NoDup; reflexivity|]. repeat split; reflexivity.
Qed.

Example C06d_record_example :
  (wfo gen_e1 [] gen_tree = true /\ length gen_r1 = extent gen_e1 gen_tree /\ Holds N gen_dcount gen_r1 gen_e1 gen_tree 0)
  /\ (wfo gen_e2 [] gen_tree = true /\ length gen_r2 = extent gen_e2 gen_tree /\ Holds N gen_dcount gen_r2 gen_e2 gen_tree 0)
  /\ length gen_r1 <> length gen_r2.
Proof. split; [exact gen_r1_ok|]. split; [exact gen_r2_ok|]. vm_compute. discriminate. Qed.

(* the hypotheses of the five stream theorems together: three records (counts 1, 3, 1) back to back, in two blocks, and
   padded to LRECL 24 *)
Example C06d_stream_example :
  Forall2 (fun e r => wfo e [] gen_tree = true /\ length r = extent e gen_tree /\ Holds N gen_dcount r e gen_tree 0)
    [gen_e1; gen_e2; gen_e1] [gen_r1; gen_r2; gen_r1]
  /\ length gen_r1 = 11 /\ length gen_r2 = 21
  /\ legal_N 32 [gen_r1; gen_r2; gen_r1] = true /\ legal_N (N.to_nat buffer_size) [gen_r1; gen_r2; gen_r1] = true
  /\ legal_V [gen_r1; gen_r2; gen_r1] = true /\ legal_VB [[gen_r1; gen_r2]; [gen_r1]] = true
  /\ Forall2 (fun r p => exists more, p = r ++ more) [gen_r1; gen_r2; gen_r1]
       [gen_r1 ++ repeat 0%N 13; gen_r2 ++ repeat 0%N 3; gen_r1 ++ repeat 64%N 13]
  /\ legal_F 24 [gen_r1 ++ repeat 0%N 13; gen_r2 ++ repeat 0%N 3; gen_r1 ++ repeat 64%N 13] = true.
Proof.
  split; [constructor; [exact gen_r1_ok|constructor; [exact gen_r2_ok|constructor; [exact gen_r1_ok|constructor]]]|].
  split; [reflexivity|]. split; [reflexivity|]. split; [reflexivity|]. split; [vm_compute; reflexivity|].
  split; [reflexivity|]. split; [reflexivity|]. split; [|reflexivity].
  repeat constructor; eexists; reflexivity.
Qed.

(* the conclusion computed on that file with a window of 32 elements: per row (length of the buffer handed to Row(),
   end of the navigator, start of G.T[2], of G.B, of Z): the second row starts where the first record ended and is laid
   out with three occurrences, the first and the third with one (T[2] refused) *)
Example C06d_run_example :
  map gen_row_view (fst (fst (row_loop gen_dcount 64 0 0 32 (build gen_tree) (N_init 32 (write_N [gen_r1; gen_r2; gen_r1])))))
  = [(32, 11, Err IndexError, Ok 6, Ok 9); (32, 21, Ok 9, Ok 12, Ok 19); (11, 11, Err IndexError, Ok 6, Ok 9)].
Proof. vm_compute. reflexivity. Qed.
