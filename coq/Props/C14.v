(* C14 - Workbooks are opened by suffix and always release their file.

   PARTIAL.  These are theorems about the model: the registry (Model/Registry.v, exact) and the
   life cycle (Model/Lifecycle.v).  What the operating system, the io module and the third-party
   readers do with descriptors enters the life-cycle model through the per-class table
   [class_kind] (and [accepts_file_object]); that table is not proved, it is compared with the
   running code on an exhaustive grid of traces by the correspondence check.  The shape of every
   close() (guard / the_file.close() / del) and the global registrations are read from the source.

   [with_block c m body]: constructor, body events until one raises, __exit__ = close.
   A body event is a read step that may raise anything ([Read (Some x)]), the body raising
   ([Raise]) or an explicit close ([Close]); [body] is an arbitrary list, so the raise point is
   arbitrary.  [os s] = descriptors open on the workbook's path. *)
From Coq Require Import NArith List.
Import ListNotations.
Require Import SR.Base.Res SR.Spec.Lifecycle SR.Model.Registry SR.Model.Lifecycle SR.Proofs.LifecycleP.

(* After ANY sequence of decorator applications: a suffix is opened with the class of the LAST
   application that mentions it (one constructor call), and a suffix that no application mentions
   is refused with NotImplementedError without any constructor call. *)
Theorem C14_registry : forall (ds : list (list (list N) * N)) (s : list N),
  (forall ds1 names c ds2,
      ds = ds1 ++ (names, c) :: ds2 -> In s names -> (forall d, In d ds2 -> ~ In s (fst d)) ->
      open_workbook (register_all ds) s = (Ok c, [Construct c]))
  /\ ((forall d, In d ds -> ~ In s (fst d)) ->
      open_workbook (register_all ds) s = (Err NotImplementedError, [])).
Proof. exact registry_last_wins. Qed.
Print Assumptions C14_registry.

(* The same as a function: the model agrees with the specification used by the judge. *)
Theorem C14_registry_function : forall (ds : list (list (list N) * N)) (s : list N),
  open_workbook (register_all ds) s =
  match last_mention ds s with
  | Some c => (Ok c, [Construct c])
  | None => (Err NotImplementedError, [])
  end.
Proof. exact registry_matches_spec. Qed.
Print Assumptions C14_registry_function.

(* Histories: for EVERY interleaving of decorator applications and opens on a registry that
   already holds the registrations [pre] (fresh registry: pre = []; the global one: the
   decorators of the source), the i-th open answers with the class of the last registration
   made BEFORE it that mentions its suffix - in particular a registration made after a suffix
   has already been opened replaces the class for the next open - or refuses, constructing
   nothing, when none does.  ([history] in Spec/Lifecycle.v; [answer] as in C14_registry_function.) *)
Theorem C14_registry_history : forall (ops : list hop) (pre : list (list (list N) * N)),
  run_ops (register_all pre) ops = map answer (history pre ops).
Proof. exact run_ops_history. Qed.
Print Assumptions C14_registry_history.

(* In every registry state: a refusal is NotImplementedError, happens exactly for an absent key,
   and no constructor (hence no open) has run. *)
Theorem C14_unknown_suffix_opens_nothing : forall (r : registry) (s : list N) e tr,
  open_workbook r s = (Err e, tr) -> e = NotImplementedError /\ tr = [] /\ reg_get r s = None.
Proof. exact unknown_opens_nothing. Qed.
Print Assumptions C14_unknown_suffix_opens_nothing.

(* The unguarded release statement: every class, both modes, every body. *)
Definition C14_release_full : Prop :=
  forall c m body s1, construct c m (init m) = Ok s1 -> os (o_exit (with_block c m body)) = [].

(* Refuted by finding 1 (Numbers, empty body): the descriptor is still open after the block. *)
Theorem C14_release_refuted_1 : ~ C14_release_full.
Proof.
  intros H. specialize (H Numbers ByPath [] _ eq_refl). vm_compute in H. discriminate.
Qed.
Print Assumptions C14_release_refuted_1.

(* Outside the finding: for every class, both modes, EVERY body (any events, a raise of any
   exception at any point, or none), once the constructor has succeeded: after the with statement
   no descriptor on the path is open, the caller's file object is closed, and one more close
   raises nothing and changes nothing. *)
Theorem C14_release : forall (c : cls) (m : mode) (body : list ev) (s1 : st),
  known_bad c m = false -> construct c m (init m) = Ok s1 ->
  let s := o_exit (with_block c m body) in
  os s = [] /\ caller_closed s = true /\ unpacker_close c s = Ok s.
Proof. exact release. Qed.
Print Assumptions C14_release.

(* The finding, for every body: the Numbers descriptor survives the with statement and goes
   away with a garbage collection. *)
Theorem C14_numbers_leaks_until_gc : forall body : list ev,
  let s := o_exit (with_block Numbers ByPath body) in
  os s = [1%nat] /\ os (gc s) = [].
Proof.
  intros body s.
  destruct (with_block_exit inv_numbers Numbers ByPath body _ (fun s s' Hi H => proj1 (close_inv_numbers s s' Hi H)) eq_refl)
    as (s2 & Hi & H3); [split; [reflexivity|left; split; reflexivity]|].
  fold s in H3. destruct (close_inv_numbers s2 s Hi H3) as [[Ho Hs] Hf].
  split; [exact Ho|].
  unfold gc. rewrite Ho. destruct Hs as [[Hf' _]|[_ Hg]].
  - rewrite Hf in Hf'. discriminate.
  - rewrite Hg. reflexivity.
Qed.
Print Assumptions C14_numbers_leaks_until_gc.

(* close() never raises and leaves no the_file, in every state of every class ... *)
Theorem C14_close_never_raises : forall (c : cls) (s : st),
  exists s', unpacker_close c s = Ok s' /\ the_file s' = None.
Proof. exact close_total. Qed.
Print Assumptions C14_close_never_raises.

(* ... and close ; close = close (same state, no error). *)
Theorem C14_close_idempotent : forall (c : cls) (s s1 : st),
  unpacker_close c s = Ok s1 -> unpacker_close c s1 = Ok s1.
Proof. exact close_idempotent. Qed.
Print Assumptions C14_close_idempotent.

(* __exit__ neither swallows nor replaces the exception of the body (all eight classes). *)
Theorem C14_exit_transparent : forall (c : cls) (m : mode) (body : list ev) (s1 : st),
  construct c m (init m) = Ok s1 ->
  o_escaped (with_block c m body) = snd (fst (run_body c body s1)).
Proof.
  intros c m body s1 Hc. unfold with_block. rewrite Hc.
  destruct (run_body c body s1) as [[s2 x] log].
  destruct (close_total c s2) as [s3 [H3 _]]. rewrite H3. reflexivity.
Qed.
Print Assumptions C14_exit_transparent.

(* Non-vacuity.  .a registered for class 1, then .a and .b for class 2, then .b for class 3 *)
Example C14_registry_example :
  let ds := [([[46; 97]], 1); ([[46; 97]; [46; 98]], 2); ([[46; 98]], 3)]%N in
  open_workbook (register_all ds) [46; 97]%N = (Ok 2%N, [Construct 2%N])
  /\ open_workbook (register_all ds) [46; 98]%N = (Ok 3%N, [Construct 3%N])
  /\ open_workbook (register_all ds) [46; 99]%N = (Err NotImplementedError, []).
Proof. vm_compute. repeat split. Qed.

(* refused, registered, opened, re-registered AFTER the open, opened again *)
Example C14_history_example :
  run_ops [] [HOpen [46; 120]; HRegister [[46; 120]] 1; HOpen [46; 120]; HRegister [[46; 120]] 2; HOpen [46; 120]]%N
  = [(Err NotImplementedError, []); (Ok 1%N, [Construct 1%N]); (Ok 2%N, [Construct 2%N])].
Proof. vm_compute. reflexivity. Qed.

(* CSV by path, two reads, then the body raises: one descriptor inside, none afterwards *)
Example C14_release_example :
  known_bad CSV ByPath = false
  /\ (exists s1, construct CSV ByPath (init ByPath) = Ok s1)
  /\ o_log (with_block CSV ByPath [Read None; Read None; Raise]) = [1; 1; 1]%nat
  /\ o_escaped (with_block CSV ByPath [Read None; Read None; Raise]) = Some boom
  /\ os (o_exit (with_block CSV ByPath [Read None; Read None; Raise])) = [].
Proof. vm_compute. repeat split. eexists. reflexivity. Qed.

(* the caller's file object: open inside, closed afterwards *)
Example C14_caller_example :
  known_bad CobolEbcdic CallerFile = false
  /\ o_log (with_block CobolEbcdic CallerFile [Read None; Close; Read (Some ValueError)]) = [1; 1; 0]%nat
  /\ caller_closed (o_exit (with_block CobolEbcdic CallerFile [Read None; Close; Read (Some ValueError)])) = true.
Proof. vm_compute. repeat split. Qed.
