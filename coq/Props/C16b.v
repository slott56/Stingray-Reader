(* C16, companion file - the conversion helpers on an argument of ANY class, and decimal_places over the whole
   range of digit counts.  The property theorems; the lemmas are in Proofs/ConversionArgP.v and Proofs/ConversionP.v.

   Props/C16.v speaks of a finite number given as an exact decimal.  Here the argument is a [pyval]
   (Spec/ConversionArg.v): None, bool, int, float (finite, nan, inf), str, Decimal (finite, NaN, sNaN,
   Infinity), Fraction.  [digit_string_v], [decimal_places_v], [conversion_result] (Model/ConversionArg.v) are
   the models of digit_string, decimal_places and CONVERSION[key] on such an argument: they follow int(),
   Decimal(), float(), str(), bool() of CPython 3.12, for a str through the text grammars of those constructors,
   and fall back on the functions of Props/C16.v for the finite numeric classes.

   [int_text dv sp s negative ds]: s is white space, an optional sign, digits with single underscores between
   them, white space - the text the Library Reference says int() accepts - read as sign [negative] and digit
   values [ds]; [py_digit_value] / [py_int_space] say which characters are decimal digits (every Unicode
   decimal digit, by the table of the running CPython, Gen/UnicodeParams.v) and white space (the six ASCII
   ones and the Unicode ones from 133 up; NOT the separators 28-31).  [Ok r] = returned r, [Err e] = raised e;
   OverflowError and decimal.Overflow are both [OtherError] (Base/Res.v has no code for them). *)
From Coq Require Import ZArith NArith List Bool.
Import ListNotations.
Require Import SR.Base.Res SR.Spec.Conversion SR.Spec.ConversionArg SR.Model.Conversion SR.Model.ConversionArg
  SR.Proofs.ConversionP SR.Proofs.ConversionArgP.
Open Scope Z_scope.

(* int(s) returns v exactly when s is the text of an integer of at most 4300 digits whose value is v ... *)
Theorem C16_int_of_str : forall (s : list N) (v : Z),
  int_of_str s = Ok v <->
  exists negative ds, int_text py_digit_value py_int_space s negative ds /\
                      Z.of_nat (length ds) <= int_max_str_digits /\ v = signed negative (zval ds).
Proof.
  intros s v. split; [apply int_of_str_ok|].
  intros (negative & ds & Ht & Hl & ->). rewrite (int_of_str_text s negative ds Ht).
  destruct (int_max_str_digits <? Z.of_nat (length ds)) eqn:E; [|reflexivity].
  apply Z.ltb_lt, Z.lt_nge in E. contradiction.
Qed.
Print Assumptions C16_int_of_str.

(* ... and otherwise raises ValueError, nothing else: 12.5, 1e3, 1.0, _1, 1__0, the empty string. *)
Theorem C16_int_of_str_refuses : forall s : list N,
  (int_of_str s = Err ValueError <-> ~ int_ok s) /\ (forall e, int_of_str s = Err e -> e = ValueError).
Proof. intros s. split; [apply int_of_str_refuses|apply int_of_str_err]. Qed.
Print Assumptions C16_int_of_str_refuses.

(* On the argument classes of the property's text (int - bool is one -, finite float, finite Decimal)
   [digit_string_v] IS the function the theorems of Props/C16.v are about. *)
Theorem C16_digit_string_numeric : forall (n : nat) (a : pyval) (x : dec),
  dec_of_val a = Some x -> digit_string_v n a = digit_string n x.
Proof.
  intros n a x H. rewrite digit_string_v_shape, digit_string_shape, (int_of_val_dec a x H). reflexivity.
Qed.
Print Assumptions C16_digit_string_numeric.

(* Whatever the class: when int(value) is an integer 0 <= z < 10^n the result is exactly n digits of value z
   (a Fraction is truncated, True is 1, a str is read by the grammar above) ... *)
Theorem C16_digit_string_any : forall (n : nat) (a : pyval) (z : Z),
  (1 <= n <= 4300)%nat -> int_of_val a = Ok z -> 0 <= z < 10 ^ Z.of_nat n ->
  exists r, digit_string_v n a = Ok r /\ length r = n /\ forallb is_digit r = true /\ dval r = z.
Proof.
  intros n a z Hn Ha Hz. rewrite digit_string_v_shape, Ha. exact (digit_text_exact n z Hn Hz).
Qed.
Print Assumptions C16_digit_string_any.

(* ... and when int(value) raises, digit_string raises the same: TypeError for None, ValueError for nan and NaN,
   OverflowError for the infinities, ValueError for a str that is not the text of an integer. *)
Theorem C16_digit_string_raises : forall (n : nat) (a : pyval) (e : exn),
  int_of_val a = Err e -> digit_string_v n a = Err e.
Proof. intros n a e H. rewrite digit_string_v_shape, H. reflexivity. Qed.
Print Assumptions C16_digit_string_raises.

(* The str argument spelled out. *)
Theorem C16_digit_string_str : forall (n : nat) (s : list N) (negative : bool) (ds : list Z),
  (1 <= n <= 4300)%nat -> int_text py_digit_value py_int_space s negative ds ->
  Z.of_nat (length ds) <= int_max_str_digits -> 0 <= signed negative (zval ds) < 10 ^ Z.of_nat n ->
  exists r, digit_string_v n (PStr s) = Ok r /\ length r = n /\ forallb is_digit r = true /\
            dval r = signed negative (zval ds).
Proof.
  intros n s negative ds Hn Ht Hl Hv. apply C16_digit_string_any; [exact Hn| |exact Hv].
  apply C16_int_of_str. exists negative, ds. repeat split; assumption.
Qed.
Print Assumptions C16_digit_string_str.

Theorem C16_digit_string_str_refused : forall (n : nat) (s : list N),
  ~ int_ok s -> digit_string_v n (PStr s) = Err ValueError.
Proof. intros n s H. apply C16_digit_string_raises. apply int_of_str_refuses. exact H. Qed.
Print Assumptions C16_digit_string_str_refused.

(* The statement of C16_places for EVERY digit count the default context admits as a target exponent,
   -999999 <= d <= 1000026: the domain bound [fits_ctx] is the 28 digits of the precision and, for d below
   -999972, the fewer digits that keep exponent + digits - 1 within Emax = 999999.  For d >= -999972
   [fits_ctx d x = fitsb d x] (ConversionP.fits_ctx_fitsb), so this contains C16_places. *)
Theorem C16_places_ctx : forall (d : Z) (x : dec),
  -999999 <= d <= 1000026 -> fits_ctx d x = true ->
  exists r, decimal_places d x = Ok r /\ dexp r = - d /\ closeb d x r = true /\
            decimal_places d r = Ok r.
Proof. exact decimal_places_ok_ctx. Qed.
Print Assumptions C16_places_ctx.

(* ... and the bound is exact: outside it the helper raises InvalidOperation. *)
Theorem C16_places_ctx_outside : forall (d : Z) (x : dec),
  -999999 <= d <= 1000026 -> fits_ctx d x = false -> decimal_places d x = Err DecimalInvalid.
Proof. exact decimal_places_err_ctx. Qed.
Print Assumptions C16_places_ctx_outside.

(* Outside that range of d no argument helps.  Below -999999 the quantum Decimal(1).scaleb(-d) overflows
   (decimal.Overflow), beyond +-2000054 scaleb refuses its operand (InvalidOperation) ... *)
Theorem C16_places_digits_overflow : forall (d : Z) (x : dec),
  -2000054 <= d < -999999 -> decimal_places d x = Err OtherError.
Proof. intros d x H. rewrite decimal_places_shape, (quantum_exp_overflow d H). reflexivity. Qed.
Print Assumptions C16_places_digits_overflow.

Theorem C16_places_digits_refused : forall (d : Z) (x : dec),
  d < -2000054 \/ 2000054 < d -> decimal_places d x = Err DecimalInvalid.
Proof. intros d x H. rewrite decimal_places_shape, (quantum_exp_invalid d H). reflexivity. Qed.
Print Assumptions C16_places_digits_refused.

(* ... and above 1000026 the quantum underflows to 0E-1000026: the call behaves as with d = 1000026, i.e. the
   result does NOT have d fractional digits (the bound d <= 1000026 of C16_places is needed). *)
Theorem C16_places_digits_underflow : forall (d : Z) (x : dec),
  1000026 <= d <= 2000054 -> decimal_places d x = decimal_places 1000026 x.
Proof.
  intros d x H. rewrite !decimal_places_shape, (quantum_exp_underflow d H), (quantum_exp_range 1000026); [reflexivity|].
  split; discriminate.
Qed.
Print Assumptions C16_places_digits_underflow.

(* An argument of any class that Decimal() turns into the finite x behaves as x (so C16_places_ctx applies) ... *)
Theorem C16_places_any : forall (d : Z) (a : pyval) (x : dec),
  decimal_of_val a = Ok (PDec x) ->
  decimal_places_v d a = bind (decimal_places d x) (fun r => Ok (PDec r)).
Proof.
  intros d a x H. rewrite decimal_places_v_shape, decimal_places_shape, H.
  destruct (quantum_exp d); reflexivity.
Qed.
Print Assumptions C16_places_any.

(* ... and one that Decimal() refuses (None, a Fraction: TypeError; a str that is no number: InvalidOperation)
   is refused the same way, provided the quantum exists (it is built first). *)
Theorem C16_places_raises : forall (d : Z) (a : pyval) (e : exn) (q : Z),
  quantum_exp d = Ok q -> decimal_of_val a = Err e -> decimal_places_v d a = Err e.
Proof. intros d a e q Hq H. rewrite decimal_places_v_shape, Hq, H. reflexivity. Qed.
Print Assumptions C16_places_raises.

(* The property's clause, stated on VALUES: for every key of the schema vocabulary and every argument, IF the
   named conversion returns, the result has the named type; and it raises e exactly in the cases of the table
   [conversion_raises] (Spec/ConversionArg.v): int() - TypeError on None, ValueError on nan / NaN / a str that
   is not the text of an integer, OverflowError on the infinities; float() - TypeError on None, ValueError on
   a str float() does not accept and on sNaN, OverflowError on an int or Fraction from 2^1024 - 2^970 on;
   str() - ValueError on an int or Fraction of more than 4300 digits; Decimal() - TypeError on None and on a
   Fraction, InvalidOperation on a str Decimal() does not accept; null, bool and the identity never. *)
Theorem C16_conversion_value_types : forall (key : Z) (a : pyval),
  In key vocabulary ->
  (forall t, conversion_result key a = Ok t -> t = named_type key (type_of a)) /\
  (forall e, conversion_result key a = Err e <-> conversion_raises int_ok float_str_ok decimal_str_ok key a e).
Proof.
  intros key a Hk. split; [intros t; apply conversion_returns_named; exact Hk|intros e; apply conversion_raises_iff; exact Hk].
Qed.
Print Assumptions C16_conversion_value_types.

(* On the values a workbook cell or a decoded field delivers (bool, int inside the float range, finite float,
   finite Decimal) every named conversion returns, a value of the named type. *)
Theorem C16_conversion_plain : forall (key : Z) (a : pyval),
  In key vocabulary -> plain_value a = true -> conversion_result key a = Ok (named_type key (type_of a)).
Proof. exact conversion_plain_returns. Qed.
Print Assumptions C16_conversion_plain.

(* C16_conversion_types (Props/C16.v) is about type codes; it is the reading of this model on the arguments on
   which the conversion returns. *)
Theorem C16_conversion_types_of_values : forall (key : Z) (a : pyval) (t : Z),
  conversion_result key a = Ok t -> conversion_type key (type_of a) = Ok t.
Proof. exact conversion_type_of. Qed.
Print Assumptions C16_conversion_types_of_values.

(* Non-vacuity.  blank, Arabic-Indic three, underscore, ASCII five, no-break space: the text of 35 *)
Example C16b_example_int_text :
  int_text py_digit_value py_int_space [32; 1635; 95; 53; 160]%N false [3; 5] /\
  int_of_str [32; 1635; 95; 53; 160]%N = Ok 35.
Proof.
  split; [|vm_compute; reflexivity].
  apply (IntText py_digit_value py_int_space [32%N] [] [1635; 95; 53]%N [160%N] false [3; 5]);
    [reflexivity|reflexivity|constructor|].
  apply DP; [reflexivity|]. apply DT_under; [reflexivity|]. apply DT_nil.
Qed.

(* digit_string(5, s) for s = '12.5', '1e3', '1.0', '_1', '', a separator-28 before 1: ValueError;
   ' 12 ' -> 00012, '1_000' -> 01000, the Arabic-Indic three -> 00003; None TypeError; nan ValueError; inf OverflowError;
   True -> 00001; Fraction(7, 2) -> 00003 *)
Example C16b_example_digit_string :
  digit_string_v 5 (PStr [49; 50; 46; 53]%N) = Err ValueError /\
  digit_string_v 5 (PStr [49; 101; 51]%N) = Err ValueError /\
  digit_string_v 5 (PStr [49; 46; 48]%N) = Err ValueError /\
  digit_string_v 5 (PStr [95; 49]%N) = Err ValueError /\
  digit_string_v 5 (PStr []) = Err ValueError /\
  digit_string_v 5 (PStr [28; 49]%N) = Err ValueError /\
  digit_string_v 5 (PStr [32; 49; 50; 32]%N) = Ok [48; 48; 48; 49; 50]%N /\
  digit_string_v 5 (PStr [49; 95; 48; 48; 48]%N) = Ok [48; 49; 48; 48; 48]%N /\
  digit_string_v 5 (PStr [1635]%N) = Ok [48; 48; 48; 48; 51]%N /\
  digit_string_v 5 PNone = Err TypeError /\
  digit_string_v 5 PFloatNan = Err ValueError /\
  digit_string_v 5 (PFloatInf false) = Err OtherError /\
  digit_string_v 5 (PBool true) = Ok [48; 48; 48; 48; 49]%N /\
  digit_string_v 5 (PFrac 7 2) = Ok [48; 48; 48; 48; 51]%N.
Proof. vm_compute. repeat split; reflexivity. Qed.

(* decimal_places(-999999, x): 9E+999999 stays, 15E+999999 and 95E+999998 (rounds to 10E+999999) are
   InvalidOperation, 5E+999998 rounds to 0E+999999; decimal_places(-1000000, 1) is Overflow;
   decimal_places(2, ' 1_0.5 ') = 10.50, decimal_places(2, 'x') InvalidOperation, decimal_places(2, None) TypeError *)
Example C16b_example_places :
  fits_ctx (-999999) (mkdec false 9 999999) = true /\
  decimal_places (-999999) (mkdec false 9 999999) = Ok (mkdec false 9 999999) /\
  fits_ctx (-999999) (mkdec false 15 999999) = false /\
  decimal_places (-999999) (mkdec false 15 999999) = Err DecimalInvalid /\
  decimal_places (-999999) (mkdec false 95 999998) = Err DecimalInvalid /\
  decimal_places (-999999) (mkdec false 5 999998) = Ok (mkdec false 0 999999) /\
  decimal_places (-1000000) (mkdec false 1 0) = Err OtherError /\
  decimal_places_v 2 (PStr [32; 49; 95; 48; 46; 53; 32]%N) = Ok (PDec (mkdec false 1050 (-2))) /\
  decimal_places_v 2 (PStr [120]%N) = Err DecimalInvalid /\
  decimal_places_v 2 PNone = Err TypeError.
Proof. vm_compute. repeat split; reflexivity. Qed.

(* CONVERSION['integer'](None) TypeError, ('1.5') ValueError, (' 7 ') an int; CONVERSION['decimal']('x')
   InvalidOperation; CONVERSION['number']('abc') ValueError, ('nan') a float, (10**400) OverflowError;
   CONVERSION['string'](10**4300) ValueError *)
Example C16b_example_conversion :
  In 3 vocabulary /\
  conversion_result 3 PNone = Err TypeError /\
  conversion_result 3 (PStr [49; 46; 53]%N) = Err ValueError /\
  conversion_result 3 (PStr [32; 55; 32]%N) = Ok T_int /\
  conversion_result 6 (PStr [120]%N) = Err DecimalInvalid /\
  conversion_result 4 (PStr [97; 98; 99]%N) = Err ValueError /\
  conversion_result 4 (PStr [110; 97; 110]%N) = Ok T_float /\
  conversion_result 4 (PInt (10 ^ 400)) = Err OtherError /\
  conversion_result 5 (PInt (10 ^ 4300)) = Err ValueError /\
  plain_value (PFloat (mkdec false 15 (-1))) = true.
Proof.
  assert (Hfloat : conversion_result 4 (PInt (10 ^ 400)) = Err OtherError).
  { apply conversion_raises_iff; [vm_compute; tauto|]. split; [reflexivity|].
    (* 2^1024 <= 8^400 <= 10^400 *)
    rewrite Z.abs_eq by (apply Z.pow_nonneg; discriminate).
    apply Z.le_trans with (1 := float_overflow_le).
    apply Z.le_trans with ((2 ^ 3) ^ 400); [|apply Z.pow_le_mono_l; split; discriminate].
    rewrite <- Z.pow_mul_r by discriminate. apply Z.pow_le_mono_r; [reflexivity|discriminate]. }
  assert (Hstr : conversion_result 5 (PInt (10 ^ 4300)) = Err ValueError).
  { apply conversion_raises_iff; [vm_compute; tauto|]. split; [reflexivity|].
    rewrite Z.abs_eq by (apply Z.pow_nonneg; discriminate). apply Z.le_refl. }
  rewrite Hfloat, Hstr.
  vm_compute. repeat split; try reflexivity. right; right; right; left; reflexivity.
Qed.
