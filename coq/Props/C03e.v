(* C03, companion file - two call sequences the property covers and Props/C03.v does not:
   (a) the rows of the SAME Sheet object asked for a second time, and
   (b) an EBCDIC RECFM F file read with an explicit lrecl= larger than the layout.

   (a) SECOND PASSES.  "the same table ... yields, through the same sequence of calls, the same sheets, the same number of
   rows in the same order and the same text under every column name."  A sequence of calls may contain sheet.rows() more than
   once on one Sheet: a complete pass list(sheet.rows()), or a pass abandoned after k rows (islice).  The stored table does
   not change, so every pass must show the table's rows from the first on, whatever the format
   (Spec/TransparencyPasses.v [take_rows], [demanded]; Model/WorkbookPasses.v [expected_passes]).
     Model/WorkbookPasses.v   [facade_passes f content probes pat] / [open_passes], [read_fixed_passes], [read_ebcdic_passes]:
                              the passes [pat] (None = complete, Some k = the first k rows, then abandoned) on the Sheet that
                              sheet_iter yielded, the schema bound once; per sheet the list of what each pass read, by name.
   What the code does: XLS / XLSX / ODS / Numbers unpackers look the sheet up in the parsed document on every instance_iter
   call - every pass sees the whole sheet (C03e_second_pass_in_memory, under the same parser premise as C03_facade).  CSV,
   tab-delimited text, NDJSON, fixed-width text and EBCDIC unpackers build a new reader over the SAME OPEN FILE, which stands
   where the pass before left it: a later pass delivers rows of what is left unread (C03e_second_pass_file_backed) - nothing
   after a complete pass; after an abandoned pass the remaining rows, the first of them consumed as a NEW heading row by the
   heading-row loader, so that even the column names change; for RECFM_N nothing at all, because the reader of the abandoned
   pass took the file into its own buffer.  The statement that every format shows the table on a second pass is therefore
   REFUTED by the faithful model (C03e_second_pass_refuted; known finding K-second-pass-differs, code 2 of Judge/JC03.v).

   (b) PADDED RECORDS.  COBOL_EBCDIC_File(path, recfm_class=RECFM_F, lrecl=n) with n beyond the end of the layout: the explicit
   lrecl decides the framing (COBOL_EBCDIC_Sheet.set_schema: if wb.lrecl: self.lrecl = wb.lrecl; Model/Workbook.v
   [sheet_lrecl]), the layout decides what is read from each record.  Spec/TransparencyPasses.v [write_ebcdic_padded T widths
   fill]: every record followed by its filler, ANY bytes.  C03e_fixed_ebcdic_padded: the padded table comes back, with no
   premise about anything outside the model.

   Only the property theorems are here; the lemmas they rest on are in Proofs/WorkbookPassesP.v. *)
From Coq Require Import NArith List Lia.
Import ListNotations.
Require Import SR.Base.Res SR.Spec.Transparency SR.Spec.TransparencyPasses SR.Gen.RecfmParams.
Require Import SR.Model.HeaderRow SR.Model.Workbook SR.Model.WorkbookPasses.
Require Import SR.Proofs.WorkbookP SR.Proofs.WorkbookPassesP.

(* (a) In-memory formats.  XLSX, ODS, XLS (in_memory_book) and Numbers: for EVERY workbook with distinct sheet names whose
   tables are rectangular with distinct column names, and EVERY list of passes - complete ones and ones abandoned after
   any number of rows, in any order - every pass delivers the table's rows from the first on (all of them, or the first
   k), under every column name; UNDER the premise of C03_facade / C03_facade_numbers that the third-party parser returns
   what its writer was given.
   expected_passes W pat = map (fun s => (fst s, map (fun k => take_obs k (expected_rows (snd s))) pat)) W *)
Theorem C03e_second_pass_in_memory :
  forall (image : Type) (ext_write : fmt -> workbook -> image) (ext_parse : fmt -> image -> content),
  (forall f W, third_party f = true -> storable f W = true -> ext_parse f (ext_write f W) = phys f W) ->
  (forall f W pat, in_memory_book f = true -> wf_workbook W ->
     open_passes ext_parse f (ext_write f W) (headers W) pat = Ok (expected_passes W pat))
  /\ (forall (num_write : numbers_doc -> image),
        (forall d, ext_parse F_NUMBERS (num_write d) = phys_numbers d) ->
        forall d pat, wf_numbers d ->
          open_passes ext_parse F_NUMBERS (num_write d) (headers (flatten_numbers d)) pat
          = Ok (expected_passes (flatten_numbers d) pat)).
Proof.
  intros image ext_write ext_parse H. split.
  - intros f W pat Hf Hwf. unfold open_passes. rewrite reader_for_ok. cbn [bind].
    rewrite H, (facade_passes_phys f W pat Hf Hwf); [reflexivity| |]; destruct f; try discriminate Hf; reflexivity.
  - intros num_write Hn d pat Hwf. unfold open_passes. rewrite reader_for_ok. cbn [bind facade_passes].
    rewrite Hn, (read_header_passes_holds _ _ pat (holds_numbers d Hwf) eq_refl). reflexivity.
Qed.
Print Assumptions C03e_second_pass_in_memory.

(* [expected_passes] is the spec's demand: for every pass the first rows of the table ([demanded]), by name *)
Theorem C03e_expected_passes : forall (T : table) (pat : passes),
  map (fun k => take_obs k (expected_rows T)) pat
  = map (fun rows => expected_rows (mk_table (t_header T) rows)) (demanded pat (t_rows T)).
Proof.
  intros T pat. unfold demanded, expected_rows, take_obs. rewrite map_map. apply map_ext. intros k.
  rewrite take_rows_map. reflexivity.
Qed.
Print Assumptions C03e_expected_passes.

(* (a) The full statement: every format delivers on a second complete pass what it delivered on the first *)
Definition C03e_second_pass_full : Prop :=
  forall (f : fmt) (W : workbook), third_party f = true -> storable f W = true -> wf_workbook W ->
    facade_passes f (phys f W) (headers W) [None; None] = expected_passes W [None; None].

(* REFUTED (known finding K-second-pass-differs): one column a, one row x.  CSV, TAB, NDJSON, fixed text, EBCDIC RECFM F and N
   deliver the row on the first complete pass and NOTHING on the second.  With three rows x, y, z, one row taken and the pass
   abandoned: CSV takes y for a new heading row and the name asked for is no longer a column (KeyError); NDJSON and RECFM_F go
   on with y and z; RECFM_N has nothing left; XLSX delivers the whole table again. *)
Theorem C03e_second_pass_refuted :
  ~ C03e_second_pass_full
  /\ third_party F_CSV = true /\ storable F_CSV [([], one_row)] = true /\ wf_workbook [([], one_row)]
  /\ expected_passes [([], one_row)] [None; None]
     = [([], [Ok [[Ok (Some (Txt [120]%N))]]; Ok [[Ok (Some (Txt [120]%N))]]])]
  /\ facade_passes F_CSV (phys F_CSV [([], one_row)]) [[[97]%N]] [None; None]
     = [([], [Ok [[Ok (Some (Txt [120]%N))]]; Ok []])]
  /\ facade_passes F_TAB (phys F_TAB [([], one_row)]) [[[97]%N]] [None; None]
     = [([], [Ok [[Ok (Some (Txt [120]%N))]]; Ok []])]
  /\ facade_passes F_NDJSON (phys F_NDJSON [([], one_row)]) [[[97]%N]] [None; None]
     = [([], [Ok [[Ok (Some (Txt [120]%N))]]; Ok []])]
  /\ read_fixed_passes (write_fixed_text one_row [1]) (layout_of [[97]%N] [1]) [[97]%N] [None; None]
     = [([], [Ok [[Ok (Some (Txt [120]%N))]]; Ok []])]
  /\ read_ebcdic_passes RECFM_F 0 None (write_ebcdic one_row [1]) (layout_of [[97]%N] [1]) [[97]%N] [None; None]
     = [([], [Ok [[Ok (Some (Txt [120]%N))]]; Ok []])]
  /\ read_ebcdic_passes RECFM_N 0 None (write_ebcdic one_row [1]) (layout_of [[97]%N] [1]) [[97]%N] [None; None]
     = [([], [Ok [[Ok (Some (Txt [120]%N))]]; Ok []])]
  /\ facade_passes F_CSV (phys F_CSV [([], three_rows)]) [[[97]%N]] [Some 1; None]
     = [([], [Ok [[Ok (Some (Txt [120]%N))]]; Ok [[Err KeyError]]])]
  /\ facade_passes F_NDJSON (phys F_NDJSON [([], three_rows)]) [[[97]%N]] [Some 1; None]
     = [([], [Ok [[Ok (Some (Txt [120]%N))]]; Ok [[Ok (Some (Txt [121]%N))]; [Ok (Some (Txt [122]%N))]]])]
  /\ read_ebcdic_passes RECFM_F 0 None (write_ebcdic three_rows [1]) (layout_of [[97]%N] [1]) [[97]%N] [Some 1; None]
     = [([], [Ok [[Ok (Some (Txt [120]%N))]]; Ok [[Ok (Some (Txt [121]%N))]; [Ok (Some (Txt [122]%N))]]])]
  /\ read_ebcdic_passes RECFM_N 0 None (write_ebcdic three_rows [1]) (layout_of [[97]%N] [1]) [[97]%N] [Some 1; None]
     = [([], [Ok [[Ok (Some (Txt [120]%N))]]; Ok []])]
  /\ facade_passes F_XLSX (phys F_XLSX [([], three_rows)]) [[[97]%N]] [Some 1; None]
     = expected_passes [([], three_rows)] [Some 1; None].
Proof.
  assert (Hwf : wf_workbook [([], one_row)]).
  { apply wf_single. split; [|reflexivity]. cbn. constructor; [intros []|constructor]. }
  split.
  { intros H. specialize (H F_CSV [([], one_row)] eq_refl eq_refl Hwf). vm_compute in H. discriminate H. }
  split; [reflexivity|]. split; [reflexivity|]. split; [exact Hwf|].
  repeat apply conj.
  (* RECFM_N after a complete pass, by the general theorem: evaluating the reader lays out its whole buffer *)
  7: { rewrite (ebcdic_passes_ok RECFM_N 0 None one_row [1]); try reflexivity; try discriminate.
       - constructor; [intros []|constructor].
       - intros _. change (length (t_rows one_row) * list_sum [1]) with 1. unfold buffer_size. lia. }
  all: vm_compute; reflexivity.
Qed.
Print Assumptions C03e_second_pass_refuted.

(* (a) File-backed formats: exactly what they deliver.  No premise about a parser: the statements are about what the
   unpackers do with the content they were handed / the file image.
   continuation left pat rows   every pass delivers take_rows k of what the passes before left (Spec/TransparencyPasses.v)
   left_rows k rows             = [] after a complete pass, skipn k rows after k rows were taken
   left_swallowed k rows        = [] after any pass that started (k <> 0)
   left_header k rem            = [] after a complete pass, skipn (S k) rem after k rows were taken (the heading row is gone too)
   expected_pieces hs pieces    = map (fun rows => expected_rows (mk_table hs rows)) pieces
   1. CSV, TAB - ANY physical rows, ANY names asked for: pass i is a FIRST pass (Model/Workbook.v read_sheet_header, the run
      C03_facade speaks about) over the physical rows left by the passes before it - so its first row is the heading row.
   2. NDJSON, 3. fixed-width text, 4. EBCDIC: every table in the domain of C03_facade / C03_fixed_text / C03_fixed_ebcdic; the
      passes deliver, by name and unchanged, the rows of the continuation - for RECFM_F (lrecl not given or the record length)
      from the file position, for RECFM_N (file no longer than the reader's buffer) nothing once a pass has started. *)
Theorem C03e_second_pass_file_backed :
  (forall (f : fmt) (rows : sheet) (probes : list key) (pat : passes), text_rows_format f = true ->
     facade_passes f (C_single rows) [probes] pat
     = [([], map (fun kr => take_obs (fst kr) (read_sheet_header (C_single (snd kr)) [] probes))
                 (combine pat (remainders left_header pat rows)))])
  /\ (forall (T : table) (pat : passes), wf_table T ->
        facade_passes F_NDJSON (phys F_NDJSON [([], T)]) [t_header T] pat
        = [([], expected_pieces (t_header T) (continuation left_rows pat (t_rows T)))])
  /\ (forall (T : table) (widths : list nat) (pat : passes),
        NoDup (t_header T) -> fits widths T = true -> line_safe T = true ->
        read_fixed_passes (write_fixed_text T widths) (layout_of (t_header T) widths) (t_header T) pat
        = [([], expected_pieces (t_header T) (continuation left_rows pat (t_rows (pad_table widths T))))])
  /\ (forall (r : recfm) (kind : N) (wb_lrecl : option nat) (T : table) (widths : list nat) (pat : passes),
        NoDup (t_header T) -> fits widths T = true -> repertoire_ok T = true -> t_header T <> [] ->
        (r = RECFM_N -> length (t_rows T) * list_sum widths <= N.to_nat buffer_size) ->
        (r = RECFM_F -> wb_lrecl = None \/ wb_lrecl = Some (list_sum widths)) ->
        read_ebcdic_passes r kind wb_lrecl (write_ebcdic T widths) (layout_of (t_header T) widths) (t_header T) pat
        = [([], expected_pieces (t_header T)
                  (continuation (match r with RECFM_F => left_rows | RECFM_N => left_swallowed end) pat
                                (t_rows (pad_table widths T))))]).
Proof.
  split; [exact passes_header_file|]. split; [exact json_passes_ok|]. split; [exact fixed_passes_ok|].
  exact ebcdic_passes_ok.
Qed.
Print Assumptions C03e_second_pass_file_backed.

(* a continuing reader after a complete pass: every later pass is empty, where the property demands the rows again *)
Theorem C03e_after_complete_pass : forall (X : Type) (rows : list X) (pat : passes),
  continuation left_rows (None :: pat) rows = rows :: map (fun _ => []) pat
  /\ continuation left_swallowed (None :: pat) rows = rows :: map (fun _ => []) pat
  /\ demanded (None :: pat) rows = rows :: map (fun k => take_rows k rows) pat.
Proof.
  intros X rows pat. cbn [continuation take_rows left_rows left_swallowed demanded map].
  rewrite !continuation_nil; [auto| |]; intros [[|n]|]; reflexivity.
Qed.
Print Assumptions C03e_after_complete_pass.

(* (b) Explicit lrecl larger than the layout.  For every table with distinct column names, one width >= 1 per column,
   cells no longer than their columns and in the CP037 repertoire, every pad >= 0 and EVERY choice of filler bytes (one
   filler of pad bytes per row, arbitrary N values): reading the padded image with RECFM F and lrecl = sum widths + pad
   gives back the padded table - the statement shape of C03_fixed_ebcdic.
   fill_ok pad T fill = (length fill =? length (t_rows T)) && forallb (fun f => length f =? pad) fill *)
Theorem C03e_fixed_ebcdic_padded :
  forall (kind : N) (T : table) (widths : list nat) (pad : nat) (fill : list (list N)),
  NoDup (t_header T) -> fits widths T = true -> repertoire_ok T = true -> t_header T <> [] ->
  fill_ok pad T fill = true ->
  read_ebcdic RECFM_F kind (Some (list_sum widths + pad)) (write_ebcdic_padded T widths fill)
              (layout_of (t_header T) widths) (t_header T)
  = expected [([], pad_table widths T)].
Proof. exact padded_ok. Qed.
Print Assumptions C03e_fixed_ebcdic_padded.

(* hence the file with the reserved area reads like the file without it, whatever reader reads the latter *)
Theorem C03e_padded_agrees :
  forall (kind kind' : N) (r : recfm) (wb_lrecl : option nat) (T : table) (widths : list nat) (pad : nat) (fill : list (list N)),
  NoDup (t_header T) -> fits widths T = true -> repertoire_ok T = true -> t_header T <> [] ->
  fill_ok pad T fill = true ->
  (r = RECFM_N -> list_sum widths <= N.to_nat buffer_size) ->
  wb_lrecl = None \/ wb_lrecl = Some (list_sum widths) ->
  read_ebcdic RECFM_F kind (Some (list_sum widths + pad)) (write_ebcdic_padded T widths fill)
              (layout_of (t_header T) widths) (t_header T)
  = read_ebcdic r kind' wb_lrecl (write_ebcdic T widths) (layout_of (t_header T) widths) (t_header T).
Proof.
  intros. rewrite padded_ok by assumption. symmetry. apply ebcdic_ok; assumption.
Qed.
Print Assumptions C03e_padded_agrees.

(* the judge recognises a padded image by the fillers it finds in it: they are the writer's *)
Theorem C03e_fillers_found : forall (T : table) (widths : list nat) (pad : nat) (fill : list (list N)),
  fits widths T = true -> t_header T <> [] -> fill_ok pad T fill = true ->
  fillers_of (list_sum widths + pad) (list_sum widths) (write_ebcdic_padded T widths fill) = fill.
Proof. exact fillers_found. Qed.
Print Assumptions C03e_fillers_found.

Definition exe_T : table :=
  mk_table [[65]; [66; 50]]%N [[[97; 98]; [233]]; [[48; 48; 49]; [32]]; [[122]; [122]]]%N.   (* A, B2 | ab, e-acute | 001, blank | z, z *)

Lemma exe_T_wf : wf_table exe_T.
Proof.
  split; [|reflexivity].
  cbn. apply NoDup_two. discriminate.
Qed.

(* the premises are satisfiable; the passes full + take 1 + full over two sheets of an in-memory book *)
Example C03e_example_in_memory :
  wf_workbook [([83]%N, exe_T); ([84]%N, exe_T)] /\ in_memory_book F_XLSX = true /\ in_memory_book F_ODS = true
  /\ in_memory_book F_XLS = true
  /\ (exists (ext_write : fmt -> workbook -> fmt * workbook) (ext_parse : fmt -> fmt * workbook -> content),
        forall f W, third_party f = true -> storable f W = true -> ext_parse f (ext_write f W) = phys f W)
  /\ facade_passes F_ODS (phys F_ODS [([83]%N, exe_T); ([84]%N, exe_T)]) [t_header exe_T; t_header exe_T] [None; Some 1; None]
     = expected_passes [([83]%N, exe_T); ([84]%N, exe_T)] [None; Some 1; None]
  /\ map (fun s => map (fun o => match o with Ok rows => length rows | Err _ => 99 end) (snd s))
         (expected_passes [([83]%N, exe_T); ([84]%N, exe_T)] [None; Some 1; None]) = [[3; 1; 3]; [3; 1; 3]].
Proof.
  split.
  { split.
    - cbn [map fst]. apply NoDup_two. discriminate.
    - constructor; [exact exe_T_wf|]. constructor; [exact exe_T_wf|constructor]. }
  split; [reflexivity|]. split; [reflexivity|]. split; [reflexivity|].
  split; [exists (fun f W => (f, W)), (fun _ p => phys (fst p) (snd p)); reflexivity|].
  split; vm_compute; reflexivity.
Qed.

(* file-backed: the continuation on the same table, and a CSV file whose third physical row repeats the heading row *)
Example C03e_example_file_backed :
  continuation left_rows [Some 1; None; None] [1; 2; 3] = [[1]; [2; 3]; []]
  /\ continuation left_swallowed [Some 1; None; None] [1; 2; 3] = [[1]; []; []]
  /\ demanded [Some 1; None; None] [1; 2; 3] = [[1]; [1; 2; 3]; [1; 2; 3]]
  /\ remainders left_header [Some 1; None] [0; 1; 2; 3] = [[0; 1; 2; 3]; [2; 3]]
  /\ fits [3; 2] exe_T = true /\ line_safe exe_T = true /\ repertoire_ok exe_T = true /\ t_header exe_T <> []
  /\ length (t_rows exe_T) * list_sum [3; 2] <= N.to_nat buffer_size
  /\ read_ebcdic_passes RECFM_F 0 None (write_ebcdic exe_T [3; 2]) (layout_of (t_header exe_T) [3; 2]) (t_header exe_T) [Some 1; None]
     = [([], [Ok [[Ok (Some (Txt [97; 98; 32]%N)); Ok (Some (Txt [233; 32]%N))]];
              Ok [[Ok (Some (Txt [48; 48; 49]%N)); Ok (Some (Txt [32; 32]%N))];
                  [Ok (Some (Txt [122; 32; 32]%N)); Ok (Some (Txt [122; 32]%N))]]])]
  /\ facade_passes F_CSV (C_single [[Txt [97]%N]; [Txt [120]%N]; [Txt [97]%N]; [Txt [122]%N]]) [[[97]%N]] [Some 1; None]
     = [([], [Ok [[Ok (Some (Txt [120]%N))]]; Ok [[Ok (Some (Txt [122]%N))]]])].
Proof.
  repeat apply conj.
  9: { change (length (t_rows exe_T) * list_sum [3; 2]) with 15. unfold buffer_size. lia. }
  all: vm_compute; first [reflexivity | discriminate].
Qed.

(* padded records: pad 3, fillers of arbitrary bytes (0, 255, a blank, the EBCDIC letters) *)
Example C03e_example_padded :
  NoDup (t_header exe_T) /\ fits [3; 2] exe_T = true /\ repertoire_ok exe_T = true /\ t_header exe_T <> []
  /\ fill_ok 3 exe_T [[0; 255; 64]; [193; 194; 195]; [7; 7; 7]]%N = true
  /\ fill_ok 0 exe_T [[]; []; []] = true
  /\ write_ebcdic_padded exe_T [3; 2] [[0; 255; 64]; [193; 194; 195]; [7; 7; 7]]%N
     = [129; 130; 64; 81; 64; 0; 255; 64;  240; 240; 241; 64; 64; 193; 194; 195;  169; 64; 64; 169; 64; 7; 7; 7]%N
  /\ read_ebcdic RECFM_F 0 (Some 8) (write_ebcdic_padded exe_T [3; 2] [[0; 255; 64]; [193; 194; 195]; [7; 7; 7]]%N)
                 (layout_of (t_header exe_T) [3; 2]) (t_header exe_T)
     = [([], Ok [[Ok (Some (Txt [97; 98; 32]%N)); Ok (Some (Txt [233; 32]%N))];
                 [Ok (Some (Txt [48; 48; 49]%N)); Ok (Some (Txt [32; 32]%N))];
                 [Ok (Some (Txt [122; 32; 32]%N)); Ok (Some (Txt [122; 32]%N))]])]
  (* a reader that framed by the layout instead of the explicit lrecl would read the fillers as data *)
  /\ read_ebcdic RECFM_F 0 None (write_ebcdic_padded exe_T [3; 2] [[0; 255; 64]; [193; 194; 195]; [7; 7; 7]]%N)
                 (layout_of (t_header exe_T) [3; 2]) (t_header exe_T)
     <> expected [([], pad_table [3; 2] exe_T)].
Proof.
  split. { cbn. apply NoDup_two. discriminate. }
  repeat apply conj; vm_compute; first [reflexivity | discriminate].
Qed.
