(* C06, fifth layer - OCCURS DEPENDING ON counters as they occur in practice, and as the code sees them.
   Companion of Props/C06.v (and C06c.v, C06d.v); only property theorems, over the lemmas of Proofs/CountersP.v
   and Proofs/CountersZP.v.  No engine of its own: the correspondence run is C06's
   (streams packed-counter, comp-counter, above-maximum, negative-counter of harness/c06.py; Judge/JC06.v).

   Props/C06c.v instantiates the counter decoder for UNSIGNED ZONED DISPLAY counters only.  The usual counters are
   PIC S9(4) COMP and PIC 9(3) COMP-3.  Here:

   (1) DECODERS (Model/Counters.v): zcount_zoned, zcount_packed, zcount_binary d = Model/Estruct.v's unpack for the
       counter's own usage composed with int() - the Python int the walk multiplies with, or the exception.  A field that
       STORES z under the specification's encoder (Spec/Counters.v: stores_zoned_z / stores_packed_z / stores_binary_z,
       any valid sign, negative values included) decodes to z.  dcount_packed / dcount_binary d / dcount_zoned are the
       natural-number completions Model/Layout.v takes.
   (2) C06_layout, C06_layout_flat, C06_frame and the five FILE theorems with those decoders, the hypothesis "the record
       stores the counts" written with the ENCODERS only: C06e_layout_packed_counter, C06e_layout_binary_counter (general
       family; Stored asks for an image of e(c) at the counters c that some table names and for NOTHING at the other
       items - Props/C06c.v's C06c_layout asks for Holds at every non-repeated elementary item), C06e_layout_flat ..
       C06e_stream_F for any decoder / encoder pair that round-trips (the three pairs: C06e_counter_pairs).
   (3) THE VALUE AS THE CODE SEES IT - a Z, not a nat.  Model/Counters.zwalk is LocationMaker.walk over Python's integers,
       Location.__init__'s  if end:  test included, and the sign test of the DependsOnArraySchema case
       ( if maxItems < 0: raise ValueError - the fix of finding K-negative-counter, read from the source by harness/t1_layout.py
       into Gen/LayoutParams.odo_negative_refused ) as a FLAG of the walk.  With the flag as the source has it now:
       C06e_walk_closed_form (flat family, EVERY count vector over Z: the navigator is a closed form of the vector, or
       ValueError when a table's counter is negative), C06e_negative_counter_refused (such a record is refused while the
       navigator is built, so no item is ever located before the table), C06e_item_after_table_proved (the property's
       sentence "every item after the table is found immediately after the last occupied element", kept for every counter
       value as C06e_item_after_table_statement: the record is refused or the sentence holds), C06e_item_after_table_nonneg.
       The behaviour the fix repaired is kept as statements about the walk WITHOUT the sign test (zwalk_with false):
       C06e_walk_closed_form_old, C06e_after_table_old, C06e_negative_counter_layout_old (for count c < 0 the item after the
       table started at table_start + c * item_size - BEFORE the table - and every index was refused),
       C06e_item_after_table_old_refuted, C06e_negative_witness_old (PIC S9 = F0 D2 = -2).
   (4) A count ABOVE the declared maximum: the property says "the number of elements read is the value of the
       controlling item", and that is what the code does - the declared maximum reaches neither the schema nor the walk
       (C06e_count_above_maximum; no finding).
   Also: PIC S9(4) COMP, the most usual counter of all, never decodes in this library (C06e_s94_comp_counter: finding
   K-signed-binary-size of C04 - calcsize reserves 4 bytes, the decoder wants 2 - seen from C06). *)
From Coq Require Import ZArith NArith List Lia.
Import ListNotations.
Require Import SR.Base.Res SR.Gen.RecfmParams SR.Spec.Recfm SR.Model.Recfm.
Require Import SR.Spec.Encode SR.Model.Estruct SR.Model.ZonedCounter.
Require Import SR.Spec.Layout SR.Model.Layout SR.Spec.OdoStream SR.Model.OdoStream.
Require Import SR.Spec.LayoutWf SR.Spec.OdoWf SR.Props.C06.
Require Import SR.Spec.Counters SR.Model.Counters SR.Spec.CountersWf SR.Model.LayoutPartial SR.Proofs.CountersP SR.Proofs.CountersZP.
Open Scope nat_scope.

(* (1) decoders *)

Theorem C06e_zoned_counter_decodes : forall (bs : list N) (z : Z), stores_zoned_z bs z -> zcount_zoned bs = Ok z.
Proof. intros bs z H. destruct (zoned_stored_unpack bs z H) as (d & E & <-). unfold zcount_zoned. rewrite E. reflexivity. Qed.
Print Assumptions C06e_zoned_counter_decodes.

Theorem C06e_packed_counter_decodes : forall (bs : list N) (z : Z), stores_packed_z bs z -> zcount_packed bs = Ok z.
Proof. exact zcount_packed_stored. Qed.
Print Assumptions C06e_packed_counter_decodes.

Theorem C06e_binary_counter_decodes : forall (d : nat) (bs : list N) (z : Z),
  stores_binary_z d bs z -> zcount_binary d bs = Ok z.
Proof. exact zcount_binary_stored. Qed.
Print Assumptions C06e_binary_counter_decodes.

(* the natural-number decoders return the count that was stored *)
Theorem C06e_counter_pairs :
  decodes_stored dcount_zoned stores_zoned_count
  /\ decodes_stored dcount_packed stores_packed_count
  /\ forall d, decodes_stored (dcount_binary d) (stores_binary_count d).
Proof. exact (conj zoned_pair (conj packed_pair binary_pair)). Qed.
Print Assumptions C06e_counter_pairs.

(* every spelling of the usage reaches the same decoder, and the S of the picture is not looked at *)
Theorem C06e_usage_spellings : forall (u : N) (p : pic) (bs : list N),
  (In u packed_spellings -> unpack u p bs = unpack 8%N p bs)
  /\ (In u binary_spellings -> unpack u p bs = unpack 10%N p bs).
Proof.
  intros u p bs. split.
  - unfold packed_spellings. cbn [In]. intros [<-|[<-|[<-|[]]]]; reflexivity.
  - unfold binary_spellings. cbn [In]. intros [<-|[<-|[<-|[<-|[<-|[]]]]]]; reflexivity.
Qed.
Print Assumptions C06e_usage_spellings.

(* PIC S9(4) COMP: the field is 4 bytes wide (calcsize counts the S), the decoder asks struct for 2: every record raises *)
Theorem C06e_s94_comp_counter :
  calcsize 10%N (binary_pic 4) = Ok 4%N
  /\ forall bs, length bs = 4 -> zcount_binary 4 bs = Err StructError.
Proof.
  split; [reflexivity|]. intros bs H. unfold zcount_binary.
  change (unpack 10%N (binary_pic 4) bs)
    with (if (length bs =? 2)%nat then Ok (VInt (signed_be 2 bs)) else Err StructError).
  rewrite H. reflexivity.
Qed.
Print Assumptions C06e_s94_comp_counter.

(* the exception-keeping decoders of Model/LayoutPartial.v (C10: a counter that does not decode) are these decoders followed
   by what the walk makes of the value (LayoutPartial.count_of_int): a negative one is refused with ValueError when the
   source has the sign test (as it has now), else clamped to 0 *)
Theorem C06e_partial_decoders : forall (bs : list N),
  dcountp_zoned bs = match zcount_zoned bs with Ok z => count_of_int z | Err e => Err e end
  /\ dcountp_packed bs = match zcount_packed bs with Ok z => count_of_int z | Err e => Err e end.
Proof.
  intros bs. split.
  - apply count_of_pyval_zcount. intros s. exact (unpack_zoned_not_str _ bs s).
  - unfold dcountp_packed. rewrite (packed_sign_irrelevant false).
    apply count_of_pyval_zcount. intros s. exact (unpack_packed_not_str _ bs s).
Qed.
Print Assumptions C06e_partial_decoders.

Theorem C06e_negative_count_refused_now : forall (z : Z),
  count_of_int z = if (z <? 0)%Z then Err ValueError else Ok (Z.to_nat z).
Proof. reflexivity. Qed.
Print Assumptions C06e_negative_count_refused_now.

(* (2) the layout theorems with these decoders *)

(* general family (C06_layout), any round-tripping pair *)
Theorem C06e_layout_stored : forall (dc : list N -> nat) (stores : list N -> nat -> Prop) (r : list N) (e : env) (t : item),
  decodes_stored dc stores ->
  wfo e [] t = true -> NoDup (ids t) -> Stored stores (odo_counters t) r e t 0 ->
  exists v0, nav_of dc r (build t) = Ok v0
    /\ lstart (n_loc v0) = 0 /\ lend (n_loc v0) = extent e t
    /\ forall p v st, spec_nav e (VItem t) 0 p = inl (v, st) ->
         exists nv, nav_path dc r v0 p = Ok nv
           /\ lstart (n_loc nv) = st /\ lend (n_loc nv) = st + view_size e v
           /\ nav_raw r nv = slice r st (st + view_size e v)
           /\ (forall x, v = VItem x -> is_table x = true ->
                 forall i, count e (item_oc x) <= i -> nav_index dc r nv i = Err IndexError).
Proof.
  intros dc stores r e t Hpair Hw Hnd Hs.
  apply (LayoutOdoP.layout_correct_odo_on N dc r e (fun i => existsb (N.eqb i) (odo_counters t)) t Hw Hnd).
  - intros c Hc. apply ListFactsP.existsb_eqb_In, Hc.
  - apply (stored_holds_on dc stores _ r e Hpair), Hs.
Qed.
Print Assumptions C06e_layout_stored.

(* COMP-3 / PACKED-DECIMAL counters *)
Theorem C06e_layout_packed_counter : forall (r : list N) (e : env) (t : item),
  wfo e [] t = true -> NoDup (ids t) -> Stored stores_packed_count (odo_counters t) r e t 0 ->
  exists v0, nav_of dcount_packed r (build t) = Ok v0
    /\ lstart (n_loc v0) = 0 /\ lend (n_loc v0) = extent e t
    /\ forall p v st, spec_nav e (VItem t) 0 p = inl (v, st) ->
         exists nv, nav_path dcount_packed r v0 p = Ok nv
           /\ lstart (n_loc nv) = st /\ lend (n_loc nv) = st + view_size e v
           /\ nav_raw r nv = slice r st (st + view_size e v)
           /\ (forall x, v = VItem x -> is_table x = true ->
                 forall i, count e (item_oc x) <= i -> nav_index dcount_packed r nv i = Err IndexError).
Proof. intros r e t. exact (C06e_layout_stored dcount_packed stores_packed_count r e t packed_pair). Qed.
Print Assumptions C06e_layout_packed_counter.

(* COMP / BINARY counters of d digit positions (2, 4 or 8 bytes) *)
Theorem C06e_layout_binary_counter : forall (d : nat) (r : list N) (e : env) (t : item),
  wfo e [] t = true -> NoDup (ids t) -> Stored (stores_binary_count d) (odo_counters t) r e t 0 ->
  exists v0, nav_of (dcount_binary d) r (build t) = Ok v0
    /\ lstart (n_loc v0) = 0 /\ lend (n_loc v0) = extent e t
    /\ forall p v st, spec_nav e (VItem t) 0 p = inl (v, st) ->
         exists nv, nav_path (dcount_binary d) r v0 p = Ok nv
           /\ lstart (n_loc nv) = st /\ lend (n_loc nv) = st + view_size e v
           /\ nav_raw r nv = slice r st (st + view_size e v)
           /\ (forall x, v = VItem x -> is_table x = true ->
                 forall i, count e (item_oc x) <= i -> nav_index (dcount_binary d) r nv i = Err IndexError).
Proof. intros d r e t. exact (C06e_layout_stored (dcount_binary d) (stores_binary_count d) r e t (binary_pair d)). Qed.
Print Assumptions C06e_layout_binary_counter.

(* signed zoned counters (PIC S9(k) DISPLAY with a positive zone C, F, A or E; -0 counts 0) *)
Theorem C06e_layout_zoned_counter : forall (r : list N) (e : env) (t : item),
  wfo e [] t = true -> NoDup (ids t) -> Stored stores_zoned_count (odo_counters t) r e t 0 ->
  exists v0, nav_of dcount_zoned r (build t) = Ok v0
    /\ lstart (n_loc v0) = 0 /\ lend (n_loc v0) = extent e t
    /\ forall p v st, spec_nav e (VItem t) 0 p = inl (v, st) ->
         exists nv, nav_path dcount_zoned r v0 p = Ok nv
           /\ lstart (n_loc nv) = st /\ lend (n_loc nv) = st + view_size e v
           /\ nav_raw r nv = slice r st (st + view_size e v)
           /\ (forall x, v = VItem x -> is_table x = true ->
                 forall i, count e (item_oc x) <= i -> nav_index dcount_zoned r nv i = Err IndexError).
Proof. intros r e t. exact (C06e_layout_stored dcount_zoned stores_zoned_count r e t zoned_pair). Qed.
Print Assumptions C06e_layout_zoned_counter.

(* flat family: C06_layout_flat, C06_layout_flat_occurrence, C06_frame *)
Theorem C06e_layout_flat : forall (dc : list N -> nat) (stores : list N -> nat -> Prop), decodes_stored dc stores ->
  forall (t : item) (e : env) (r : list N),
  flat_odo t = true -> counters_stored_by stores e t r ->
  exists v, nav_of dc r (build t) = Ok v
    /\ lstart (n_loc v) = 0 /\ lend (n_loc v) = extent e t
    /\ forall k x, find_kid (item_kids t) k = Some x ->
       exists o vk, kid_start e (item_kids t) k = Some o
         /\ nav_name v (KName k) = Ok vk
         /\ lstart (n_loc vk) = o /\ lsize (n_loc vk) = extent e x
         /\ (is_table x = true ->
               (exists sub sch, n_loc vk = LArr o (extent e x) (ext1 e x) (count e (item_oc x)) sub sch)
               /\ (forall i, i < count e (item_oc x) ->
                     exists vi, nav_index dc r vk i = Ok vi
                       /\ lstart (n_loc vi) = o + i * ext1 e x /\ lsize (n_loc vi) = ext1 e x)
               /\ (forall i, count e (item_oc x) <= i -> nav_index dc r vk i = Err IndexError)).
Proof. intros dc stores Hp t e r Hf Hc. apply C06_layout_flat; [exact Hf|exact (stored_by_hold dc stores Hp e t r Hc)]. Qed.
Print Assumptions C06e_layout_flat.

Theorem C06e_layout_flat_occurrence : forall (dc : list N -> nat) (stores : list N -> nat -> Prop), decodes_stored dc stores ->
  forall (t : item) (e : env) (r : list N),
  flat_odo t = true -> counters_stored_by stores e t r ->
  exists v, nav_of dc r (build t) = Ok v
    /\ forall k x, find_kid (item_kids t) k = Some x -> is_table x = true ->
       exists o vk, kid_start e (item_kids t) k = Some o /\ nav_name v (KName k) = Ok vk
         /\ forall i, i < count e (item_oc x) ->
            exists vi, nav_index dc r vk i = Ok vi
              /\ match x with
                 | Elem n sz _ _ => exists vj, nav_name vi (KName n) = Ok vj /\ n_loc vj = LAtom (o + i * sz) sz
                 | Group _ _ _ gks =>
                     forall j y, find_kid gks j = Some y ->
                       exists oj vj, kid_start e gks j = Some oj /\ nav_name vi (KName j) = Ok vj
                         /\ n_loc vj = LAtom (o + i * ext1 e x + oj) (extent e y)
                 end.
Proof.
  intros dc stores Hp t e r Hf Hc. apply C06_layout_flat_occurrence; [exact Hf|exact (stored_by_hold dc stores Hp e t r Hc)].
Qed.
Print Assumptions C06e_layout_flat_occurrence.

Theorem C06e_frame : forall (dc : list N -> nat) (stores : list N -> nat -> Prop), decodes_stored dc stores ->
  forall (t : item) (e : env) (r more : list N),
  flat_odo t = true -> extent e t <= length r -> counters_stored_by stores e t r ->
  nav_of dc (r ++ more) (build t) = nav_of dc r (build t).
Proof.
  intros dc stores Hp t e r more Hf Hl Hc.
  apply (C06_frame N dc t e); [exact Hf|exact Hl|exact (stored_by_hold dc stores Hp e t r Hc)].
Qed.
Print Assumptions C06e_frame.

(* files: C06_stream_N, C06_stream_V, C06_stream_VB, C06_stream_F (any lrecl argument, as in Props/C06.v) *)
Theorem C06e_stream_N : forall (dc : list N -> nat) (stores : list N -> nat -> Prop), decodes_stored dc stores ->
  forall (kind : N) (lrecl : option nat) (t : item)
    (es : list env) (rs : list (list N)),
  flat_odo t = true ->
  Forall2 (fun e r => length r = extent e t /\ counters_stored_by stores e t r) es rs ->
  legal_N (N.to_nat buffer_size) rs = true ->
  exists rows s',
    rows_N dc kind lrecl (build t) (write_N rs) = Ok (rows, Done, s')
    /\ map (@row_buf N) rows = spec_bufs (N.to_nat buffer_size) (write_N rs) (map (@length N) rs)
    /\ heads (map (@length N) rs) (map (@row_buf N) rows) = rs
    /\ Forall2 (fun rw r => nav_of dc r (build t) = Ok (row_nav rw)) rows rs
    /\ Forall2 (fun rw e => lend (n_loc (row_nav rw)) = extent e t) rows es
    /\ buf s' = [] /\ rest s' = [].
Proof.
  intros dc stores Hp kind lrecl t es rs Hf HF HL.
  apply C06_stream_N; [exact Hf|exact (recs_stored_by_ok dc stores Hp t es rs HF)|exact HL].
Qed.
Print Assumptions C06e_stream_N.

Theorem C06e_stream_V : forall (dc : list N -> nat) (stores : list N -> nat -> Prop), decodes_stored dc stores ->
  forall (kind : N) (lrecl : option nat) (t : item)
    (es : list env) (rs : list (list N)),
  flat_odo t = true ->
  Forall2 (fun e r => length r = extent e t /\ counters_stored_by stores e t r) es rs ->
  legal_V rs = true ->
  exists rows,
    rows_V dc kind lrecl (build t) (write_V rs) = Ok (rows, Done)
    /\ map (@row_buf N) rows = rs
    /\ Forall2 (fun rw r => nav_of dc r (build t) = Ok (row_nav rw)) rows rs
    /\ Forall2 (fun rw e => lend (n_loc (row_nav rw)) = extent e t) rows es.
Proof.
  intros dc stores Hp kind lrecl t es rs Hf HF HL.
  apply C06_stream_V; [exact Hf|exact (recs_stored_by_ok dc stores Hp t es rs HF)|exact HL].
Qed.
Print Assumptions C06e_stream_V.

Theorem C06e_stream_VB : forall (dc : list N -> nat) (stores : list N -> nat -> Prop), decodes_stored dc stores ->
  forall (kind : N) (lrecl : option nat) (t : item)
    (ess : list (list env)) (blocks : list (list (list N))),
  flat_odo t = true ->
  Forall2 (Forall2 (fun e r => length r = extent e t /\ counters_stored_by stores e t r)) ess blocks ->
  legal_VB blocks = true ->
  exists rows,
    rows_VB dc kind lrecl (build t) (write_VB blocks) = Ok (rows, Done)
    /\ map (@row_buf N) rows = concat blocks
    /\ Forall2 (fun rw r => nav_of dc r (build t) = Ok (row_nav rw)) rows (concat blocks)
    /\ Forall2 (fun rw e => lend (n_loc (row_nav rw)) = extent e t) rows (concat ess).
Proof.
  intros dc stores Hp kind lrecl t ess blocks Hf HF HL.
  apply C06_stream_VB; [exact Hf|exact (blocks_stored_by_ok dc stores Hp t ess blocks HF)|exact HL].
Qed.
Print Assumptions C06e_stream_VB.

Theorem C06e_stream_F : forall (dc : list N -> nat) (stores : list N -> nat -> Prop), decodes_stored dc stores ->
  forall (kind : N) (lrecl : nat) (t : item)
    (es : list env) (rs ps : list (list N)),
  flat_odo t = true ->
  Forall2 (fun e r => length r = extent e t /\ counters_stored_by stores e t r) es rs ->
  Forall2 (fun r p => exists more, p = r ++ more) rs ps ->
  legal_F lrecl ps = true ->
  exists rows,
    rows_F dc kind (Some lrecl) (build t) (write_F ps) = Ok (rows, Done)
    /\ map (@row_buf N) rows = ps
    /\ Forall2 (fun rw r => nav_of dc r (build t) = Ok (row_nav rw)) rows rs
    /\ Forall2 (fun rw e => lend (n_loc (row_nav rw)) = extent e t) rows es.
Proof.
  intros dc stores Hp kind lrecl t es rs ps Hf HF HP HL.
  apply (C06_stream_F dc kind lrecl t es rs ps); [exact Hf|exact (recs_stored_by_ok dc stores Hp t es rs HF)|exact HP|exact HL].
Qed.
Print Assumptions C06e_stream_F.

(* (3) the counter's value as the code sees it *)
Open Scope Z_scope.

(* flat family, EVERY count vector over Z, the walk as the source has it NOW (fix of finding K-negative-counter:
   if maxItems < 0: raise ValueError, read by harness/t1_layout.py into Gen/LayoutParams.odo_negative_refused): the navigator
   is the closed form Spec/CountersWf.zflat_nav - or, when some table's counter is negative, it is not built at all *)
Theorem C06e_walk_closed_form : forall (zdec : list N -> res Z) (ze : id -> Z) (t : item) (r : list N),
  flat_odo t = true -> zcounters_hold zdec ze t r ->
  znav_of zdec r (build t) = if has_neg ze (item_kids t) then Err ValueError else Ok (zflat_nav ze t).
Proof. intros zdec ze t r Hf Hc. unfold znav_of. rewrite negref_now. exact (znav_flat_with true zdec ze t r Hf Hc). Qed.
Print Assumptions C06e_walk_closed_form.

(* a record in which a table's counter holds a negative value is REFUSED while the locations are built: no item of it is
   ever located - before the table or anywhere else *)
Theorem C06e_negative_counter_refused : forall (zdec : list N -> res Z) (ze : id -> Z) (t : item) (r : list N),
  flat_odo t = true -> zcounters_hold zdec ze t r ->
  (exists x c, in_items x (item_kids t) /\ item_oc x = Odo c /\ ze c < 0) ->
  znav_of zdec r (build t) = Err ValueError.
Proof.
  intros zdec ze t r Hf Hc (x & c & Hin & Hoc & Hneg). unfold znav_of. rewrite negref_now.
  rewrite (znav_flat_with true zdec ze t r Hf Hc), (has_neg_true ze (item_kids t) x c Hin Hoc Hneg). reflexivity.
Qed.
Print Assumptions C06e_negative_counter_refused.

(* the property's sentence for EVERY count vector (Spec/CountersWf.C06e_item_after_table_statement): either the navigator
   is refused, or the item after a table starts where the last occupied element ends *)
Theorem C06e_item_after_table_proved : C06e_item_after_table_statement.
Proof. unfold C06e_item_after_table_statement. rewrite negref_now. exact item_after_table_refusing. Qed.
Print Assumptions C06e_item_after_table_proved.

(* no counter negative: the navigator exists and every item after a table follows the last occupied element *)
Theorem C06e_item_after_table_nonneg : forall (zdec : list N -> res Z) (ze : id -> Z) (t : item) (r : list N),
  flat_odo t = true -> zcounters_hold zdec ze t r ->
  (forall c, In c (counters_of (item_kids t)) -> 0 <= ze c) ->
  exists v, znav_of zdec r (build t) = Ok v
    /\ forall x y c, consecutive (item_kids t) x y -> item_oc x = Odo c ->
         exists vx vy, znav_name v (KName (item_id x)) = Ok vx /\ znav_name v (KName (item_id y)) = Ok vy
           /\ 0 <= zstart (zn_loc vx)
           /\ zstart (zn_loc vy) = zstart (zn_loc vx) + occupied (ze c) * item_bytes x.
Proof. exact (item_after_table_nonneg_with SR.Gen.LayoutParams.odo_negative_refused). Qed.
Print Assumptions C06e_item_after_table_nonneg.

(* the witness of the former finding, now: 01 R. 05 N PIC S9. 05 T PIC X(2) OCCURS 0 TO 5 DEPENDING ON N. 05 Z PIC X(3).
   with N = F0 D2 (-2) is refused *)
Theorem C06e_negative_witness_refused : znav_of zcount_zoned neg_rec (build neg_tree) = Err ValueError.
Proof.
  destruct neg_witness_holds as [Hf Hc]. rewrite (C06e_walk_closed_form zcount_zoned neg_ze neg_tree neg_rec Hf Hc). reflexivity.
Qed.
Print Assumptions C06e_negative_witness_refused.

(* what the fix repaired: the walk WITHOUT the sign test (Model/Counters.zwalk_with false ...), finding K-negative-counter *)

(* the closed form for every count vector, negative ones included *)
Theorem C06e_walk_closed_form_old : forall (zdec : list N -> res Z) (ze : id -> Z) (t : item) (r : list N),
  flat_odo t = true -> zcounters_hold zdec ze t r ->
  znav_of_with false zdec r (build t) = Ok (zflat_nav ze t).
Proof. exact (znav_flat_with false). Qed.
Print Assumptions C06e_walk_closed_form_old.

(* a table x DEPENDING ON c and the item y declared after it, whatever c holds:
     item_count = the value of c;   size = item_size * count, end = start + size - unless that end is 0: then size 0, end = start;
     y starts at start + size;      an index at or beyond the count is refused *)
Theorem C06e_after_table_old : forall (zdec : list N -> res Z) (ze : id -> Z) (t : item) (r : list N),
  flat_odo t = true -> zcounters_hold zdec ze t r ->
  exists v, znav_of_with false zdec r (build t) = Ok v
    /\ forall x y c, consecutive (item_kids t) x y -> item_oc x = Odo c ->
         exists vx vy st en sz isz sub sch,
           znav_name v (KName (item_id x)) = Ok vx /\ znav_name v (KName (item_id y)) = Ok vy
           /\ zn_loc vx = ZArr st en sz isz (ze c) sub sch
           /\ sz = (if st + isz * ze c =? 0 then 0 else isz * ze c)
           /\ en = (if st + isz * ze c =? 0 then st else st + isz * ze c)
           /\ zstart (zn_loc vy) = st + sz
           /\ (0 <= st -> isz = item_bytes x)
           /\ (forall i, ze c <= i -> znav_index_with false zdec r vx i = Err IndexError).
Proof. intros zdec ze t r Hf Hc. exact (after_table_with false zdec ze t r Hf Hc eq_refl). Qed.
Print Assumptions C06e_after_table_old.

(* a NEGATIVE counter was accepted: the table got a negative length; the item after it started at
   table_start + c * item_size, BEFORE the table (at the table's start in the one case where that sum is 0, which
   Location.__init__ takes for "no end given"); every index into the table was refused *)
Theorem C06e_negative_counter_layout_old : forall (zdec : list N -> res Z) (ze : id -> Z) (t : item) (r : list N),
  flat_odo t = true -> zcounters_hold zdec ze t r ->
  exists v, znav_of_with false zdec r (build t) = Ok v
    /\ forall x y c, consecutive (item_kids t) x y -> item_oc x = Odo c -> ze c < 0 ->
         exists vx vy st en sz isz sub sch,
           znav_name v (KName (item_id x)) = Ok vx /\ znav_name v (KName (item_id y)) = Ok vy
           /\ zn_loc vx = ZArr st en sz isz (ze c) sub sch
           /\ (0 <= st -> isz = item_bytes x)
           /\ (st + isz * ze c <> 0 ->
                 sz = isz * ze c /\ en = st + isz * ze c /\ zstart (zn_loc vy) = st + ze c * isz
                 /\ (0 < isz -> zstart (zn_loc vy) < st))
           /\ (st + isz * ze c = 0 -> sz = 0 /\ en = st /\ zstart (zn_loc vy) = st)
           /\ (forall i, znav_index_with false zdec r vx i = Err IndexError).
Proof.
  intros zdec ze t r Hf Hc. destruct (after_table_with false zdec ze t r Hf Hc eq_refl) as (v & Hv & H). exists v. split; [exact Hv|].
  intros x y c Hxy Hoc Hneg.
  destruct (H x y c Hxy Hoc) as (vx & vy & st & en & sz & isz & sub & sch & N1 & N2 & L & Hsz & Hen & Hy & Hisz & Hidx).
  exists vx, vy, st, en, sz, isz, sub, sch. repeat (split; [assumption|]).
  split; [|split].
  - intros Hne. destruct (st + isz * ze c =? 0) eqn:E; [apply Z.eqb_eq in E; contradiction|].
    subst sz en. repeat split; try lia; intros; nia.
  - intros He. rewrite He in Hsz, Hen. cbn in Hsz, Hen. subst sz en. repeat split; lia.
  - intros i. rewrite znav_index_unf, L.
    destruct (i <? 0) eqn:E1; [reflexivity|]. apply Z.ltb_ge in E1.
    destruct (ze c <=? i) eqn:E2; [reflexivity|apply Z.leb_gt in E2; lia].
Qed.
Print Assumptions C06e_negative_counter_layout_old.

(* so the property's sentence - even with "or the record is refused" - did not hold of that walk *)
Theorem C06e_item_after_table_old_refuted : ~ C06e_item_after_table_statement_old.
Proof.
  intros H. destruct neg_witness_holds as [Hf Hc].
  destruct (H zcount_zoned neg_ze neg_tree neg_rec Hf Hc) as [Hv|(v & Hv & Hall)]; rewrite neg_witness_old in Hv; [discriminate|].
  injection Hv as <-.
  destruct (Hall neg_table neg_next 2%N) as (vx & vy & Nx & Ny & Hst).
  - right. left. split; reflexivity.
  - reflexivity.
  - vm_compute in Nx. vm_compute in Ny. injection Nx as <-. injection Ny as <-. vm_compute in Hst. discriminate.
Qed.
Print Assumptions C06e_item_after_table_old_refuted.

(* the witness, in numbers, under the old walk: the record "ends" at 1, T is 2 .. -2 (size -4), Z is -2 .. 1 and reads no
   byte, T(0) is refused *)
Theorem C06e_negative_witness_old :
  exists v vt vz, znav_of_with false zcount_zoned neg_rec (build neg_tree) = Ok v
    /\ (zstart (zn_loc v), zend (zn_loc v), zsize (zn_loc v)) = (0, 1, 1)
    /\ znav_name v (KName 3%N) = Ok vt /\ (zstart (zn_loc vt), zend (zn_loc vt), zsize (zn_loc vt)) = (2, -2, -4)
    /\ znav_name v (KName 4%N) = Ok vz /\ (zstart (zn_loc vz), zend (zn_loc vz), zsize (zn_loc vz)) = (-2, 1, 3)
    /\ znav_raw neg_rec vz = [] /\ znav_index_with false zcount_zoned neg_rec vt 0 = Err IndexError.
Proof. eexists _, _, _. split; [exact neg_witness_old|]. repeat split; reflexivity. Qed.
Print Assumptions C06e_negative_witness_old.

(* (4) a count above the declared maximum *)
Open Scope nat_scope.

(* OCCURS m TO n DEPENDING ON c with c > n: "the number of elements read is the value of the controlling item" - and it
   is: the conclusion of C06_layout with e(c) elements, for ANY declared maxima (they reach neither Spec/Layout.v nor the
   schema: cobol_parser emits maxItemsDependsOn only, JOdo has no bound) *)
Theorem C06e_count_above_maximum : forall (declared_max : id -> nat) (dc : list N -> nat) (stores : list N -> nat -> Prop)
    (r : list N) (e : env) (t : item),
  decodes_stored dc stores ->
  wfo e [] t = true -> NoDup (ids t) -> Stored stores (odo_counters t) r e t 0 ->
  above_maximum declared_max e t ->
  exists v0, nav_of dc r (build t) = Ok v0
    /\ lstart (n_loc v0) = 0 /\ lend (n_loc v0) = extent e t
    /\ forall p v st, spec_nav e (VItem t) 0 p = inl (v, st) ->
         exists nv, nav_path dc r v0 p = Ok nv
           /\ lstart (n_loc nv) = st /\ lend (n_loc nv) = st + view_size e v
           /\ nav_raw r nv = slice r st (st + view_size e v)
           /\ (forall x, v = VItem x -> is_table x = true ->
                 forall i, count e (item_oc x) <= i -> nav_index dc r nv i = Err IndexError).
Proof. intros declared_max dc stores r e t Hp Hw Hnd Hs _. exact (C06e_layout_stored dc stores r e t Hp Hw Hnd Hs). Qed.
Print Assumptions C06e_count_above_maximum.

(* non-vacuity *)

(* 00 3C stores 3 (COMP-3); 00 2D stores -2; 2C stores 2 in one byte; 00 07 stores 7 (COMP, 4 digits); FF FF stores -1;
   F0 D2 stores -2 (zoned, zone D); F0 C7 stores 7 *)
Example C06e_stores_examples :
  stores_packed_count [0; 60]%N 3 /\ stores_packed_z [0; 45]%N (-2) /\ stores_packed_count [44]%N 2
  /\ stores_binary_count 4 [0; 7]%N 7 /\ stores_binary_z 4 [255; 255]%N (-1)
  /\ stores_zoned_z [240; 210]%N (-2) /\ stores_zoned_count [240; 199]%N 7
  /\ zcount_packed [0; 45]%N = Ok (-2)%Z /\ zcount_binary 4 [255; 255]%N = Ok (-1)%Z /\ dcount_packed [0; 60]%N = 3.
Proof.
  repeat split.
  - exists [0; 0; 3]%N, 12%N. repeat split; try reflexivity. cbn; lia.
  - exists [0; 0; 2]%N, 13%N. repeat split; try reflexivity. cbn; lia.
  - exists [2]%N, 12%N. repeat split; try reflexivity. cbn; lia.
  - exists 2. repeat split; try reflexivity; cbn; discriminate.
  - exists 2. repeat split; try reflexivity; cbn; discriminate.
  - exists [0; 2]%N, 13%N. repeat split; try reflexivity; [discriminate|cbn; lia].
  - exists [0; 7]%N, 12%N. repeat split; try reflexivity; [discriminate|cbn; lia].
Qed.

(* general family, COMP-3: the tree of C06_layout_example (Props/C06.v) with N PIC 9 COMP-3 = 2C; A and Z hold text *)
Definition odo_rec_packed : list N := ([44] ++ [193; 194] ++ [193; 194; 195; 196; 197; 198] ++ [231; 232] ++ [215; 216])%N.

Example C06e_layout_packed_example :
  wfo odo_env [] odo_tree = true /\ NoDup (ids odo_tree)
  /\ Stored stores_packed_count (odo_counters odo_tree) odo_rec_packed odo_env odo_tree 0
  /\ length odo_rec_packed = extent odo_env odo_tree.
Proof.
  split; [reflexivity|]. split; [cbn; repeat constructor; cbn; intuition discriminate|]. split; [|reflexivity].
  cbn -[stores_packed_count odo_rec_packed].
  repeat match goal with
         | |- _ /\ _ => split
         | |- exists _, _ => eexists; split; [reflexivity|]
         | |- True => exact I
         end; intros Hin.
  - exists [2]%N, 12%N. repeat split; try reflexivity. cbn; lia.
  - exfalso. destruct Hin as [E|[E|[]]]; discriminate.
  - exfalso. destruct Hin as [E|[E|[]]]; discriminate.
Qed.

(* COMP: 01 R. 05 N PIC 9(4) COMP. 05 T PIC X(3) OCCURS 0 TO 9 DEPENDING ON N. 05 Z PIC X(2).  with N = 00 02 *)
Definition bin_tree : item :=
  Group 1%N Once None (ICons (Elem 2%N 2 Once None) (ICons (Elem 3%N 3 (Odo 2%N) None) (ICons (Elem 4%N 2 Once None) INil))).
Definition bin_env : env := fun c => if N.eqb c 2 then 2 else 0.
Definition bin_rec : list N := ([0; 2] ++ [193; 194; 195; 196; 197; 198] ++ [231; 232])%N.

Example C06e_layout_binary_example :
  wfo bin_env [] bin_tree = true /\ NoDup (ids bin_tree) /\ flat_odo bin_tree = true
  /\ Stored (stores_binary_count 4) (odo_counters bin_tree) bin_rec bin_env bin_tree 0
  /\ counters_stored_by (stores_binary_count 4) bin_env bin_tree bin_rec
  /\ length bin_rec = extent bin_env bin_tree.
Proof.
  assert (S2 : stores_binary_count 4 [0; 2]%N 2) by (exists 2; repeat split; try reflexivity; cbn; discriminate).
  split; [reflexivity|]. split; [cbn; repeat constructor; cbn; intuition discriminate|]. split; [reflexivity|].
  split; [|split; [|reflexivity]].
  - cbn -[stores_binary_count bin_rec].
    repeat match goal with
           | |- _ /\ _ => split
           | |- exists _, _ => eexists; split; [reflexivity|]
           | |- True => exact I
           end; intros Hin.
    + exact S2.
    + exfalso. destruct Hin as [E|[]]; discriminate.
  - cbn [counters_stored_by bin_tree]. intros c sz o Hin Hf Hk. cbn in Hin. destruct Hin as [<-|[]].
    vm_compute in Hf. inversion Hf; subst. vm_compute in Hk. inversion Hk; subst. exact S2.
Qed.

(* above the maximum: OCCURS 0 TO 1 declared for T, the counter holds 2: two elements are read, Z follows the second *)
Example C06e_count_above_maximum_example :
  above_maximum (fun _ => 1) bin_env bin_tree
  /\ spec_nav bin_env (VItem bin_tree) 0 [PName 3%N; PIndex 1] = inl (VOcc (Elem 3%N 3 (Odo 2%N) None), 5)
  /\ spec_nav bin_env (VItem bin_tree) 0 [PName 4%N] = inl (VItem (Elem 4%N 2 Once None), 8).
Proof.
  split; [|split; reflexivity]. exists 3%N, 2%N. split; [left; reflexivity|]. cbn. auto.
Qed.

(* negative: the witness satisfies the hypotheses of C06e_negative_counter_refused / C06e_negative_counter_layout_old *)
Example C06e_negative_example :
  flat_odo neg_tree = true /\ zcounters_hold zcount_zoned neg_ze neg_tree neg_rec
  /\ consecutive (item_kids neg_tree) neg_table neg_next /\ item_oc neg_table = Odo 2%N /\ (neg_ze 2%N < 0)%Z
  /\ (exists x c, in_items x (item_kids neg_tree) /\ item_oc x = Odo c /\ (neg_ze c < 0)%Z).
Proof.
  destruct neg_witness_holds as [H1 H2]. split; [exact H1|]. split; [exact H2|].
  split; [right; left; split; reflexivity|]. split; [reflexivity|]. split; [reflexivity|].
  exists neg_table, 2%N. split; [right; left; reflexivity|]. split; reflexivity.
Qed.
