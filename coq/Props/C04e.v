(* C04e - companion of C04: THE WIDTH AND THE DECODER OF AN ITEM COME FROM ITS OWN USAGE AND PICTURE CLAUSES, WHATEVER ITS NAME.
   The property theorems; their lemmas are in Proofs/SecondParseP.v.  No engine of its own: the model is
   Model/Pipeline.v est_scan_b / calcsize_text (compared with schema_iter, SchemaMaker.from_json and EBCDIC().nav on raw copybook
   text by ./check C07, streams special / printed_* / text_nav), the names are exercised by ./check C04 (stream name_words and
   the data-name pool of every configuration), C01, C06, C08, C10 (harness/layout_common.py spell) and C07 / C12 (STEMS).

   The decoder does not get the clauses the parser recognised: estruct.calcsize / estruct.unpack parse the entry's TEXT a second
   time (the cobol keyword of the schema: level number, data name, every clause) with their own regular expression,
   estruct.clause_pattern.  Before the fix recorded as "fixed: property=C04 ... estruct's second parse found usage words and
   PIC inside data names" that pattern had no word boundary: 05 EMP-COMPANY PIC X(10) was sized 8 (usage COMP found inside
   the name), 05 WS-COMP-DATE PIC 9(8) 4, 05 TOT-BINARY-CT PIC 9(3) 2, and every later field of the record moved (finding
   K-name-contains-usage of DESIGN.md section 5, C01 / C04 / C08 / C12).  The pattern asserts that a match is not
   preceded by a name character [A-Za-z0-9-] and that a usage word is not followed by one.  harness/t1_c07b.py reads both
   assertions (or their absence) from the source into Gen/PipelineParams.v; Model/Pipeline.v INTERPRETS them (est_before_ok,
   est_after_ok, the ordered alternation going on to the next usage word when the lookahead fails).  Here:

     C04e_pattern_boundaries          the closed form of the two assertions for the parameter values read from the source: an
                                      edit of the lookbehind / lookahead (or their removal) changes the generated file and this
                                      file stops compiling
     C04e_match_starts_with_keyword   a match of the pattern begins with one of the seventeen words it looks for (13 usage words,
                                      PIC, PICTURE, USAGE, IS) and that word ENDS there - for every text and position
     C04e_scan_ignores_name           for every printed entry that begins with a data name and every other legal data name, the
                                      scan of the entry's text finds exactly what it finds under the other name
     C04e_domain_is_about_clauses     hence respelling_domain (Spec/Copybook.v: the decoder's second parse ends up with the
                                      entry's own USAGE and PICTURE) does not depend on the data name at all: it holds exactly
                                      when it holds for the same clauses under the neutral name FLD (clauses_in_domain).
                                      reparse_agrees / respelling_domain / bridge_domain exclude no NAME for the keywords
                                      it bears; what they exclude are clause spellings: a reserved word in lower
                                      case, a usage word or PIC inside a VALUE literal (K-C12-value-literal-reparsed)
     C04e_name_with_usage_word        for every printed entry whose data name holds a usage word, PIC or PICTURE anywhere and
                                      whose clauses are in the domain, the size and the decoder computed from the TEXT are those
                                      of its own USAGE / PICTURE clauses (own_size, own_kind: the size function and the shape
                                      classification applied to the usage number and the picture string of the entry's clause
                                      dictionary, nothing else of the text)
     C04e_plain_entry_in_domain       membership in the domain PROVED (not computed) for the entries the codec properties speak
                                      about: a data name - any legal one - followed by a PICTURE clause and possibly a USAGE
                                      clause, in either order, reserved words in upper case, blanks between the words
     C04e_text_gives_own_clauses      the same for EVERY entry of the respelling domain (respelling INVARIANCE only connects
                                      two texts: a uniformly wrong size would be invisible to it)
     C04e_text_size_numeric / _kind_numeric / _size_alnum
                                      composed with the picture scanner (C13_printed_numeric / _text) and C04's size
                                      specification (C04c_size): for a picture S?9(m)V9(n) in any notation the size computed from
                                      the text IS Spec/Fits.v spec_size of the entry's own usage and digits (outside
                                      K-signed-binary-size) and the decoder kind is that of (usage, sign, m, n); an X(k) / A(k)
                                      DISPLAY item is k bytes wide.  The statement for every picture string the specification
                                      reads as numeric is kept as the Definition C04e_text_size_full (not proved: the picture
                                      lemmas of Proofs/PictureP.v do not relate the sign group to the specification's summary)
     C04e_name_with_usage_word_old_refuted / C04e_old_pattern_sizes
                                      with the parameter values of the pattern before the fix (est_bounds_old) the statement
                                      of C04e_name_with_usage_word is FALSE: 05 EMP-COMPANY PIC X(10) is sized 8, the other
                                      three examples 4, 2 and ValueError (10, 8, 3, 4 with the pattern as it is)

   Not covered: a data name that IS a reserved word, or that begins with a word the FIRST parse (cobol_parser.CLAUSES) accepts
   without a boundary (COMPANY, BINARYX: finding C07-K3, Spec/Clauses.v name_ok) - such entries are not printable (ce_ok) and
   the first parse cuts the name before the decoder sees it.  COMP-AMOUNT is refused by name_ok although the first parse reads
   it correctly (its usage alternative has a lookahead for the hyphen); the correspondence runs use such names, the theorems
   do not. *)
From Coq Require Import NArith List Bool Lia.
Import ListNotations.
Require Import SR.Base.Res SR.Spec.Clauses SR.Model.Pipeline SR.Spec.Copybook SR.Proofs.PipelineP.
Require Import SR.Model.TextLayout SR.Proofs.TextLayoutP SR.Proofs.SecondParseP.
Require SR.Spec.SchemaTruth SR.Spec.Fits SR.Spec.SizeCfg SR.Spec.SizeSplit SR.Spec.PictureWf SR.Spec.Picture SR.Spec.Record.
Require SR.Proofs.EstructP SR.Proofs.EstructWidthP.
Open Scope N_scope.

(* ---- the assertions of the pattern, as read from the source ---- *)
Theorem C04e_pattern_boundaries :
  est_bounds_now = {| eb_before := true; eb_before_class := [(65, 90); (97, 122); (48, 57); (45, 45)];
                      eb_after := true; eb_after_class := [(65, 90); (97, 122); (48, 57); (45, 45)] |}
  /\ (forall c, est_before_ok est_bounds_now (Some c) = negb (name_char c))
  /\ (forall c r, est_after_ok est_bounds_now (c :: r) = negb (name_char c)).
Proof. exact (conj bounds_now_eq (conj before_ok_now after_ok_now)). Qed.
Print Assumptions C04e_pattern_boundaries.

(* ---- a match begins with a trigger word, and the word ends there ---- *)
Theorem C04e_match_starts_with_keyword : forall prev s it r, est_token_at prev s = Some (it, r) ->
  exists w rest, In w est_trigger_words /\ s = w ++ rest /\ ends_word rest = true.
Proof. exact token_starts_with_trigger. Qed.
Print Assumptions C04e_match_starts_with_keyword.

(* ---- the data name plays no part in the second parse ---- *)
Theorem C04e_scan_ignores_name : forall e n cs n', ce_cs e = CName n :: cs -> ce_ok e = true -> name_ok n' = true ->
  est_items (ctext (spec_entry (with_name e n'))) = est_items (ctext (spec_entry e)).
Proof. exact items_name_irrelevant. Qed.
Print Assumptions C04e_scan_ignores_name.

Theorem C04e_domain_is_about_clauses : forall e n cs, ce_cs e = CName n :: cs -> ce_ok e = true ->
  respelling_domain e = clauses_in_domain e.
Proof. intros e n cs E OK. unfold clauses_in_domain. symmetry. apply (domain_name_irrelevant e n cs neutral_name E OK eq_refl). Qed.
Print Assumptions C04e_domain_is_about_clauses.

(* ---- the size and the decoder taken from the TEXT are those of the entry's own clauses ---- *)
Theorem C04e_name_with_usage_word : forall e n cs, ce_cs e = CName n :: cs -> ce_ok e = true ->
  name_bears_keyword n = true -> clauses_in_domain e = true ->
  respelling_domain e = true
  /\ calcsize_text (ctext (spec_entry e)) = own_size e
  /\ kind_of_cobol (ctext (spec_entry e)) = own_kind e.
Proof.
  intros e n cs E OK _ CD. rewrite <- (C04e_domain_is_about_clauses e n cs E OK) in CD. split; [exact CD|].
  unfold respelling_domain in CD. apply andb_true_iff in CD. apply reparse_gives_own_clauses, CD.
Qed.
Print Assumptions C04e_name_with_usage_word.

Theorem C04e_text_gives_own_clauses : forall e, respelling_domain e = true ->
  calcsize_text (ctext (spec_entry e)) = own_size e /\ kind_of_cobol (ctext (spec_entry e)) = own_kind e.
Proof. intros e RD. unfold respelling_domain in RD. apply andb_true_iff in RD. apply reparse_gives_own_clauses, RD. Qed.
Print Assumptions C04e_text_gives_own_clauses.

(* ---- a syntactic part of the domain: a data name, a PICTURE clause and possibly a USAGE clause, in either order, reserved words in
        upper case, blank separators (a comma or semicolon may follow the name) - EVERY legal data name, EVERY picture string of
        the printer's domain, EVERY usage spelling, PIC / PICTURE, with or without IS, USAGE / USAGE IS / nothing ---- *)
Theorem C04e_plain_entry_in_domain : forall e n cs, ce_cs e = CName n :: cs -> ce_ok e = true ->
  pic_usage_clauses cs = true -> plain_items cs (tl (ce_sps e)) = true -> respelling_domain e = true.
Proof.
  intros e n cs E OK SH. apply (plain_clauses_in_domain e n cs E OK).
  destruct cs as [|c1 cs]; [discriminate|]. destruct c1; try discriminate; destruct cs as [|c2 cs]; try reflexivity;
    destruct c2; try discriminate; destruct cs; try discriminate; reflexivity.
Qed.
Print Assumptions C04e_plain_entry_in_domain.

(* ---- down to the size specification of C04, for the pictures C04 / C08 speak about ---- *)
Theorem C04e_text_size_numeric : forall e s m n ri rf, respelling_domain e = true ->
  i_pic (spec_info e) = Some (SR.Spec.SchemaTruth.pic_text (SR.Spec.SchemaTruth.PNum s m n ri rf)) -> (1 <= m + n)%nat ->
  In (usage_number (spec_info e), s, m, n) SR.Spec.SizeCfg.cfgs ->
  SR.Spec.SizeSplit.known_bad_calcsize (usage_number (spec_info e), s, m, n) = None ->
  exists sz, SR.Spec.Fits.spec_size (usage_number (spec_info e)) s m n = Some sz /\ calcsize_text (ctext (spec_entry e)) = ROk sz.
Proof.
  intros e s m n ri rf RD IP H I KB. destruct (C04e_text_gives_own_clauses e RD) as [SZ _].
  destruct (SR.Proofs.EstructWidthP.C04c_size_lemma _ I KB) as (sz & SS & CS). exists sz. split; [exact SS|].
  rewrite SZ. unfold own_size. rewrite IP, (proj1 (numeric_picture_items _ s m n ri rf H)), CS. reflexivity.
Qed.
Print Assumptions C04e_text_size_numeric.

Theorem C04e_text_kind_numeric : forall e s m n ri rf, respelling_domain e = true ->
  i_pic (spec_info e) = Some (SR.Spec.SchemaTruth.pic_text (SR.Spec.SchemaTruth.PNum s m n ri rf)) -> (1 <= m + n)%nat ->
  kind_of_cobol (ctext (spec_entry e)) = kind_of_shape (ShNum (usage_number (spec_info e)) s m n).
Proof.
  intros e s m n ri rf RD IP H. destruct (C04e_text_gives_own_clauses e RD) as [_ K].
  destruct (proj2 (numeric_picture_items (usage_number (spec_info e)) s m n ri rf H)) as (es & EL & SB).
  rewrite K. unfold own_kind. rewrite IP, EL, SB. reflexivity.
Qed.
Print Assumptions C04e_text_kind_numeric.

Theorem C04e_text_size_alnum : forall e alpha k rep, respelling_domain e = true ->
  i_pic (spec_info e) = Some (SR.Spec.SchemaTruth.pic_text (SR.Spec.SchemaTruth.PText alpha k rep)) -> (1 <= k)%nat ->
  usage_number (spec_info e) = usage_DISPLAY ->
  calcsize_text (ctext (spec_entry e)) = ROk (N.of_nat k).
Proof.
  intros e alpha k rep RD IP H U. destruct (C04e_text_gives_own_clauses e RD) as [SZ _].
  rewrite SZ. unfold own_size. rewrite IP, U. apply alnum_picture_items. exact H.
Qed.
Print Assumptions C04e_text_size_alnum.

(* the statement for every picture string the specification reads as a numeric picture (any notation, any mix of written-out and
   repeated symbols) - NOT PROVED, kept visible; C04e_text_size_numeric is the part that is *)
Definition C04e_text_size_full : Prop :=
  forall e p v, respelling_domain e = true -> ce_ok e = true ->
  i_pic (spec_info e) = Some p -> SR.Spec.PictureWf.kb_dec p = false ->
  SR.Spec.Picture.sp_parse p = Some v -> SR.Spec.Picture.numeric v = true ->
  In (usage_number (spec_info e), SR.Spec.Picture.signed v, SR.Spec.Picture.int_digits v, SR.Spec.Picture.frac_digits v) SR.Spec.SizeCfg.cfgs ->
  SR.Spec.SizeSplit.known_bad_calcsize
    (usage_number (spec_info e), SR.Spec.Picture.signed v, SR.Spec.Picture.int_digits v, SR.Spec.Picture.frac_digits v) = None ->
  exists sz, SR.Spec.Fits.spec_size (usage_number (spec_info e)) (SR.Spec.Picture.signed v) (SR.Spec.Picture.int_digits v)
                                   (SR.Spec.Picture.frac_digits v) = Some sz
             /\ calcsize_text (ctext (spec_entry e)) = ROk sz.

(* ---- the pattern before the repair ---- *)
Theorem C04e_old_pattern_sizes :
  map (calcsize_text_b est_bounds_old) [t_EMP_COMPANY; t_WS_COMP_DATE; t_TOT_BINARY_CT; t_ELEMENTARY_PIC]
  = [ROk 8; ROk 4; ROk 2; RErr ValueError]
  /\ map calcsize_text [t_EMP_COMPANY; t_WS_COMP_DATE; t_TOT_BINARY_CT; t_ELEMENTARY_PIC] = [ROk 10; ROk 8; ROk 3; ROk 4].
Proof. split; vm_compute; reflexivity. Qed.
Print Assumptions C04e_old_pattern_sizes.

(* the size part of C04e_name_with_usage_word as a statement about the pattern with the assertions b *)
Definition C04e_name_with_usage_word_for (b : est_bounds) : Prop :=
  forall e n cs, ce_cs e = CName n :: cs -> ce_ok e = true -> name_bears_keyword n = true -> clauses_in_domain e = true ->
  calcsize_text_b b (ctext (spec_entry e)) = own_size e.

Theorem C04e_name_with_usage_word_now : C04e_name_with_usage_word_for est_bounds_now.
Proof. intros e n cs E OK B CD. apply (C04e_name_with_usage_word e n cs E OK B CD). Qed.
Print Assumptions C04e_name_with_usage_word_now.

(* ------------------------------------------------------------------ non-vacuity *)
(* 05 EMP-COMPANY PIC X(10): every hypothesis of C04e_name_with_usage_word holds; the text, its size, its decoder *)
Example C04e_example_emp_company :
  ce_cs e_emp_company = [CName n_EMP_COMPANY; CPicture p_X_10] /\ ce_ok e_emp_company = true
  /\ name_bears_keyword n_EMP_COMPANY = true /\ clauses_in_domain e_emp_company = true
  /\ ctext (spec_entry e_emp_company) = t_EMP_COMPANY
  /\ calcsize_text (ctext (spec_entry e_emp_company)) = ROk 10 /\ own_size e_emp_company = ROk 10
  /\ kind_of_cobol (ctext (spec_entry e_emp_company)) = Some (SR.Spec.Record.KText 10).
Proof. vm_compute. repeat split; reflexivity. Qed.

(* ... and on this entry the pattern before the repair gives another size *)
Theorem C04e_name_with_usage_word_old_refuted : ~ C04e_name_with_usage_word_for est_bounds_old.
Proof.
  intros H. destruct C04e_example_emp_company as (E & OK & B & CD & T & _ & S & _).
  specialize (H e_emp_company n_EMP_COMPANY [CPicture p_X_10] E OK B CD). rewrite T, S in H.
  pose proof (f_equal (hd (RUn 0)) (proj1 C04e_old_pattern_sizes)) as O. cbn [map hd] in O. rewrite O in H. discriminate H.
Qed.
Print Assumptions C04e_name_with_usage_word_old_refuted.

(* 10  WS-COMP-DATE  PICTURE IS S9(5)V99 USAGE IS COMP-3  and  10 TOT-BINARY-CT BINARY PIC 9(3): names with a usage word in the
   middle, a USAGE clause of their own, the hypotheses of C04e_text_size_numeric *)
Definition n_WS_COMP_DATE : list N := [87; 83; 45; 67; 79; 77; 80; 45; 68; 65; 84; 69].
Definition n_TOT_BINARY_CT : list N := [84; 79; 84; 45; 66; 73; 78; 65; 82; 89; 45; 67; 84].
Definition p_S9_5_V99 : list N := [83; 57; 40; 53; 41; 86; 57; 57].
Definition p_9_3 : list N := [57; 40; 51; 41].
Definition e_ws_comp_date : centry :=
  {| ce_d1 := 49; ce_d2 := 48; ce_cs := [CName n_WS_COMP_DATE; CPicture p_S9_5_V99; CUsage 2];
     ce_sps := [({| ch := []; masks := []; seps := [] |}, [32; 32]); ({| ch := [1; 1]; masks := []; seps := [] |}, [32]);
                ({| ch := [2; 0]; masks := []; seps := [] |}, [])];
     ce_lead := [32; 32; 32; 32]; ce_gap := [32]; ce_term := 10 |}.
Definition e_tot_binary_ct : centry :=
  {| ce_d1 := 49; ce_d2 := 48; ce_cs := [CName n_TOT_BINARY_CT; CUsage 1; CPicture p_9_3];
     ce_sps := [({| ch := []; masks := []; seps := [] |}, [32]); ({| ch := [0; 2]; masks := []; seps := [] |}, [32]);
                ({| ch := [0; 0]; masks := []; seps := [] |}, [])];
     ce_lead := [32; 32; 32; 32]; ce_gap := [32]; ce_term := 10 |}.

Example C04e_example_numeric :
  ce_ok e_ws_comp_date = true /\ name_bears_keyword n_WS_COMP_DATE = true /\ respelling_domain e_ws_comp_date = true
  /\ i_pic (spec_info e_ws_comp_date) = Some (SR.Spec.SchemaTruth.pic_text (SR.Spec.SchemaTruth.PNum true 5 2 true false))
  /\ usage_number (spec_info e_ws_comp_date) = 8
  /\ In (8, true, 5%nat, 2%nat) SR.Spec.SizeCfg.cfgs /\ SR.Spec.SizeSplit.known_bad_calcsize (8, true, 5%nat, 2%nat) = None
  /\ calcsize_text (ctext (spec_entry e_ws_comp_date)) = ROk 4
  /\ kind_of_cobol (ctext (spec_entry e_ws_comp_date)) = Some (SR.Spec.Record.KPacked 8 true 5 2)
  /\ ce_ok e_tot_binary_ct = true /\ name_bears_keyword n_TOT_BINARY_CT = true /\ respelling_domain e_tot_binary_ct = true
  /\ calcsize_text (ctext (spec_entry e_tot_binary_ct)) = ROk 2
  /\ calcsize_text_b est_bounds_old (ctext (spec_entry e_tot_binary_ct)) = ROk 2
  /\ pic_usage_clauses (tl (ce_cs e_ws_comp_date)) = true /\ plain_items (tl (ce_cs e_ws_comp_date)) (tl (ce_sps e_ws_comp_date)) = true
  /\ pic_usage_clauses (tl (ce_cs e_tot_binary_ct)) = true /\ plain_items (tl (ce_cs e_tot_binary_ct)) (tl (ce_sps e_tot_binary_ct)) = true.
Proof.
  assert (I : In (8, true, 5%nat, 2%nat) SR.Spec.SizeCfg.cfgs) by (apply SR.Proofs.EstructP.cfgs_complete; [reflexivity|lia]).
  split; [vm_compute; reflexivity|]. split; [vm_compute; reflexivity|]. split; [vm_compute; reflexivity|].
  split; [vm_compute; reflexivity|]. split; [vm_compute; reflexivity|]. split; [exact I|].
  vm_compute. repeat split; reflexivity.
Qed.
