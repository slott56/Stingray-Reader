(* C08c - companion of C08, first clause: "every schema produced from a copybook is a valid JSON Schema
   (2020-12 meta-schema)".  Props/C08.v proves a STRUCTURAL predicate on the model tree (C08_valid_shape); here the
   framework's model of the meta-schema, Spec/SchemaTruth.v [valid_schema] (tied to the real
   Draft202012Validator.check_schema on every run by C08's meta and meta-mutated streams), is applied to the
   DOCUMENT the generator emits.

   [build t]   Model/Layout.v: the structure build_json_schema makes of the record description t.
   [doc name_of title_of cobol_of kw_of s]   Model/SchemaDoc.v: the JSON document of s, every keyword the source
               emits in the order it emits them - title, $anchor, cobol, type, contentEncoding, conversion,
               maxLength, minLength, items, maxItems, maxItemsDependsOn {$ref}, properties (ordered), oneOf, $ref.
               The tree carries identifiers; the texts come from four tables: [name_of i] the unique name of entry i
               ($anchor, property name, target of references; a union is anchored REDEFINES-<name>), [title_of i] the
               data name as written, [cobol_of i] the text of the cobol keyword, [kw_of i] the (type,
               contentEncoding, conversion) codes json_type returned for elementary entry i.
               On every C08 run (stream meta) the judge compares this rendering of the model tree, member by member
               and in order, with the document schema_iter emitted - and likewise the extended generator's.
   [wf8 e t]   Spec/JsonTypeWf.v, as in C08_valid_shape: REDEFINES name an earlier non-redefining sibling and are
               no longer than it, none inside a repeated group.
   [legal]     Spec/Anchor.v: the meta-schema's pattern for $anchor.
   [elem_ids t], [idepth t]   the elementary entries of t; the number of levels of t (an elementary item is 1).
   Only property theorems here, over the lemmas of Proofs/SchemaDocP.v. *)
From Coq Require Import ZArith NArith List Bool.
Import ListNotations.
Require Import SR.Base.Res SR.Spec.Anchor SR.Spec.Layout SR.Model.Layout SR.Spec.SchemaTruth SR.Model.JsonType
  SR.Model.SchemaDoc SR.Spec.DigitNames SR.Proofs.JsonTypeP SR.Proofs.SchemaDocP.
Open Scope N_scope.

(* ---- VALID, the standard generator (the one schema_iter uses): for every well-formed record description with
   pairwise distinct names, every table of names that gives each entry a legal anchor, ANY titles and cobol texts,
   and keywords that json_type returns (for some USAGE and PICTURE text) for each elementary entry, the emitted
   document is a valid 2020-12 schema.  The fuel of valid_schema is the nesting it may descend: any amount from
   2 * levels + 1 on is enough (C08c_document_depth). *)
Theorem C08c_emitted_document_valid :
  forall (name_of title_of cobol_of : id -> list N) (kw_of : id -> N * N * N) (e : env) (t : item) (fuel : nat),
  wf8 e t = true -> NoDup (ids_of t) ->
  (forall i, In i (ids_of t) -> legal (name_of i) = true) ->
  (forall i, In i (elem_ids t) -> exists u txt, json_type u txt = Ok (kw_of i)) ->
  (2 * idepth t + 1 <= fuel)%nat ->
  valid_schema fuel (doc name_of title_of cobol_of kw_of (build t)) = true.
Proof. exact emitted_valid. Qed.
Print Assumptions C08c_emitted_document_valid.

(* what is used of json_type: computed from the tables regenerated from the source (Gen/JsonTypeParams.v), every
   type it can choose is one of the meta-schema's simpleTypes *)
Theorem C08c_json_type_simple : forall (u : N) (txt : list N) (k : N * N * N),
  json_type u txt = Ok k -> type_ok k = true.
Proof. exact json_type_simple. Qed.
Print Assumptions C08c_json_type_simple.

(* ... so the same holds for ANY keywords whose type the meta-schema accepts (both generators share
   build_json_schema; [type_ok]: type absent or a simple type) *)
Theorem C08c_emitted_document_valid_types :
  forall (name_of title_of cobol_of : id -> list N) (kw_of : id -> N * N * N) (e : env) (t : item) (fuel : nat),
  wf8 e t = true -> NoDup (ids_of t) ->
  (forall i, In i (ids_of t) -> legal (name_of i) = true) ->
  (forall i, In i (elem_ids t) -> type_ok (kw_of i) = true) ->
  (2 * idepth t + 1 <= fuel)%nat ->
  valid_schema fuel (doc name_of title_of cobol_of kw_of (build t)) = true.
Proof. exact emitted_valid_types. Qed.
Print Assumptions C08c_emitted_document_valid_types.

(* the nesting of the emitted document: at most two levels of sub-schemas per level of the description, plus one *)
Theorem C08c_document_depth : forall t : item, (jdepth (build t) <= 2 * idepth t + 1)%nat.
Proof. exact (proj1 build_depth). Qed.
Print Assumptions C08c_document_depth.

(* ---- the rendering of ANY structure tree (not only the ones build makes) is valid when every oneOf has an
   alternative ([shape_ok], Spec/SchemaTruth.v), every $anchor it bears is legal and every elementary sub-schema
   has an acceptable type: the three facts the theorems above establish for [build t] *)
Theorem C08c_document_valid_js :
  forall (name_of title_of cobol_of : id -> list N) (kw_of : id -> N * N * N) (s : js) (inner : bool) (fuel : nat),
  shape_ok s = true ->
  (forall k, In k (anchors_of s) -> legal (key_text name_of k) = true) ->
  (forall k, In k (atom_keys s) -> type_ok (kw_of (key_id k)) = true) ->
  (jdepth s <= fuel)%nat ->
  valid_schema fuel (doc_of name_of title_of cobol_of kw_of inner s) = true.
Proof.
  intros n ti c k s inner fuel Hs Ha Ht Hd.
  apply (proj1 (doc_valid_js n ti c k)); [exact Hs|apply Forall_forall, Ha|apply Forall_forall, Ht|exact Hd].
Qed.
Print Assumptions C08c_document_valid_js.

(* ---- the hypothesis on names is needed: a record whose own name is not a legal anchor has an invalid document,
   whatever the rest *)
Theorem C08c_name_needed :
  forall (name_of title_of cobol_of : id -> list N) (kw_of : id -> N * N * N) (i : id) (oc : occ) (rd : option id)
         (ks : items) (fuel : nat),
  legal (name_of i) = false ->
  valid_schema fuel (doc name_of title_of cobol_of kw_of (build (Group i oc rd ks))) = false.
Proof.
  intros name_of title_of cobol_of kw_of i oc rd ks fuel H.
  destruct (valid_schema fuel (doc name_of title_of cobol_of kw_of (build (Group i oc rd ks)))) eqn:E; [|reflexivity].
  rewrite (emitted_needs_legal name_of title_of cobol_of kw_of _ fuel E i (or_introl eq_refl)) in H. discriminate.
Qed.
Print Assumptions C08c_name_needed.

(* ---- the EXTENDED-VOCABULARY generator (same build_json_schema, json_type_ext's keywords).  Its type decimal is
   outside the standard meta-schema by design (property text), so the full statement is false; it holds for the
   descriptions in which no item is typed decimal. *)
Definition C08c_extended_document_valid_full : Prop :=
  forall (name_of title_of cobol_of : id -> list N) (kw_of : id -> N * N * N) (e : env) (t : item) (fuel : nat),
  wf8 e t = true -> NoDup (ids_of t) ->
  (forall i, In i (ids_of t) -> legal (name_of i) = true) ->
  (forall i, In i (elem_ids t) -> exists u txt, json_type_ext u txt = Ok (kw_of i)) ->
  (2 * idepth t + 1 <= fuel)%nat ->
  valid_schema fuel (doc name_of title_of cobol_of kw_of (build t)) = true.

Theorem C08c_extended_document_valid_partial :
  forall (name_of title_of cobol_of : id -> list N) (kw_of : id -> N * N * N) (e : env) (t : item) (fuel : nat),
  wf8 e t = true -> NoDup (ids_of t) ->
  (forall i, In i (ids_of t) -> legal (name_of i) = true) ->
  (forall i, In i (elem_ids t) -> (exists u txt, json_type_ext u txt = Ok (kw_of i)) /\ is_decimal_kw (kw_of i) = false) ->
  (2 * idepth t + 1 <= fuel)%nat ->
  valid_schema fuel (doc name_of title_of cobol_of kw_of (build t)) = true.
Proof.
  intros name_of title_of cobol_of kw_of e t fuel Hw Hnd Hn Ht Hf. apply (emitted_valid_types _ _ _ _ e); try assumption.
  intros i Hi. destruct (Ht i Hi) as [[u [txt H]] Hd]. exact (json_type_ext_simple u txt _ H Hd).
Qed.
Print Assumptions C08c_extended_document_valid_partial.

(* 01 R. 05 A PIC S9(3) COMP-3.  -  the extended generator types A decimal: {"type": "decimal"} is refused *)
Definition ext_tree : item := Group 1 Once None (ICons (Elem 2 2 Once None) INil).
Definition ext_name (i : id) : list N := if (i =? 1)%N then [82] else [65].
Definition ext_kw (i : id) : N * N * N := match json_type_ext 8 [83; 57; 40; 51; 41] with Ok k => k | Err _ => (0, 0, 0)%N end.
Theorem C08c_extended_refuted :
  json_type_ext 8 [83; 57; 40; 51; 41] = Ok (4, 0, 0)%N
  /\ valid_schema 5 (doc ext_name ext_name ext_name ext_kw (build ext_tree)) = false
  /\ ~ C08c_extended_document_valid_full.
Proof.
  split; [reflexivity|]. split; [reflexivity|].
  intros H. specialize (H ext_name ext_name ext_name ext_kw (fun _ => 0%nat) ext_tree 5%nat).
  assert (E : valid_schema 5 (doc ext_name ext_name ext_name ext_kw (build ext_tree)) = true); [|discriminate].
  apply H.
  - reflexivity.
  - apply NoDup_by_nodup. reflexivity.
  - intros i Hi. exact (proj1 (forallb_forall (fun i => legal (ext_name i)) (ids_of ext_tree)) eq_refl i Hi).
  - intros i Hi. exists 8%N, [83; 57; 40; 51; 41]%N. reflexivity.
  - repeat constructor.
Qed.
Print Assumptions C08c_extended_refuted.

(* ---- non-vacuity ----
   The record description below, with a group, a REDEFINES union of three members (one of them a group), an
   elementary OCCURS table, a group OCCURS table, an elementary and a group OCCURS DEPENDING ON table, a FILLER,
   and DISPLAY text / DISPLAY numeric / packed / binary items:
     01 R.  05 C PIC 9.  05 A PIC X(4).  05 B REDEFINES A PIC S9(5) USAGE COMP-3.  05 G REDEFINES A.
     10 G1 PIC S9(3) USAGE BINARY.  10 G2 PIC S99 USAGE COMP.  05 E PIC X OCCURS 2 TIMES.  05 T OCCURS 3 TIMES.
     10 T1 PIC 999.  10 T2 PIC S99V9 USAGE PACKED-DECIMAL.  05 V PIC XX OCCURS 0 TO 5 TIMES DEPENDING ON C.
     05 W OCCURS 1 TO 4 TIMES DEPENDING ON C.  10 W1 PIC S9(5) USAGE COMP.  10 FILLER PIC X(2).
   [ex_document] is the document schema_iter of /repo emits for it, transcribed by a script (check_schema accepts
   it); the tables are what the copybook says. *)
Definition ex_tree : item :=
  Group 1 Once None
   (ICons (Elem 2 1 Once None)
   (ICons (Elem 3 4 Once None)
   (ICons (Elem 4 3 Once (Some 3%N))
   (ICons (Group 5 Once (Some 3%N) (ICons (Elem 6 2 Once None) (ICons (Elem 7 2 Once None) INil)))
   (ICons (Elem 8 1 (Times 2) None)
   (ICons (Group 9 (Times 3) None (ICons (Elem 10 3 Once None) (ICons (Elem 11 2 Once None) INil)))
   (ICons (Elem 12 2 (Odo 2) None)
   (ICons (Group 13 (Odo 2) None (ICons (Elem 14 4 Once None) (ICons (Elem 15 2 Once None) INil)))
    INil)))))))).
Definition ex_name (i : id) : list N :=
  match i with
  | 1 => [82]
  | 2 => [67]
  | 3 => [65]
  | 4 => [66]
  | 5 => [71]
  | 6 => [71; 49]
  | 7 => [71; 50]
  | 8 => [69]
  | 9 => [84]
  | 10 => [84; 49]
  | 11 => [84; 50]
  | 12 => [86]
  | 13 => [87]
  | 14 => [87; 49]
  | 15 => [70; 73; 76; 76; 69; 82; 45; 49]
  | _ => []
  end%N.
Definition ex_title (i : id) : list N :=
  match i with
  | 1 => [82]
  | 2 => [67]
  | 3 => [65]
  | 4 => [66]
  | 5 => [71]
  | 6 => [71; 49]
  | 7 => [71; 50]
  | 8 => [69]
  | 9 => [84]
  | 10 => [84; 49]
  | 11 => [84; 50]
  | 12 => [86]
  | 13 => [87]
  | 14 => [87; 49]
  | 15 => [70; 73; 76; 76; 69; 82]
  | _ => []
  end%N.
Definition ex_cobol (i : id) : list N :=
  match i with
  | 1 => [48; 49; 32; 82]
  | 2 => [48; 53; 32; 67; 32; 80; 73; 67; 32; 57]
  | 3 => [48; 53; 32; 65; 32; 80; 73; 67; 32; 88; 40; 52; 41]
  | 4 => [48; 53; 32; 66; 32; 82; 69; 68; 69; 70; 73; 78; 69; 83; 32; 65; 32; 80; 73; 67; 32; 83; 57; 40; 53; 41; 32; 85; 83; 65; 71; 69; 32; 67; 79; 77; 80; 45; 51]
  | 5 => [48; 53; 32; 71; 32; 82; 69; 68; 69; 70; 73; 78; 69; 83; 32; 65]
  | 6 => [49; 48; 32; 71; 49; 32; 80; 73; 67; 32; 83; 57; 40; 51; 41; 32; 85; 83; 65; 71; 69; 32; 66; 73; 78; 65; 82; 89]
  | 7 => [49; 48; 32; 71; 50; 32; 80; 73; 67; 32; 83; 57; 57; 32; 85; 83; 65; 71; 69; 32; 67; 79; 77; 80]
  | 8 => [48; 53; 32; 69; 32; 80; 73; 67; 32; 88; 32; 79; 67; 67; 85; 82; 83; 32; 50; 32; 84; 73; 77; 69; 83]
  | 9 => [48; 53; 32; 84; 32; 79; 67; 67; 85; 82; 83; 32; 51; 32; 84; 73; 77; 69; 83]
  | 10 => [49; 48; 32; 84; 49; 32; 80; 73; 67; 32; 57; 57; 57]
  | 11 => [49; 48; 32; 84; 50; 32; 80; 73; 67; 32; 83; 57; 57; 86; 57; 32; 85; 83; 65; 71; 69; 32; 80; 65; 67; 75; 69; 68; 45; 68; 69; 67; 73; 77; 65; 76]
  | 12 => [48; 53; 32; 86; 32; 80; 73; 67; 32; 88; 88; 32; 79; 67; 67; 85; 82; 83; 32; 48; 32; 84; 79; 32; 53; 32; 84; 73; 77; 69; 83; 32; 68; 69; 80; 69; 78; 68; 73; 78; 71; 32; 79; 78; 32; 67]
  | 13 => [48; 53; 32; 87; 32; 79; 67; 67; 85; 82; 83; 32; 49; 32; 84; 79; 32; 52; 32; 84; 73; 77; 69; 83; 32; 68; 69; 80; 69; 78; 68; 73; 78; 71; 32; 79; 78; 32; 67]
  | 14 => [49; 48; 32; 87; 49; 32; 80; 73; 67; 32; 83; 57; 40; 53; 41; 32; 85; 83; 65; 71; 69; 32; 67; 79; 77; 80]
  | 15 => [49; 48; 32; 70; 73; 76; 76; 69; 82; 32; 80; 73; 67; 32; 88; 40; 50; 41]
  | _ => []
  end%N.
Definition ex_pic (i : id) : list N :=
  match i with
  | 1 => []
  | 2 => [57]
  | 3 => [88; 40; 52; 41]
  | 4 => [83; 57; 40; 53; 41]
  | 5 => []
  | 6 => [83; 57; 40; 51; 41]
  | 7 => [83; 57; 57]
  | 8 => [88]
  | 9 => []
  | 10 => [57; 57; 57]
  | 11 => [83; 57; 57; 86; 57]
  | 12 => [88; 88]
  | 13 => []
  | 14 => [83; 57; 40; 53; 41]
  | 15 => [88; 40; 50; 41]
  | _ => []
  end%N.
Definition ex_usage (i : id) : N :=
  match i with
  | 1 => 11
  | 2 => 11
  | 3 => 11
  | 4 => 8
  | 5 => 11
  | 6 => 0
  | 7 => 10
  | 8 => 11
  | 9 => 11
  | 10 => 11
  | 11 => 12
  | 12 => 11
  | 13 => 11
  | 14 => 10
  | 15 => 11
  | _ => 11
  end%N.
Definition ex_document : jval :=
  VMap [([116; 105; 116; 108; 101], VText [82]);
    ([36; 97; 110; 99; 104; 111; 114], VText [82]);
    ([99; 111; 98; 111; 108], VText [48; 49; 32; 82]);
    ([116; 121; 112; 101], VText [111; 98; 106; 101; 99; 116]);
    ([112; 114; 111; 112; 101; 114; 116; 105; 101; 115], VMap [([67], VMap [([116; 105; 116; 108; 101], VText [67]);
        ([36; 97; 110; 99; 104; 111; 114], VText [67]);
        ([99; 111; 98; 111; 108], VText [48; 53; 32; 67; 32; 80; 73; 67; 32; 57]);
        ([116; 121; 112; 101], VText [115; 116; 114; 105; 110; 103]);
        ([99; 111; 110; 116; 101; 110; 116; 69; 110; 99; 111; 100; 105; 110; 103], VText [99; 112; 48; 51; 55]);
        ([99; 111; 110; 118; 101; 114; 115; 105; 111; 110], VText [100; 101; 99; 105; 109; 97; 108]);
        ([109; 97; 120; 76; 101; 110; 103; 116; 104], VNum 1);
        ([109; 105; 110; 76; 101; 110; 103; 116; 104], VNum 1)]);
      ([82; 69; 68; 69; 70; 73; 78; 69; 83; 45; 65], VMap [([111; 110; 101; 79; 102], VArr [VMap [([116; 105; 116; 108; 101], VText [65]);
            ([36; 97; 110; 99; 104; 111; 114], VText [65]);
            ([99; 111; 98; 111; 108], VText [48; 53; 32; 65; 32; 80; 73; 67; 32; 88; 40; 52; 41]);
            ([116; 121; 112; 101], VText [115; 116; 114; 105; 110; 103]);
            ([99; 111; 110; 116; 101; 110; 116; 69; 110; 99; 111; 100; 105; 110; 103], VText [99; 112; 48; 51; 55]);
            ([109; 97; 120; 76; 101; 110; 103; 116; 104], VNum 4);
            ([109; 105; 110; 76; 101; 110; 103; 116; 104], VNum 4)]
          ; VMap [([116; 105; 116; 108; 101], VText [66]);
            ([36; 97; 110; 99; 104; 111; 114], VText [66]);
            ([99; 111; 98; 111; 108], VText [48; 53; 32; 66; 32; 82; 69; 68; 69; 70; 73; 78; 69; 83; 32; 65; 32; 80; 73; 67; 32; 83; 57; 40; 53; 41; 32; 85; 83; 65; 71; 69; 32; 67; 79; 77; 80; 45; 51]);
            ([116; 121; 112; 101], VText [115; 116; 114; 105; 110; 103]);
            ([99; 111; 110; 116; 101; 110; 116; 69; 110; 99; 111; 100; 105; 110; 103], VText [112; 97; 99; 107; 101; 100; 45; 100; 101; 99; 105; 109; 97; 108]);
            ([99; 111; 110; 118; 101; 114; 115; 105; 111; 110], VText [100; 101; 99; 105; 109; 97; 108]);
            ([109; 97; 120; 76; 101; 110; 103; 116; 104], VNum 3);
            ([109; 105; 110; 76; 101; 110; 103; 116; 104], VNum 3)]
          ; VMap [([116; 105; 116; 108; 101], VText [71]);
            ([36; 97; 110; 99; 104; 111; 114], VText [71]);
            ([99; 111; 98; 111; 108], VText [48; 53; 32; 71; 32; 82; 69; 68; 69; 70; 73; 78; 69; 83; 32; 65]);
            ([116; 121; 112; 101], VText [111; 98; 106; 101; 99; 116]);
            ([112; 114; 111; 112; 101; 114; 116; 105; 101; 115], VMap [([71; 49], VMap [([116; 105; 116; 108; 101], VText [71; 49]);
                ([36; 97; 110; 99; 104; 111; 114], VText [71; 49]);
                ([99; 111; 98; 111; 108], VText [49; 48; 32; 71; 49; 32; 80; 73; 67; 32; 83; 57; 40; 51; 41; 32; 85; 83; 65; 71; 69; 32; 66; 73; 78; 65; 82; 89]);
                ([116; 121; 112; 101], VText [105; 110; 116; 101; 103; 101; 114]);
                ([99; 111; 110; 116; 101; 110; 116; 69; 110; 99; 111; 100; 105; 110; 103], VText [98; 105; 103; 101; 110; 100; 105; 97; 110; 45; 105; 110; 116]);
                ([109; 97; 120; 76; 101; 110; 103; 116; 104], VNum 2);
                ([109; 105; 110; 76; 101; 110; 103; 116; 104], VNum 2)]);
              ([71; 50], VMap [([116; 105; 116; 108; 101], VText [71; 50]);
                ([36; 97; 110; 99; 104; 111; 114], VText [71; 50]);
                ([99; 111; 98; 111; 108], VText [49; 48; 32; 71; 50; 32; 80; 73; 67; 32; 83; 57; 57; 32; 85; 83; 65; 71; 69; 32; 67; 79; 77; 80]);
                ([116; 121; 112; 101], VText [105; 110; 116; 101; 103; 101; 114]);
                ([99; 111; 110; 116; 101; 110; 116; 69; 110; 99; 111; 100; 105; 110; 103], VText [98; 105; 103; 101; 110; 100; 105; 97; 110; 45; 105; 110; 116]);
                ([109; 97; 120; 76; 101; 110; 103; 116; 104], VNum 2);
                ([109; 105; 110; 76; 101; 110; 103; 116; 104], VNum 2)])])]]);
        ([36; 97; 110; 99; 104; 111; 114], VText [82; 69; 68; 69; 70; 73; 78; 69; 83; 45; 65])]);
      ([65], VMap [([116; 105; 116; 108; 101], VText [65]);
        ([99; 111; 98; 111; 108], VText [48; 53; 32; 65; 32; 80; 73; 67; 32; 88; 40; 52; 41]);
        ([36; 114; 101; 102], VText [35; 65])]);
      ([66], VMap [([116; 105; 116; 108; 101], VText [66]);
        ([99; 111; 98; 111; 108], VText [48; 53; 32; 66; 32; 82; 69; 68; 69; 70; 73; 78; 69; 83; 32; 65; 32; 80; 73; 67; 32; 83; 57; 40; 53; 41; 32; 85; 83; 65; 71; 69; 32; 67; 79; 77; 80; 45; 51]);
        ([36; 114; 101; 102], VText [35; 66])]);
      ([71], VMap [([116; 105; 116; 108; 101], VText [71]);
        ([99; 111; 98; 111; 108], VText [48; 53; 32; 71; 32; 82; 69; 68; 69; 70; 73; 78; 69; 83; 32; 65]);
        ([36; 114; 101; 102], VText [35; 71])]);
      ([69], VMap [([116; 105; 116; 108; 101], VText [69]);
        ([99; 111; 98; 111; 108], VText [48; 53; 32; 69; 32; 80; 73; 67; 32; 88; 32; 79; 67; 67; 85; 82; 83; 32; 50; 32; 84; 73; 77; 69; 83]);
        ([116; 121; 112; 101], VText [97; 114; 114; 97; 121]);
        ([105; 116; 101; 109; 115], VMap [([116; 121; 112; 101], VText [111; 98; 106; 101; 99; 116]);
          ([112; 114; 111; 112; 101; 114; 116; 105; 101; 115], VMap [([69], VMap [([36; 97; 110; 99; 104; 111; 114], VText [69]);
              ([99; 111; 98; 111; 108], VText [48; 53; 32; 69; 32; 80; 73; 67; 32; 88; 32; 79; 67; 67; 85; 82; 83; 32; 50; 32; 84; 73; 77; 69; 83]);
              ([116; 121; 112; 101], VText [115; 116; 114; 105; 110; 103]);
              ([99; 111; 110; 116; 101; 110; 116; 69; 110; 99; 111; 100; 105; 110; 103], VText [99; 112; 48; 51; 55])])])]);
        ([109; 97; 120; 73; 116; 101; 109; 115], VNum 2)]);
      ([84], VMap [([116; 105; 116; 108; 101], VText [84]);
        ([99; 111; 98; 111; 108], VText [48; 53; 32; 84; 32; 79; 67; 67; 85; 82; 83; 32; 51; 32; 84; 73; 77; 69; 83]);
        ([116; 121; 112; 101], VText [97; 114; 114; 97; 121]);
        ([105; 116; 101; 109; 115], VMap [([116; 121; 112; 101], VText [111; 98; 106; 101; 99; 116]);
          ([112; 114; 111; 112; 101; 114; 116; 105; 101; 115], VMap [([84; 49], VMap [([116; 105; 116; 108; 101], VText [84; 49]);
              ([36; 97; 110; 99; 104; 111; 114], VText [84; 49]);
              ([99; 111; 98; 111; 108], VText [49; 48; 32; 84; 49; 32; 80; 73; 67; 32; 57; 57; 57]);
              ([116; 121; 112; 101], VText [115; 116; 114; 105; 110; 103]);
              ([99; 111; 110; 116; 101; 110; 116; 69; 110; 99; 111; 100; 105; 110; 103], VText [99; 112; 48; 51; 55]);
              ([99; 111; 110; 118; 101; 114; 115; 105; 111; 110], VText [100; 101; 99; 105; 109; 97; 108]);
              ([109; 97; 120; 76; 101; 110; 103; 116; 104], VNum 3);
              ([109; 105; 110; 76; 101; 110; 103; 116; 104], VNum 3)]);
            ([84; 50], VMap [([116; 105; 116; 108; 101], VText [84; 50]);
              ([36; 97; 110; 99; 104; 111; 114], VText [84; 50]);
              ([99; 111; 98; 111; 108], VText [49; 48; 32; 84; 50; 32; 80; 73; 67; 32; 83; 57; 57; 86; 57; 32; 85; 83; 65; 71; 69; 32; 80; 65; 67; 75; 69; 68; 45; 68; 69; 67; 73; 77; 65; 76]);
              ([116; 121; 112; 101], VText [115; 116; 114; 105; 110; 103]);
              ([99; 111; 110; 116; 101; 110; 116; 69; 110; 99; 111; 100; 105; 110; 103], VText [112; 97; 99; 107; 101; 100; 45; 100; 101; 99; 105; 109; 97; 108]);
              ([99; 111; 110; 118; 101; 114; 115; 105; 111; 110], VText [100; 101; 99; 105; 109; 97; 108]);
              ([109; 97; 120; 76; 101; 110; 103; 116; 104], VNum 2);
              ([109; 105; 110; 76; 101; 110; 103; 116; 104], VNum 2)])])]);
        ([109; 97; 120; 73; 116; 101; 109; 115], VNum 3);
        ([36; 97; 110; 99; 104; 111; 114], VText [84])]);
      ([86], VMap [([116; 105; 116; 108; 101], VText [86]);
        ([99; 111; 98; 111; 108], VText [48; 53; 32; 86; 32; 80; 73; 67; 32; 88; 88; 32; 79; 67; 67; 85; 82; 83; 32; 48; 32; 84; 79; 32; 53; 32; 84; 73; 77; 69; 83; 32; 68; 69; 80; 69; 78; 68; 73; 78; 71; 32; 79; 78; 32; 67]);
        ([116; 121; 112; 101], VText [97; 114; 114; 97; 121]);
        ([105; 116; 101; 109; 115], VMap [([116; 121; 112; 101], VText [111; 98; 106; 101; 99; 116]);
          ([112; 114; 111; 112; 101; 114; 116; 105; 101; 115], VMap [([86], VMap [([36; 97; 110; 99; 104; 111; 114], VText [86]);
              ([99; 111; 98; 111; 108], VText [48; 53; 32; 86; 32; 80; 73; 67; 32; 88; 88; 32; 79; 67; 67; 85; 82; 83; 32; 48; 32; 84; 79; 32; 53; 32; 84; 73; 77; 69; 83; 32; 68; 69; 80; 69; 78; 68; 73; 78; 71; 32; 79; 78; 32; 67]);
              ([116; 121; 112; 101], VText [115; 116; 114; 105; 110; 103]);
              ([99; 111; 110; 116; 101; 110; 116; 69; 110; 99; 111; 100; 105; 110; 103], VText [99; 112; 48; 51; 55])])])]);
        ([109; 97; 120; 73; 116; 101; 109; 115; 68; 101; 112; 101; 110; 100; 115; 79; 110], VMap [([36; 114; 101; 102], VText [35; 67])])]);
      ([87], VMap [([116; 105; 116; 108; 101], VText [87]);
        ([99; 111; 98; 111; 108], VText [48; 53; 32; 87; 32; 79; 67; 67; 85; 82; 83; 32; 49; 32; 84; 79; 32; 52; 32; 84; 73; 77; 69; 83; 32; 68; 69; 80; 69; 78; 68; 73; 78; 71; 32; 79; 78; 32; 67]);
        ([116; 121; 112; 101], VText [97; 114; 114; 97; 121]);
        ([105; 116; 101; 109; 115], VMap [([116; 121; 112; 101], VText [111; 98; 106; 101; 99; 116]);
          ([112; 114; 111; 112; 101; 114; 116; 105; 101; 115], VMap [([87; 49], VMap [([116; 105; 116; 108; 101], VText [87; 49]);
              ([36; 97; 110; 99; 104; 111; 114], VText [87; 49]);
              ([99; 111; 98; 111; 108], VText [49; 48; 32; 87; 49; 32; 80; 73; 67; 32; 83; 57; 40; 53; 41; 32; 85; 83; 65; 71; 69; 32; 67; 79; 77; 80]);
              ([116; 121; 112; 101], VText [105; 110; 116; 101; 103; 101; 114]);
              ([99; 111; 110; 116; 101; 110; 116; 69; 110; 99; 111; 100; 105; 110; 103], VText [98; 105; 103; 101; 110; 100; 105; 97; 110; 45; 105; 110; 116]);
              ([109; 97; 120; 76; 101; 110; 103; 116; 104], VNum 4);
              ([109; 105; 110; 76; 101; 110; 103; 116; 104], VNum 4)]);
            ([70; 73; 76; 76; 69; 82; 45; 49], VMap [([116; 105; 116; 108; 101], VText [70; 73; 76; 76; 69; 82]);
              ([36; 97; 110; 99; 104; 111; 114], VText [70; 73; 76; 76; 69; 82; 45; 49]);
              ([99; 111; 98; 111; 108], VText [49; 48; 32; 70; 73; 76; 76; 69; 82; 32; 80; 73; 67; 32; 88; 40; 50; 41]);
              ([116; 121; 112; 101], VText [115; 116; 114; 105; 110; 103]);
              ([99; 111; 110; 116; 101; 110; 116; 69; 110; 99; 111; 100; 105; 110; 103], VText [99; 112; 48; 51; 55]);
              ([109; 97; 120; 76; 101; 110; 103; 116; 104], VNum 2);
              ([109; 105; 110; 76; 101; 110; 103; 116; 104], VNum 2)])])]);
        ([109; 97; 120; 73; 116; 101; 109; 115; 68; 101; 112; 101; 110; 100; 115; 79; 110], VMap [([36; 114; 101; 102], VText [35; 67])]);
        ([36; 97; 110; 99; 104; 111; 114], VText [87])])])].

Definition ex_kw (i : id) : N * N * N :=
  match json_type (ex_usage i) (ex_pic i) with Ok k => k | Err _ => (0, 0, 0)%N end.

(* the hypotheses of C08c_emitted_document_valid hold of it ... *)
Example C08c_example_hypotheses :
  wf8 (fun _ => 0%nat) ex_tree = true /\ NoDup (ids_of ex_tree)
  /\ (forall i, In i (ids_of ex_tree) -> legal (ex_name i) = true)
  /\ (forall i, In i (elem_ids ex_tree) -> exists u txt, json_type u txt = Ok (ex_kw i))
  /\ idepth ex_tree = 3%nat /\ jdepth (build ex_tree) = 4%nat.
Proof.
  split; [reflexivity|]. split; [apply NoDup_by_nodup; reflexivity|].
  split; [intros i Hi; exact (proj1 (forallb_forall (fun i => legal (ex_name i)) (ids_of ex_tree)) eq_refl i Hi)|].
  split; [|split; reflexivity].
  (* ex_kw i is what json_type returns wherever it returns at all: it is enough that it does on the elementary entries *)
  intros i Hi. exists (ex_usage i), (ex_pic i).
  pose proof (proj1 (forallb_forall (fun i => match json_type (ex_usage i) (ex_pic i) with Ok _ => true | Err _ => false end)
                       (elem_ids ex_tree)) eq_refl i Hi) as H.
  cbv beta in H. unfold ex_kw. destruct (json_type (ex_usage i) (ex_pic i)); [reflexivity|discriminate].
Qed.

(* ... its rendering IS the document /repo emits, and the document is valid (by computation, and by the theorem) *)
Example C08c_example_rendering :
  doc ex_name ex_title ex_cobol ex_kw (build ex_tree) = ex_document
  /\ valid_schema 7 ex_document = true /\ valid_schema 4 ex_document = true /\ valid_schema 3 ex_document = false.
Proof. repeat split; reflexivity. Qed.

Example C08c_example_by_theorem : valid_schema 7 (doc ex_name ex_title ex_cobol ex_kw (build ex_tree)) = true.
Proof.
  destruct C08c_example_hypotheses as [A [B [C [D _]]]].
  apply (C08c_emitted_document_valid ex_name ex_title ex_cobol ex_kw (fun _ => 0%nat) ex_tree 7 A B C D).
  repeat constructor.
Qed.

(* the same description with the record named 1R (not a legal anchor): every other hypothesis holds, the document
   is invalid *)
Definition bad_name (i : id) : list N := if (i =? 1)%N then [49; 82] else ex_name i.
Example C08c_example_name_refuted :
  legal (bad_name 1) = false
  /\ (forall i, In i (ids_of ex_tree) -> i <> 1%N -> legal (bad_name i) = true)
  /\ valid_schema 7 (doc bad_name ex_title ex_cobol ex_kw (build ex_tree)) = false.
Proof.
  split; [reflexivity|]. split; [|reflexivity].
  intros i Hi Hne.
  pose proof (proj1 (forallb_forall (fun i => (i =? 1)%N || legal (bad_name i)) (ids_of ex_tree)) eq_refl i Hi) as H.
  cbv beta in H. destruct (N.eqb_spec i 1) as [E|_]; [contradiction|exact H].
Qed.

(* an inner name that is not a legal anchor (T1 named with a blank) is enough as well *)
Definition bad_inner (i : id) : list N := if (i =? 10)%N then [84; 32; 49] else ex_name i.
Example C08c_example_inner_name_refuted :
  valid_schema 7 (doc bad_inner ex_title ex_cobol ex_kw (build ex_tree)) = false.
Proof. reflexivity. Qed.

(* KNOWN FINDING K-digit-first-name.  A COBOL data name needs one letter SOMEWHERE, not first: 05 9A PIC X. and
   05 1ST-NAME PIC X(10). are legal COBOL, the generator copies the name into $anchor unchanged, and the meta-schema's
   pattern for $anchor refuses a text that begins with a digit: Draft202012Validator.check_schema raises SchemaError on
   the emitted document.  [cobol_name], [digit_first]: Spec/DigitNames.v.

   The exact boundary: a valid document NEEDS every name of the description to be a legal anchor - for every
   description, all keywords and any fuel (this generalises C08c_name_needed from the record's own name to every
   name) ... *)
Theorem C08c_valid_needs_legal_names :
  forall (name_of title_of cobol_of : id -> list N) (kw_of : id -> N * N * N) (t : item) (fuel : nat),
  valid_schema fuel (doc name_of title_of cobol_of kw_of (build t)) = true ->
  forall i, In i (ids_of t) -> legal (name_of i) = true.
Proof. exact emitted_needs_legal. Qed.
Print Assumptions C08c_valid_needs_legal_names.

(* ... so under the other hypotheses of C08c_emitted_document_valid the emitted document is valid EXACTLY when every
   name is a legal anchor *)
Theorem C08c_valid_iff_names_legal :
  forall (name_of title_of cobol_of : id -> list N) (kw_of : id -> N * N * N) (e : env) (t : item) (fuel : nat),
  wf8 e t = true -> NoDup (ids_of t) ->
  (forall i, In i (elem_ids t) -> exists u txt, json_type u txt = Ok (kw_of i)) ->
  (2 * idepth t + 1 <= fuel)%nat ->
  (valid_schema fuel (doc name_of title_of cobol_of kw_of (build t)) = true
   <-> forall i, In i (ids_of t) -> legal (name_of i) = true).
Proof.
  intros name_of title_of cobol_of kw_of e t fuel Hw Hnd Ht Hf. split.
  - apply emitted_needs_legal.
  - intros Hn. exact (emitted_valid name_of title_of cobol_of kw_of e t fuel Hw Hnd Hn Ht Hf).
Qed.
Print Assumptions C08c_valid_iff_names_legal.

(* the same for the rendering of ANY structure tree: valid exactly when every $anchor it bears is legal *)
Theorem C08c_document_valid_iff_anchors_legal :
  forall (name_of title_of cobol_of : id -> list N) (kw_of : id -> N * N * N) (s : js) (inner : bool) (fuel : nat),
  shape_ok s = true ->
  (forall k, In k (atom_keys s) -> type_ok (kw_of (key_id k)) = true) ->
  (jdepth s <= fuel)%nat ->
  (valid_schema fuel (doc_of name_of title_of cobol_of kw_of inner s) = true
   <-> forall k, In k (anchors_of s) -> legal (key_text name_of k) = true).
Proof.
  intros name_of title_of cobol_of kw_of s inner fuel Hs Ht Hd. split.
  - intros H. apply Forall_forall. exact (proj1 (valid_anchors_legal name_of title_of cobol_of kw_of) s inner fuel H).
  - intros Ha. apply (proj1 (doc_valid_js name_of title_of cobol_of kw_of)); [exact Hs|apply Forall_forall, Ha|apply Forall_forall, Ht|exact Hd].
Qed.
Print Assumptions C08c_document_valid_iff_anchors_legal.

(* among COBOL data names the illegal anchors are exactly the names that begin with a digit ... *)
Theorem C08c_cobol_name_legal_iff : forall s : list N, cobol_name s = true -> legal s = negb (digit_first s).
Proof. exact cobol_name_legal. Qed.
Print Assumptions C08c_cobol_name_legal_iff.

(* ... so for copybooks (every name a COBOL data name) the emitted document is valid EXACTLY when no data name begins
   with a digit: the trigger set of K-digit-first-name is exact *)
Theorem C08c_valid_iff_no_digit_first :
  forall (name_of title_of cobol_of : id -> list N) (kw_of : id -> N * N * N) (e : env) (t : item) (fuel : nat),
  wf8 e t = true -> NoDup (ids_of t) ->
  (forall i, In i (ids_of t) -> cobol_name (name_of i) = true) ->
  (forall i, In i (elem_ids t) -> exists u txt, json_type u txt = Ok (kw_of i)) ->
  (2 * idepth t + 1 <= fuel)%nat ->
  (valid_schema fuel (doc name_of title_of cobol_of kw_of (build t)) = true
   <-> forall i, In i (ids_of t) -> digit_first (name_of i) = false).
Proof.
  intros name_of title_of cobol_of kw_of e t fuel Hw Hnd Hc Ht Hf.
  rewrite (C08c_valid_iff_names_legal name_of title_of cobol_of kw_of e t fuel Hw Hnd Ht Hf).
  split; intros H i Hi; specialize (H i Hi); rewrite (cobol_name_legal _ (Hc i Hi)) in *.
  - apply negb_true_iff in H. exact H.
  - rewrite H. reflexivity.
Qed.
Print Assumptions C08c_valid_iff_no_digit_first.

(* The full validity statement - every well-formed record description with COBOL data names yields a valid schema,
   i.e. C08c_emitted_document_valid with "names are COBOL data names" in place of "names are legal anchors" - kept
   visible, and FALSE of the code as it is. *)
Definition C08c_emitted_document_valid_full : Prop :=
  forall (name_of title_of cobol_of : id -> list N) (kw_of : id -> N * N * N) (e : env) (t : item) (fuel : nat),
  wf8 e t = true -> NoDup (ids_of t) ->
  (forall i, In i (ids_of t) -> cobol_name (name_of i) = true) ->
  (forall i, In i (elem_ids t) -> exists u txt, json_type u txt = Ok (kw_of i)) ->
  (2 * idepth t + 1 <= fuel)%nat ->
  valid_schema fuel (doc name_of title_of cobol_of kw_of (build t)) = true.

(* 01 R.  05 9A PIC X.   [dg_document] is the document schema_iter of /repo emits for it, transcribed by a script;
   check_schema raises SchemaError: '9A' does not match the pattern of $anchor *)
Definition dg_tree : item := Group 1 Once None (ICons (Elem 2 1 Once None) INil).
Definition dg_name (i : id) : list N := if (i =? 1)%N then [82] else [57; 65].
Definition dg_cobol (i : id) : list N :=
  if (i =? 1)%N then [48; 49; 32; 82] else [48; 53; 32; 57; 65; 32; 80; 73; 67; 32; 88].
Definition dg_kw (i : id) : N * N * N := match json_type 11 [88] with Ok k => k | Err _ => (0, 0, 0)%N end.
Definition dg_document : jval :=
  VMap [([116; 105; 116; 108; 101], VText [82]);
    ([36; 97; 110; 99; 104; 111; 114], VText [82]);
    ([99; 111; 98; 111; 108], VText [48; 49; 32; 82]);
    ([116; 121; 112; 101], VText [111; 98; 106; 101; 99; 116]);
    ([112; 114; 111; 112; 101; 114; 116; 105; 101; 115], VMap [([57; 65], VMap [([116; 105; 116; 108; 101], VText [57; 65]);
        ([36; 97; 110; 99; 104; 111; 114], VText [57; 65]);
        ([99; 111; 98; 111; 108], VText [48; 53; 32; 57; 65; 32; 80; 73; 67; 32; 88]);
        ([116; 121; 112; 101], VText [115; 116; 114; 105; 110; 103]);
        ([99; 111; 110; 116; 101; 110; 116; 69; 110; 99; 111; 100; 105; 110; 103], VText [99; 112; 48; 51; 55]);
        ([109; 97; 120; 76; 101; 110; 103; 116; 104], VNum 1);
        ([109; 105; 110; 76; 101; 110; 103; 116; 104], VNum 1)])])].

Theorem C08c_digit_first_refuted :
  cobol_name [57; 65] = true /\ digit_first [57; 65] = true /\ legal [57; 65] = false
  /\ doc dg_name dg_name dg_cobol dg_kw (build dg_tree) = dg_document
  /\ (forall fuel, valid_schema fuel dg_document = false)
  /\ valid_schema 3 (fix_anchors 3 dg_document) = true
  /\ ~ C08c_emitted_document_valid_full.
Proof.
  split; [reflexivity|]. split; [reflexivity|]. split; [reflexivity|].
  assert (R : doc dg_name dg_name dg_cobol dg_kw (build dg_tree) = dg_document) by reflexivity.
  assert (V : forall fuel, valid_schema fuel dg_document = false).
  { intros fuel. destruct (valid_schema fuel dg_document) eqn:E; [|reflexivity]. rewrite <- R in E.
    discriminate (C08c_valid_needs_legal_names dg_name dg_name dg_cobol dg_kw dg_tree fuel E 2%N (or_intror (or_introl eq_refl))). }
  split; [exact R|]. split; [exact V|]. split; [reflexivity|].
  intros H. specialize (H dg_name dg_name dg_cobol dg_kw (fun _ => 0%nat) dg_tree 5%nat).
  rewrite R, V in H. assert (E : false = true); [|discriminate]. apply H.
  - reflexivity.
  - apply NoDup_by_nodup. reflexivity.
  - intros i Hi. exact (proj1 (forallb_forall (fun i => cobol_name (dg_name i)) (ids_of dg_tree)) eq_refl i Hi).
  - intros i Hi. exists 11%N, [88]%N. reflexivity.
  - repeat constructor.
Qed.
Print Assumptions C08c_digit_first_refuted.

(* ---- non-vacuity, and every place a digit-first name can stand: the record, an elementary item, a group, a REDEFINES
   target and its redefiner, an OCCURS DEPENDING ON table and its counter:
     01 1REC.  05 9CNT PIC 9.  05 9A PIC X(4).  05 2B REDEFINES 9A PIC 9999.  05 3G.  10 1ST-NAME PIC X(10).
     05 4T PIC XX OCCURS 0 TO 5 TIMES DEPENDING ON 9CNT.  05 G5 OCCURS 2 TIMES.  10 X6 PIC S9(3) USAGE COMP-3.
   [dgx_document] is the document schema_iter of /repo emits for it, transcribed by a script (check_schema raises).
   The union is anchored REDEFINES-9A (legal); the references #9A, #2B, #9CNT are not constrained by the meta-schema. *)
Definition dgx_tree : item :=
  Group 1 Once None
   (ICons (Elem 2 1 Once None)
   (ICons (Elem 3 4 Once None)
   (ICons (Elem 4 4 Once (Some 3%N))
   (ICons (Group 5 Once None (ICons (Elem 6 10 Once None) INil))
   (ICons (Elem 7 2 (Odo 2) None)
   (ICons (Group 8 (Times 2) None (ICons (Elem 9 2 Once None) INil))
    INil)))))).
Definition dgx_name (i : id) : list N :=
  match i with
  | 1 => [49; 82; 69; 67]
  | 2 => [57; 67; 78; 84]
  | 3 => [57; 65]
  | 4 => [50; 66]
  | 5 => [51; 71]
  | 6 => [49; 83; 84; 45; 78; 65; 77; 69]
  | 7 => [52; 84]
  | 8 => [71; 53]
  | 9 => [88; 54]
  | _ => []
  end%N.
Definition dgx_cobol (i : id) : list N :=
  match i with
  | 1 => [48; 49; 32; 49; 82; 69; 67]
  | 2 => [48; 53; 32; 57; 67; 78; 84; 32; 80; 73; 67; 32; 57]
  | 3 => [48; 53; 32; 57; 65; 32; 80; 73; 67; 32; 88; 40; 52; 41]
  | 4 => [48; 53; 32; 50; 66; 32; 82; 69; 68; 69; 70; 73; 78; 69; 83; 32; 57; 65; 32; 80; 73; 67; 32; 57; 57; 57; 57]
  | 5 => [48; 53; 32; 51; 71]
  | 6 => [49; 48; 32; 49; 83; 84; 45; 78; 65; 77; 69; 32; 80; 73; 67; 32; 88; 40; 49; 48; 41]
  | 7 => [48; 53; 32; 52; 84; 32; 80; 73; 67; 32; 88; 88; 32; 79; 67; 67; 85; 82; 83; 32; 48; 32; 84; 79; 32; 53; 32; 84; 73; 77; 69; 83; 32; 68; 69; 80; 69; 78; 68; 73; 78; 71; 32; 79; 78; 32; 57; 67; 78; 84]
  | 8 => [48; 53; 32; 71; 53; 32; 79; 67; 67; 85; 82; 83; 32; 50; 32; 84; 73; 77; 69; 83]
  | 9 => [49; 48; 32; 88; 54; 32; 80; 73; 67; 32; 83; 57; 40; 51; 41; 32; 85; 83; 65; 71; 69; 32; 67; 79; 77; 80; 45; 51]
  | _ => []
  end%N.
Definition dgx_pic (i : id) : list N :=
  match i with
  | 1 => []
  | 2 => [57]
  | 3 => [88; 40; 52; 41]
  | 4 => [57; 57; 57; 57]
  | 5 => []
  | 6 => [88; 40; 49; 48; 41]
  | 7 => [88; 88]
  | 8 => []
  | 9 => [83; 57; 40; 51; 41]
  | _ => []
  end%N.
Definition dgx_usage (i : id) : N :=
  match i with
  | 1 => 11
  | 2 => 11
  | 3 => 11
  | 4 => 11
  | 5 => 11
  | 6 => 11
  | 7 => 11
  | 8 => 11
  | 9 => 8
  | _ => 11
  end%N.
Definition dgx_kw (i : id) : N * N * N :=
  match json_type (dgx_usage i) (dgx_pic i) with Ok k => k | Err _ => (0, 0, 0)%N end.
Definition dgx_document : jval :=
  VMap [([116; 105; 116; 108; 101], VText [49; 82; 69; 67]);
    ([36; 97; 110; 99; 104; 111; 114], VText [49; 82; 69; 67]);
    ([99; 111; 98; 111; 108], VText [48; 49; 32; 49; 82; 69; 67]);
    ([116; 121; 112; 101], VText [111; 98; 106; 101; 99; 116]);
    ([112; 114; 111; 112; 101; 114; 116; 105; 101; 115], VMap [([57; 67; 78; 84], VMap [([116; 105; 116; 108; 101], VText [57; 67; 78; 84]);
        ([36; 97; 110; 99; 104; 111; 114], VText [57; 67; 78; 84]);
        ([99; 111; 98; 111; 108], VText [48; 53; 32; 57; 67; 78; 84; 32; 80; 73; 67; 32; 57]);
        ([116; 121; 112; 101], VText [115; 116; 114; 105; 110; 103]);
        ([99; 111; 110; 116; 101; 110; 116; 69; 110; 99; 111; 100; 105; 110; 103], VText [99; 112; 48; 51; 55]);
        ([99; 111; 110; 118; 101; 114; 115; 105; 111; 110], VText [100; 101; 99; 105; 109; 97; 108]);
        ([109; 97; 120; 76; 101; 110; 103; 116; 104], VNum 1);
        ([109; 105; 110; 76; 101; 110; 103; 116; 104], VNum 1)]);
      ([82; 69; 68; 69; 70; 73; 78; 69; 83; 45; 57; 65], VMap [([111; 110; 101; 79; 102], VArr [VMap [([116; 105; 116; 108; 101], VText [57; 65]);
            ([36; 97; 110; 99; 104; 111; 114], VText [57; 65]);
            ([99; 111; 98; 111; 108], VText [48; 53; 32; 57; 65; 32; 80; 73; 67; 32; 88; 40; 52; 41]);
            ([116; 121; 112; 101], VText [115; 116; 114; 105; 110; 103]);
            ([99; 111; 110; 116; 101; 110; 116; 69; 110; 99; 111; 100; 105; 110; 103], VText [99; 112; 48; 51; 55]);
            ([109; 97; 120; 76; 101; 110; 103; 116; 104], VNum 4);
            ([109; 105; 110; 76; 101; 110; 103; 116; 104], VNum 4)]
          ; VMap [([116; 105; 116; 108; 101], VText [50; 66]);
            ([36; 97; 110; 99; 104; 111; 114], VText [50; 66]);
            ([99; 111; 98; 111; 108], VText [48; 53; 32; 50; 66; 32; 82; 69; 68; 69; 70; 73; 78; 69; 83; 32; 57; 65; 32; 80; 73; 67; 32; 57; 57; 57; 57]);
            ([116; 121; 112; 101], VText [115; 116; 114; 105; 110; 103]);
            ([99; 111; 110; 116; 101; 110; 116; 69; 110; 99; 111; 100; 105; 110; 103], VText [99; 112; 48; 51; 55]);
            ([99; 111; 110; 118; 101; 114; 115; 105; 111; 110], VText [100; 101; 99; 105; 109; 97; 108]);
            ([109; 97; 120; 76; 101; 110; 103; 116; 104], VNum 4);
            ([109; 105; 110; 76; 101; 110; 103; 116; 104], VNum 4)]]);
        ([36; 97; 110; 99; 104; 111; 114], VText [82; 69; 68; 69; 70; 73; 78; 69; 83; 45; 57; 65])]);
      ([57; 65], VMap [([116; 105; 116; 108; 101], VText [57; 65]);
        ([99; 111; 98; 111; 108], VText [48; 53; 32; 57; 65; 32; 80; 73; 67; 32; 88; 40; 52; 41]);
        ([36; 114; 101; 102], VText [35; 57; 65])]);
      ([50; 66], VMap [([116; 105; 116; 108; 101], VText [50; 66]);
        ([99; 111; 98; 111; 108], VText [48; 53; 32; 50; 66; 32; 82; 69; 68; 69; 70; 73; 78; 69; 83; 32; 57; 65; 32; 80; 73; 67; 32; 57; 57; 57; 57]);
        ([36; 114; 101; 102], VText [35; 50; 66])]);
      ([51; 71], VMap [([116; 105; 116; 108; 101], VText [51; 71]);
        ([36; 97; 110; 99; 104; 111; 114], VText [51; 71]);
        ([99; 111; 98; 111; 108], VText [48; 53; 32; 51; 71]);
        ([116; 121; 112; 101], VText [111; 98; 106; 101; 99; 116]);
        ([112; 114; 111; 112; 101; 114; 116; 105; 101; 115], VMap [([49; 83; 84; 45; 78; 65; 77; 69], VMap [([116; 105; 116; 108; 101], VText [49; 83; 84; 45; 78; 65; 77; 69]);
            ([36; 97; 110; 99; 104; 111; 114], VText [49; 83; 84; 45; 78; 65; 77; 69]);
            ([99; 111; 98; 111; 108], VText [49; 48; 32; 49; 83; 84; 45; 78; 65; 77; 69; 32; 80; 73; 67; 32; 88; 40; 49; 48; 41]);
            ([116; 121; 112; 101], VText [115; 116; 114; 105; 110; 103]);
            ([99; 111; 110; 116; 101; 110; 116; 69; 110; 99; 111; 100; 105; 110; 103], VText [99; 112; 48; 51; 55]);
            ([109; 97; 120; 76; 101; 110; 103; 116; 104], VNum 10);
            ([109; 105; 110; 76; 101; 110; 103; 116; 104], VNum 10)])])]);
      ([52; 84], VMap [([116; 105; 116; 108; 101], VText [52; 84]);
        ([99; 111; 98; 111; 108], VText [48; 53; 32; 52; 84; 32; 80; 73; 67; 32; 88; 88; 32; 79; 67; 67; 85; 82; 83; 32; 48; 32; 84; 79; 32; 53; 32; 84; 73; 77; 69; 83; 32; 68; 69; 80; 69; 78; 68; 73; 78; 71; 32; 79; 78; 32; 57; 67; 78; 84]);
        ([116; 121; 112; 101], VText [97; 114; 114; 97; 121]);
        ([105; 116; 101; 109; 115], VMap [([116; 121; 112; 101], VText [111; 98; 106; 101; 99; 116]);
          ([112; 114; 111; 112; 101; 114; 116; 105; 101; 115], VMap [([52; 84], VMap [([36; 97; 110; 99; 104; 111; 114], VText [52; 84]);
              ([99; 111; 98; 111; 108], VText [48; 53; 32; 52; 84; 32; 80; 73; 67; 32; 88; 88; 32; 79; 67; 67; 85; 82; 83; 32; 48; 32; 84; 79; 32; 53; 32; 84; 73; 77; 69; 83; 32; 68; 69; 80; 69; 78; 68; 73; 78; 71; 32; 79; 78; 32; 57; 67; 78; 84]);
              ([116; 121; 112; 101], VText [115; 116; 114; 105; 110; 103]);
              ([99; 111; 110; 116; 101; 110; 116; 69; 110; 99; 111; 100; 105; 110; 103], VText [99; 112; 48; 51; 55])])])]);
        ([109; 97; 120; 73; 116; 101; 109; 115; 68; 101; 112; 101; 110; 100; 115; 79; 110], VMap [([36; 114; 101; 102], VText [35; 57; 67; 78; 84])])]);
      ([71; 53], VMap [([116; 105; 116; 108; 101], VText [71; 53]);
        ([99; 111; 98; 111; 108], VText [48; 53; 32; 71; 53; 32; 79; 67; 67; 85; 82; 83; 32; 50; 32; 84; 73; 77; 69; 83]);
        ([116; 121; 112; 101], VText [97; 114; 114; 97; 121]);
        ([105; 116; 101; 109; 115], VMap [([116; 121; 112; 101], VText [111; 98; 106; 101; 99; 116]);
          ([112; 114; 111; 112; 101; 114; 116; 105; 101; 115], VMap [([88; 54], VMap [([116; 105; 116; 108; 101], VText [88; 54]);
              ([36; 97; 110; 99; 104; 111; 114], VText [88; 54]);
              ([99; 111; 98; 111; 108], VText [49; 48; 32; 88; 54; 32; 80; 73; 67; 32; 83; 57; 40; 51; 41; 32; 85; 83; 65; 71; 69; 32; 67; 79; 77; 80; 45; 51]);
              ([116; 121; 112; 101], VText [115; 116; 114; 105; 110; 103]);
              ([99; 111; 110; 116; 101; 110; 116; 69; 110; 99; 111; 100; 105; 110; 103], VText [112; 97; 99; 107; 101; 100; 45; 100; 101; 99; 105; 109; 97; 108]);
              ([99; 111; 110; 118; 101; 114; 115; 105; 111; 110], VText [100; 101; 99; 105; 109; 97; 108]);
              ([109; 97; 120; 76; 101; 110; 103; 116; 104], VNum 2);
              ([109; 105; 110; 76; 101; 110; 103; 116; 104], VNum 2)])])]);
        ([109; 97; 120; 73; 116; 101; 109; 115], VNum 2);
        ([36; 97; 110; 99; 104; 111; 114], VText [71; 53])])])].

(* every hypothesis of the full statement holds of it (COBOL data names all of them) ... *)
Example C08c_digit_example_hypotheses :
  wf8 (fun _ => 0%nat) dgx_tree = true /\ NoDup (ids_of dgx_tree)
  /\ (forall i, In i (ids_of dgx_tree) -> cobol_name (dgx_name i) = true)
  /\ (forall i, In i (elem_ids dgx_tree) -> exists u txt, json_type u txt = Ok (dgx_kw i))
  /\ idepth dgx_tree = 3%nat
  /\ map (fun i => digit_first (dgx_name i)) (ids_of dgx_tree) = [true; true; true; true; true; true; true; false; false].
Proof.
  split; [reflexivity|]. split; [apply NoDup_by_nodup; reflexivity|].
  split; [intros i Hi; exact (proj1 (forallb_forall (fun i => cobol_name (dgx_name i)) (ids_of dgx_tree)) eq_refl i Hi)|].
  split; [|split; reflexivity].
  intros i Hi. exists (dgx_usage i), (dgx_pic i).
  pose proof (proj1 (forallb_forall (fun i => match json_type (dgx_usage i) (dgx_pic i) with Ok _ => true | Err _ => false end)
                       (elem_ids dgx_tree)) eq_refl i Hi) as H.
  cbv beta in H. unfold dgx_kw. destruct (json_type (dgx_usage i) (dgx_pic i)); [reflexivity|discriminate].
Qed.

(* ... its rendering IS the document /repo emits; the document is invalid; with the digit-first anchors prefixed by an
   underscore and nothing else changed it is valid: the anchors are all the meta-schema refuses *)
Example C08c_digit_example_rendering :
  doc dgx_name dgx_name dgx_cobol dgx_kw (build dgx_tree) = dgx_document
  /\ valid_schema 7 dgx_document = false
  /\ valid_schema 7 (fix_anchors 7 dgx_document) = true.
Proof. repeat split; reflexivity. Qed.

(* by the boundary theorem: the letter-first spelling of the same description is valid, the digit-first one is not *)
Example C08c_digit_example_by_theorem :
  valid_schema 7 (doc dgx_name dgx_name dgx_cobol dgx_kw (build dgx_tree)) = false
  /\ valid_schema 7 (doc (fun i => 78%N :: dgx_name i) dgx_name dgx_cobol dgx_kw (build dgx_tree)) = true.
Proof.
  destruct C08c_digit_example_hypotheses as [A [B [C [D _]]]].
  assert (F : (2 * idepth dgx_tree + 1 <= 7)%nat) by repeat constructor.
  split.
  - destruct (valid_schema 7 (doc dgx_name dgx_name dgx_cobol dgx_kw (build dgx_tree))) eqn:E; [|reflexivity].
    discriminate (proj1 (C08c_valid_iff_no_digit_first dgx_name dgx_name dgx_cobol dgx_kw (fun _ => 0%nat) dgx_tree 7 A B C D F) E
                   1%N (or_introl eq_refl)).
  - apply (proj2 (C08c_valid_iff_names_legal (fun i => 78%N :: dgx_name i) dgx_name dgx_cobol dgx_kw (fun _ => 0%nat) dgx_tree 7 A B D F)).
    intros i Hi. exact (proj1 (forallb_forall (fun i => legal (78%N :: dgx_name i)) (ids_of dgx_tree)) eq_refl i Hi).
Qed.
