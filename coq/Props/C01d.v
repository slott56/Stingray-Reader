(* C01, companion - what the hypothesis [wf] of the layout theorems (C01_layout, C01c_layout, and through them C06 / C08 / C10 /
   C07c / C12d) EXCLUDES, exclusion by exclusion, and the one exclusion that hid a defect: a REDEFINES whose target is itself a
   redefining item.  Only property theorems; the lemmas they rest on are in Proofs/LayoutChainP.v.  No engine of its own: the model
   is C01's (Model/Layout.v, tied to /repo by the correspondence run of ./check C01, whose stream redefines-chain feeds such record
   descriptions to the real code and compares the emitted schema and every navigation path with the model).

   Property text: a REDEFINES item begins where the item it redefines begins and adds no length.

   [wf_base t] (Spec/LayoutChainWf.v) is the structural minimum: no OCCURS DEPENDING ON (C06's theorems), and every REDEFINES names
   a sibling declared BEFORE it - any earlier sibling.  [wf e t] implies it (C01d_wf_implies_base).  Under it, and with distinct
   sibling names, [wf] fails EXACTLY on four shapes (C01d_unions_ok_exact):

   1. a REDEFINES directly inside a repeated (OCCURS) group             Model/Layout.v build_raises
        known finding K-redef-in-occurs: schema generation raises KeyError.
   2. an elementary OCCURS item that is redefined or redefines           Judge/JLayoutCommon.v occurs_elem_in_union
        known finding K-occurs-elem-in-union: reached by name as its first element.
   3. a REDEFINES whose target is itself a redefiner                     Judge/JLayoutCommon.v chained_redef
        05 A PIC X(4).  05 B REDEFINES A PIC 9(4).  05 C REDEFINES B PIC XX.  05 D PIC X.
        Legal COBOL since the 2002 standard (COBOL 85 demanded the name of the original item) and accepted by /repo without an error.
        structure() overwrites B's REDEFINES clause with B's own name when it meets C, so build_json_schema files B and C under a NEW
        oneOf REDEFINES-B placed after REDEFINES-A: A 0-4, B 4-8, C 4-6, D 8-9, record length 9, where COBOL puts B and C at 0, D at 4
        and makes the record 5 long.  Known finding K-redefines-of-redefiner (judge code 5 of JC01); C01d_chain_full - the conclusion
        of C01c_layout with this exclusion dropped and the other three kept - is refuted by that witness (C01d_chain_full_refuted,
        C01d_refuted_5; three links and a chain in a nested group whose first member is a group: C01d_example_three_links,
        C01d_example_nested).
   4. a redefiner longer than the sibling it names                       Spec/LayoutChainWf.v longer_redefiner
        05 A PIC X(2).  05 B REDEFINES A PIC 9(4).  05 D PIC X.
        NOT a finding, and not proved either: by ISO COBOL this is no record description (COBOL 85: below level 01 the two items have
        the same size; COBOL 2002: the redefining item is not larger), so the property text, which gives a redefiner no length of its
        own, has nothing to say about where D begins; the one place the standard allows it, level 01, is a REDEFINES on the record
        itself, which build_json_schema ignores (no parent) and [wf] does not look at.  Compilers that accept the shape as an
        extension allocate the LARGEST alternative, and that is what the code does (max over the oneOf): A 0-2, B 0-4, D 4-5, length 5
        (C01d_example_longer_is_max; model and code were compared on such shapes by the second audit) - whereas Spec/Layout.v, written
        from "adds no length", would put D at 2.  A layout theorem for these shapes needs a second specification (storage of a union =
        its longest member); it is not written, and [wf] keeps the shape out of every layout theorem.

   Outside the four shapes the layout theorem holds (C01d_layout_outside: C01c_layout restated with the four exclusions spelled out
   instead of [wf]). *)
From Coq Require Import List Arith NArith Bool.
Import ListNotations.
Require Import SR.Base.Res SR.Spec.Layout SR.Model.Layout SR.Proofs.LayoutP SR.Proofs.LayoutNamesP.
Require Import SR.Spec.LayoutChainWf SR.Proofs.LayoutChainP.
Require SR.Judge.JLayoutCommon.

(* 1. what wf excludes, exactly *)
Theorem C01d_unions_ok_exact : forall (e : env) (t : item),
  wf_base t = true -> siblings_distinct t = true ->
  wf e t = negb (build_raises t || JLayoutCommon.occurs_elem_in_union t || JLayoutCommon.chained_redef t || longer_redefiner e t).
Proof. exact (fun e => proj1 (wf_exact e)). Qed.
Print Assumptions C01d_unions_ok_exact.

Theorem C01d_wf_implies_base : forall (e : env) (t : item), wf e t = true -> wf_base t = true.
Proof. exact (fun e => proj1 (wf_wf_base e)). Qed.
Print Assumptions C01d_wf_implies_base.

(* 2. the layout theorem with the four exclusions spelled out *)
Theorem C01d_layout_outside : forall (B : Type) (dcount : list B -> nat) (r : list B) (e : env) (t : item),
  wf_base t = true -> build_raises t = false -> JLayoutCommon.occurs_elem_in_union t = false -> longer_redefiner e t = false ->
  JLayoutCommon.chained_redef t = false ->
  siblings_distinct t = true -> anchored_names_unique t = true ->
  exists v0, nav_of dcount r (build t) = Ok v0
    /\ lstart (n_loc v0) = 0 /\ lend (n_loc v0) = extent e t
    /\ forall p v st, spec_nav e (VItem t) 0 p = inl (v, st) ->
         exists nv, nav_path dcount r v0 p = Ok nv
           /\ lstart (n_loc nv) = st /\ lend (n_loc nv) = st + view_size e v
           /\ nav_raw r nv = slice r st (st + view_size e v).
Proof.
  intros B dcount r e t Hb H1 H2 H3 H4 Hsd Han. apply layout_correct_names; try assumption.
  rewrite (proj1 (wf_exact e) t Hb Hsd), H1, H2, H3, H4. reflexivity.
Qed.
Print Assumptions C01d_layout_outside.

(* 3. the same statement WITHOUT the exclusion of chained redefinition, kept visible; the faithful model refutes it *)
Definition C01d_chain_full : Prop :=
  forall (B : Type) (dcount : list B -> nat) (r : list B) (e : env) (t : item),
  wf_base t = true -> build_raises t = false -> JLayoutCommon.occurs_elem_in_union t = false -> longer_redefiner e t = false ->
  siblings_distinct t = true -> anchored_names_unique t = true ->
  exists v0, nav_of dcount r (build t) = Ok v0
    /\ lstart (n_loc v0) = 0 /\ lend (n_loc v0) = extent e t
    /\ forall p v st, spec_nav e (VItem t) 0 p = inl (v, st) ->
         exists nv, nav_path dcount r v0 p = Ok nv
           /\ lstart (n_loc nv) = st /\ lend (n_loc nv) = st + view_size e v
           /\ nav_raw r nv = slice r st (st + view_size e v).

Theorem C01d_chain_full_refuted : ~ C01d_chain_full.
Proof.
  intros H.
  destruct (H unit (fun _ => 0) [] (fun _ => 0) chain_tree eq_refl eq_refl eq_refl eq_refl eq_refl eq_refl)
    as (v0 & Hnav & _ & Hend & _).
  vm_compute in Hnav. injection Hnav as <-. vm_compute in Hend. discriminate.
Qed.
Print Assumptions C01d_chain_full_refuted.

(* the witness of K-redefines-of-redefiner: 01 REC. 05 A PIC X(4). 05 B REDEFINES A PIC 9(4). 05 C REDEFINES B PIC XX. 05 D PIC X.
   (REC=1 A=2 B=3 C=4 D=5).  It satisfies every hypothesis of C01d_chain_full, the judge's trigger holds, [wf] fails; the schema is
   REDEFINES-A oneOf [A], A, REDEFINES-B oneOf [B, C], B, C, D; the COBOL rules put REC, A, B, C, D at 0-5, 0-4, 0-4, 0-2, 4-5 and
   navigation lands on 0-9, 0-4, 4-8, 4-6, 8-9. *)
Theorem C01d_refuted_5 :
  wf_base chain_tree = true /\ build_raises chain_tree = false /\ JLayoutCommon.occurs_elem_in_union chain_tree = false
  /\ longer_redefiner (fun _ => 0) chain_tree = false
  /\ siblings_distinct chain_tree = true /\ anchored_names_unique chain_tree = true
  /\ JLayoutCommon.chained_redef chain_tree = true /\ wf (fun _ => 0) chain_tree = false
  /\ build chain_tree =
       JObj (Some (KName 1%N))
         (PCons (KRedef 2%N) (JOne (Some (KRedef 2%N)) (ACons (JAtom (Some (KName 2%N)) 4) ANil))
         (PCons (KName 2%N) (JRef (KName 2%N))
         (PCons (KRedef 3%N) (JOne (Some (KRedef 3%N)) (ACons (JAtom (Some (KName 3%N)) 4) (ACons (JAtom (Some (KName 4%N)) 2) ANil)))
         (PCons (KName 3%N) (JRef (KName 3%N))
         (PCons (KName 4%N) (JRef (KName 4%N))
         (PCons (KName 5%N) (JAtom (Some (KName 5%N)) 1) PNil))))))
  /\ map (spec_range chain_tree) [[]; [PName 2%N]; [PName 3%N]; [PName 4%N]; [PName 5%N]]
     = [Some (0, 5); Some (0, 4); Some (0, 4); Some (0, 2); Some (4, 5)]
  /\ map (nav_range chain_tree) [[]; [PName 2%N]; [PName 3%N]; [PName 4%N]; [PName 5%N]]
     = [Some (0, 9); Some (0, 4); Some (4, 8); Some (4, 6); Some (8, 9)].
Proof. vm_compute. repeat split; reflexivity. Qed.
Print Assumptions C01d_refuted_5.

(* three links A <- B <- C <- D: every redefined redefiner opens another union, each placed after the one before
   (REC, A, B, C, D, E: COBOL 0-5, 0-4, 0-4, 0-3, 0-2, 4-5; the code 0-12, 0-4, 4-8, 8-11, 8-10, 11-12) *)
Example C01d_example_three_links :
  wf_base chain3_tree = true /\ JLayoutCommon.chained_redef chain3_tree = true
  /\ map (spec_range chain3_tree) [[]; [PName 2%N]; [PName 3%N]; [PName 4%N]; [PName 5%N]; [PName 6%N]]
     = [Some (0, 5); Some (0, 4); Some (0, 4); Some (0, 3); Some (0, 2); Some (4, 5)]
  /\ map (nav_range chain3_tree) [[]; [PName 2%N]; [PName 3%N]; [PName 4%N]; [PName 5%N]; [PName 6%N]]
     = [Some (0, 12); Some (0, 4); Some (4, 8); Some (8, 11); Some (8, 10); Some (11, 12)].
Proof. vm_compute. repeat split; reflexivity. Qed.

(* the chain inside a nested group, its first member a group:
   01 REC. 05 H PIC X. 05 G. 10 A. 15 A1 PIC XX. 15 A2 PIC XX. 10 B REDEFINES A PIC 9(4). 10 C REDEFINES B PIC XX. 10 D PIC X. 05 T PIC X.
   paths REC, H, G, G.A, G.A.A2, G.B, G.C, G.D, T *)
Example C01d_example_nested :
  wf_base chain_nested_tree = true /\ JLayoutCommon.chained_redef chain_nested_tree = true
  /\ map (spec_range chain_nested_tree)
       [[]; [PName 2%N]; [PName 3%N]; [PName 3%N; PName 4%N]; [PName 3%N; PName 4%N; PName 6%N]; [PName 3%N; PName 7%N];
        [PName 3%N; PName 8%N]; [PName 3%N; PName 9%N]; [PName 10%N]]
     = [Some (0, 7); Some (0, 1); Some (1, 6); Some (1, 5); Some (3, 5); Some (1, 5); Some (1, 3); Some (5, 6); Some (6, 7)]
  /\ map (nav_range chain_nested_tree)
       [[]; [PName 2%N]; [PName 3%N]; [PName 3%N; PName 4%N]; [PName 3%N; PName 4%N; PName 6%N]; [PName 3%N; PName 7%N];
        [PName 3%N; PName 8%N]; [PName 3%N; PName 9%N]; [PName 10%N]]
     = [Some (0, 11); Some (0, 1); Some (1, 10); Some (1, 5); Some (3, 5); Some (5, 9); Some (5, 7); Some (9, 10); Some (10, 11)].
Proof. vm_compute. repeat split; reflexivity. Qed.

(* 4. a redefiner longer than its target: 01 REC. 05 A PIC X(2). 05 B REDEFINES A PIC 9(4). 05 D PIC X.   (REC=1 A=2 B=3 D=4)
   only this exclusion holds; the union is as long as its LONGEST alternative (REC 0-5, A 0-2, B 0-4, D 4-5), where Spec/Layout.v
   - a redefiner adds no length - would say REC 0-3 and D 2-3 *)
Example C01d_example_longer_is_max :
  wf_base longer_tree = true /\ longer_redefiner (fun _ => 0) longer_tree = true /\ JLayoutCommon.chained_redef longer_tree = false
  /\ wf (fun _ => 0) longer_tree = false
  /\ map (nav_range longer_tree) [[]; [PName 2%N]; [PName 3%N]; [PName 4%N]] = [Some (0, 5); Some (0, 2); Some (0, 4); Some (4, 5)]
  /\ map (spec_range longer_tree) [[]; [PName 2%N]; [PName 3%N]; [PName 4%N]] = [Some (0, 3); Some (0, 2); Some (0, 4); Some (2, 3)].
Proof. vm_compute. repeat split; reflexivity. Qed.

(* 5. Non-vacuity.
   Each of the four exclusions occurs alone on a record description that satisfies the hypotheses of C01d_unions_ok_exact:
     01 R. 05 T OCCURS 2. 10 A PIC X. 10 B REDEFINES A PIC X.           (witness of K-redef-in-occurs)
     01 R. 05 A OCCURS 2 PIC XX. 05 B REDEFINES A PIC X(4).              (witness of K-occurs-elem-in-union)
     chain_tree, longer_tree *)
Definition ex_redef_in_occurs : item :=
  Group 1%N Once None (ICons (Group 2%N (Times 2) None (ICons (Elem 3%N 1 Once None) (ICons (Elem 4%N 1 Once (Some 3%N)) INil))) INil).
Definition ex_occurs_elem_in_union : item :=
  Group 1%N Once None (ICons (Elem 2%N 2 (Times 2) None) (ICons (Elem 3%N 4 Once (Some 2%N)) INil)).

(* the four exclusions, in the order of the head comment *)
Definition four (e : env) (t : item) : list bool :=
  [build_raises t; JLayoutCommon.occurs_elem_in_union t; JLayoutCommon.chained_redef t; longer_redefiner e t].

Example C01d_example_each_exclusion_alone :
  forallb (fun t => wf_base t && siblings_distinct t && negb (wf (fun _ => 0) t))
    [ex_redef_in_occurs; ex_occurs_elem_in_union; chain_tree; longer_tree] = true
  /\ four (fun _ => 0) ex_redef_in_occurs = [true; false; false; false]
  /\ four (fun _ => 0) ex_occurs_elem_in_union = [false; true; false; false]
  /\ four (fun _ => 0) chain_tree = [false; false; true; false]
  /\ four (fun _ => 0) longer_tree = [false; false; false; true].
Proof. vm_compute. repeat split; reflexivity. Qed.

(* the hypotheses of C01d_layout_outside are satisfiable: the record of C01_example
   01 R. 05 A X(3). 05 B X(4). 05 C REDEFINES B X(2). 05 T OCCURS 2. 10 U X(1). 10 V X(2). 05 D X(2). *)
Definition ex_plain : item :=
  Group 1%N Once None
    (ICons (Elem 2%N 3 Once None) (ICons (Elem 3%N 4 Once None) (ICons (Elem 4%N 2 Once (Some 3%N))
    (ICons (Group 5%N (Times 2) None (ICons (Elem 6%N 1 Once None) (ICons (Elem 7%N 2 Once None) INil)))
    (ICons (Elem 8%N 2 Once None) INil))))).

Example C01d_example_outside :
  wf_base ex_plain = true /\ four (fun _ => 0) ex_plain = [false; false; false; false]
  /\ siblings_distinct ex_plain = true /\ anchored_names_unique ex_plain = true /\ wf (fun _ => 0) ex_plain = true
  /\ spec_range ex_plain [PName 4%N] = Some (3, 5) /\ nav_range ex_plain [PName 4%N] = Some (3, 5)
  /\ spec_range ex_plain [PName 8%N] = Some (13, 15) /\ nav_range ex_plain [PName 8%N] = Some (13, 15).
Proof. vm_compute. repeat split; reflexivity. Qed.
