(* C06, second layer - the theorems of Props/C06.v with the counter decoder the code really uses.
   Companion of Props/C06.v; only property theorems, each the theorem of Props/C06.v it names applied to
   [dcount_zoned] through Proofs/CountersP.v (stored counters hold).  No engine of its own.

   Props/C06.v is stated for an ARBITRARY total [dcount : list B -> nat] and the hypothesis
   [counters_hold dcount e t r] (the bytes at each counter's place DECODE to e(counter)): true of any
   decoder, but silent about whether the one in the code turns the bytes a mainframe stores into the
   number that was stored.  Here
     dcount_zoned          (Model/ZonedCounter.v) int(estruct.unpack(<unsigned DISPLAY picture of the field's
                           length>, bytes)) - what LocationMaker.walk computes for a DependsOnArraySchema on an
                           EBCDIC record;
     stores_count bs k     (Spec/ZonedCounter.v) bs is the zoned-decimal image (Spec/Encode.v, enc_zoned) of a
                           digit string of 1..28 digits whose value is k, with a positive zone (F, C, A or E);
     counters_stored e t r the bytes the specification assigns to each counter of t store e(counter).
   By C02's zoned round trip (C02c_counter_roundtrip) [counters_stored] implies [counters_hold dcount_zoned],
   so each theorem below has a hypothesis about the ENCODER only and a conclusion about the model of the code
   with the real decoder: the number of occurrences is the number that was stored.

   Outside: a counter whose bytes are not digits (the code raises, the total model counts 0) and a negative
   counter (zone D or B: Python's int is negative); see Model/ZonedCounter.v.  C06c_layout (general form) keeps
   C06_layout's hypothesis [Holds], instantiated: every non-repeated elementary item - a potential counter -
   decodes under dcount_zoned to e(item). *)
From Coq Require Import NArith List.
Import ListNotations.
Require Import SR.Base.Res SR.Gen.RecfmParams SR.Spec.Recfm SR.Model.Recfm.
Require Import SR.Spec.Layout SR.Model.Layout SR.Spec.OdoStream SR.Model.OdoStream.
Require Import SR.Proofs.LayoutP SR.Proofs.LayoutOdoP SR.Props.C06.
Require Import SR.Model.ZonedCounter SR.Spec.ZonedCounter SR.Proofs.CountersP.
Open Scope nat_scope.

(* a field that stores k decodes to k; a record that stores its count vector is one on which the counters hold *)
Theorem C06c_counter_decodes : forall (bs : list N) (k : nat), stores_count bs k -> dcount_zoned bs = k.
Proof. exact stores_count_decodes. Qed.
Print Assumptions C06c_counter_decodes.

Theorem C06c_counters_stored_hold : forall (e : env) (t : item) (r : list N),
  counters_stored e t r -> counters_hold dcount_zoned e t r.
Proof. exact (stored_by_hold dcount_zoned stores_count stores_count_decodes). Qed.
Print Assumptions C06c_counters_stored_hold.

(* (1) ONE record: C06_layout_flat *)
Theorem C06c_layout_flat : forall (t : item) (e : env) (r : list N),
  flat_odo t = true -> counters_stored e t r ->
  exists v, nav_of dcount_zoned r (build t) = Ok v
    /\ lstart (n_loc v) = 0 /\ lend (n_loc v) = extent e t
    /\ forall k x, find_kid (item_kids t) k = Some x ->
       exists o vk, kid_start e (item_kids t) k = Some o
         /\ nav_name v (KName k) = Ok vk
         /\ lstart (n_loc vk) = o /\ lsize (n_loc vk) = extent e x
         /\ (is_table x = true ->
               (exists sub sch, n_loc vk = LArr o (extent e x) (ext1 e x) (count e (item_oc x)) sub sch)
               /\ (forall i, i < count e (item_oc x) ->
                     exists vi, nav_index dcount_zoned r vk i = Ok vi
                       /\ lstart (n_loc vi) = o + i * ext1 e x /\ lsize (n_loc vi) = ext1 e x)
               /\ (forall i, count e (item_oc x) <= i -> nav_index dcount_zoned r vk i = Err IndexError)).
Proof. intros t e r Hf Hc. apply C06_layout_flat; [exact Hf|exact (C06c_counters_stored_hold e t r Hc)]. Qed.
Print Assumptions C06c_layout_flat.

(* (1b) inside an occurrence: C06_layout_flat_occurrence *)
Theorem C06c_layout_flat_occurrence : forall (t : item) (e : env) (r : list N),
  flat_odo t = true -> counters_stored e t r ->
  exists v, nav_of dcount_zoned r (build t) = Ok v
    /\ forall k x, find_kid (item_kids t) k = Some x -> is_table x = true ->
       exists o vk, kid_start e (item_kids t) k = Some o /\ nav_name v (KName k) = Ok vk
         /\ forall i, i < count e (item_oc x) ->
            exists vi, nav_index dcount_zoned r vk i = Ok vi
              /\ match x with
                 | Elem n sz _ _ => exists vj, nav_name vi (KName n) = Ok vj /\ n_loc vj = LAtom (o + i * sz) sz
                 | Group _ _ _ gks =>
                     forall j y, find_kid gks j = Some y ->
                       exists oj vj, kid_start e gks j = Some oj /\ nav_name vi (KName j) = Ok vj
                         /\ n_loc vj = LAtom (o + i * ext1 e x + oj) (extent e y)
                 end.
Proof. intros t e r Hf Hc. apply C06_layout_flat_occurrence; [exact Hf|exact (C06c_counters_stored_hold e t r Hc)]. Qed.
Print Assumptions C06c_layout_flat_occurrence.

(* frame: C06_frame *)
Theorem C06c_frame : forall (t : item) (e : env) (r more : list N),
  flat_odo t = true -> extent e t <= length r -> counters_stored e t r ->
  nav_of dcount_zoned (r ++ more) (build t) = nav_of dcount_zoned r (build t).
Proof. intros t e r more Hf Hl Hc. apply (C06_frame N dcount_zoned t e); [exact Hf|exact Hl|exact (C06c_counters_stored_hold e t r Hc)]. Qed.
Print Assumptions C06c_frame.

(* (2) files: C06_stream_N_any_buffer, C06_stream_N, C06_stream_V, C06_stream_VB, C06_stream_F *)
Theorem C06c_stream_N_any_buffer : forall (B : nat) (kind : N) (t : item) (es : list env) (rs : list (list N)),
  0 < B -> flat_odo t = true ->
  Forall2 (fun e r => length r = extent e t /\ counters_stored e t r) es rs ->
  legal_N B rs = true ->
  exists rows s',
    row_loop dcount_zoned (S (length (write_N rs))) 0 kind B (build t) (N_init B (write_N rs)) = (rows, Done, s')
    /\ map (@row_buf N) rows = spec_bufs B (write_N rs) (map (@length N) rs)
    /\ heads (map (@length N) rs) (map (@row_buf N) rows) = rs
    /\ Forall2 (fun rw r => nav_of dcount_zoned r (build t) = Ok (row_nav rw)) rows rs
    /\ Forall2 (fun rw e => lend (n_loc (row_nav rw)) = extent e t) rows es
    /\ buf s' = [] /\ rest s' = [].
Proof. intros B kind t es rs HB Hf HF HL. apply C06_stream_N_any_buffer; [exact HB|exact Hf|exact (recs_stored_by_ok dcount_zoned stores_count stores_count_decodes t es rs HF)|exact HL]. Qed.
Print Assumptions C06c_stream_N_any_buffer.

Theorem C06c_stream_N : forall (kind : N) (lrecl : nat) (t : item) (es : list env) (rs : list (list N)),
  0 < lrecl -> flat_odo t = true ->
  Forall2 (fun e r => length r = extent e t /\ counters_stored e t r) es rs ->
  legal_N (N.to_nat buffer_size) rs = true ->
  exists rows s',
    rows_N dcount_zoned kind (Some lrecl) (build t) (write_N rs) = Ok (rows, Done, s')
    /\ map (@row_buf N) rows = spec_bufs (N.to_nat buffer_size) (write_N rs) (map (@length N) rs)
    /\ heads (map (@length N) rs) (map (@row_buf N) rows) = rs
    /\ Forall2 (fun rw r => nav_of dcount_zoned r (build t) = Ok (row_nav rw)) rows rs
    /\ Forall2 (fun rw e => lend (n_loc (row_nav rw)) = extent e t) rows es
    /\ buf s' = [] /\ rest s' = [].
Proof. intros kind lrecl t es rs _ Hf HF HL. apply C06_stream_N; [exact Hf|exact (recs_stored_by_ok dcount_zoned stores_count stores_count_decodes t es rs HF)|exact HL]. Qed.
Print Assumptions C06c_stream_N.

Theorem C06c_stream_V : forall (kind : N) (lrecl : nat) (t : item) (es : list env) (rs : list (list N)),
  0 < lrecl -> flat_odo t = true ->
  Forall2 (fun e r => length r = extent e t /\ counters_stored e t r) es rs ->
  legal_V rs = true ->
  exists rows,
    rows_V dcount_zoned kind (Some lrecl) (build t) (write_V rs) = Ok (rows, Done)
    /\ map (@row_buf N) rows = rs
    /\ Forall2 (fun rw r => nav_of dcount_zoned r (build t) = Ok (row_nav rw)) rows rs
    /\ Forall2 (fun rw e => lend (n_loc (row_nav rw)) = extent e t) rows es.
Proof. intros kind lrecl t es rs _ Hf HF HL. apply C06_stream_V; [exact Hf|exact (recs_stored_by_ok dcount_zoned stores_count stores_count_decodes t es rs HF)|exact HL]. Qed.
Print Assumptions C06c_stream_V.

Theorem C06c_stream_VB : forall (kind : N) (lrecl : nat) (t : item) (ess : list (list env)) (blocks : list (list (list N))),
  0 < lrecl -> flat_odo t = true ->
  Forall2 (Forall2 (fun e r => length r = extent e t /\ counters_stored e t r)) ess blocks ->
  legal_VB blocks = true ->
  exists rows,
    rows_VB dcount_zoned kind (Some lrecl) (build t) (write_VB blocks) = Ok (rows, Done)
    /\ map (@row_buf N) rows = concat blocks
    /\ Forall2 (fun rw r => nav_of dcount_zoned r (build t) = Ok (row_nav rw)) rows (concat blocks)
    /\ Forall2 (fun rw e => lend (n_loc (row_nav rw)) = extent e t) rows (concat ess).
Proof. intros kind lrecl t ess blocks _ Hf HF HL. apply C06_stream_VB; [exact Hf|exact (blocks_stored_by_ok dcount_zoned stores_count stores_count_decodes t ess blocks HF)|exact HL]. Qed.
Print Assumptions C06c_stream_VB.

Theorem C06c_stream_F : forall (kind : N) (lrecl : nat) (t : item) (es : list env) (rs ps : list (list N)),
  flat_odo t = true ->
  Forall2 (fun e r => length r = extent e t /\ counters_stored e t r) es rs ->
  Forall2 (fun r p => exists more, p = r ++ more) rs ps ->
  legal_F lrecl ps = true ->
  exists rows,
    rows_F dcount_zoned kind (Some lrecl) (build t) (write_F ps) = Ok (rows, Done)
    /\ map (@row_buf N) rows = ps
    /\ Forall2 (fun rw r => nav_of dcount_zoned r (build t) = Ok (row_nav rw)) rows rs
    /\ Forall2 (fun rw e => lend (n_loc (row_nav rw)) = extent e t) rows es.
Proof.
  intros kind lrecl t es rs ps Hf HF HP HL.
  apply (C06_stream_F dcount_zoned kind lrecl t es rs ps); [exact Hf|exact (recs_stored_by_ok dcount_zoned stores_count stores_count_decodes t es rs HF)|exact HP|exact HL].
Qed.
Print Assumptions C06c_stream_F.

(* general form: C06_layout *)
Theorem C06c_layout : forall (r : list N) (e : env) (t : item),
  wfo e [] t = true -> NoDup (ids t) -> Holds N dcount_zoned r e t 0 ->
  exists v0, nav_of dcount_zoned r (build t) = Ok v0
    /\ lstart (n_loc v0) = 0 /\ lend (n_loc v0) = extent e t
    /\ forall p v st, spec_nav e (VItem t) 0 p = inl (v, st) ->
         exists nv, nav_path dcount_zoned r v0 p = Ok nv
           /\ lstart (n_loc nv) = st /\ lend (n_loc nv) = st + view_size e v
           /\ nav_raw r nv = slice r st (st + view_size e v)
           /\ (forall x, v = VItem x -> is_table x = true ->
                 forall i, count e (item_oc x) <= i -> nav_index dcount_zoned r nv i = Err IndexError).
Proof. exact (C06_layout N dcount_zoned). Qed.
Print Assumptions C06c_layout.

(* non-vacuity *)

(* F0 F7 stores 7; so does F0 C7 *)
Example C06c_stores_example :
  stores_count [240; 247]%N 7 /\ stores_count [240; 199]%N 7 /\ dcount_zoned [240; 247]%N = 7.
Proof.
  split; [|split; [|reflexivity]].
  - apply (stores_intro [0; 7]%N 15%N); try reflexivity; [discriminate|repeat constructor|cbn; auto].
  - apply (stores_intro [0; 7]%N 12%N); try reflexivity; [discriminate|repeat constructor|cbn; auto].
Qed.

(* the two records of Spec/OdoStream.v (counters F0 F2 / F1 and F0 F0 / F0) store their count vectors *)
Example C06c_record_example :
  counters_stored ex_e1 ex_tree ex_r1 /\ length ex_r1 = extent ex_e1 ex_tree
  /\ counters_stored ex_e2 ex_tree ex_r2 /\ length ex_r2 = extent ex_e2 ex_tree
  /\ length ex_r1 <> length ex_r2.
Proof. exact ex_records_stored. Qed.

Example C06c_stream_example :
  Forall2 (fun e r => length r = extent e ex_tree /\ counters_stored e ex_tree r) [ex_e1; ex_e2; ex_e1] [ex_r1; ex_r2; ex_r1]
  /\ Forall2 (Forall2 (fun e r => length r = extent e ex_tree /\ counters_stored e ex_tree r))
       [[ex_e1; ex_e2]; [ex_e1]] [[ex_r1; ex_r2]; [ex_r1]]
  /\ legal_N 32 [ex_r1; ex_r2; ex_r1] = true /\ legal_N (N.to_nat buffer_size) [ex_r1; ex_r2; ex_r1] = true
  /\ legal_V [ex_r1; ex_r2; ex_r1] = true /\ legal_VB [[ex_r1; ex_r2]; [ex_r1]] = true.
Proof.
  destruct ex_records_stored as (C1 & L1 & C2 & L2 & _).
  split; [repeat constructor; assumption|]. split; [repeat constructor; assumption|].
  repeat split; vm_compute; reflexivity.
Qed.

(* general form: the tree of C06_layout_example with N = 2 stored as F2, the other non-repeated elementary items
   (A, Z) blank (EBCDIC spaces decode to 0, which is what odo_env gives them) *)
Definition odo_rec : list N := ([242] ++ [64; 64] ++ [193; 194; 195; 196; 197; 198] ++ [231; 232] ++ [64; 64])%N.

Example C06c_layout_example :
  wfo odo_env [] odo_tree = true /\ NoDup (ids odo_tree)
  /\ Holds N dcount_zoned odo_rec odo_env odo_tree 0 /\ length odo_rec = extent odo_env odo_tree.
Proof.
  split; [reflexivity|]. split; [cbn; repeat constructor; cbn; intuition discriminate|]. split; [|reflexivity].
  cbn -[dcount_zoned odo_rec].
  repeat match goal with
         | |- _ /\ _ => split
         | |- exists _, _ => eexists; split; [reflexivity|]
         | |- True => exact I
         end; vm_compute; reflexivity.
Qed.
