(* C17, companion: the property's last clause - "any non-empty spreadsheet heading, including one containing line breaks,
   can become a column of a heading-row schema that passes schema validation" - over the model of
   HeadingRowSchemaLoader.header (Model/HeaderRow.v; its keyword list, key expression and enumerate start are regenerated
   from the source on every run, Gen/HeaderRowParams.v) composed with the name_cleaner model.
   What validation demands of such a property beyond this ($anchor matching the anchor pattern, type a known type name,
   title any value, position an unknown keyword) is the real validator's business and is decided on every generated heading
   by the correspondence run of ./check C17 (Draft202012Validator.check_schema on the schema the real loader builds). *)
From Coq Require Import NArith List.
Import ListNotations.
Require Import SR.Base.Res SR.Spec.Anchor SR.Model.HeaderRow SR.Proofs.HeaderRowP SR.Proofs.HeadingAnchorP.

(* For EVERY non-empty text heading, at any column, the loader's property carries the heading as title, type string, its
   column as position and a LEGAL $anchor, namely the cleaned heading. *)
Theorem C17c_heading_property_legal : forall (n : nat) (t : key) (f : key -> res (option cell)),
  t <> [] ->
  exists a,
    eval_props (mk_env (Some (Txt t)) n f) hdr_props
      = Ok [(k_title, V_cell (Some (Txt t))); (k_anchor, V_text a); (k_type, V_text k_string); (k_position, V_int n)]
    /\ anchor_of t = Ok a /\ legal a = true.
Proof.
  intros n t f Ht. destruct (anchor_of_spec t) as (a & Ha & Hl). exists a. split; [|split; [exact Ha|exact (Hl Ht)]].
  destruct rule_heading_property as [_ ->].
  cbn [eval_props eval en_item en_count bind str_val str_of]. rewrite Ha. reflexivity.
Qed.
Print Assumptions C17c_heading_property_legal.

(* The hypothesis is needed: an empty heading cell is given the empty anchor, which is not legal. *)
Theorem C17c_empty_heading_refuted : forall (n : nat) (f : key -> res (option cell)),
  eval_props (mk_env (Some (Txt [])) n f) hdr_props
    = Ok [(k_title, V_cell (Some (Txt []))); (k_anchor, V_text []); (k_type, V_text k_string); (k_position, V_int n)]
  /\ legal [] = false.
Proof. intros n f. split; [|reflexivity]. destruct rule_heading_property as [_ ->]. reflexivity. Qed.
Print Assumptions C17c_empty_heading_refuted.

(* Non-vacuity: the heading  'ZIP' LF 'Code'  at column 2 gets the anchor ZIP_Code. *)
Example C17c_example :
  eval_props (mk_env (Some (Txt [90; 73; 80; 10; 67; 111; 100; 101]%N)) 2 (fun _ => Err OtherError)) hdr_props
  = Ok [(k_title, V_cell (Some (Txt [90; 73; 80; 10; 67; 111; 100; 101]%N)));
        (k_anchor, V_text [90; 73; 80; 95; 67; 111; 100; 101]%N); (k_type, V_text k_string); (k_position, V_int 2)].
Proof. vm_compute. reflexivity. Qed.
