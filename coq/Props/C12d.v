(* C12d - companion of C12: RESPELLING A COPYBOOK CHANGES NEITHER THE LAYOUT NOR THE DECODED VALUES.
   The property theorems; the lemmas they rest on are in Proofs/TextLayoutP.v.  No engine of its own (models: Model/Pipeline.v,
   compared with schema_iter on raw text by ./check C07; Model/Clauses.v / Model/RefFormat.v, ./check C12; Model/Layout.v and
   Model/LayoutValue.v, ./check C01 and C10).

   The property: "the layout and decoded values obtained from a copybook depend only on its data description entries".
   C07b_respelling proves it up to the emitted DOCUMENTS (two printings of the same entries give the same outcome up to
   the cobol keyword).  That stops short of the property for two reasons: the documents are not a layout, and the one
   keyword left out of the comparison - cobol - is exactly what the decoder re-parses to find the WIDTH and the DECODER of every
   elementary item.  Props/C07c.v connects documents and layouts (layout_of_doc, item_of, text_layout_ok); here:

     C12d_respelling_size      the size estruct computes from the cobol text of an entry is the same for every spelling of the
                               entry inside the respelling domain (from C12b's printer theorem and the usage-family tables)
     C12d_respelling_decoder   ... and so is the field kind (USAGE family, sign, digits) estruct.unpack reads in that text
     C12d_respelling_layout    the two TEXTS give the same record descriptions and the same layouts: layouts_of_text of the one
                               text IS layouts_of_text of the other (identical schema trees, not only equal offsets), and the
                               second copybook is in the domain of C07c_text_to_layout as soon as the first one is
     C12d_respelling_located   hence, for every record instance, every record of the copybook and every path, navigation ends at
                               the same (start, end) or in the same exception; the empty path gives the record length
     C12d_respelling_values    the same decoders for every elementary item, and the same value() - including the error status -
                               for every path on every record instance (any bytes at all, not only well-formed records)

   Hypotheses: exactly those of C07b_respelling on the two printings - Forall2 same_clauses es es' (the same level numbers and
   the same clauses in any order; optional words, synonyms, separators, letter case of reserved words and the whole line layout
   are free), copybook_ok of both, respelling_domain of both - and text_layout_ok (text_values_ok) of the FIRST only; that the
   second satisfies it too is part of the conclusion.  C07b_respelling's hypothesis on names follows from text_layout_ok.

   What respelling_domain excludes are the known findings of C12, whose refutations stay where they are (Props/C12b.v,
   Judge/JC12.v): a reserved word PIC / PICTURE / USAGE / IS or a usage word in lower case (K-C12-lowercase: the decoder's
   pattern is case-sensitive), a usage word or PIC inside a VALUE literal (K-C12-value-literal-reparsed), FILLER in another
   letter case.  A usage word or PIC inside a DATA NAME is NOT excluded: estruct.clause_pattern searches with
   word boundaries (before that fix it found them inside EMP-COMPANY, WS-COMP-DATE, TOT-BINARY-CT: the decoder-side finding
   K-name-contains-usage); Props/C04e.v proves that respelling_domain does not depend on the data name
   (C04e_domain_is_about_clauses) and refutes the same statement for the pre-fix pattern.  It is a different defect from C07-K3 (keyword-PREFIXED names such as COMPANY,
   cut by the FIRST parse, cobol_parser.CLAUSES): those names are not printable (ce_ok = false) and stay outside copybook_ok, not
   outside respelling_domain.  A picture STRING in another letter case (X(3) / x(3)) or followed by a separator
   (K-C12-separator-after-picture) is not a respelling in the sense of same_clauses at all: the picture text is part of the
   clause content.  C12d_outside_domain shows one entry of each kind. *)
From Coq Require Import NArith ZArith List Bool Permutation.
Import ListNotations.
Require Import SR.Base.Res SR.Model.RefFormat SR.Spec.RefFormat SR.Spec.Clauses.
Require SR.Model.Structure.
Require Import SR.Model.Pipeline SR.Spec.Copybook SR.Proofs.PipelineP.
Require Import SR.Spec.Layout SR.Model.Layout.
Require Import SR.Spec.Record SR.Model.Estruct SR.Model.LayoutValue SR.Model.RecordValue.
Require Import SR.Model.TextLayout SR.Proofs.TextLayoutP.
Require SR.Props.C07b SR.Props.C07c.

(* ---- the decoder's second parse of an entry: [ctext (spec_entry e)] is the cobol keyword of the entry (level number, blank,
        clause text with single blanks) ---- *)
Theorem C12d_respelling_size : forall e e', same_clauses e e' -> ce_ok e = true -> ce_ok e' = true ->
  respelling_domain e = true -> respelling_domain e' = true ->
  calcsize_text (ctext (spec_entry e)) = calcsize_text (ctext (spec_entry e')).
Proof.
  intros e e' SC OK OK' RD RD'. destruct (Resp2.respell_sim3 e e' SC OK OK' RD RD') as [(_ & _ & _ & _ & _ & Cs) _]. exact Cs.
Qed.
Print Assumptions C12d_respelling_size.

Theorem C12d_respelling_decoder : forall e e', same_clauses e e' -> ce_ok e = true -> ce_ok e' = true ->
  respelling_domain e = true -> respelling_domain e' = true ->
  kind_of_cobol (ctext (spec_entry e)) = kind_of_cobol (ctext (spec_entry e')).
Proof. exact respell_kind. Qed.
Print Assumptions C12d_respelling_decoder.

(* ---- the layouts computed from the two texts ---- *)
Theorem C12d_respelling_layout : forall es tail seqs es' tail' seqs',
  Forall2 same_clauses es es' ->
  copybook_ok es tail seqs = true -> copybook_ok es' tail' seqs' = true ->
  forallb respelling_domain es = true -> forallb respelling_domain es' = true ->
  text_layout_ok es = true ->
  text_layout_ok es' = true
  /\ records_of_entries es = records_of_entries es'
  /\ exists schemas, layouts_of_text (print_copybook es tail seqs) = Some schemas
                     /\ layouts_of_text (print_copybook es' tail' seqs') = Some schemas.
Proof.
  intros es tail seqs es' tail' seqs' SC OK OK'.
  exact (reading_respelling_layout _ _ es es' SC (printed_reads_as _ _ _ OK) (printed_reads_as _ _ _ OK')).
Qed.
Print Assumptions C12d_respelling_layout.

(* ---- the same (start, end) for every path, the same record length (p = []), the same refusals ---- *)
Theorem C12d_respelling_located : forall es tail seqs es' tail' seqs',
  Forall2 same_clauses es es' ->
  copybook_ok es tail seqs = true -> copybook_ok es' tail' seqs' = true ->
  forallb respelling_domain es = true -> forallb respelling_domain es' = true ->
  text_layout_ok es = true ->
  forall (B : Type) (dcount : list B -> nat) (r : list B) (k : nat) (p : list step),
    located (print_copybook es tail seqs) k dcount r p = located (print_copybook es' tail' seqs') k dcount r p.
Proof.
  intros es tail seqs es' tail' seqs' SC OK OK'.
  exact (reading_respelling_located _ _ es es' SC (printed_reads_as _ _ _ OK) (printed_reads_as _ _ _ OK')).
Qed.
Print Assumptions C12d_respelling_located.

(* ---- the same decoded values.  value_in_text text xf k dcount r p = value() of the navigator reached by p in record k of the
        text on the record instance r, every atom decoded by the kind estruct.unpack reads in its own cobol text
        (kinds_of, C07c_decoder_of_the_text). ---- *)
Theorem C12d_respelling_values : forall es tail seqs es' tail' seqs',
  Forall2 same_clauses es es' ->
  copybook_ok es tail seqs = true -> copybook_ok es' tail' seqs' = true ->
  forallb respelling_domain es = true -> forallb respelling_domain es' = true ->
  text_values_ok es = true ->
  text_values_ok es' = true
  /\ exists xf xf', forest_of_entries es = Some xf /\ forest_of_entries es' = Some xf'
       /\ map kinds_of xf = map kinds_of xf'
       /\ forall (k : nat) (dcount : list N -> nat) (r : list N) (p : list step),
            value_in_text (print_copybook es tail seqs) xf k dcount r p
            = value_in_text (print_copybook es' tail' seqs') xf' k dcount r p.
Proof.
  intros es tail seqs es' tail' seqs' SC OK OK'.
  exact (reading_respelling_values _ _ es es' SC (printed_reads_as _ _ _ OK) (printed_reads_as _ _ _ OK')).
Qed.
Print Assumptions C12d_respelling_values.

(* ------------------------------------------------------------------ non-vacuity, on the copybooks of Props/C07b.v *)
Import SR.Props.C07b.
Open Scope N_scope.

(* ex_es / ex_es' are two spellings of one record (clause order, PIC for PICTURE IS, no USAGE IS, PACKED-DECIMAL for COMP-3,
   lower-case times, semicolons, sequence areas, indentation, a line break inside an entry): every hypothesis holds, the texts
   differ, the layouts computed from them are the same and they are layouts (Some) *)
Example C12d_example_hypotheses :
  Forall2 same_clauses ex_es ex_es'
  /\ copybook_ok ex_es [] ex_seqs = true /\ copybook_ok ex_es' [] [] = true
  /\ forallb respelling_domain ex_es = true /\ forallb respelling_domain ex_es' = true
  /\ text_layout_ok ex_es = true /\ text_values_ok ex_es = true
  /\ print_copybook ex_es [] ex_seqs <> print_copybook ex_es' [] [].
Proof.
  destruct C07b_example_domain as (OK & _ & _ & _ & RD & _). destruct C07b_example_respelling as (SC & OK' & _ & RD' & _).
  pose proof (proj1 SR.Props.C07c.C07c_example_c07b) as TV.
  split; [exact SC|]. split; [exact OK|]. split; [exact OK'|]. split; [exact RD|]. split; [exact RD'|].
  split; [exact (values_ok_layout _ TV)|]. split; [exact TV|]. apply length_neq. vm_compute. discriminate.
Qed.

(* the layouts of both texts are built from the record descriptions of ex_es: C12d_respelling_layout and
   C07c_text_documents_are_built_trees *)
Lemma ex_layouts :
  layouts_of_text (print_copybook ex_es [] ex_seqs) = option_map (map build) (records_of_entries ex_es)
  /\ layouts_of_text (print_copybook ex_es' [] []) = option_map (map build) (records_of_entries ex_es).
Proof.
  destruct C12d_example_hypotheses as (SC & OK & OK' & RD & RD' & TL & _).
  destruct (C12d_respelling_layout _ _ _ _ _ _ SC OK OK' RD RD' TL) as (_ & _ & schemas & L & L').
  rewrite L', <- L. split; exact (printed_layouts _ _ _ OK (layout_ok_bridge _ TL)).
Qed.

Example C12d_example_layouts :
  layouts_of_text (print_copybook ex_es [] ex_seqs) = layouts_of_text (print_copybook ex_es' [] [])
  /\ (exists s, layouts_of_text (print_copybook ex_es [] ex_seqs) = Some [s])
  /\ located (print_copybook ex_es [] ex_seqs) 0 (fun _ : list unit => O) [] [] = Some (Ok (0, 14)%nat)
  /\ located (print_copybook ex_es' [] []) 0 (fun _ : list unit => O) [] [] = Some (Ok (0, 14)%nat)
  /\ located (print_copybook ex_es' [] []) 0 (fun _ : list unit => O) [] (steps_of [NName [84]; NIndex 1; NName [84]]) = Some (Ok (10, 12)%nat).
Proof.
  destruct ex_layouts as [L L']. unfold located. rewrite L, L'. split; [reflexivity|].
  (* named, the layouts are evaluated once, not once for every conjunct *)
  set (ss := option_map (map build) (records_of_entries ex_es)). vm_compute. split; [eexists; reflexivity|repeat split; reflexivity].
Qed.

(* the cobol keywords differ (COMP-3 / PACKED-DECIMAL, clause order), the size and the decoder read from them do not *)
Example C12d_example_size :
  exists e e', nth_error ex_es 3 = Some e /\ nth_error ex_es' 3 = Some e'
    /\ ctext (spec_entry e) <> ctext (spec_entry e')
    /\ calcsize_text (ctext (spec_entry e)) = ROk 2 /\ calcsize_text (ctext (spec_entry e')) = ROk 2
    /\ kind_of_cobol (ctext (spec_entry e)) = Some (KPacked 8 true 3 0)
    /\ kind_of_cobol (ctext (spec_entry e')) = Some (KPacked 8 true 3 0).
Proof.
  eexists. eexists. split; [reflexivity|]. split; [reflexivity|]. split; [vm_compute; discriminate|]. vm_compute. repeat split; reflexivity.
Qed.

(* the same decoded values on a record of arbitrary bytes (the third occurrence of T holds a digit above 9: ValueError in both) *)
Definition ex_bytes : list N := [240; 241; 242; 243; 244; 193; 194; 195; 1; 45; 18; 60; 250; 252].
Definition ex_xf (es : list centry) : list xtree := match forest_of_entries es with Some xf => xf | None => [] end.
Example C12d_example_values :
  map (fun p => value_in_text (print_copybook ex_es [] ex_seqs) (ex_xf ex_es) 0 (fun _ => O) ex_bytes (steps_of p))
      [[NName n_CUST_NO]; [NName [84]; NIndex 0; NName [84]]; [NName [84]; NIndex 1; NName [84]]; [NName [84]; NIndex 2; NName [84]]]
  = [Some (Some (Ok (PAtom (VDec (SR.Base.Dec.mkdec false 1234 0))))); Some (Some (Ok (PAtom (VDec (SR.Base.Dec.mkdec true 12 0)))));
     Some (Some (Ok (PAtom (VDec (SR.Base.Dec.mkdec false 123 0))))); Some (Some (Err ValueError))]
  /\ map (fun p => value_in_text (print_copybook ex_es' [] []) (ex_xf ex_es') 0 (fun _ => O) ex_bytes (steps_of p))
      [[NName n_CUST_NO]; [NName [84]; NIndex 0; NName [84]]; [NName [84]; NIndex 1; NName [84]]; [NName [84]; NIndex 2; NName [84]]]
  = [Some (Some (Ok (PAtom (VDec (SR.Base.Dec.mkdec false 1234 0))))); Some (Some (Ok (PAtom (VDec (SR.Base.Dec.mkdec true 12 0)))));
     Some (Some (Ok (PAtom (VDec (SR.Base.Dec.mkdec false 123 0))))); Some (Some (Err ValueError))].
Proof.
  destruct ex_layouts as [L L']. unfold value_in_text. rewrite L, L'.
  (* named, the layouts and the two forests are evaluated once, not once for every path *)
  set (ss := option_map (map build) (records_of_entries ex_es)). set (xf := ex_xf ex_es). set (xf' := ex_xf ex_es').
  vm_compute. split; reflexivity.
Qed.

(* with REDEFINES: ex_redef / ex_redef' (clause order of the redefining entry, PICTURE IS for PIC, other layout) *)
Example C12d_example_redefines :
  Forall2 same_clauses ex_redef ex_redef'
  /\ copybook_ok ex_redef [] [] = true /\ copybook_ok ex_redef' [] [] = true
  /\ forallb respelling_domain ex_redef = true /\ forallb respelling_domain ex_redef' = true
  /\ text_values_ok ex_redef = true
  /\ layouts_of_text (print_copybook ex_redef [] []) = layouts_of_text (print_copybook ex_redef' [] [])
  /\ located (print_copybook ex_redef' [] []) 0 (fun _ : list unit => O) [] (steps_of [NName [66]]) = Some (Ok (0, 3)%nat)
  /\ located (print_copybook ex_redef' [] []) 0 (fun _ : list unit => O) [] [] = Some (Ok (0, 4)%nat).
Proof.
  destruct C07b_example_respelling_redefines as (SC & OK' & RD & RD' & _). pose proof (proj1 C07b_example_redefines) as OK.
  destruct SR.Props.C07c.C07c_example_c07b as (_ & _ & TV & _). pose proof (values_ok_layout _ TV) as TL.
  destruct (C12d_respelling_layout _ _ _ _ _ _ SC OK OK' RD RD' TL) as (_ & _ & schemas & L & L').
  split; [exact SC|]. split; [exact OK|]. split; [exact OK'|]. split; [exact RD|]. split; [exact RD'|]. split; [exact TV|].
  split; [rewrite L, L'; reflexivity|].
  pose proof (printed_layouts _ _ _ OK (layout_ok_bridge _ TL)) as P. rewrite L, <- L' in P.
  unfold located. rewrite P. vm_compute. split; reflexivity.
Qed.

(* the larger record of Props/C07c.v (groups, tables, a union, FILLERs, COMP-3) against a respelling of it: the union's
   redefiner with its clauses in the other order is the same entry list here, so only the layout of the cards changes *)
Example C12d_example_relayout :
  text_layout_ok SR.Props.C07c.ex_full = true
  /\ layouts_of_text (print_copybook SR.Props.C07c.ex_full [] [])
     = layouts_of_text (print_copybook SR.Props.C07c.ex_full [32; 10] [[57; 57; 57; 57; 57; 57]]).
Proof.
  destruct SR.Props.C07c.C07c_example_domain as (OK & BD & TL & _).
  split; [exact TL|]. rewrite (printed_layouts _ _ _ OK BD). symmetry. apply reading_layouts_records; [|exact BD].
  split; [exact (proj1 (printed_reads_as _ _ _ OK))|vm_compute; reflexivity].
Qed.

(* ------------------------------------------------------------------ what respelling_domain excludes: one entry of each kind *)
(*   05 A pic X(3).                  a reserved word in lower case: printable, outside the respelling domain
     05 COMPANY PIC X(3) .          a data name that begins with a usage word (C07-K3, the FIRST parse): not printable; the
                                    decoder's second parse has no objection since its pattern has word boundaries
                                    (respelling_domain = true; it was false before the repair of K-name-contains-usage)
     05 A PIC X(3) VALUE 'PIC 9' .  PIC inside a VALUE literal: printable, outside the respelling domain (the decoder takes the
                                    literal's 9 and the apostrophe for the picture: ValueError instead of the size 3) *)
Definition e_lower : centry :=
  mkce 48 53 [CName [65]; CPicture p_X_3] [(sp0, [32]); ({| ch := [0]; masks := [[true; true; true]]; seps := [] |}, [])] ind4 [32].
Definition e_company : centry := mkce 48 53 [CName [67; 79; 77; 80; 65; 78; 89]; CPicture p_X_3] [] ind4 [32].
Definition e_value : centry := mkce 48 53 [CName [65]; CPicture p_X_3; CValue [39; 80; 73; 67; 32; 57; 39]] [] ind4 [32].

Example C12d_outside_domain :
  ce_ok e_lower = true /\ respelling_domain e_lower = false
  /\ ce_ok e_company = false /\ respelling_domain e_company = true
  /\ ce_ok e_value = true /\ respelling_domain e_value = false
  /\ calcsize_text (ctext (spec_entry e_value)) = RErr ValueError.
Proof. vm_compute. repeat split; reflexivity. Qed.
