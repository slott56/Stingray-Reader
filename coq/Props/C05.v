(* C05 - Record framing: what was written in a RECFM is what is read back.
   Only the property theorems; the lemmas are in Proofs/RecfmP.v.
   Writers and domains: Spec/Recfm.v.  Readers: Model/Recfm.v (the Python loops of estruct.RECFM_F/V/VB/N with the
   buffer size, refill expression class and header format read from the current source, Gen/RecfmParams.v).
   A reader's behaviour is (items yielded, how it ended, stream left unread): [Done] = ended normally,
   third component [] = the whole file was consumed.  [kind] = which Python file object is the source (irrelevant here:
   it only matters for negative read counts, which legal images never produce). *)
From Coq Require Import ZArith NArith List.
Import ListNotations.
Require Import SR.Base.Res SR.Gen.RecfmParams SR.Spec.Recfm SR.Model.Recfm SR.Proofs.RecfmP.
Open Scope nat_scope.

(* F / FB, any element type: records of common length lrecl > 0 come back one by one, nothing is left. *)
Theorem C05_F : forall (A : Type) (kind : N) (lrecl : nat) (rs : list (list A)),
  legal_F lrecl rs = true ->
  F_record_iter kind (Z.of_nat lrecl) (write_F rs) = (rs, Done, []).
Proof. exact (@F_record_iter_ok). Qed.
Print Assumptions C05_F.

(* F.rdw_iter: the same payloads, each behind the length word lrecl + 4 (when that fits 16 bits). *)
Theorem C05_F_rdw : forall (kind : N) (lrecl : nat) (rs : list (list N)),
  legal_F lrecl rs = true -> (N.of_nat lrecl + 4 <= max_hdr)%N ->
  F_rdw_iter kind (Z.of_nat lrecl) (write_F rs) = (map rdw_rec rs, Done, []).
Proof. exact F_rdw_iter_ok. Qed.
Print Assumptions C05_F_rdw.

(* V: every list of records whose length words fit (0 <= len, len + 4 <= 65535). *)
Theorem C05_V : forall (kind : N) (rs : list (list N)),
  legal_V rs = true ->
  V_record_iter kind (write_V rs) = (rs, Done, [])
  /\ V_rdw_iter kind (write_V rs) = (map rdw_rec rs, Done, []).
Proof. intros kind rs _. split; [apply V_record_iter_ok | apply V_rdw_iter_ok]. Qed.
Print Assumptions C05_V.

(* VB: every blocking - every block at most 65535 bytes, any number of records per block (none included), records of
   ANY length that fits, the empty record included at every position of a block (first, between others, last, a block
   of empty records only), exactly as in V.  [legal_VB] = every block's length word is representable, nothing else.
   The reader is the one of the current source: the comparison of its corruption check is Gen/RecfmParams.v
   vb_rdw_fits_strict (offset + 4 <= len(block) since fix eee0fb2). *)
Theorem C05_VB : forall (kind : N) (blocks : list (list (list N))),
  legal_VB blocks = true ->
  VB_record_iter kind (write_VB blocks) = (concat blocks, Done, [])
  /\ VB_rdw_iter kind (write_VB blocks) = (map rdw_rec (concat blocks), Done, [])
  /\ VB_bdw_iter kind (write_VB blocks) = (map write_block blocks, Done, []).
Proof.
  intros kind blocks _. split; [apply VB_iters_any|]. split; [apply VB_iters_any|apply VB_bdw_iter_ok].
Qed.
Print Assumptions C05_VB.

(* What fix eee0fb2 repaired.  With the strict comparison of the tree before it (offset + 4 < len(block)) the file of
   ONE block holding the record 01 02 and then a record without data bytes is legal, and reading it back raises
   AssertionError after the first record (record_iter and rdw_iter alike; the whole file has been consumed), so the
   records read are not the records written; the same two records in the other order come back whole, and so does
   the file itself under the comparison of the current tree.  ([legal_block] deliberately does not demand non-empty
   records: that would keep this input outside the theorem and outside the judged domain.) *)
Theorem C05_VB_empty_last_old_refuted :
  legal_VB [[[1; 2]; []]]%N = true
  /\ VB_record_iter_with true 0 (write_VB [[[1; 2]; []]]%N) = ([[1; 2]]%N, Raised AssertionError, [])
  /\ VB_rdw_iter_with true 0 (write_VB [[[1; 2]; []]]%N) = ([[0; 6; 0; 0; 1; 2]]%N, Raised AssertionError, [])
  /\ VB_record_iter_with true 0 (write_VB [[[1; 2]; []]]%N) <> (concat [[[1; 2]; []]]%N, Done, [])
  /\ VB_record_iter_with true 0 (write_VB [[[]; [1; 2]]]%N) = ([[]; [1; 2]]%N, Done, [])
  /\ VB_record_iter_with false 0 (write_VB [[[1; 2]; []]]%N) = ([[1; 2]; []]%N, Done, []).
Proof. repeat split; vm_compute; try reflexivity. intros H; discriminate H. Qed.
Print Assumptions C05_VB_empty_last_old_refuted.

(* The rule as it stood before the fix, as a statement about the old parameter value: under the strict comparison the
   round trip holds for blocks of NON-EMPTY records (and, by the theorem above, not beyond). *)
Theorem C05_VB_old_rule : forall (kind : N) (blocks : list (list (list N))),
  forallb (forallb (fun r => 1 <=? length r)) blocks = true ->
  VB_record_iter_with true kind (write_VB blocks) = (concat blocks, Done, [])
  /\ VB_rdw_iter_with true kind (write_VB blocks) = (map rdw_rec (concat blocks), Done, []).
Proof. intros kind blocks H. apply VB_iters_gen_ok. exact H. Qed.
Print Assumptions C05_VB_old_rule.

(* N, the top-up refill, for EVERY buffer size B > 0 and element type: a consumer that announces the true
   length of each record (1 <= len <= B) is handed, at step i, a buffer that starts with record i; after the
   last record the generator ends, with the buffer and the file both empty. *)
Theorem C05_N_any_buffer : forall (A : Type) (B : nat) (kind : N) (rs : list (list A)),
  0 < B -> legal_N B rs = true ->
  exists bufs s', N_run 0 kind B (N_init B (write_N rs)) (map (@length A) rs) = (bufs, Done, s')
    /\ length bufs = length rs
    /\ heads (map (@length A) rs) bufs = rs
    /\ buf s' = [] /\ rest s' = [].
Proof. intros A B kind rs HB H. exact (N_roundtrip B HB kind rs H). Qed.
Print Assumptions C05_N_any_buffer.

(* N as the source has it now: buffer size and refill expression class taken from Gen/RecfmParams.v. *)
Theorem C05_N : forall (A : Type) (kind : N) (rs : list (list A)),
  legal_N (N.to_nat buffer_size) rs = true ->
  exists bufs s', N_read kind (write_N rs) (map (@length A) rs) = (bufs, Done, s')
    /\ length bufs = length rs
    /\ heads (map (@length A) rs) bufs = rs
    /\ buf s' = [] /\ rest s' = [].
Proof. exact (@N_read_roundtrip). Qed.
Print Assumptions C05_N.

(* What the fix repaired: with the refill of the original tree (mode 1: read(K - used)) the round trip fails,
   here with K = 8 and three records of 5 (the arithmetic of three 20000-byte records at K = 32768). *)
Theorem C05_N_old_refuted :
  exists (B : nat) (recs : list (list nat)),
    legal_N B recs = true /\
    heads (map (@length nat) recs) (fst (fst (N_run 1 0 B (N_init B (write_N recs)) (map (@length nat) recs)))) <> recs.
Proof.
  exists 8, [[1;1;1;1;1];[2;2;2;2;2];[3;3;3;3;3]]. split; [reflexivity|].
  vm_compute. intros H; discriminate H.
Qed.
Print Assumptions C05_N_old_refuted.

(* Resumed reading: several iterators one after the other on ONE reader.
   [X_take fuel k] is the reader's loop suspended at its k-th yield (what itertools.islice(it, k) leaves behind);
   the third component is the stream the next iterator starts from; [More] = suspended after k items. *)

(* V: taking the first part's records leaves exactly the image of the second part. *)
Theorem C05_V_resume : forall (kind : N) (rs1 rs2 : list (list N)),
  V_take (S (length (write_V (rs1 ++ rs2)))) (length rs1) kind (write_V (rs1 ++ rs2))
  = (map (fun r => (rdw (len4 r), r)) rs1, More, write_V rs2).
Proof.
  intros kind rs1 rs2. rewrite V_take_ok by apply write_V_length.
  rewrite firstn_exact, skipn_exact, ended_app. reflexivity.
Qed.
Print Assumptions C05_V_resume.

(* F, any element type. *)
Theorem C05_F_resume : forall (A : Type) (kind : N) (lrecl : nat) (rs1 rs2 : list (list A)),
  legal_F lrecl (rs1 ++ rs2) = true ->
  F_take (S (length (write_F (rs1 ++ rs2)))) (length rs1) kind (Z.of_nat lrecl) (write_F (rs1 ++ rs2))
  = (rs1, More, write_F rs2).
Proof.
  intros A kind lrecl rs1 rs2 HL. apply legal_F_pos in HL as [Hl H]. pose proof (legal_F_len lrecl _ Hl H) as Hlen.
  unfold write_F in *. rewrite F_take_ok by (assumption || apply le_n_S, Hlen).
  rewrite firstn_exact, skipn_exact, ended_app. reflexivity.
Qed.
Print Assumptions C05_F_resume.

(* VB block-wise (any blocks, empty records and empty blocks included). *)
Theorem C05_VB_bdw_resume : forall (kind : N) (bs1 bs2 : list (list (list N))),
  B_take (S (length (write_VB (bs1 ++ bs2)))) (length bs1) kind (write_VB (bs1 ++ bs2))
  = (map write_block bs1, More, write_VB bs2).
Proof.
  intros kind bs1 bs2. rewrite B_take_ok by apply write_VB_length.
  rewrite firstn_exact, skipn_exact, ended_app. reflexivity.
Qed.
Print Assumptions C05_VB_bdw_resume.

(* Hence EVERY sequence of passes (iterator 0 = record_iter, 1 = rdw_iter, 2 = bdw_iter; Some k = islice k,
   None = to exhaustion), each started where the previous one stopped, delivers pass by pass what the Spec expects
   ([expect_passes]: the next k records, rendered bare or with their length word), and no pass raises.
   With a final full pass the concatenation is the whole record list. *)
Theorem C05_V_passes : forall (kind : N) (ps : list pass) (rs : list (list N)) (e : list (list (list N))),
  legal_V rs = true -> expect_passes ps rs = Some e ->
  map items_of (run_passes (V_pass kind) ps (write_V rs)) = e
  /\ forallb calm (run_passes (V_pass kind) ps (write_V rs)) = true.
Proof.
  intros kind ps rs e _. apply (passes_ok (V_pass kind) write_V (fun _ => True)); [trivial| |exact I].
  intros w k rs' _. apply V_pass_ok.
Qed.
Print Assumptions C05_V_passes.

Theorem C05_F_passes : forall (kind : N) (lrecl : nat) (ps : list pass) (rs : list (list N)) (e : list (list (list N))),
  legal_F lrecl rs = true -> (N.of_nat lrecl + 4 <= max_hdr)%N -> expect_passes ps rs = Some e ->
  map items_of (run_passes (F_pass kind (Z.of_nat lrecl)) ps (write_F rs)) = e
  /\ forallb calm (run_passes (F_pass kind (Z.of_nat lrecl)) ps (write_F rs)) = true.
Proof.
  intros kind lrecl ps rs e HL Hh.
  apply (passes_ok (F_pass kind (Z.of_nat lrecl)) write_F (fun rs => legal_F lrecl rs = true)); [| |exact HL].
  - intros n rs'. apply legal_F_skipn.
  - intros w k rs' HL'. apply F_pass_ok; assumption.
Qed.
Print Assumptions C05_F_passes.

(* VB: record-level passes must stop at block boundaries ([expect_passes_VB] is None otherwise: the suspended
   iterator holds the rest of its block, which no later iterator can see); block-level passes stop anywhere. *)
Theorem C05_VB_passes : forall (kind : N) (ps : list pass) (blocks : list (list (list N))) (e : list (list (list N))),
  legal_VB blocks = true -> expect_passes_VB ps blocks = Some e ->
  map items_of (run_passes (VB_pass kind) ps (write_VB blocks)) = e
  /\ forallb calm (run_passes (VB_pass kind) ps (write_VB blocks)) = true.
Proof. intros kind ps blocks e _. apply VB_passes_any. Qed.
Print Assumptions C05_VB_passes.

(* The images the theorems speak about are files: when the records are bytes, every element of the legal V and VB
   images is a byte (the length words fit, i.e. struct.pack succeeds for the writer). *)
Theorem C05_images_are_bytes :
  (forall rs, legal_V rs = true -> forallb bytes_ok rs = true -> bytes_ok (write_V rs) = true)
  /\ (forall blocks, legal_VB blocks = true -> forallb (forallb bytes_ok) blocks = true -> bytes_ok (write_VB blocks) = true).
Proof. split; [exact write_V_bytes | exact write_VB_bytes]. Qed.
Print Assumptions C05_images_are_bytes.

(* Non-vacuity: each hypothesis is satisfiable, on images with more than one record. *)
Example C05_F_example :
  legal_F 2 [[193; 194]; [195; 196]]%N = true /\ (N.of_nat 2 + 4 <= max_hdr)%N
  /\ write_F [[193; 194]; [195; 196]]%N = [193; 194; 195; 196]%N.
Proof. split; [reflexivity|]. split; [vm_compute; discriminate|reflexivity]. Qed.

Example C05_V_example :
  legal_V [[193; 194]; []; [195]]%N = true
  /\ write_V [[193; 194]; []; [195]]%N = [0; 6; 0; 0; 193; 194; 0; 4; 0; 0; 0; 5; 0; 0; 195]%N.
Proof. split; reflexivity. Qed.

Example C05_VB_example :
  legal_VB [[[193]; [194; 195]]; [[196]]]%N = true
  /\ write_VB [[[193]; [194; 195]]; [[196]]]%N
     = [0; 15; 0; 0; 0; 5; 0; 0; 193; 0; 6; 0; 0; 194; 195; 0; 9; 0; 0; 0; 5; 0; 0; 196]%N.
Proof. split; reflexivity. Qed.

(* empty records: first in a block, between two others, last in a block, a block of empty records only, an empty
   block; the hypothesis holds, the image is what a writer produces, and the reader of the current source returns
   the seven records *)
Example C05_VB_empty_example :
  let blocks := [[[]; [193]; []; [194; 195]; []]; [[]; []]; []]%N in
  legal_VB blocks = true
  /\ write_VB blocks
     = [0; 27; 0; 0;  0; 4; 0; 0;  0; 5; 0; 0; 193;  0; 4; 0; 0;  0; 6; 0; 0; 194; 195;  0; 4; 0; 0;
        0; 12; 0; 0;  0; 4; 0; 0;  0; 4; 0; 0;
        0; 4; 0; 0]%N
  /\ VB_record_iter 0 (write_VB blocks) = ([[]; [193]; []; [194; 195]; []; []; []]%N, Done, [])
  /\ expect_passes_VB [(0%N, Some 5); (1%N, Some 2); (0%N, None)] blocks
     = Some [[[]; [193]; []; [194; 195]; []]; [[0; 4; 0; 0]; [0; 4; 0; 0]]; []]%N.
Proof. repeat split; vm_compute; reflexivity. Qed.

Example C05_N_example :
  legal_N 8 [[1; 1; 1; 1; 1]; [2; 2; 2; 2; 2]; [3; 3; 3; 3; 3]] = true
  /\ legal_N (N.to_nat buffer_size) [[193; 194]; [195]]%N = true.
Proof. split; vm_compute; reflexivity. Qed.

(* header record with record_iter, next two with rdw_iter, the rest block-wise / to the end *)
Example C05_passes_example :
  expect_passes [(0%N, Some 1); (1%N, Some 2); (0%N, None)] [[200]; [193; 194]; []; [195]]%N
    = Some [[[200]]; [[0; 6; 0; 0; 193; 194]; [0; 4; 0; 0]]; [[195]]]%N
  /\ expect_passes_VB [(0%N, Some 1); (2%N, Some 1); (1%N, None)] [[[200]]; [[193]; [194]]; [[195]]]%N
    = Some [[[200]]; [[0; 14; 0; 0; 0; 5; 0; 0; 193; 0; 5; 0; 0; 194]]; [[0; 5; 0; 0; 195]]]%N
  /\ expect_passes_VB [(0%N, Some 1); (0%N, None)] [[[193]; [194]]]%N = None.
Proof. repeat split; reflexivity. Qed.
