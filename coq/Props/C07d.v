(* C07d - companion of Props/C07.v: the FIRST entry of a copybook is kept whatever its level
   (known finding C07-K8-first-entry-66-77-88, code 8 of Judge/JC07.v).
   The general statement is C07d_first_entry_kept; the rest follows from it or is a witness.

   The property reads "level 66, 77 and 88 entries contribute nothing" (Spec/Dde.v).  structure() takes its
   first node with next(node_iter) BEFORE the loop that skips those levels, so a copybook or copybook fragment
   that begins with  77 W PIC X.  /  88 FLAG VALUE 'Y'.  /  66 R RENAMES A THRU B.  gets a tree for that
   entry: a 77 item with a picture is emitted as a schema of its own titled W, an 88 or 66 entry (no picture)
   makes the schema maker raise ValueError on the first tree so that NO schema is emitted, the record that
   follows included, and a later entry with a larger two-character level is attached below it.
   C07_structure (Props/C07.v) already states the exact behaviour through kept_of (the first entry, then the
   later entries of another level); C07_structure_entries has the hypothesis "the first entry is not 66/77/88";
   C12c_refuted_first_88 (Props/C12c.v) is a witness.  Here: the statement without the hypothesis, its
   refutation, the exact trigger, and the positive statement about every LATER 66/77/88 entry
   (see also C12c_88_transparent: inserting named 66/77/88 entries after the first entry changes nothing).

   Spec/FirstEntryWf.v: [wanted l] = the entries of level other than 66/77/88, [first_entry_special l] = the
   first entry's level is 66, 77 or 88, [shape l] = names in preorder and parents of the forest,
   [titles l] = titles of the emitted schemas, and the witness entries (Layer B: the sentences after clause_dict;
   the clause pattern names  66 R RENAMES A THRU B  by its last name token, which plays no part here). *)
From Coq Require Import NArith List Lia.
Import ListNotations.
Require Import SR.Base.Res SR.Spec.Dde SR.Model.Structure SR.Spec.FirstEntryWf.
Require SR.Proofs.StructureP.

(* ------------------------------------------------------------------ the full statement, refuted *)
(* C07_structure_entries without its hypothesis on the first entry: on every entry list with two-digit levels on
   which structure() returns, the forest holds exactly the entries of level other than 66/77/88, in source order *)
Definition C07d_full_statement : Prop := entries_unguarded.

(* Known finding 8.  The one-entry copybook 77 W PIC X. yields a forest holding W. *)
Theorem C07d_refuted_8 : ~ C07d_full_statement.
Proof.
  intros H. assert (Forall (fun x => two_digits (elv x) = true) [e77]) as Hd by (repeat constructor).
  specialize (H [e77] _ Hd eq_refl). discriminate H.
Qed.
Print Assumptions C07d_refuted_8.

(* ------------------------------------------------------------------ what holds for every copybook *)
(* Any first entry e, any later entries r (two-digit levels, structure() returns): the forest holds e followed
   by the later entries of level other than 66/77/88, and its first tree is rooted at e. *)
Theorem C07d_first_entry_kept : forall (e : entry) (r : list entry) (f : list tree),
  Forall (fun x => two_digits (elv x) = true) (e :: r) ->
  structure (e :: r) = Ok f ->
  map de (preorder_f f) = e :: wanted r
  /\ exists t f', f = t :: f' /\ de (troot t) = e.
Proof.
  intros e r f Hd H. destruct (StructureP.structure_full _ f Hd H) as [Hp _]. apply Forall_cons_iff, proj2 in Hd.
  assert (Hm : map de (preorder_f f) = e :: wanted r) by (rewrite Hp; apply StructureP.kept_of_entries; exact Hd).
  split; [exact Hm|]. destruct f as [|[d b kids] f']; [discriminate|].
  exists (TNode d b kids), f'. split; [reflexivity|]. injection Hm as Hm _. exact Hm.
Qed.
Print Assumptions C07d_first_entry_kept.

(* The positive half of the property: AFTER the first entry every 66/77/88 entry contributes nothing. *)
Theorem C07d_after_first_nothing : forall (e : entry) (r : list entry) (f : list tree),
  Forall (fun x => two_digits (elv x) = true) (e :: r) ->
  structure (e :: r) = Ok f ->
  tl (map de (preorder_f f)) = wanted r.
Proof. intros e r f Hd H. destruct (C07d_first_entry_kept e r f Hd H) as [-> _]. reflexivity. Qed.
Print Assumptions C07d_after_first_nothing.

(* The trigger is exact: the conclusion of the full statement fails for a copybook precisely when its first
   entry is a 66/77/88 level. *)
Theorem C07d_trigger_exact : forall (l : list entry) (f : list tree),
  Forall (fun x => two_digits (elv x) = true) l ->
  structure l = Ok f ->
  (map de (preorder_f f) = wanted l <-> first_entry_special l = false).
Proof.
  intros [|e r] f Hd H; [discriminate|].
  destruct (C07d_first_entry_kept e r f Hd H) as [-> _].
  unfold wanted, first_entry_special. cbn [filter].
  destruct (kept_level (lvl_num (elv e))); cbn [negb]; split; try reflexivity; try discriminate.
  intros E. apply (f_equal (@length entry)) in E. cbn [length] in E. lia.
Qed.
Print Assumptions C07d_trigger_exact.

(* ------------------------------------------------------------------ what exactly comes out (witnesses) *)
(* 77 W PIC X. first, followed by nothing / 01 REC. 05 A PIC X. 05 B PIC 9. / 05 A PIC X. 05 B PIC 9.:
   W is a tree of its own and a schema titled W is emitted before the others; the 05 items that follow are
   roots too (05 <= 77 as strings). *)
Theorem C07d_first_77 :
  shape [e77] = Ok ([nW], [None]) /\ titles [e77] = Ok [Some nW]
  /\ shape (e77 :: rec01) = Ok ([nW; nREC; nA; nB], [None; None; Some 1; Some 1])
  /\ titles (e77 :: rec01) = Ok [Some nW; Some nREC]
  /\ shape (e77 :: items05) = Ok ([nW; nA; nB], [None; None; None])
  /\ titles (e77 :: items05) = Ok [Some nW; Some nA; Some nB].
Proof. repeat split; vm_compute; reflexivity. Qed.
Print Assumptions C07d_first_77.

(* 88 FLAG VALUE 'Y'. first: FLAG is the first tree; it has no picture, so the schema maker raises ValueError on
   it and NO schema is emitted - although the 01 record alone yields its schema. *)
Theorem C07d_first_88 :
  shape [e88] = Ok ([nFLAG], [None]) /\ titles [e88] = Err ValueError
  /\ shape (e88 :: rec01) = Ok ([nFLAG; nREC; nA; nB], [None; None; Some 1; Some 1])
  /\ titles (e88 :: rec01) = Err ValueError /\ titles rec01 = Ok [Some nREC]
  /\ shape (e88 :: items05) = Ok ([nFLAG; nA; nB], [None; None; None])
  /\ titles (e88 :: items05) = Err ValueError.
Proof. repeat split; vm_compute; reflexivity. Qed.
Print Assumptions C07d_first_88.

(* 66 R RENAMES A THRU B. first: the same as for 88. *)
Theorem C07d_first_66 :
  shape [e66] = Ok ([nR], [None]) /\ titles [e66] = Err ValueError
  /\ shape (e66 :: rec01) = Ok ([nR; nREC; nA; nB], [None; None; Some 1; Some 1])
  /\ titles (e66 :: rec01) = Err ValueError
  /\ shape (e66 :: items05) = Ok ([nR; nA; nB], [None; None; None])
  /\ titles (e66 :: items05) = Err ValueError.
Proof. repeat split; vm_compute; reflexivity. Qed.
Print Assumptions C07d_first_66.

(* A later entry whose two-character level is larger is attached BELOW the 88 entry: 88 FLAG. 99 X PIC X. *)
Theorem C07d_first_88_is_a_parent :
  shape [e88; fe 57 57 nX true] = Ok ([nFLAG; nX], [None; Some 0]).
Proof. vm_compute. reflexivity. Qed.
Print Assumptions C07d_first_88_is_a_parent.

(* ------------------------------------------------------------------ non-vacuity *)
(* the hypotheses of C07d_first_entry_kept / C07d_trigger_exact hold on 88 FLAG. 01 REC. 05 A. 05 B. (special first
   entry) and on 01 REC. 77 W. 88 FLAG. 66 R. 05 A. 05 B. (special entries later only: nothing of them is left) *)
Example C07d_example :
  Forall (fun x => two_digits (elv x) = true) (e88 :: rec01)
  /\ (exists f, structure (e88 :: rec01) = Ok f) /\ first_entry_special (e88 :: rec01) = true
  /\ Forall (fun x => two_digits (elv x) = true) (fe 48 49 nREC false :: e77 :: e88 :: e66 :: items05)
  /\ first_entry_special (fe 48 49 nREC false :: e77 :: e88 :: e66 :: items05) = false
  /\ shape (fe 48 49 nREC false :: e77 :: e88 :: e66 :: items05) = Ok ([nREC; nA; nB], [None; Some 0; Some 0]).
Proof.
  split; [repeat constructor|]. split; [eexists; vm_compute; reflexivity|]. split; [reflexivity|].
  split; [repeat constructor|]. split; [reflexivity|]. vm_compute. reflexivity.
Qed.
