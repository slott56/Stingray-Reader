(* C09c - companion of Props/C09.v: a heading row that holds the same name more than once
   (known finding K-duplicate-heading-last-wins, code 1 of Judge/JC09.v).
   Only the property theorems are here; the lemmas they rest on are in Proofs/HeaderRowP.v.

   The property reads "each header names a column; asking a row for a name returns the cell under
   that header".  C09_by_name and C09_values (Props/C09.v) prove it under NoDup (map str_of h).
   HeadingRowSchemaLoader.header builds the properties with a dict comprehension keyed by
   str(name), so with a repeated name the dict keeps the key at its FIRST place and holds the LAST
   value: the last column of that name wins silently, the cells under the earlier columns of that
   name cannot be reached by name, and values() has fewer entries than the row has columns.

   Spec/DupHeadings.v (no reference to the implementation): [last_index k hs] the position of the
   last header equal to k, [first_names hs] the distinct names in order of first occurrence,
   [last_wins_values hs r] one value per distinct name, each read from the last column of that name,
   [repeated hs] some name occurs twice.  Spec/DupHeadingsWf.v: the unguarded statements and the witness. *)
From Coq Require Import List.
Import ListNotations.
Require Import SR.Base.Res SR.Spec.Table SR.Spec.DupHeadings SR.Spec.DupHeadingsWf SR.Model.HeaderRow SR.Proofs.HeaderRowP.
Require SR.Judge.JC09.

(* C09_by_name without its hypothesis: every header reads its own column, for every heading row *)
Definition C09c_by_name_full_statement : Prop := by_name_unguarded.
(* C09_values without its hypothesis: the value list is the cells in header order, one per column *)
Definition C09c_values_full_statement : Prop := values_unguarded.

(* Known finding 1.  id,name,id over the row 1,Ann,7: asking for id gives 7 (the cell of column 2, not of
   column 0), values() is [7, Ann] (two entries for three columns), and over the short row 1,Ann the name id
   is reported absent although the row has a cell under the first id column. *)
Theorem C09c_refuted_1 :
  ~ C09c_by_name_full_statement /\ ~ C09c_values_full_statement
  /\ exists s, row_iter HeadingRow None [w_head; w_row] = Ok (Some s, [w_row])
       /\ nav_name s (str_of w_id) w_row = Ok (Some w_7)
       /\ values s w_row = Ok [Some w_7; Some w_Ann]
       /\ nav_name s (str_of w_id) [w_1; w_Ann] = Ok None.
Proof.
  split; [|split].
  - (* every header of id,name,id would read its own column: the three names would be distinct *)
    intros H. destruct (H w_head [] None _ _ (row_iter_heading None [w_head])) as (s & _ & Hn).
    apply by_name_needs_distinct in Hn. inversion Hn as [|x l Hnotin _]. apply Hnotin. right. left. reflexivity.
  - (* the value list has two entries for the three columns *)
    intros H. destruct (H w_head [] None _ _ (row_iter_heading None [w_head])) as (s & Hs & Hn).
    injection Hs as <-. specialize (Hn []). vm_compute in Hn. discriminate.
  - eexists. split; [vm_compute; reflexivity|]. repeat split; vm_compute; reflexivity.
Qed.
Print Assumptions C09c_refuted_1.

(* No hypothesis on the heading row h.  Reading never raises and delivers the rows after the first;
   asking for the name k returns the cell under the LAST column headed k (absent marker when the row is
   too short for THAT column), whatever stands under earlier columns of the same name; a name that heads
   no column is a KeyError; values() lists one value per DISTINCT name, in order of first occurrence, each
   read from the last column of that name - so it has length (first_names ...) entries, not length h. *)
Theorem C09c_duplicate_headings : forall (h : row) (body : sheet) pre os rows,
  row_iter HeadingRow pre (h :: body) = Ok (os, rows) ->
  exists s, os = Some s /\ rows = body
    /\ (forall (k : key) (i : nat) (r : row),
          nth_error (map str_of h) i = Some k ->
          (forall j, i < j -> nth_error (map str_of h) j <> Some k) ->
          nav_name s k r = Ok (nth_error r i))
    /\ (forall (k : key) (r : row), ~ In k (map str_of h) -> nav_name s k r = Err KeyError)
    /\ (forall r : row, values s r = Ok (last_wins_values key_eqb (map str_of h) r))
    /\ (forall r v, values s r = Ok v -> length v = length (first_names key_eqb (map str_of h))).
Proof.
  intros h body pre os rows H. destruct (row_iter_inv _ _ _ _ _ H) as [-> ->].
  eexists. split; [reflexivity|]. split; [reflexivity|]. split; [|split; [|split]].
  - intros k i r H1 H2. rewrite nav_heading. unfold last_wins_value.
    rewrite (proj2 (last_index_spec k _ i) (conj H1 H2)). reflexivity.
  - intros k r Hk. rewrite nav_heading. unfold last_wins_value.
    rewrite (proj2 (last_index_none k _) Hk). reflexivity.
  - intros r. apply values_heading.
  - intros r v Hv. rewrite values_heading in Hv. injection Hv as <-. apply map_length.
Qed.
Print Assumptions C09c_duplicate_headings.

(* What the specification's functions mean.  last_index: column i is headed k and no later column is.
   first_names: no name twice, exactly the names of the heading row, and a further column adds its name
   at the END unless the name was there already (= order of first occurrence). *)
Theorem C09c_last_index_spec : forall (k : key) (hs : list key) (i : nat),
  last_index key_eqb k hs = Some i <->
  (nth_error hs i = Some k /\ forall j, i < j -> nth_error hs j <> Some k).
Proof. exact last_index_spec. Qed.
Print Assumptions C09c_last_index_spec.

Theorem C09c_first_names_spec : forall hs : list key,
  NoDup (first_names key_eqb hs)
  /\ (forall k, In k (first_names key_eqb hs) <-> In k hs)
  /\ (forall k, first_names key_eqb (hs ++ [k])
                = first_names key_eqb hs ++ (if existsb (key_eqb k) hs then [] else [k])).
Proof. intros hs. exact (conj (first_names_nodup hs) (conj (first_names_in hs) (first_names_snoc hs))). Qed.
Print Assumptions C09c_first_names_spec.

(* A repeated name costs entries: values() is strictly shorter than the heading row exactly when some
   name is repeated (repeated = not NoDup), and as long as it otherwise. *)
Theorem C09c_values_shorter : forall h : row,
  (repeated key_eqb (map str_of h) = true <-> ~ NoDup (map str_of h))
  /\ (repeated key_eqb (map str_of h) = true -> length (first_names key_eqb (map str_of h)) < length h)
  /\ (NoDup (map str_of h) -> length (first_names key_eqb (map str_of h)) = length h).
Proof.
  intros h. pose proof (repeated_spec (map str_of h)) as R. rewrite <- (map_length str_of h).
  split; [exact R|]. split.
  - intros H. apply first_names_shorter, R, H.
  - intros H. rewrite (first_names_distinct _ H). reflexivity.
Qed.
Print Assumptions C09c_values_shorter.

(* On distinct names the last-wins reading IS the property's reading (so C09c_duplicate_headings
   extends C09_values rather than contradicting it). *)
Theorem C09c_distinct_is_property : forall (hs : list key) (r : row),
  NoDup hs -> last_wins_values key_eqb hs r = cells_in_header_order (length hs) r.
Proof. exact (@last_wins_values_distinct cell). Qed.
Print Assumptions C09c_distinct_is_property.

(* The hypothesis of C09_by_name is exactly what is needed: a schema under which every header of h
   reads its own column exists only when the names of h are pairwise distinct. *)
Theorem C09c_by_name_needs_distinct : forall (h : row) (s : schema),
  (forall (r : row) (i : nat) (c : cell), nth_error h i = Some c -> nav_name s (str_of c) r = Ok (nth_error r i)) ->
  NoDup (map str_of h).
Proof. exact by_name_needs_distinct. Qed.
Print Assumptions C09c_by_name_needs_distinct.

(* The same collapse through ExternalSchemaLoader: a metadata sheet listing id, name, id loads as
   {id: position 2, name: position 1}; id then reads column 2 where the hand-written schema of the
   same names reads column 0 (outside the domain of C09_external, which demands distinct names). *)
Theorem C09c_external_repeated_name :
  exists s, ext_load_meta [[w_id]; [w_name]; [w_id]] = Ok s
    /\ map (fun e => (e_key e, e_pos e)) s = [(str_of w_id, Some 2); (str_of w_name, Some 1)]
    /\ nav_name s (str_of w_id) w_row = Ok (Some w_7)
    /\ nav_name (hand_schema [str_of w_id; str_of w_name; str_of w_id]) (str_of w_id) w_row = Ok (Some w_1)
    /\ values s w_row = Ok [Some w_7; Some w_Ann].
Proof. eexists. split; [vm_compute; reflexivity|]. repeat split; vm_compute; reflexivity. Qed.
Print Assumptions C09c_external_repeated_name.

(* The wrong behaviour that Judge/JC09.v pins for a KNOWN verdict of stream duplicate-headings
   (spelled out from Spec/DupHeadings.v alone) is the model's, for every sheet and every list of
   probed names: the exemption covers the behaviour of C09c_duplicate_headings and nothing else. *)
Theorem C09c_pinned_is_model : forall (phys : sheet) (probes : list key),
  SR.Judge.JC09.pinned_last_wins phys probes
  = SR.Judge.JC09.model_read (row_iter HeadingRow None phys) probes.
Proof.
  intros phys probes. unfold SR.Judge.JC09.pinned_last_wins. rewrite row_iter_heading.
  destruct phys as [|h body]; [reflexivity|]. unfold SR.Judge.JC09.model_read. f_equal.
  apply map_ext. intros r. rewrite values_heading. f_equal.
  apply map_ext. intros k. rewrite nav_heading. reflexivity.
Qed.
Print Assumptions C09c_pinned_is_model.

(* the hypothesis of C09c_duplicate_headings holds for the witness sheet, the last column headed id is
   column 2, the distinct names are id, name, and the heading row is a repeated one *)
Example C09c_example :
  row_iter HeadingRow None [w_head; w_row; [w_1; w_Ann]]
    = Ok (Some [mk_entry (str_of w_id) (Some 2); mk_entry (str_of w_name) (Some 1)], [w_row; [w_1; w_Ann]])
  /\ last_index key_eqb (str_of w_id) (map str_of w_head) = Some 2
  /\ first_names key_eqb (map str_of w_head) = [str_of w_id; str_of w_name]
  /\ last_wins_values key_eqb (map str_of w_head) w_row = [Some w_7; Some w_Ann]
  /\ last_wins_values key_eqb (map str_of w_head) [w_1; w_Ann] = [None; Some w_Ann]
  /\ repeated key_eqb (map str_of w_head) = true.
Proof. repeat split; vm_compute; reflexivity. Qed.

(* the hypothesis of C09c_by_name_needs_distinct is satisfiable: the heading row id, name *)
Example C09c_needs_distinct_example :
  forall (r : row) (i : nat) (c : cell), nth_error [w_id; w_name] i = Some c ->
    nav_name [mk_entry (str_of w_id) (Some 0); mk_entry (str_of w_name) (Some 1)] (str_of c) r = Ok (nth_error r i).
Proof.
  intros r [|[|i]] c H; cbn [nth_error] in H; try (destruct i; discriminate);
    injection H as <-; rewrite nav_name_unfold; reflexivity.
Qed.
