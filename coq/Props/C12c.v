(* C12, second layer - level renumbering and entries / clauses that do not affect storage.
   The property theorems (the long proofs are in Proofs/RenumberP.v), their
   non-vacuity examples and the witnesses that mark their boundary.  There is no engine of its own:
   the model is C07's (Model/Structure.v, tied to /repo by C07's correspondence run) and the
   metamorphic run of harness/c12.py (renumber, renumber_group, renumber_all, value, neutral, cond88)
   exercises the same statements on the real code.

   Vocabulary.
     structure l            the model of cobol_parser.structure on the entries l (C07)
     kept_of l              the DDE objects that become nodes: the first one, then those not of level 66/77/88
     levels_of              their level numbers;  spec_parents / spec_roots: Spec/Dde.v
     erase_e / erase_d / erase_t   overwrite the level field of an entry / DDE / whole tree with one
                            constant: "equal up to the level field" is equality after erasing
     same_shape f f'        map erase_t f = map erase_t f' (same trees, names, unique names, REDEFINES
                            marks, clauses; levels ignored)
     relevelled e e'        erase_e e = erase_e e', both kept or both 66/77/88, both or neither level 01
     npop x st              how many of the open entries st (innermost first) an arriving level x closes
     keeps_nesting K K'     boolean: same length and every entry closes the same number of open entries
     group_renumbering K K' boolean: siblings keep their order relation, every child stays above its parent
     relevel g e            g applied to the level number of a kept entry (66/77/88 untouched)
     ins_skipped l l'       l' = l with named 66/77/88 entries inserted anywhere

   Non-storage clauses.  VALUE, JUSTIFIED, BLANK WHEN ZERO and SYNCHRONIZED are not part of
   Spec/Layout.item (an item is its id, size, OCCURS and REDEFINES target), so spec_extent and the
   start of every item cannot depend on them; that the clause scanner hands the same size / occurs /
   redefines fields to the layout whatever such clauses are present is C12b_respelling (Props/C12b.v)
   and the metamorphic run.  What is not vacuous here is the 88 level: C12c_88_transparent. *)
From Coq Require Import NArith List Bool.
Import ListNotations.
Require Import SR.Base.Res SR.Spec.Dde SR.Model.Structure SR.Proofs.StructureP SR.Proofs.RenumberP.

(* ------------------------------------------------------------------ 1. same nesting, same forest *)

(* Entry lists that differ in their level numbers only (entry by entry: same clauses, both kept or
   both skipped, both or neither 01) and whose level sequences have the same nesting ACCORDING TO THE
   SPECIFICATION give forests of the same shape - same trees up to the level field, hence the same
   preorder of entries, the same parents and the same roots - and one raises exactly when the other
   does, with the same exception.  Equality of spec_roots need not be assumed: it follows from equality
   of spec_parents. *)
Theorem C12c_renumber_same_forest : forall l l' : list entry,
  Forall2 relevelled l l' ->
  Forall (fun e => two_digits (elv e) = true) l -> Forall (fun e => two_digits (elv e) = true) l' ->
  spec_parents (levels_of (kept_of l)) = spec_parents (levels_of (kept_of l')) ->
  (forall e, structure l = Err e <-> structure l' = Err e)
  /\ ((exists f, structure l = Ok f) <-> (exists f', structure l' = Ok f'))
  /\ (forall f f', structure l = Ok f -> structure l' = Ok f' ->
        same_shape f f'
        /\ map erase_d (preorder_f f) = map erase_d (preorder_f f')
        /\ parents f = parents f'
        /\ root_pos 0 f = root_pos 0 f').
Proof.
  intros l l' H D D' HP.
  pose proof (structure_sim l l' H D D' (proj2 (nesting_exact _ _) HP)) as S.
  pose proof (structure_full l) as F. pose proof (structure_full l') as F'.
  destruct (structure l) as [f|e1], (structure l') as [f'|e1']; try discriminate S; injection S as S.
  - split; [split; discriminate|]. split; [split; intros _; eexists; reflexivity|].
    intros ? ? X X'. injection X as <-. injection X' as <-.
    destruct (F f D eq_refl) as (_ & P2 & P3). destruct (F' f' D' eq_refl) as (_ & P2' & P3').
    split; [exact S|]. split; [rewrite <- !erase_preorder, S; reflexivity|].
    rewrite P2, P2', P3, P3', HP, (roots_of_parents _ _ HP). split; reflexivity.
  - subst e1'. split; [intro e; split; exact (fun X => X)|]. split; [split; intros [? X]; discriminate X|].
    intros ? ? X. discriminate X.
Qed.
Print Assumptions C12c_renumber_same_forest.

(* the relation spelled out field by field *)
Theorem C12c_relevelled_fields : forall e e' : entry, erase_e e = erase_e e' <->
  ename e = ename e' /\ efill e = efill e' /\ eredef e = eredef e' /\ epic e = epic e' /\ eocc e = eocc e'
  /\ etext e = etext e'.
Proof.
  intros [l n f r p o t] [l' n' f' r' p' o' t']. unfold erase_e. cbn. split; intro H.
  - inversion H; subst. repeat split.
  - destruct H as [? [? [? [? [? ?]]]]]. subst. reflexivity.
Qed.
Print Assumptions C12c_relevelled_fields.

(* ------------------------------------------------------------------ 2. which renumberings keep the nesting *)

(* Any map that keeps the order relation of the level numbers that occur keeps the nesting. *)
Theorem C12c_order_keeps_nesting : forall (g : N -> N) (K : list N),
  (forall a b, In a K -> In b K -> (a <? b)%N = (g a <? g b)%N) ->
  spec_parents (map g K) = spec_parents K /\ spec_roots (map g K) = spec_roots K.
Proof. exact order_keeps_nesting. Qed.
Print Assumptions C12c_order_keeps_nesting.

(* In particular every map that is strictly monotone on a set of level numbers containing those of K
   (for one record: the levels 01..49 in use; a first entry of level 66/77/88 may be in the set too). *)
Theorem C12c_monotone_keeps_nesting : forall (dom : N -> Prop) (g : N -> N) (K : list N),
  (forall a b, dom a -> dom b -> (a < b)%N -> (g a < g b)%N) ->
  Forall dom K ->
  spec_parents (map g K) = spec_parents K /\ spec_roots (map g K) = spec_roots K.
Proof. exact monotone_keeps_nesting. Qed.
Print Assumptions C12c_monotone_keeps_nesting.

(* The same end to end, on the model: g strictly monotone on the level numbers in use (all within
   01..49), values within 01..49, 01 and only 01 mapped to 01; applied to every kept entry, 66/77/88
   entries untouched.  (On ALL of 01..49 only the identity is such a map, hence the set [used].) *)
Theorem C12c_monotone_renumber : forall (used : N -> Prop) (g : N -> N) (l : list entry),
  (forall a, used a -> in_range a) ->
  (forall a b, used a -> used b -> (a < b)%N -> (g a < g b)%N) ->
  (forall a, used a -> in_range (g a)) ->
  (forall a, used a -> (g a =? 1)%N = (a =? 1)%N) ->
  Forall (entry_in used) l ->
  let l' := map (relevel g) l in
  (forall e, structure l = Err e <-> structure l' = Err e)
  /\ ((exists f, structure l = Ok f) <-> (exists f', structure l' = Ok f'))
  /\ (forall f f', structure l = Ok f -> structure l' = Ok f' ->
        same_shape f f'
        /\ map erase_d (preorder_f f) = map erase_d (preorder_f f')
        /\ parents f = parents f'
        /\ root_pos 0 f = root_pos 0 f').
Proof.
  intros used g l Hu Hm Hr H1 H l'.
  destruct (monotone_renumber_nesting used g Hu Hm Hr l H) as (D' & E).
  apply C12c_renumber_same_forest.
  - apply (relevel_relevelled used g Hr H1). exact H.
  - eapply Forall_impl; [|exact H]. intros e [A _]. exact A.
  - exact D'.
  - symmetry. exact E.
Qed.
Print Assumptions C12c_monotone_renumber.

(* THE EXACT CONDITION.  spec_parent compares an arriving level only with the levels on the chain of
   still open entries; [npop x st] counts the open entries x closes, [keeps_nesting] says that every
   entry closes the same number in both sequences.  That is necessary and sufficient. *)
Theorem C12c_nesting_exact : forall K K' : list N,
  keeps_nesting K K' = true <-> spec_parents K = spec_parents K'.
Proof. exact nesting_exact. Qed.
Print Assumptions C12c_nesting_exact.

Theorem C12c_roots_follow : forall K K' : list N,
  spec_parents K = spec_parents K' -> spec_roots K = spec_roots K'.
Proof. exact roots_of_parents. Qed.
Print Assumptions C12c_roots_follow.

(* Why the count is the whole order relation: the open chain is strictly increasing inward (every
   chain built by [push] from the empty chain is [chain_sorted]), and on such a chain x is "not below"
   exactly the first [npop x st] open entries and "above" all the others. *)
Theorem C12c_count_is_order : forall (x : N) (st : list N),
  chain_sorted st ->
  chain_sorted (push x st)
  /\ map (fun y => (y <? x)%N) st = repeat false (npop x st) ++ repeat true (length st - npop x st).
Proof. intros x st H. split; [apply push_sorted | apply npop_compare]; exact H. Qed.
Print Assumptions C12c_count_is_order.

(* Every group renumbers its children on its own: whenever two entries have the same parent (or are
   both roots) their order relation is kept - i.e. each group applies ONE strictly monotone map to the
   levels of its children - and every child stays above its parent's new level.  Then the nesting is
   kept, whatever the maps of different groups have to do with each other. *)
Theorem C12c_group_keeps_nesting : forall K K' : list N,
  group_renumbering K K' = true ->
  spec_parents K' = spec_parents K /\ spec_roots K' = spec_roots K.
Proof. exact group_keeps_nesting. Qed.
Print Assumptions C12c_group_keeps_nesting.

(* ------------------------------------------------------------------ 3. the boundary *)

(* FULL (too strong): it is enough that within every group a later child is numbered not below an
   earlier one whenever it was so before, and that children stay above their parents. *)
Definition sibling_order_only (K K' : list N) : bool :=
  Nat.eqb (length K) (length K') &&
  forallb (fun i =>
    forallb (fun j => negb (Nat.ltb i j) || negb (opt_nat_eqb (spec_parent K i) (spec_parent K j))
                      || implb (nth i K 0 <=? nth j K 0)%N (nth i K' 0 <=? nth j K' 0)%N)
            (seq 0 (length K))
    && match spec_parent K i with Some p => (nth p K' 0 <? nth i K' 0)%N | None => true end)
  (seq 0 (length K)).
Definition C12c_sibling_order_full : Prop :=
  forall K K', sibling_order_only K K' = true -> spec_parents K' = spec_parents K.

(* REFUTED: 01 05 10 05 renumbered 01 05 10 07 - the second 05 becomes 07, above its elder brother
   and below that brother's child 10: it is now a child of the first 05. *)
Theorem C12c_sibling_order_refuted : ~ C12c_sibling_order_full.
Proof. intro H. specialize (H [1;5;10;5]%N [1;5;10;7]%N eq_refl). vm_compute in H. discriminate H. Qed.
Print Assumptions C12c_sibling_order_refuted.

(* the same witness against the exact condition and the group condition, and what happens instead *)
Theorem C12c_refuted_sibling_above :
  keeps_nesting [1;5;10;5]%N [1;5;10;7]%N = false
  /\ group_renumbering [1;5;10;5]%N [1;5;10;7]%N = false
  /\ spec_parents [1;5;10;5]%N = [None; Some 0; Some 1; Some 0]
  /\ spec_parents [1;5;10;7]%N = [None; Some 0; Some 1; Some 1].
Proof. repeat split; vm_compute; reflexivity. Qed.
Print Assumptions C12c_refuted_sibling_above.

(* a child renumbered down to its parent's level becomes its sibling: 01 05 10 -> 01 05 05 *)
Theorem C12c_refuted_child_not_above :
  keeps_nesting [1;5;10]%N [1;5;5]%N = false
  /\ spec_parents [1;5;10]%N = [None; Some 0; Some 1] /\ spec_parents [1;5;5]%N = [None; Some 0; Some 0].
Proof. repeat split; vm_compute; reflexivity. Qed.
Print Assumptions C12c_refuted_child_not_above.

(* two groups may use maps that contradict each other (10 -> 20 under the first 05, 10 -> 09 under the
   second), and within the exact condition siblings need not even keep
   their order: 01 05 05 -> 01 07 05 keeps the nesting although no map sends 05 to both 07 and 05 *)
Theorem C12c_group_not_necessary :
  group_renumbering [1;5;10;10;5;10]%N [1;5;20;20;5;9]%N = true
  /\ keeps_nesting [1;5;5]%N [1;7;5]%N = true /\ group_renumbering [1;5;5]%N [1;7;5]%N = false.
Proof. repeat split; vm_compute; reflexivity. Qed.
Print Assumptions C12c_group_not_necessary.

(* ------------------------------------------------------------------ witnesses on the model *)
Definition en (a b : N) (name : option str) (red : option str) (pic : bool) : entry :=
  {| elv := (a, b); ename := name; efill := None; eredef := red; epic := pic; eocc := false; etext := [] |}.
Definition nA : str := [65%N].
Definition nB : str := [66%N].
Definition nC : str := [67%N].
Definition nR : str := [82%N].

(* 01 R. 05 A. 10 B PIC. 05 C PIC.   and the same with the last level 07 *)
Definition w_sib : list entry :=
  [en 48 49 (Some nR) None false; en 48 53 (Some nA) None false; en 49 48 (Some nB) None true;
   en 48 53 (Some nC) None true]%N.
Definition w_sib' : list entry :=
  [en 48 49 (Some nR) None false; en 48 53 (Some nA) None false; en 49 48 (Some nB) None true;
   en 48 55 (Some nC) None true]%N.

(* on the model: entry by entry relevelled, but C moves from under R to under A *)
Theorem C12c_refuted_on_model :
  Forall2 relevelled w_sib w_sib'
  /\ (exists f f', structure w_sib = Ok f /\ structure w_sib' = Ok f'
                   /\ parents f = [None; Some 0; Some 1; Some 0] /\ parents f' = [None; Some 0; Some 1; Some 1]
                   /\ ~ same_shape f f').
Proof.
  split.
  - repeat constructor.
  - eexists. eexists. split; [vm_compute; reflexivity|]. split; [vm_compute; reflexivity|].
    split; [vm_compute; reflexivity|]. split; [vm_compute; reflexivity|].
    unfold same_shape. vm_compute. discriminate.
Qed.
Print Assumptions C12c_refuted_on_model.

(* Why [relevelled] asks for "both or neither level 01": 02 (unnamed) PIC. 02 (unnamed) PIC. has the
   same nesting as 01 (unnamed) PIC. 01 (unnamed) PIC. (two roots), the clauses are the same, but level
   01 restarts the FILLER numbering: FILLER-1, FILLER-2 against FILLER-1, FILLER-1. *)
Definition w_02 : list entry := [en 48 50 None None true; en 48 50 None None true]%N.
Definition w_01 : list entry := [en 48 49 None None true; en 48 49 None None true]%N.
Theorem C12c_refuted_level01 :
  Forall2 (fun e e' => erase_e e = erase_e e'
                       /\ kept_level (lvl_num (elv e)) = kept_level (lvl_num (elv e'))) w_02 w_01
  /\ spec_parents (levels_of (kept_of w_02)) = spec_parents (levels_of (kept_of w_01))
  /\ (exists f f', structure w_02 = Ok f /\ structure w_01 = Ok f'
                   /\ map du (preorder_f f) = [gen_name 1; gen_name 2]
                   /\ map du (preorder_f f') = [gen_name 1; gen_name 1]
                   /\ ~ same_shape f f').
Proof.
  split; [repeat constructor|]. split; [vm_compute; reflexivity|].
  eexists. eexists. split; [vm_compute; reflexivity|]. split; [vm_compute; reflexivity|].
  split; [vm_compute; reflexivity|]. split; [vm_compute; reflexivity|].
  unfold same_shape. vm_compute. discriminate.
Qed.
Print Assumptions C12c_refuted_level01.

(* ------------------------------------------------------------------ 4. 66 / 77 / 88 entries *)

(* Inserting any number of named 66/77/88-level entries anywhere after the first entry changes
   nothing at all: structure() returns the very same forest (or raises the same exception), so the
   preorder, the parents and the roots are unchanged, and the specification sees the same kept
   entries.  (After the FIRST entry, because structure() never filters its first node.) *)
Theorem C12c_88_transparent : forall (e : entry) (l l' : list entry),
  ins_skipped l l' ->
  structure (e :: l') = structure (e :: l)
  /\ kept_of (e :: l') = kept_of (e :: l)
  /\ (forall f f', structure (e :: l) = Ok f -> structure (e :: l') = Ok f' ->
        preorder_f f' = preorder_f f /\ parents f' = parents f /\ root_pos 0 f' = root_pos 0 f).
Proof.
  intros e l l' H. destruct (skipped_transparent e l l' H) as [A B]. split; [exact A|]. split; [exact B|].
  intros f f' Hf Hf'. rewrite A, Hf in Hf'. injection Hf' as <-. repeat split.
Qed.
Print Assumptions C12c_88_transparent.

(* Why "named": a DDE object is made for every sentence, skipped or not, and an unnamed one takes a
   FILLER number.  01 R. 05 (unnamed) PIC.  against  01 R. 88 (unnamed). 05 (unnamed) PIC. *)
Theorem C12c_refuted_unnamed_88 :
  exists f f',
    structure [en 48 49 (Some nR) None false; en 48 53 None None true]%N = Ok f
    /\ structure [en 48 49 (Some nR) None false; en 56 56 None None false; en 48 53 None None true]%N = Ok f'
    /\ map du (preorder_f f) = [nR; gen_name 1] /\ map du (preorder_f f') = [nR; gen_name 2].
Proof. eexists. eexists. repeat split; vm_compute; reflexivity. Qed.
Print Assumptions C12c_refuted_unnamed_88.

(* a FIRST entry of level 88 is a node (structure() does not filter it) *)
Theorem C12c_refuted_first_88 :
  exists f, structure [en 56 56 (Some nA) None false; en 48 49 (Some nR) None true]%N = Ok f
            /\ map du (preorder_f f) = [nA; nR] /\ parents f = [None; None].
Proof. eexists. repeat split; vm_compute; reflexivity. Qed.
Print Assumptions C12c_refuted_first_88.

(* ------------------------------------------------------------------ non-vacuity *)

(* 01 R. 05 A PIC. 05 (unnamed) PIC. 10 (unnamed) PIC. 88 B. 03 B REDEFINES A PIC. 01 (unnamed) PIC.
   renumbered 01 / 07 / 07 / 20 / 77 / 04 / 01: both return, REDEFINES resolved in both *)
Definition ex_l : list entry :=
  [en 48 49 (Some nR) None false; en 48 53 (Some nA) None true; en 48 53 None None true;
   en 49 48 None None true; en 56 56 (Some nB) None false; en 48 51 (Some nB) (Some nA) true;
   en 48 49 None None true]%N.
Definition ex_l' : list entry :=
  [en 48 49 (Some nR) None false; en 48 55 (Some nA) None true; en 48 55 None None true;
   en 50 48 None None true; en 55 55 (Some nB) None false; en 48 52 (Some nB) (Some nA) true;
   en 48 49 None None true]%N.

Example C12c_example_renumber :
  Forall2 relevelled ex_l ex_l'
  /\ Forall (fun e => two_digits (elv e) = true) ex_l /\ Forall (fun e => two_digits (elv e) = true) ex_l'
  /\ spec_parents (levels_of (kept_of ex_l)) = spec_parents (levels_of (kept_of ex_l'))
  /\ levels_of (kept_of ex_l) <> levels_of (kept_of ex_l')
  /\ (exists f f', structure ex_l = Ok f /\ structure ex_l' = Ok f'
                   /\ parents f = [None; Some 0; Some 0; Some 2; Some 0; None]).
Proof.
  split; [repeat constructor|]. split; [repeat constructor|]. split; [repeat constructor|].
  split; [vm_compute; reflexivity|]. split; [vm_compute; discriminate|].
  assert (E : match structure ex_l, structure ex_l' with Ok f, Ok _ => Some (parents f) | _, _ => None end
              = Some [None; Some 0; Some 0; Some 2; Some 0; None]) by (vm_compute; reflexivity).
  destruct (structure ex_l) as [f|], (structure ex_l') as [f'|]; try discriminate E.
  exists f, f'. injection E as E. repeat split. exact E.
Qed.

(* both raise: 01 R. 05 B REDEFINES A PIC.  and  01 R. 09 B REDEFINES A PIC.  (no A) *)
Example C12c_example_renumber_error :
  let l := [en 48 49 (Some nR) None false; en 48 53 (Some nB) (Some nA) true]%N in
  let l' := [en 48 49 (Some nR) None false; en 48 57 (Some nB) (Some nA) true]%N in
  Forall2 relevelled l l'
  /\ spec_parents (levels_of (kept_of l)) = spec_parents (levels_of (kept_of l'))
  /\ structure l = Err ValueError /\ structure l' = Err ValueError.
Proof. cbn zeta. split; [repeat constructor|]. repeat split; vm_compute; reflexivity. Qed.

(* 05 -> 03, 10 -> 07, 15 -> 30 on the levels 01 05 10 15 10 05 *)
Definition ex_g (n : N) : N :=
  if (n =? 5)%N then 3%N else if (n =? 10)%N then 7%N else if (n =? 15)%N then 30%N else n.
Example C12c_example_monotone :
  let K := [1;5;10;15;10;5]%N in
  (forall a b, In a K -> In b K -> (a < b)%N -> (ex_g a < ex_g b)%N)
  /\ Forall (fun a => In a K) K
  /\ map ex_g K = [1;3;7;30;7;3]%N
  /\ spec_parents K = [None; Some 0; Some 1; Some 2; Some 1; Some 0].
Proof.
  cbn zeta. split.
  - assert (E : forallb (fun a => forallb (fun b => implb (a <? b)%N (ex_g a <? ex_g b)%N) [1;5;10;15;10;5]%N)
                        [1;5;10;15;10;5]%N = true) by reflexivity.
    intros a b Ha Hb L. rewrite forallb_forall in E. specialize (E a Ha).
    rewrite forallb_forall in E. specialize (E b Hb).
    apply N.ltb_lt in L. rewrite L in E. apply N.ltb_lt. exact E.
  - split; [apply Forall_forall; intros a H; exact H|]. split; vm_compute; reflexivity.
Qed.

(* the same map on entries: 01 R. 05 A. 10 B PIC. 88 C. 05 (unnamed) PIC. *)
Definition ex_used (n : N) : Prop := n = 1%N \/ n = 5%N \/ n = 10%N.
Definition ex_m : list entry :=
  [en 48 49 (Some nR) None false; en 48 53 (Some nA) None false; en 49 48 (Some nB) None true;
   en 56 56 (Some nC) None false; en 48 53 None None true]%N.
Example C12c_example_monotone_renumber :
  (forall a, ex_used a -> in_range a)
  /\ (forall a b, ex_used a -> ex_used b -> (a < b)%N -> (ex_g a < ex_g b)%N)
  /\ (forall a, ex_used a -> in_range (ex_g a))
  /\ (forall a, ex_used a -> (ex_g a =? 1)%N = (a =? 1)%N)
  /\ Forall (entry_in ex_used) ex_m
  /\ map elv (map (relevel ex_g) ex_m) = [(48, 49); (48, 51); (48, 55); (56, 56); (48, 51)]%N
  /\ (exists f, structure ex_m = Ok f).
Proof.
  unfold ex_used, in_range. split; [|split; [|split; [|split; [|split; [|split]]]]].
  - intros a [ -> | [ -> | -> ] ]; split; vm_compute; discriminate.
  - intros a b [ -> | [ -> | -> ] ] [ -> | [ -> | -> ] ]; vm_compute; intro H; (reflexivity || discriminate H).
  - intros a [ -> | [ -> | -> ] ]; split; vm_compute; discriminate.
  - intros a [ -> | [ -> | -> ] ]; vm_compute; reflexivity.
  - unfold ex_m. repeat (apply Forall_cons; [split; [reflexivity | vm_compute; intro H; try discriminate H; tauto]|]).
    apply Forall_nil.
  - vm_compute. reflexivity.
  - eexists. vm_compute. reflexivity.
Qed.

(* per-group renumbering: hypotheses satisfiable with maps that differ from group to group *)
Example C12c_example_group :
  group_renumbering [1;5;10;10;5;10]%N [1;5;20;20;5;9]%N = true
  /\ spec_parents [1;5;20;20;5;9]%N = [None; Some 0; Some 1; Some 1; Some 0; Some 4].
Proof. split; vm_compute; reflexivity. Qed.

(* 01 R. 05 A PIC. 05 B PIC.  with  88 C.  after A and  66 C. 77 C.  after B *)
Example C12c_example_88 :
  let e := en 48 49 (Some nR) None false in
  let l := [en 48 53 (Some nA) None true; en 48 53 (Some nB) None true]%N in
  let l' := [en 48 53 (Some nA) None true; en 56 56 (Some nC) None false; en 48 53 (Some nB) None true;
             en 54 54 (Some nC) None false; en 55 55 (Some nC) None false]%N in
  ins_skipped l l' /\ (exists f, structure (e :: l') = Ok f /\ parents f = [None; Some 0; Some 0]).
Proof.
  cbn zeta. split.
  - apply ins_s_keep. apply ins_s_add; [repeat split|]. apply ins_s_keep.
    apply ins_s_add; [repeat split|]. apply ins_s_add; [repeat split|]. apply ins_s_nil.
  - eexists. split; vm_compute; reflexivity.
Qed.
