(* C14, companion file - from a PATH to the class: how open_workbook takes the suffix out of the path.

   Props/C14.v speaks about an already extracted suffix.  Here the argument is the path string p of
   file_registry.open_workbook(Path(p)) on a POSIX system, and [suffix_of_path] (Model/RegistryPath.v) is
   pathlib's rule in CPython 3.12, the interpreter the library runs under:

     cut p at every slash; drop the empty pieces (leading, doubled and trailing slashes) and the pieces that
     are exactly a dot; a piece of two dots is kept and never resolved; the NAME is the last piece left (the
     empty string when none is left); the SUFFIX starts at the LAST dot of the name, unless that dot is the
     first or the last character of the name (then there is no suffix).  No case folding, no file system.

   Found by reading PurePath._parse_path / name / suffix and by experiment (Path(p).name, Path(p).suffix):
     p             name        suffix        p             name     suffix      p            name    suffix
     a.b           a.b         .b            (empty)       (empty)  (none)      a.b/         a.b     .b
     a.tar.gz      a.tar.gz    .gz           .             (empty)  (none)      a.b//        a.b     .b
     .bashrc       .bashrc     (none)        ..            ..       (none)      a.b/.        a.b     .b
     .bashrc.bak   .bashrc.bak .bak          /  //  ///    (empty)  (none)      a.b/./.      a.b     .b
     name.         name.       (none)        ...           ...      (none)      a.b/..       ..      (none)
     x..y          x..y        .y            ..a           ..a      .a          a.b/../      ..      (none)
     x...          x...        (none)        a/..b         ..b      .b          d.x/y        y       (none)
     a.b.          a.b.        (none)        a/b..         b..      (none)      d.x/.y       .y      (none)
     .a.           .a.         (none)        x.CSV         x.CSV    .CSV        dir.csv/NAME NAME    (none)
     /a.b //a.b ///a.b ./a.b   a.b  .b       a/.b.c        .b.c     .c          a.b/c.d/     c.d     .d
   harness/c14.py (streams path_fresh, path_global, path_exhaustive: wire kinds 5 and 6) compares name, suffix,
   the class of the workbook returned / the exception and the constructors run with this model on generated
   paths (many dots, leading dot, trailing dot, upper case, directories with dots, dot and dot-dot components,
   leading, doubled and trailing slashes) on fresh registries and on the registry of the source.

   The property theorems; the lemmas are in Proofs/RegistryPathP.v.
   Vocabulary (Model/RegistryPath.v, Model/Registry.v):
     open_path r p       open_workbook(Path(p)) on registry r: the result and the constructor calls made
     open_workbook r s   the same for an already extracted suffix s (the function of Props/C14.v)
     reg_style s         s is a dot followed by at least one character, none of them a dot or a slash
     trailing t          t is empty, or a slash followed only by empty and single-dot pieces (/, //, /., /./, //.//.)
     has_name p          some piece of p survives the cutting (p has a name of its own)
     dot = 46, slash = 47. *)
From Coq Require Import NArith List Bool.
Import ListNotations.
Require Import SR.Base.Res SR.Gen.RegistryParams SR.Spec.Lifecycle SR.Model.Registry SR.Model.RegistryPath.
Require Import SR.Proofs.LifecycleP SR.Proofs.RegistryPathP.
Open Scope N_scope.

(* Opening a path is opening its suffix: everything Props/C14.v proves about open_workbook on a suffix
   (later registration wins, histories, refusal) holds for the path with that suffix. *)
Theorem C14c_open_by_path : forall (r : registry) (p : list N),
  open_path r p = open_workbook r (suffix_of_path p).
Proof. reflexivity. Qed.
Print Assumptions C14c_open_by_path.

(* dir ++ stem ++ sfx has the suffix sfx: for EVERY dir (any directories, with or without dots, any
   slashes; even a dir that does not end in a slash, whose last piece then runs into the stem), every
   non-empty stem without a slash (dots allowed: a.tar ++ .gz) and every registered-style sfx. *)
Theorem C14c_suffix_of_registered_style : forall dir stem sfx : list N,
  stem <> [] -> ~ In slash stem -> reg_style sfx = true ->
  suffix_of_path (dir ++ stem ++ sfx) = sfx.
Proof. exact suffix_exact. Qed.
Print Assumptions C14c_suffix_of_registered_style.

(* The rule in full, both directions: a path has the (non-empty) suffix s EXACTLY WHEN it is some dir, then a
   non-empty slash-free stem, then s, then a trailing part, with s registered-style.  So the modelled function
   yields a suffix in these cases and in no other. *)
Theorem C14c_suffix_rule : forall p s : list N, s <> [] ->
  (suffix_of_path p = s <->
   exists dir stem t, p = dir ++ stem ++ s ++ t /\ stem <> [] /\ ~ In slash stem /\ reg_style s = true /\ trailing t = true).
Proof.
  intros p s Hne. split.
  - intros H. exact (suffix_rule_only_if (length p) p s (le_n _) H Hne).
  - intros (dir & stem & t & -> & H1 & H2 & H3 & H4). apply suffix_rule_if; assumption.
Qed.
Print Assumptions C14c_suffix_rule.

(* Hence: the path is opened with the class of the LAST registration that mentions sfx, by one constructor
   call, and refused when none does (last_mention: Spec/Lifecycle.v, the specification of Props/C14.v). *)
Theorem C14c_open_registered : forall (ds : list (list (list N) * N)) (dir stem sfx : list N),
  stem <> [] -> ~ In slash stem -> reg_style sfx = true ->
  open_path (register_all ds) (dir ++ stem ++ sfx) =
  match last_mention ds sfx with
  | Some c => (Ok c, [Construct c])
  | None => (Err NotImplementedError, [])
  end.
Proof.
  intros ds dir stem sfx H1 H2 H3. rewrite C14c_open_by_path, (suffix_exact dir stem sfx H1 H2 H3).
  apply registry_matches_spec.
Qed.
Print Assumptions C14c_open_registered.

(* ... in particular right after file_suffix(names)(c) with sfx among the names, whatever was registered before *)
Theorem C14c_open_after_registration :
  forall (pre : list (list (list N) * N)) (names : list (list N)) (c : N) (dir stem sfx : list N),
  stem <> [] -> ~ In slash stem -> reg_style sfx = true -> In sfx names ->
  open_path (register_all (pre ++ [(names, c)])) (dir ++ stem ++ sfx) = (Ok c, [Construct c]).
Proof.
  intros pre names c dir stem sfx H1 H2 H3 Hin. rewrite C14c_open_by_path, (suffix_exact dir stem sfx H1 H2 H3).
  apply (proj1 (registry_last_wins (pre ++ [(names, c)]) sfx) pre names c []); [reflexivity|exact Hin|intros d []].
Qed.
Print Assumptions C14c_open_after_registration.

(* Case sensitivity (and every other near miss): the path is refused, with no constructor call, unless its
   suffix was registered LETTER FOR LETTER - whatever else is registered, e.g. the same letters in the other
   case.  See C14c_case_example: with .csv registered, REPORT.CSV is refused. *)
Theorem C14c_exact_spelling : forall (ds : list (list (list N) * N)) (dir stem sfx : list N),
  stem <> [] -> ~ In slash stem -> reg_style sfx = true ->
  (forall d, In d ds -> ~ In sfx (fst d)) ->
  open_path (register_all ds) (dir ++ stem ++ sfx) = (Err NotImplementedError, []).
Proof.
  intros ds dir stem sfx H1 H2 H3 Hno. rewrite C14c_open_by_path, (suffix_exact dir stem sfx H1 H2 H3).
  apply (proj2 (registry_last_wins ds sfx)). exact Hno.
Qed.
Print Assumptions C14c_exact_spelling.

(* Refusal, in every registry state and for every path: the exception is NotImplementedError, no constructor
   (hence no open) has run, and the path's suffix is absent from the registry.  (C14_unknown_suffix_opens_nothing
   carried over to paths.) *)
Theorem C14c_refusal_opens_nothing : forall (r : registry) (p : list N) e tr,
  open_path r p = (Err e, tr) -> e = NotImplementedError /\ tr = [] /\ reg_get r (suffix_of_path p) = None.
Proof. intros r p e tr. rewrite C14c_open_by_path. apply unknown_opens_nothing. Qed.
Print Assumptions C14c_refusal_opens_nothing.

(* An unknown suffix - one that no registration mentions, the empty one included - is refused. *)
Theorem C14c_unknown_suffix_refused : forall (ds : list (list (list N) * N)) (p : list N),
  (forall d, In d ds -> ~ In (suffix_of_path p) (fst d)) ->
  open_path (register_all ds) p = (Err NotImplementedError, []).
Proof.
  intros ds p H. rewrite C14c_open_by_path. apply (proj2 (registry_last_wins ds (suffix_of_path p))). exact H.
Qed.
Print Assumptions C14c_unknown_suffix_refused.

(* The registry of the source (registrations read from the decorators on every run): a path without a suffix is
   refused, and every suffix the source registers is registered-style, i.e. reachable by C14c_open_registered. *)
Theorem C14c_global_registry :
  (forall p, suffix_of_path p = [] -> open_path global_registry p = (Err NotImplementedError, []))
  /\ forallb (fun d => forallb reg_style (fst d)) registrations = true.
Proof.
  split; [|vm_compute; reflexivity].
  intros p H. unfold open_path. rewrite H. vm_compute. reflexivity.
Qed.
Print Assumptions C14c_global_registry.

(* Which paths have NO suffix.  (1) a name that ends in a dot;  (2) a dot-file: the name's only dot is its first
   character;  (3) a final name without a dot, whatever dots the directories have;  (4) a path that ends in a
   dot-dot component. *)
Theorem C14c_no_suffix :
  (forall dir stem, stem <> [] -> ~ In slash stem -> suffix_of_path (dir ++ stem ++ [dot]) = [])
  /\ (forall dir e, dir = [] \/ (exists d, dir = d ++ [slash]) -> e <> [] -> ~ In dot e -> ~ In slash e ->
        suffix_of_path (dir ++ dot :: e) = [])
  /\ (forall dir name, name <> [] -> ~ In dot name -> ~ In slash name -> suffix_of_path (dir ++ slash :: name) = [])
  /\ (forall p, suffix_of_path (p ++ [slash; dot; dot]) = [] /\ suffix_of_path [dot; dot] = []).
Proof.
  split; [exact suffix_name_ends_in_dot|]. split; [exact suffix_dotfile|].
  split; [exact suffix_dirs_do_not_count|exact suffix_dotdot].
Qed.
Print Assumptions C14c_no_suffix.

(* Trailing slashes and trailing dot components do not count (apply repeatedly for a.b/././/). *)
Theorem C14c_trailing : forall p : list N,
  suffix_of_path (p ++ [slash]) = suffix_of_path p /\ suffix_of_path (p ++ [slash; dot]) = suffix_of_path p.
Proof.
  intros p. unfold suffix_of_path. rewrite (path_name_skip p [] eq_refl), (path_name_skip p [dot] eq_refl).
  split; reflexivity.
Qed.
Print Assumptions C14c_trailing.

(* What stands in front of a path that has a name of its own does not matter (the correspondence run opens
   the generated relative paths below a scratch directory and relies on this). *)
Theorem C14c_prefix_irrelevant : forall pre rel : list N,
  has_name rel = true ->
  path_name (pre ++ slash :: rel) = path_name rel /\ suffix_of_path (pre ++ slash :: rel) = suffix_of_path rel.
Proof.
  intros pre rel H. unfold suffix_of_path.
  assert (E : path_name (pre ++ slash :: rel) = path_name rel).
  { apply path_name_after_slash. unfold has_name in H. rewrite path_tail_eq in H. intros E. rewrite E in H. discriminate H. }
  rewrite E. split; reflexivity.
Qed.
Print Assumptions C14c_prefix_irrelevant.

(* All a path can yield is no suffix or a registered-style one: a key such as .tar.gz, csv or the bare dot can
   be stored by file_suffix but no path ever reaches it. *)
Theorem C14c_suffix_shape : forall p : list N,
  suffix_of_path p = [] \/ reg_style (suffix_of_path p) = true.
Proof.
  intros p. unfold suffix_of_path.
  destruct (path_suffix_shape (path_name p)) as [H|(a & e & Hn & _ & He & Hd & Hsx)]; [left; exact H|].
  right. rewrite Hsx. apply reg_style_iff. exists e. repeat split; [exact He|exact Hd|].
  pose proof (path_name_noslash_any p) as Hs. rewrite Hn in Hs.
  apply not_in_app in Hs as [_ Hs]. apply not_in_cons in Hs as [_ Hs]. exact Hs.
Qed.
Print Assumptions C14c_suffix_shape.

(* Non-vacuity and the boundary, on concrete paths.
   /data.d/v1.2/report.final.csv : dir = /data.d/v1.2/ , stem = report.final , sfx = .csv *)
Example C14c_example_hypotheses :
  let dir := [47; 100; 97; 116; 97; 46; 100; 47; 118; 49; 46; 50; 47] in
  let stem := [114; 101; 112; 111; 114; 116; 46; 102; 105; 110; 97; 108] in
  let sfx := [46; 99; 115; 118] in
  stem <> [] /\ ~ In slash stem /\ reg_style sfx = true
  /\ suffix_of_path (dir ++ stem ++ sfx) = sfx
  /\ path_name (dir ++ stem ++ sfx) = stem ++ sfx
  /\ has_name (stem ++ sfx) = true.
Proof.
  cbv zeta. split; [discriminate|]. split; [|vm_compute; repeat split].
  cbn [In]. unfold slash. intros H. repeat (destruct H as [H|H]; [discriminate H|]). exact H.
Qed.

(* .csv registered for class 1: report.csv is opened, REPORT.CSV, report.Csv, report.csv. (trailing dot),
   .csv (a dot-file), csv and dir.csv/report are refused; dir.CSV/report.csv and report.csv/ are opened *)
Example C14c_case_example :
  let r := register_all [([[46; 99; 115; 118]], 1)] in
  open_path r [114; 46; 99; 115; 118] = (Ok 1, [Construct 1])
  /\ open_path r [82; 46; 67; 83; 86] = (Err NotImplementedError, [])
  /\ open_path r [114; 46; 67; 115; 118] = (Err NotImplementedError, [])
  /\ open_path r [114; 46; 99; 115; 118; 46] = (Err NotImplementedError, [])
  /\ open_path r [46; 99; 115; 118] = (Err NotImplementedError, [])
  /\ open_path r [99; 115; 118] = (Err NotImplementedError, [])
  /\ open_path r [100; 46; 99; 115; 118; 47; 114] = (Err NotImplementedError, [])
  /\ open_path r [100; 46; 67; 83; 86; 47; 114; 46; 99; 115; 118] = (Ok 1, [Construct 1])
  /\ open_path r [114; 46; 99; 115; 118; 47] = (Ok 1, [Construct 1]).
Proof. vm_compute. repeat split. Qed.

(* the registry of the source: g.csv gives class 1 (CSV_Workbook), g.CSV and g.csv.bak are refused *)
Example C14c_global_example :
  open_path global_registry [103; 46; 99; 115; 118] = (Ok 1, [Construct 1])
  /\ open_path global_registry [103; 46; 67; 83; 86] = (Err NotImplementedError, [])
  /\ open_path global_registry [103; 46; 99; 115; 118; 46; 98; 97; 107] = (Err NotImplementedError, []).
Proof. vm_compute. repeat split. Qed.

(* trailing parts: the empty string, /, //./, /./.  - and not /.., /x, a bare dot *)
Example C14c_trailing_example :
  map trailing [[]; [47]; [47; 47; 46; 47]; [47; 46; 47; 46]; [47; 46; 46]; [47; 120]; [46]]
  = [true; true; true; true; false; false; false].
Proof. vm_compute. reflexivity. Qed.

(* keys that can be registered but never reached: .tar.gz, csv, the bare dot, the empty string *)
Example C14c_unreachable_keys :
  reg_style [46; 116; 97; 114; 46; 103; 122] = false /\ reg_style [99; 115; 118] = false
  /\ reg_style [46] = false /\ reg_style [] = false
  /\ suffix_of_path [97; 46; 116; 97; 114; 46; 103; 122] = [46; 103; 122].
Proof. vm_compute. repeat split. Qed.
