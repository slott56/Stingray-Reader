(* C03b - the text layer under C03 (second engine of the property): properties of the csv / json / UTF-8 models that
   the round-trip theorems of Props/C03.v (C03_csv_roundtrip, C03_ndjson_roundtrip, C03_facade_text) rest on and
   that harness/c03b.py ties to CPython and to the library on every run.  Only property theorems; the lemmas they rest
   on are in Proofs/CsvP.v, Proofs/NdjsonP.v and Proofs/Utf8P.v. *)
From Coq Require Import NArith List.
Import ListNotations.
Require Import SR.Base.Res.
Require SR.Model.Workbook SR.Model.Csv SR.Model.Ndjson SR.Proofs.CsvP SR.Proofs.NdjsonP.
Require Import SR.Model.Utf8 SR.Proofs.Utf8P SR.Proofs.TextFormatsP.

(* Reader_iternext over the lines of a file is ONE state machine over the characters and the line ends *)
Theorem C03b_reader_is_one_machine : forall (d : N) (lines : list Csv.text) (r : Csv.reader),
  Csv.read_records d r lines = CsvP.run d r (flat_map CsvP.line_events lines).
Proof. exact CsvP.read_records_run. Qed.
Print Assumptions C03b_reader_is_one_machine.

(* the file json.dumps wrote has exactly one line per dict, whatever the strings hold *)
Theorem C03b_ndjson_one_line_per_dict : forall (ea : bool) (docs : list Ndjson.doc),
  Ndjson.ndjson_lines (Ndjson.ndjson_write ea docs) = map (fun d => Ndjson.json_object ea d ++ [10%N]) docs.
Proof. exact NdjsonP.written_lines_lib. Qed.
Print Assumptions C03b_ndjson_one_line_per_dict.

(* scanstring inverts the escaper on every string of the domain, whatever follows the closing quote *)
Theorem C03b_scanstring_inverts_escape : forall (ea : bool) (s rest : Ndjson.text), Ndjson.text_ok ea s = true ->
  Ndjson.scan_string (Ndjson.escape ea s ++ 34%N :: rest) [] = Ok (s, rest).
Proof. exact NdjsonP.scan_json_string. Qed.
Print Assumptions C03b_scanstring_inverts_escape.

(* a key written twice (impossible for a dict) is read as one property holding the last value *)
Theorem C03b_duplicate_key :
  Ndjson.ndjson_read (Ndjson.ndjson_write false [[([97], [49]); ([97], [50])]]%N) = Ndjson.Done [[([97], [50])]]%N.
Proof. vm_compute. reflexivity. Qed.
Print Assumptions C03b_duplicate_key.

(* the text layer of the csv model is Model/Workbook.v's (used for fixed-width text files), with a linear-time reversal *)
Theorem C03b_text_layer : forall s : Csv.text, Csv.text_lines s = Workbook.text_lines s.
Proof. exact CsvP.text_lines_same. Qed.
Print Assumptions C03b_text_layer.

(* within_limit is exact: an unquoted cell of more than csv.field_size_limit() characters makes the reader raise *)
Theorem C03b_csv_over_limit : forall (d : N) (cs : Csv.text),
  Csv.delim_ok d = true -> existsb (Csv.special d) cs = false -> (Csv.field_limit < N.of_nat (length cs))%N ->
  Csv.csv_read d (Csv.csv_write d [[cs]]) = Err OtherError.
Proof. exact CsvP.csv_over_limit. Qed.
Print Assumptions C03b_csv_over_limit.

(* UTF-8: decoding inverts encoding on every sequence of Unicode scalar values *)
Theorem C03b_utf8_roundtrip : forall s : list N, forallb scalar s = true ->
  utf8_decode (length (utf8 s)) (utf8 s) = Some s.
Proof. exact utf8_roundtrip. Qed.
Print Assumptions C03b_utf8_roundtrip.

(* from the BYTES on disk: the UTF-8 file csv.writer produced, decoded and read as the library reads it *)
Theorem C03b_csv_bytes : forall (d : N) (T : list (list Csv.text)),
  Csv.delim_ok d = true -> scalar d = true -> Csv.table_ok_raw T = true -> forallb (forallb (forallb scalar)) T = true ->
  from_bytes (Csv.lib_read d) (utf8 (Csv.csv_write d T)) = Some (Ok T).
Proof.
  intros d T Hd Hs HT Hsc. unfold from_bytes.
  rewrite utf8_roundtrip by (apply CsvP.all_csv_write; try assumption; reflexivity).
  cbn [option_map]. rewrite CsvP.lib_roundtrip by assumption. reflexivity.
Qed.
Print Assumptions C03b_csv_bytes.

(* the same for the json.dumps lines; with ensure_ascii the file is ASCII whatever the strings hold (lone surrogates too) *)
Theorem C03b_ndjson_bytes : forall (ea : bool) (docs : list Ndjson.doc),
  forallb (Ndjson.doc_ok ea) docs = true -> forallb (forallb (NdjsonP.scalar_pair ea)) docs = true ->
  from_bytes Ndjson.ndjson_read (utf8 (Ndjson.ndjson_write ea docs)) = Some (Ndjson.Done docs).
Proof.
  intros ea docs Hok Hsc. unfold from_bytes. rewrite utf8_roundtrip by (apply NdjsonP.scalar_written; exact Hsc).
  cbn [option_map]. rewrite NdjsonP.ndjson_roundtrip by exact Hok. reflexivity.
Qed.
Print Assumptions C03b_ndjson_bytes.

Example C03b_example_bytes :
  scalar 44 = true /\ scalar 128512 = true /\ scalar 55296 = false
  /\ utf8 [97; 233; 8232; 128512]%N = [97; 195; 169; 226; 128; 168; 240; 159; 152; 128]%N
  /\ NdjsonP.scalar_pair true ([97], [55296])%N = true /\ NdjsonP.scalar_pair false ([97], [55296])%N = false
  /\ existsb (Csv.special 44) [97; 32; 9; 0]%N = false.
Proof. repeat apply conj; vm_compute; reflexivity. Qed.

Example C03b_example_text_ok :
  Ndjson.text_ok true [34; 92; 10; 233; 128512; 55296; 97; 56320]%N = true /\ Ndjson.text_ok true [55296; 56320]%N = false.
Proof. split; reflexivity. Qed.
