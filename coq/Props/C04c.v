(* C04, second layer - the conjunction of C04_all taken apart, and the field width against the image.
   Companion of Props/C04.v; the lemmas the theorems rest on are in Proofs/EstructP.v and
   Proofs/EstructWidthP.v.  No engine of its own: the model is C04's (Model/Estruct.v, tied to /repo by the
   exhaustive correspondence run of ./check C04, which observes each of the eight reports separately).

   Why.  C04_all is stated over [cfg_ok], ONE boolean for four reports, under [known_bad_C04], which
   excludes every packed spelling (Struct cannot size a packed item) and every float spelling.  Read
   alone, C04_all therefore says nothing at all about COMP-3 / PACKED-DECIMAL items - not even that the
   size function gives (digits / 2) + 1 or that the decoder accepts that many bytes, although both are
   true.  Here every report has its own statement and its own exception set, each proved exact
   (the statement holds on every configuration outside the set and fails on every one inside), over the
   same complete enumeration [cfgs] (13 spellings x signed x 189 digit pairs = 4914, C04_space_is_complete):

     statement (Spec/SizeSplit.v)                              exception set               findings
     size_and_decoder      calcsize = listed, decoder accepts  known_bad_size              1, 2
     size_is_listed        calcsize = listed width             known_bad_calcsize          1
     decoder_takes_listed  decoder accepts the listed width    known_bad_decoder           2
     struct_is_listed      Struct.calcsize = listed width      known_bad_struct            3
     struct_same_as_size   Struct.calcsize = calcsize          known_bad_struct_same       1, 3
     text_is_listed        text reader, DISPLAY items          none

   findings: 1 K-signed-binary-size (signed binary, 4 or 9 digits), 2 K-float-no-decoder, 3 K-struct-packed.
   C04c_split: the four conjuncts together are exactly [cfg_ok], so nothing was dropped.

   Second part.  "holds exactly the picture's digits": the width the layout uses is the LENGTH OF THE IMAGE
   the specification's encoder (Spec/Encode.v) produces for a value of the picture - for every digit count,
   not only the 4914 configurations.  The signed DISPLAY case is stated as it is: the project counts the S
   as a position, the field is one byte wider than the image (C02c / C18 say what the decoder does with it). *)
From Coq Require Import ZArith NArith List Bool Lia.
Import ListNotations.
Require Import SR.Base.Res SR.Spec.Encode SR.Spec.Fits SR.Spec.SizeCfg SR.Spec.SizeSplit SR.Model.Estruct.
Require Import SR.Proofs.EstructP SR.Proofs.EstructWidthP.

(* 1. size function and decoder *)

(* On every configuration outside K-signed-binary-size and the float spellings - in particular on EVERY packed
   configuration - the size function reports the listed width and the item's decoder accepts it. *)
Theorem C04c_size_and_decoder : forall c : cfg, In c cfgs -> known_bad_size c = None -> size_and_decoder c.
Proof. intros c Hin Hk. apply (C04c_exact c Hin). rewrite Hk. reflexivity. Qed.
Print Assumptions C04c_size_and_decoder.

(* ... and the set is exact: on every configuration in it the statement fails *)
Theorem C04c_size_and_decoder_refuted : forall (c : cfg) (k : Z),
  In c cfgs -> known_bad_size c = Some k -> ~ size_and_decoder c.
Proof. intros c k Hin Hk H. apply (C04c_exact c Hin) in H. rewrite Hk in H. discriminate. Qed.
Print Assumptions C04c_size_and_decoder_refuted.

(* the two halves, each with its own exact set: the size function is wrong only on finding 1 ... *)
Theorem C04c_size : forall c : cfg, In c cfgs -> known_bad_calcsize c = None -> size_is_listed c.
Proof. intros c Hin Hk. apply (C04c_exact c Hin). rewrite Hk. reflexivity. Qed.
Print Assumptions C04c_size.

Theorem C04c_size_refuted : forall (c : cfg) (k : Z), In c cfgs -> known_bad_calcsize c = Some k -> ~ size_is_listed c.
Proof. intros c k Hin Hk H. apply (C04c_exact c Hin) in H. rewrite Hk in H. discriminate. Qed.
Print Assumptions C04c_size_refuted.

(* ... and the decoder refuses the listed width only for the float spellings (it has no branch for them) *)
Theorem C04c_decoder : forall c : cfg, In c cfgs -> known_bad_decoder c = None -> decoder_takes_listed c.
Proof. intros c Hin Hk. apply (C04c_exact c Hin). rewrite Hk. reflexivity. Qed.
Print Assumptions C04c_decoder.

Theorem C04c_decoder_refuted : forall (c : cfg) (k : Z), In c cfgs -> known_bad_decoder c = Some k -> ~ decoder_takes_listed c.
Proof. intros c k Hin Hk H. apply (C04c_exact c Hin) in H. rewrite Hk in H. discriminate. Qed.
Print Assumptions C04c_decoder_refuted.

(* 2. the Struct report *)

(* the native-bytes reader reports the listed width for everything but packed decimal (which it refuses) -
   including signed binary items of 4 or 9 digits, where it is the size function that is off *)
Theorem C04c_struct_report : forall c : cfg, In c cfgs -> known_bad_struct c = None -> struct_is_listed c.
Proof. intros c Hin Hk. apply (C04c_exact c Hin). rewrite Hk. reflexivity. Qed.
Print Assumptions C04c_struct_report.

Theorem C04c_struct_report_refuted : forall (c : cfg) (k : Z), In c cfgs -> known_bad_struct c = Some k -> ~ struct_is_listed c.
Proof. intros c k Hin Hk H. apply (C04c_exact c Hin) in H. rewrite Hk in H. discriminate. Qed.
Print Assumptions C04c_struct_report_refuted.

(* "the same number wherever reported": Struct against the size function *)
Theorem C04c_struct_same_as_size : forall c : cfg, In c cfgs -> known_bad_struct_same c = None -> struct_same_as_size c.
Proof. intros c Hin Hk. apply (C04c_exact c Hin). rewrite Hk. reflexivity. Qed.
Print Assumptions C04c_struct_same_as_size.

Theorem C04c_struct_same_as_size_refuted : forall (c : cfg) (k : Z),
  In c cfgs -> known_bad_struct_same c = Some k -> ~ struct_same_as_size c.
Proof. intros c k Hin Hk H. apply (C04c_exact c Hin) in H. rewrite Hk in H. discriminate. Qed.
Print Assumptions C04c_struct_same_as_size_refuted.

(* 3. the Text report *)

(* DISPLAY items (a text file holds nothing else): the listed width, no exception *)
Theorem C04c_text_report : forall c : cfg, In c cfgs -> text_is_listed c.
Proof. intros c Hin. apply (C04c_exact c Hin). Qed.
Print Assumptions C04c_text_report.

(* what the text reader says for ANY usage and any picture: the DISPLAY width (positions, the S counted) *)
Theorem C04c_text_report_any_usage : forall (s : bool) (m n : nat),
  text_calcsize (mkpic s m n) = N.of_nat (spec_display_width s (m + n)).
Proof. intros s m n. unfold text_calcsize, picture_size, spec_display_width. cbn [p_signed p_int p_frac]. destruct s; lia. Qed.
Print Assumptions C04c_text_report_any_usage.

(* nothing was dropped in splitting *)
Theorem C04c_split : forall c : cfg, cfg_ok c = size_okb c && decoder_okb c && struct_okb c && text_okb c.
Proof. exact cfg_ok_split. Qed.
Print Assumptions C04c_split.

(* 4. the field is as wide as the image *)

(* the images: whatever the digits, the sign nibble and the value are *)
Theorem C04c_packed_image_width : forall (ds : list N) (s : N),
  length (enc_packed ds s) = spec_packed_width (length ds).
Proof. exact length_enc_packed. Qed.
Print Assumptions C04c_packed_image_width.

Theorem C04c_zoned_image_width : forall (ds : list N) (z : N), length (enc_zoned ds z) = length ds.
Proof. exact length_enc_zoned. Qed.
Print Assumptions C04c_zoned_image_width.

Theorem C04c_binary_image_width : forall (w : nat) (v : Z), length (enc_be w v) = w.
Proof. exact length_enc_be. Qed.
Print Assumptions C04c_binary_image_width.

(* packed decimal, every spelling, signed or not, EVERY digit count (no upper bound) *)
Theorem C04c_packed_field : forall (u : N) (s : bool) (m n : nat) (ds : list N) (sg : N),
  In u packed_spellings -> (1 <= m + n)%nat -> length ds = (m + n)%nat ->
  calcsize u (mkpic s m n) = Ok (N.of_nat (length (enc_packed ds sg))).
Proof. exact packed_field. Qed.
Print Assumptions C04c_packed_field.

(* unsigned DISPLAY *)
Theorem C04c_display_unsigned_field : forall (m n : nat) (ds : list N) (z : N),
  (1 <= m + n)%nat -> length ds = (m + n)%nat ->
  calcsize display_spelling (mkpic false m n) = Ok (N.of_nat (length (enc_zoned ds z))).
Proof. exact display_unsigned_field. Qed.
Print Assumptions C04c_display_unsigned_field.

(* signed DISPLAY, as it is: ONE BYTE MORE than the image (the S is counted as a position; a mainframe stores
   S9(n) DISPLAY, sign in the zone of the last digit, in n bytes) *)
Theorem C04c_display_signed_field : forall (m n : nat) (ds : list N) (z : N),
  (1 <= m + n)%nat -> length ds = (m + n)%nat ->
  calcsize display_spelling (mkpic true m n) = Ok (N.of_nat (1 + length (enc_zoned ds z))).
Proof. intros m n ds z Hmn Hl. rewrite length_enc_zoned, Hl, calcsize_display by assumption. reflexivity. Qed.
Print Assumptions C04c_display_signed_field.

(* binary, outside K-signed-binary-size *)
Theorem C04c_binary_field : forall (u : N) (s : bool) (m n w : nat) (v : Z),
  In u binary_spellings -> spec_binary_width (m + n) = Some w ->
  s && ((m + n =? 4)%nat || (m + n =? 9)%nat) = false ->
  calcsize u (mkpic s m n) = Ok (N.of_nat (length (enc_be w v))).
Proof. exact binary_field. Qed.
Print Assumptions C04c_binary_field.

(* ... and inside it, symbolically (not only by enumeration): TWICE the image *)
Theorem C04c_binary_field_signed_4_9_refuted : forall (u : N) (m n w : nat) (v : Z),
  In u binary_spellings -> spec_binary_width (m + n) = Some w ->
  ((m + n =? 4)%nat || (m + n =? 9)%nat) = true ->
  calcsize u (mkpic true m n) = Ok (N.of_nat (2 * length (enc_be w v))).
Proof. intros. rewrite length_enc_be. apply calcsize_binary_signed_4_9; assumption. Qed.
Print Assumptions C04c_binary_field_signed_4_9_refuted.

(* non-vacuity *)

(* every exception set is inhabited inside [cfgs] and so is its complement; S9(5)V99 COMP-3 (usage 8) is outside
   known_bad_size although known_bad_C04 excludes it; the statement for it: 4 bytes, accepted. *)
Example C04c_examples_sets :
  In (8%N, true, 5%nat, 2%nat) cfgs
  /\ known_bad_C04 (8%N, true, 5%nat, 2%nat) = Some 3%Z /\ known_bad_size (8%N, true, 5%nat, 2%nat) = None
  /\ spec_size 8 true 5 2 = Some 4%N /\ calcsize 8 (mkpic true 5 2) = Ok 4%N /\ decoder_accepts 8 (mkpic true 5 2) 4 = true
  (* S9(4) COMP (usage 10): finding 1; the size function says 4, listed 2, Struct says 2 *)
  /\ In (10%N, true, 4%nat, 0%nat) cfgs
  /\ known_bad_size (10%N, true, 4%nat, 0%nat) = Some 1%Z /\ known_bad_calcsize (10%N, true, 4%nat, 0%nat) = Some 1%Z
  /\ known_bad_decoder (10%N, true, 4%nat, 0%nat) = None /\ known_bad_struct (10%N, true, 4%nat, 0%nat) = None
  /\ known_bad_struct_same (10%N, true, 4%nat, 0%nat) = Some 1%Z
  /\ calcsize 10 (mkpic true 4 0) = Ok 4%N /\ struct_calcsize 10 (mkpic true 4 0) = Ok 2%N
  (* COMP-1 (usage 6): finding 2; size 4 but no decoder *)
  /\ In (6%N, false, 7%nat, 0%nat) cfgs
  /\ known_bad_size (6%N, false, 7%nat, 0%nat) = Some 2%Z /\ known_bad_calcsize (6%N, false, 7%nat, 0%nat) = None
  /\ known_bad_decoder (6%N, false, 7%nat, 0%nat) = Some 2%Z
  /\ calcsize 6 (mkpic false 7 0) = Ok 4%N /\ decoder_accepts 6 (mkpic false 7 0) 4 = false
  (* packed: finding 3 for the Struct report only *)
  /\ known_bad_struct (8%N, true, 5%nat, 2%nat) = Some 3%Z /\ known_bad_struct_same (8%N, true, 5%nat, 2%nat) = Some 3%Z
  /\ struct_calcsize 8 (mkpic true 5 2) = Err ValueError
  (* S9(3)V99 DISPLAY (usage 11): clean everywhere, 6 bytes in every report *)
  /\ In (11%N, true, 3%nat, 2%nat) cfgs
  /\ known_bad_size (11%N, true, 3%nat, 2%nat) = None /\ known_bad_struct (11%N, true, 3%nat, 2%nat) = None
  /\ known_bad_struct_same (11%N, true, 3%nat, 2%nat) = None
  /\ calcsize 11 (mkpic true 3 2) = Ok 6%N /\ struct_calcsize 11 (mkpic true 3 2) = Ok 6%N /\ text_calcsize (mkpic true 3 2) = 6%N.
Proof. destruct cfgs_examples as (I1 & I2 & I3 & I4). repeat split; try assumption; vm_compute; reflexivity. Qed.

(* how many configurations each exception set holds: 4914 = 13 * 2 * 189; packed 3 * 378 = 1134 (all of them were
   outside C04_all); float 4 * 378 = 1512; signed binary 4/9: 5 spellings * (5 + 10 digit pairs) = 75 *)
Example C04c_examples_counts :
  length cfgs = 4914%nat
  /\ length (filter (fun c => negb (is_none (known_bad_C04 c))) cfgs) = 2721%nat
  /\ length (filter (fun c => negb (is_none (known_bad_size c))) cfgs) = 1587%nat
  /\ length (filter (fun c => negb (is_none (known_bad_calcsize c))) cfgs) = 75%nat
  /\ length (filter (fun c => negb (is_none (known_bad_decoder c))) cfgs) = 1512%nat
  /\ length (filter (fun c => negb (is_none (known_bad_struct c))) cfgs) = 1134%nat
  /\ length (filter (fun c => negb (is_none (known_bad_struct_same c))) cfgs) = 1209%nat.
Proof.
  (* each set as a boolean: the spellings it takes whole, and the rows (spelling, sign) of which it takes the digit
     pairs that total 4 or 9; the counts then follow row by row *)
  assert (H1 : forall u s m n, negb (is_none (known_bad_C04 (u, s, m, n)))
               = (is_float u || is_packed u) || is_binary u && s && ((m + n =? 4) || (m + n =? 9))%nat).
  { intros u s m n. unfold known_bad_C04. now destruct (is_binary u && s && _), (is_float u), (is_packed u). }
  assert (H2 : forall u s m n, negb (is_none (known_bad_size (u, s, m, n)))
               = is_float u || is_binary u && s && ((m + n =? 4) || (m + n =? 9))%nat).
  { intros u s m n. unfold known_bad_size, signed_binary_4_9. now destruct (is_binary u && s && _), (is_float u). }
  assert (H3 : forall u s m n, negb (is_none (known_bad_calcsize (u, s, m, n)))
               = false || is_binary u && s && ((m + n =? 4) || (m + n =? 9))%nat).
  { intros u s m n. unfold known_bad_calcsize, signed_binary_4_9. now destruct (is_binary u && s && _). }
  assert (H4 : forall u s m n, negb (is_none (known_bad_decoder (u, s, m, n)))
               = is_float u || false && ((m + n =? 4) || (m + n =? 9))%nat).
  { intros u s m n. unfold known_bad_decoder. now destruct (is_float u). }
  assert (H5 : forall u s m n, negb (is_none (known_bad_struct (u, s, m, n)))
               = is_packed u || false && ((m + n =? 4) || (m + n =? 9))%nat).
  { intros u s m n. unfold known_bad_struct. now destruct (is_packed u). }
  assert (H6 : forall u s m n, negb (is_none (known_bad_struct_same (u, s, m, n)))
               = is_packed u || is_binary u && s && ((m + n =? 4) || (m + n =? 9))%nat).
  { intros u s m n. unfold known_bad_struct_same, signed_binary_4_9. now destruct (is_binary u && s && _), (is_packed u). }
  (* one term: tactic steps are slow to check on this goal, each copies its unary numerals *)
  exact (conj cfgs_count
        (conj (eq_trans (count_rows _ _ _ H1) eq_refl)
        (conj (eq_trans (count_rows _ _ _ H2) eq_refl)
        (conj (eq_trans (count_rows _ _ (fun u s => is_binary u && s) H3) eq_refl)
        (conj (eq_trans (count_rows _ _ (fun _ _ => false) H4) eq_refl)
        (conj (eq_trans (count_rows _ _ (fun _ _ => false) H5) eq_refl)
              (eq_trans (count_rows _ _ _ H6) eq_refl))))))).
Qed.

(* field width = image width on concrete items: -123.45 in S9(3)V99 COMP-3 is 12 34 5D, three bytes;
   9(4) DISPLAY 0042 is F0 F0 F4 F2; S9(4) DISPLAY is laid out as FIVE bytes for the four-byte image F0 F0 F4 C2;
   S9(3)V99 COMP is four bytes; S9(4) COMP is laid out as four bytes for the two-byte image. *)
Example C04c_examples_fields :
  calcsize 8 (mkpic true 3 2) = Ok 3%N /\ enc_packed [1; 2; 3; 4; 5]%N 13 = [18; 52; 93]%N
  /\ calcsize 11 (mkpic false 4 0) = Ok 4%N /\ enc_zoned [0; 0; 4; 2]%N 15 = [240; 240; 244; 242]%N
  /\ calcsize 11 (mkpic true 4 0) = Ok 5%N /\ enc_zoned [0; 0; 4; 2]%N 12 = [240; 240; 244; 194]%N
  /\ calcsize 10 (mkpic true 3 2) = Ok 4%N /\ spec_binary_width (3 + 2) = Some 4%nat
  /\ (true && ((3 + 2 =? 4)%nat || (3 + 2 =? 9)%nat) = false)
  /\ calcsize 10 (mkpic true 4 0) = Ok 4%N /\ enc_be 2 (-2) = [255; 254]%N
  /\ ((4 + 0 =? 4)%nat || (4 + 0 =? 9)%nat) = true.
Proof. vm_compute. repeat split; reflexivity. Qed.
