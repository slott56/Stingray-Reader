(* C18, BINARY items - companion of Props/C18.v (whose full statement enumerates packed and DISPLAY items only).
   The property theorems; the lemmas they rest on are in Proofs/EstructBinaryP.v.  No engine of its own: the model is
   Model/Estruct.v ([unpack], binary branch: struct.unpack of the format h, i or q chosen from the digit count), tied to
   /repo by the stream [binary] of ./check C18 (harness/c18.py, Judge/JC18.v kind 3).
   Definitions of the statements: Spec/FitsBinary.v, Spec/Fits.v, Spec/Encode.v.

   The property: whatever bytes a numeric field holds, the result fits its PICTURE or is an error - no more integer digits
   than declared and exactly the declared scale.  For a binary item PIC S?9(m)V9(n), 1 <= m+n <= 18, in a field of the
   width the digit count gives (2, 4, 8 bytes), this is [C18c_binary_full].  It is FALSE of the code as it is:

     USAGE COMP PIC 9(4),     7F FF        -> 32767         five digits in a four-digit field
     USAGE COMP PIC 9(4),     FF FF        -> -1            a negative number in a picture without S (the field holds 65535)
     USAGE COMP PIC S9(3)V99, 7F FF FF FF  -> 2147483647    ten digits in a five-digit field, and an int: no scale
     USAGE COMP PIC S9(3)V99, 00 00 30 39  -> 12345         the field stores 123.45; the result is the int 12345

   What IS true, exactly:
     C18c_binary_int_result        every buffer of the width decodes - never an error - to the int that is the
                                   two's-complement reading of the field, for every m and n
     C18c_binary_width_bound       that int lies in the two's-complement range of the WIDTH; C18c_binary_every_value_reached:
                                   every number of that range is reached - the width's bound is the only bound
     C18c_binary_fits_iff          the number the field stores (v * 10^-n) fits the picture exactly when
                                   -(10^(m+n)-1) <= v <= 10^(m+n)-1, from 0 for a picture without S: every buffer outside
                                   is a violation.  C18c_halfword_counts: of the 65536 halfwords, 55536 violate for 9(4),
                                   45537 for S9(4), 65526 for 9, 65517 for S9.
     C18c_binary_scale_never_applied   with n > 0 the result is an int (exponent 0) for EVERY buffer: no buffer at all yields
                                   a result of the declared scale (65536 of 65536 for 99V99); consistent with
                                   C02c_binary_ignores_scale / C02c_binary_scale_blind
     C18c_binary_result_fits_iff   the returned value fits exactly when n = 0 and v is in the picture's range
     C18c_binary_violation_set     so the violating buffers are exactly [binary_exceeds_picture], the trigger of the known
                                   finding K-binary-exceeds-picture (code 3 of Judge/JC18.v)
     C18c_binary                   the property, outside that set
     C18c_unsigned_reading         for a picture without S, "the signed reading is negative or too large" and "the unsigned
                                   reading of the field is too large" are the same buffers

   Width: the field width here is the decoder's own (digit count 1-4: 2 bytes, 5-9: 4, 10-18: 8 = Spec/Encode.v
   spec_binary_width).  estruct.calcsize gives a signed item of 4 or 9 digits the next width (C04's K-signed-binary-size); a
   buffer of THAT width is a struct.error for the decoder, which the property allows. *)
From Coq Require Import ZArith NArith List Bool Lia.
Import ListNotations.
Require Import SR.Base.Res SR.Base.Dec SR.Spec.Encode SR.Spec.Fits SR.Spec.FitsBinary SR.Model.Estruct.
Require Import SR.Proofs.EstructP SR.Proofs.EstructWidthP SR.Proofs.EstructBinaryP SR.Props.C18.
Open Scope Z_scope.

(* the full statement, and its refutation *)

Definition C18c_binary_full : Prop :=
  forall (u : N) (p : pic) (w : nat) (buffer : list N),
    In u binary_spellings -> (1 <= p_int p + p_frac p <= 18)%nat ->
    spec_binary_width (p_int p + p_frac p) = Some w -> length buffer = w -> bytes_ok buffer = true ->
    (exists e, unpack u p buffer = Err e) \/
    (exists r, unpack u p buffer = Ok r /\ fits_result p r = true).

(* C18 for the three families of numeric items *)
Definition C18c_full_statement : Prop := C18_full_statement /\ C18c_binary_full.

Theorem C18c_binary_refuted : ~ C18c_binary_full.
Proof.
  intros H. specialize (H 10%N (mkpic false 4 0) 2%nat [127; 255]%N).
  destruct H as [[e He]|[r [Hr Hf]]]; try reflexivity.
  - cbn. auto 10.
  - cbn. lia.
  - vm_compute in He. discriminate.
  - vm_compute in Hr. injection Hr as <-. vm_compute in Hf. discriminate.
Qed.
Print Assumptions C18c_binary_refuted.

Theorem C18c_full_refuted : ~ C18c_full_statement.
Proof. intros [_ H]. exact (C18c_binary_refuted H). Qed.
Print Assumptions C18c_full_refuted.

Theorem C18c_binary_witnesses :
  unpack 10 (mkpic false 4 0) [127; 255]%N = Ok (VInt 32767)
  /\ fits_result (mkpic false 4 0) (VInt 32767) = false
  /\ unpack 10 (mkpic false 4 0) [255; 255]%N = Ok (VInt (-1))
  /\ fits_result (mkpic false 4 0) (VInt (-1)) = false
  /\ unpack 10 (mkpic true 3 2) [127; 255; 255; 255]%N = Ok (VInt 2147483647)
  /\ fits_result (mkpic true 3 2) (VInt 2147483647) = false
  /\ unpack 10 (mkpic true 3 2) [0; 0; 48; 57]%N = Ok (VInt 12345)
  /\ fits_result (mkpic true 3 2) (VInt 12345) = false.
Proof. vm_compute. repeat split; reflexivity. Qed.
Print Assumptions C18c_binary_witnesses.

(* what the code guarantees *)

(* the result: the stored integer, for every buffer of the width, every digit count, every scale *)
Theorem C18c_binary_int_result : forall (u : N) (p : pic) (w : nat) (buffer : list N),
  In u binary_spellings -> spec_binary_width (p_int p + p_frac p) = Some w -> length buffer = w ->
  unpack u p buffer = Ok (VInt (signed_be w buffer)).
Proof. exact binary_value. Qed.
Print Assumptions C18c_binary_int_result.

(* the only bound: the two's-complement range of the width ... *)
Theorem C18c_binary_width_bound : forall (u : N) (p : pic) (w : nat) (buffer : list N),
  In u binary_spellings -> spec_binary_width (p_int p + p_frac p) = Some w -> length buffer = w ->
  bytes_ok buffer = true ->
  exists v, unpack u p buffer = Ok (VInt v) /\ width_low w <= v <= width_high w.
Proof.
  intros u p w buffer Hu Hw Hl Hb. exists (signed_be w buffer). split; [apply binary_value; assumption|].
  apply signed_be_bound; [pose proof (spec_binary_width_cases _ _ Hw); lia|assumption|assumption].
Qed.
Print Assumptions C18c_binary_width_bound.

(* ... and all of it is reached *)
Theorem C18c_binary_every_value_reached : forall (u : N) (p : pic) (w : nat) (v : Z),
  In u binary_spellings -> spec_binary_width (p_int p + p_frac p) = Some w ->
  width_low w <= v <= width_high w ->
  exists buffer, length buffer = w /\ bytes_ok buffer = true /\ unpack u p buffer = Ok (VInt v).
Proof.
  intros u p w v Hu Hw Hv. exists (enc_be w v). split; [apply length_enc_be|]. split; [apply to_be_bytes_ok|].
  apply C02_binary; [assumption|assumption|]. unfold width_low, width_high in Hv. lia.
Qed.
Print Assumptions C18c_binary_every_value_reached.

(* the stored number fits the picture exactly when the field's integer is within the picture's digits *)
Theorem C18c_binary_fits_iff : forall (u : N) (p : pic) (w : nat) (buffer : list N),
  In u binary_spellings -> spec_binary_width (p_int p + p_frac p) = Some w -> length buffer = w ->
  exists v, unpack u p buffer = Ok (VInt v) /\ v = signed_be w buffer /\
    (fits_signed (p_signed p) (p_int p) (p_frac p) (stored_number (p_frac p) v) = true
     <-> picture_low (p_signed p) (p_int p + p_frac p) <= v <= picture_high (p_int p + p_frac p)).
Proof.
  intros u p w buffer Hu Hw Hl. exists (signed_be w buffer). split; [apply binary_value; assumption|].
  split; [reflexivity|apply stored_fits_iff].
Qed.
Print Assumptions C18c_binary_fits_iff.

(* the returned value (an int) fits exactly when, besides, the picture has no fraction digits *)
Theorem C18c_binary_result_fits_iff : forall (u : N) (p : pic) (w : nat) (buffer : list N),
  In u binary_spellings -> spec_binary_width (p_int p + p_frac p) = Some w -> length buffer = w ->
  exists v, unpack u p buffer = Ok (VInt v) /\ v = signed_be w buffer /\
    (fits_result p (VInt v) = true
     <-> p_frac p = 0%nat /\ picture_low (p_signed p) (p_int p + p_frac p) <= v <= picture_high (p_int p + p_frac p)).
Proof.
  intros u p w buffer Hu Hw Hl. exists (signed_be w buffer). split; [apply binary_value; assumption|].
  split; [reflexivity|apply int_result_fits_iff].
Qed.
Print Assumptions C18c_binary_result_fits_iff.

(* the declared scale is never applied: with fraction digits, no buffer whatever gives a result that fits *)
Theorem C18c_binary_scale_never_applied : forall (u : N) (p : pic) (w : nat) (buffer : list N),
  In u binary_spellings -> spec_binary_width (p_int p + p_frac p) = Some w -> length buffer = w ->
  (0 < p_frac p)%nat ->
  exists v, unpack u p buffer = Ok (VInt v) /\ fits_result p (VInt v) = false.
Proof.
  intros u p w buffer Hu Hw Hl Hn. exists (signed_be w buffer). split; [apply binary_value; assumption|].
  rewrite int_result_fits. destruct (p_frac p); [lia|reflexivity].
Qed.
Print Assumptions C18c_binary_scale_never_applied.

(* the violating buffers are exactly the trigger set of the known finding *)
Theorem C18c_binary_violation_set : forall (u : N) (p : pic) (w : nat) (buffer : list N),
  In u binary_spellings -> spec_binary_width (p_int p + p_frac p) = Some w -> length buffer = w ->
  violates u p buffer = binary_exceeds_picture p buffer.
Proof. exact binary_violation_set. Qed.
Print Assumptions C18c_binary_violation_set.

(* the property, outside the finding *)
Theorem C18c_binary : forall (u : N) (p : pic) (w : nat) (buffer : list N),
  In u binary_spellings -> spec_binary_width (p_int p + p_frac p) = Some w -> length buffer = w ->
  binary_exceeds_picture p buffer = false ->
  exists r, unpack u p buffer = Ok r /\ fits_result p r = true.
Proof.
  intros u p w buffer Hu Hw Hl Hk. exists (VInt (signed_be w buffer)). split; [apply binary_value; assumption|].
  apply negb_false_iff. rewrite <- Hk, <- (binary_violation_set u p w buffer Hu Hw Hl).
  unfold violates. rewrite (binary_value u p w buffer Hu Hw Hl). reflexivity.
Qed.
Print Assumptions C18c_binary.

(* a picture without S: the field read as the unsigned number it is holds at most the picture's digits exactly when the
   decoder's signed reading is in 0 .. 10^d - 1 *)
Theorem C18c_unsigned_reading : forall (d w : nat) (buffer : list N),
  spec_binary_width d = Some w -> length buffer = w -> bytes_ok buffer = true ->
  (Z.of_N (from_be buffer) <= picture_high d <-> 0 <= signed_be w buffer <= picture_high d).
Proof.
  intros d w buffer Hw Hl Hb. pose proof (picture_below_half d w Hw) as HP.
  pose proof (from_be_bound buffer Hb) as HB. rewrite Hl in HB.
  destruct (half_width w) as [H256 Hh]; [pose proof (spec_binary_width_cases _ _ Hw); lia|].
  rewrite H256 in HB. rewrite <- Hh in HP. unfold picture_high, signed_be. cbv zeta.
  destruct (_ <? _)%N eqn:E; lia.
Qed.
Print Assumptions C18c_unsigned_reading.

(* every buffer of two bytes is in the enumeration that is counted below *)
Theorem C18c_halfword_buffers_all : forall buffer : list N,
  length buffer = 2%nat -> bytes_ok buffer = true -> In buffer halfword_buffers.
Proof.
  intros [|a [|b [|c t]]] Hl Hb; try discriminate.
  unfold bytes_ok in Hb. cbn [forallb] in Hb. apply halfword_buffers_complete; lia.
Qed.
Print Assumptions C18c_halfword_buffers_all.

(* computed counts over all 65536 halfword buffers, USAGE COMP: 9(4), S9(4), 9, S9, 99V99 *)
Theorem C18c_halfword_counts :
  count_if (fun _ => true) halfword_buffers = 65536%N
  /\ count_if (violates 10 (mkpic false 4 0)) halfword_buffers = 55536%N
  /\ count_if (violates 10 (mkpic true 4 0)) halfword_buffers = 45537%N
  /\ count_if (violates 10 (mkpic false 1 0)) halfword_buffers = 65526%N
  /\ count_if (violates 10 (mkpic true 1 0)) halfword_buffers = 65517%N
  /\ count_if (violates 10 (mkpic false 2 2)) halfword_buffers = 65536%N.
Proof.
  assert (Hu : In 10%N binary_spellings) by (cbn; tauto).
  split; [apply (halfword_count_between _ 0 65536); [lia|lia|intros; lia]|].
  rewrite !halfword_violations by easy.
  rewrite halfword_violations_scaled by (try easy; cbn; lia).
  cbn [p_signed p_int p_frac picture_low picture_high Nat.add]. change (Z.of_nat 4) with 4. change (Z.of_nat 1) with 1.
  repeat apply conj; reflexivity.
Qed.
Print Assumptions C18c_halfword_counts.

(* non-vacuity *)

(* 9(4) COMP: 27 0F = 9999 fits, 27 10 = 10000 does not; S9(4): D8 F1 = -9999 fits, D8 F0 = -10000 does not; the ends of the
   halfword range are reached; the trigger predicate is false / true on those buffers; S9(3)V99 is a fullword. *)
Example C18c_examples :
  unpack 10 (mkpic false 4 0) [39; 15]%N = Ok (VInt 9999) /\ fits_result (mkpic false 4 0) (VInt 9999) = true
  /\ binary_exceeds_picture (mkpic false 4 0) [39; 15]%N = false
  /\ unpack 10 (mkpic false 4 0) [39; 16]%N = Ok (VInt 10000) /\ fits_result (mkpic false 4 0) (VInt 10000) = false
  /\ binary_exceeds_picture (mkpic false 4 0) [39; 16]%N = true
  /\ unpack 0 (mkpic true 4 0) [216; 241]%N = Ok (VInt (-9999)) /\ fits_result (mkpic true 4 0) (VInt (-9999)) = true
  /\ unpack 0 (mkpic true 4 0) [216; 240]%N = Ok (VInt (-10000)) /\ fits_result (mkpic true 4 0) (VInt (-10000)) = false
  /\ unpack 5 (mkpic true 4 0) [128; 0]%N = Ok (VInt (-32768)) /\ width_low 2 = -32768 /\ width_high 2 = 32767
  /\ spec_binary_width (3 + 2) = Some 4%nat /\ In 10%N binary_spellings
  /\ binary_exceeds_picture (mkpic true 3 2) [0; 0; 48; 57]%N = true
  /\ picture_low true 4 = -9999 /\ picture_low false 4 = 0 /\ picture_high 4 = 9999.
Proof. vm_compute. repeat split; try reflexivity. right. right. right. right. left. reflexivity. Qed.
