(* C18 - Whatever bytes a numeric field holds, the result fits its PICTURE or is an error.
   The property theorems; the lemmas they rest on are in Proofs/EstructP.v.  [unpack] = model of estruct.unpack (Model/Estruct.v);
   [fits m n d] = exactly scale n and fewer than 10^(m+n) in magnitude (Spec/Fits.v).
   The statement holds for EVERY buffer of the field's width (no validity assumed) outside two
   families that remain known findings: the pad nibble of an even-digit packed item and the
   sign-position byte of a signed DISPLAY item (the width counts the S).
   [C18_full_statement] enumerates packed and DISPLAY items.  BINARY items (COMP, COMP-4, BINARY, COMPUTATIONAL,
   COMPUTATIONAL-4) are the companion file Props/C18c.v: [C18c_binary_full], refuted (7F FF in 9(4) COMP is 32767; the
   implied scale is never applied), the exact positive theorems, and [C18c_full_statement] for all three families. *)
From Coq Require Import ZArith NArith List Bool Lia.
Import ListNotations.
Require Import SR.Base.Res SR.Base.Dec SR.Spec.Encode SR.Spec.Fits SR.Model.Estruct SR.Proofs.EstructP.
Open Scope N_scope.

Definition C18_full_statement : Prop :=
  forall (u : N) (p : pic) (buffer : list N),
    (In u packed_spellings /\ length buffer = spec_packed_width (p_int p + p_frac p) \/
     u = display_spelling /\ length buffer = spec_display_width (p_signed p) (p_int p + p_frac p)) ->
    (1 <= p_int p + p_frac p <= 27)%nat ->
    (exists e, unpack u p buffer = Err e) \/
    (exists d, unpack u p buffer = Ok (VDec d) /\ fits (p_int p) (p_frac p) d = true).

Theorem C18_packed : forall (u : N) (p : pic) (buffer : list N),
  In u packed_spellings -> (1 <= p_int p + p_frac p <= 28)%nat ->
  length buffer = spec_packed_width (p_int p + p_frac p) ->
  pad_nibble_set p buffer = false ->
  (exists e, unpack u p buffer = Err e) \/
  (exists d, unpack u p buffer = Ok (VDec d) /\ fits (p_int p) (p_frac p) d = true).
Proof. exact C18_packed_lemma. Qed.
Print Assumptions C18_packed.

Theorem C18_zoned : forall (p : pic) (buffer : list N),
  (1 <= p_int p + p_frac p <= 27)%nat ->
  length buffer = spec_display_width (p_signed p) (p_int p + p_frac p) ->
  sign_position_set p buffer = false ->
  (exists e, unpack display_spelling p buffer = Err e) \/
  (exists d, unpack display_spelling p buffer = Ok (VDec d) /\ fits (p_int p) (p_frac p) d = true).
Proof. exact C18_zoned_lemma. Qed.
Print Assumptions C18_zoned.

(* The full statement is false of the faithful model: the two residual families. *)
Theorem C18_refuted_pad_nibble : ~ C18_full_statement.
Proof.
  (* 12 34 5C in S9(4) COMP-3 decodes to 12345: five digits in a four-digit field *)
  intros H. specialize (H 8 (mkpic true 4 0) [18; 52; 92]).
  destruct H as [[e He]|[d [Hd Hf]]]; [left; split; [cbn; auto|reflexivity]|cbn; lia| |].
  - vm_compute in He. discriminate.
  - vm_compute in Hd. injection Hd as <-. vm_compute in Hf. discriminate.
Qed.

Theorem C18_refuted_sign_position :
  exists p buffer, length buffer = spec_display_width (p_signed p) (p_int p + p_frac p) /\
    exists d, unpack display_spelling p buffer = Ok (VDec d) /\ fits (p_int p) (p_frac p) d = false.
Proof.
  (* F1 F2 F3 in S99 DISPLAY (three bytes because the S counts) decodes to 123 *)
  exists (mkpic true 2 0), [241; 242; 243]. split; [reflexivity|]. eexists. split; vm_compute; reflexivity.
Qed.

(* Non-vacuity: corrupt nibbles are an error, valid ones fit. 1A 3C in S9(3) COMP-3; F1 FA in 99. *)
Example C18_examples :
  unpack 8 (mkpic true 3 0) [26; 60] = Err ValueError
  /\ unpack 11 (mkpic false 2 0) [241; 250] = Err ValueError
  /\ pad_nibble_set (mkpic true 3 0) [26; 60] = false
  /\ unpack 8 (mkpic true 3 0) [18; 60] = Ok (VDec (mkdec false 123 0)).
Proof. vm_compute. repeat split; reflexivity. Qed.
