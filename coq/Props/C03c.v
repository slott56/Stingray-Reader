(* C03, companion file - format transparency for EBCDIC files in RECFM V and VB.

   Props/C03.v (C03_fixed_ebcdic) covers COBOL_EBCDIC_File with the default reader RECFM_N and with RECFM_F.
   Here: the same table written with record descriptor words (RECFM=V) and with block and record descriptor
   words (RECFM=VB, EVERY grouping of the rows into blocks) and read through the same facade run
   COBOL_EBCDIC_File(path, recfm_class=RECFM_V | RECFM_VB, lrecl=...).sheet_iter() -> set_schema(schema) ->
   rows() -> name(c).value() gives back the padded table - with NO premise about anything outside the model.

   Spec/TransparencyV.v  [write_ebcdic_V T widths], [write_ebcdic_VB blocks widths]: the records of
                         Spec/Transparency.v framed by the writers of Spec/Recfm.v (write_V, write_VB);
                         [record_fits] / [block_fits]: the descriptor words fit 16 bits
   Model/WorkbookV.v     [read_ebcdic_v r kind wb_lrecl file layout probes]: the facade run with the reader
                         class r; the record length (the workbook's or the layout's) is handed to the reader,
                         which ignores it, so wb_lrecl is arbitrary in the theorems
   [kind] = which Python file object is the source (irrelevant: legal images never produce a negative read).

   Proof = C05's round trips (V_record_iter_ok, VB_iters_any) composed with the per-record decoding
   already proved for RECFM N / F (cp037 decode after encode on the whole repertoire, C02's text theorem).
   Only the property theorems are here; the lemmas they rest on are in Proofs/WorkbookVP.v.

   Correspondence: no stream of its own.  V and VB files read through the workbook API
   (COBOL_EBCDIC_File(path, recfm_class=..., lrecl=...).sheet('').set_schema(...).rows()) are a stream of
   C06's run (harness/c06.py: recfm 1 = V, 2 = VB, flat and nested layouts, any blocking), and the readers
   RECFM_V / RECFM_VB themselves are tied by C05's run; the per-field decoding is tied by C03's EBCDIC stream. *)
From Coq Require Import NArith List.
Import ListNotations.
Require Import SR.Base.Res SR.Spec.Transparency SR.Spec.TransparencyV SR.Spec.Recfm SR.Gen.RecfmParams.
Require Import SR.Model.HeaderRow SR.Model.Workbook SR.Model.WorkbookV.
Require Import SR.Proofs.WorkbookVP.

(* RECFM V: every table with distinct column names, one width >= 1 per column, cells no longer than their
   columns and in the CP037 repertoire; any lrecl argument; zero columns and zero rows included. *)
Theorem C03c_fixed_ebcdic_V : forall (kind : N) (wb_lrecl : option nat) (T : table) (widths : list nat),
  NoDup (t_header T) -> fits widths T = true -> repertoire_ok T = true ->
  read_ebcdic_v RECFM_V kind wb_lrecl (write_ebcdic_V T widths) (layout_of (t_header T) widths) (t_header T)
  = expected [([], pad_table widths T)].
Proof. exact ebcdic_V_ok. Qed.
Print Assumptions C03c_fixed_ebcdic_V.

(* RECFM VB: the rows grouped into blocks in ANY way (blocks of any number of rows, empty blocks too), every
   block within the 16-bit block length; zero columns included, as for V (since fix eee0fb2 RECFM_VB reads a
   record without data bytes wherever it stands in its block: Props/C05.v C05_VB; before it this theorem needed
   at least one column). *)
Theorem C03c_fixed_ebcdic_VB :
  forall (kind : N) (wb_lrecl : option nat) (T : table) (widths : list nat) (blocks : list (list (list text))),
  NoDup (t_header T) -> fits widths T = true -> repertoire_ok T = true ->
  concat blocks = t_rows T -> forallb (block_fits widths) blocks = true ->
  read_ebcdic_v RECFM_VB kind wb_lrecl (write_ebcdic_VB blocks widths) (layout_of (t_header T) widths) (t_header T)
  = expected [([], pad_table widths T)].
Proof. intros kind wb_lrecl T widths blocks Hnd Hfit Hrep Hcat _. apply ebcdic_VB_any; assumption. Qed.
Print Assumptions C03c_fixed_ebcdic_VB.

(* Hence the four RECFMs agree: the V file and every VB file of a table read exactly like its N / F file
   (Props/C03.v C03_fixed_ebcdic), whatever file-object kinds and lrecl arguments are used on either side. *)
Theorem C03c_recfm_agree :
  forall (r : recfm) (kind kind' : N) (wb_lrecl wb_lrecl' : option nat) (T : table) (widths : list nat)
         (blocks : list (list (list text))),
  NoDup (t_header T) -> fits widths T = true -> repertoire_ok T = true -> t_header T <> [] ->
  (r = RECFM_N -> list_sum widths <= N.to_nat buffer_size) ->
  wb_lrecl = None \/ wb_lrecl = Some (list_sum widths) ->
  concat blocks = t_rows T -> forallb (block_fits widths) blocks = true ->
  read_ebcdic_v RECFM_V kind' wb_lrecl' (write_ebcdic_V T widths) (layout_of (t_header T) widths) (t_header T)
  = read_ebcdic r kind wb_lrecl (write_ebcdic T widths) (layout_of (t_header T) widths) (t_header T)
  /\ read_ebcdic_v RECFM_VB kind' wb_lrecl' (write_ebcdic_VB blocks widths) (layout_of (t_header T) widths) (t_header T)
  = read_ebcdic r kind wb_lrecl (write_ebcdic T widths) (layout_of (t_header T) widths) (t_header T).
Proof.
  intros r kind kind' wb_lrecl wb_lrecl' T widths blocks Hnd Hfit Hrep Hne Hbuf Hl Hcat Hblk.
  rewrite (WorkbookP.ebcdic_ok r kind wb_lrecl T widths Hnd Hfit Hrep Hne Hbuf Hl).
  split; [apply ebcdic_V_ok; assumption|apply ebcdic_VB_any; assumption].
Qed.
Print Assumptions C03c_recfm_agree.

(* The images the theorems speak about are files: every element is a byte, provided the descriptor words are
   representable (record length + 4 <= 65535 for V; the blocks as above for VB). *)
Theorem C03c_images_are_bytes :
  (forall T widths, fits widths T = true -> record_fits widths = true -> bytes_ok (write_ebcdic_V T widths) = true)
  /\ (forall T widths blocks, fits widths T = true -> concat blocks = t_rows T ->
        forallb (block_fits widths) blocks = true -> bytes_ok (write_ebcdic_VB blocks widths) = true).
Proof. split; [exact image_V_bytes|exact image_VB_bytes]. Qed.
Print Assumptions C03c_images_are_bytes.

(* The file presents one sheet named '' - whatever it holds. *)
Theorem C03c_single_sheet : forall r kind wb_lrecl file l probes,
  map fst (read_ebcdic_v r kind wb_lrecl file l probes) = [[]].
Proof. reflexivity. Qed.
Print Assumptions C03c_single_sheet.

(* non-vacuity: two columns, three rows, blocked 2 + 0 + 1 *)
Definition exv_T : table :=
  mk_table [[65]; [66; 50]]%N [[[97; 98]; [233]]; [[48; 48; 49]; [32]]; [[]; [122]]]%N.   (* A, B2 | ab, e-acute | 001, blank | empty, z *)

Definition exv_blocks : list (list (list text)) :=
  [[[[97; 98]; [233]]; [[48; 48; 49]; [32]]]; []; [[[]; [122]]]]%N.

Example C03c_example :
  NoDup (t_header exv_T) /\ fits [3; 2] exv_T = true /\ repertoire_ok exv_T = true /\ t_header exv_T <> []
  /\ concat exv_blocks = t_rows exv_T /\ forallb (block_fits [3; 2]) exv_blocks = true /\ record_fits [3; 2] = true
  /\ write_ebcdic_V exv_T [3; 2]
     = [0; 9; 0; 0; 129; 130; 64; 81; 64;  0; 9; 0; 0; 240; 240; 241; 64; 64;  0; 9; 0; 0; 64; 64; 64; 169; 64]%N
  /\ write_ebcdic_VB exv_blocks [3; 2]
     = [0; 22; 0; 0;  0; 9; 0; 0; 129; 130; 64; 81; 64;  0; 9; 0; 0; 240; 240; 241; 64; 64;
        0; 4; 0; 0;
        0; 13; 0; 0;  0; 9; 0; 0; 64; 64; 64; 169; 64]%N
  /\ read_ebcdic_v RECFM_VB 0 None (write_ebcdic_VB exv_blocks [3; 2]) (layout_of (t_header exv_T) [3; 2]) (t_header exv_T)
     = [([], Ok [[Ok (Some (Txt [97; 98; 32]%N)); Ok (Some (Txt [233; 32]%N))];
                 [Ok (Some (Txt [48; 48; 49]%N)); Ok (Some (Txt [32; 32]%N))];
                 [Ok (Some (Txt [32; 32; 32]%N)); Ok (Some (Txt [122; 32]%N))]])].
Proof.
  split. { cbn. apply WorkbookP.NoDup_two. discriminate. }
  repeat apply conj; vm_compute; first [reflexivity | discriminate].
Qed.

(* the former boundary of the VB theorem: a table without columns has records without data bytes.  Until fix eee0fb2
   RECFM_VB refused the last of them in each block (AssertionError in the walk over the block; Props/C05.v
   C05_VB_empty_last_old_refuted) while RECFM_V read the file; now both read it, in every blocking *)
Example C03c_VB_no_column :
  let T0 := mk_table [] [[]; []] in
  read_ebcdic_v RECFM_VB 0 None (write_ebcdic_VB [t_rows T0] []) (layout_of [] []) [] = [([], Ok [[]; []])]
  /\ read_ebcdic_v RECFM_VB 0 None (write_ebcdic_VB [[[]]; []; [[]]] []) (layout_of [] []) [] = [([], Ok [[]; []])]
  /\ read_ebcdic_v RECFM_V 0 None (write_ebcdic_V T0 []) (layout_of [] []) [] = [([], Ok [[]; []])].
Proof. vm_compute. repeat split; reflexivity. Qed.
