(* C13 - PICTURE strings: strict acceptance, repeat-count equivalence, one interpretation.
   The property theorems; the lemmas they rest on are in Proofs/PictureP.v.

   Strings are lists of code points of ANY length over ANY alphabet.
   Model/Picture.v:  dec_normalize / dec_parse = estruct.Representation.normalize_picture / parse (+ digit_groups,
                     zoned_decimal); gen_normalize = cobol_parser.normalize_picture; gen_numeric = the json_type test.
                     [Some (Ok r)] returned r, [Some (Err e)] raised e, [None] scanner out of fuel (never happens:
                     the theorems conclude Some).
   Spec/Picture.v:   sp_parse s = Some summary when s is a picture string, None otherwise; sp_expand s = the
                     denoted symbol sequence with every c(n) written as n copies of c.
   known_bad s = true iff s is in the trigger set of one of the eight known findings (Model/Picture.v, end). *)
From Coq Require Import NArith List Bool Arith Lia.
Import ListNotations.
Require Import SR.Base.Res SR.Spec.Picture SR.Model.Picture SR.Proofs.PictureP.
Require SR.Spec.SchemaTruth.
Open Scope N_scope.

(* strict acceptance: ValueError, or the size is the number of positions denoted and no character of the
        string is foreign *)
Theorem C13_strict : forall s : list N, known_bad s = false ->
  dec_parse s = Some (Err ValueError) \/
  exists r v, dec_parse s = Some (Ok r) /\ sp_parse s = Some v /\ p_size r = positions v /\
              forallb (fun c => negb (sp_foreign c)) s = true.
Proof. exact strict. Qed.
Print Assumptions C13_strict.

(* one interpretation, scanners: both sides accept the same strings, with the same element list *)
Theorem C13_agree_acceptance : forall s : list N, known_bad s = false ->
  (exists es, gen_normalize s = Some (Ok es) /\ dec_normalize s = Some (Ok es))
  \/ (gen_normalize s = Some (Err ValueError) /\ dec_normalize s = Some (Err ValueError)).
Proof.
  intros s Hkb. destruct (known_bad_false s Hkb) as (Hnm & _ & Hl & _).
  rewrite gen_normalize_eq, dec_normalize_eq. unfold kb_nomatch in Hnm.
  rewrite (items_same s Hl) in *.
  destruct (elems (dec_items s)) eqn:E; [discriminate|].
  destruct (ends_with_tok (dec_items s)); [left; eexists; split; reflexivity|right; split; reflexivity].
Qed.
Print Assumptions C13_agree_acceptance.

(* needs only the absence of lower-case picture letters, not the whole guard *)
Theorem C13_agree_elements : forall (s : list N) eg ed, kb_lower s = false ->
  gen_normalize s = Some (Ok eg) -> dec_normalize s = Some (Ok ed) -> eg = ed.
Proof.
  intros s eg ed Hl. rewrite gen_normalize_eq, dec_normalize_eq, (items_same s Hl).
  destruct (elems (dec_items s)) eqn:E; [discriminate|].
  destruct (ends_with_tok (dec_items s)); [|discriminate].
  intros H1 H2. injection H1 as <-. injection H2 as <-. reflexivity.
Qed.
Print Assumptions C13_agree_elements.

(* one interpretation, classification: outside the known findings the generator's test on the raw text
        equals the decoder's zoned_decimal on every accepted picture *)
Theorem C13_agree_class_full : forall (s : list N) r, known_bad s = false ->
  dec_parse s = Some (Ok r) -> gen_numeric s = p_zoned r.
Proof.
  intros s r Hkb Hr. destruct (dec_summary_dec s r (kb_dec_weaker s Hkb) Hr) as (v & Hv & _ & _ & _ & Hz & _).
  now rewrite (gen_class s v Hkb Hv).
Qed.
Print Assumptions C13_agree_class_full.

(* the two halves, each against the specification: only S V P 9 denoted *)
Theorem C13_agree_class_partial : forall (s : list N) v, known_bad s = false ->
  sp_parse s = Some v -> gen_numeric s = numeric v.
Proof. exact gen_class. Qed.
Print Assumptions C13_agree_class_partial.

(* the decoder reads what the specification reads: size, integer and fraction digit counts, class *)
Theorem C13_decoder_summary : forall (s : list N) r v, known_bad s = false ->
  dec_parse s = Some (Ok r) -> sp_parse s = Some v ->
  p_size r = positions v /\ length (g_int (p_groups r)) = int_digits v /\
  length (g_frac (p_groups r)) = frac_digits v /\ p_zoned r = numeric v.
Proof.
  intros s r v Hkb Hr Hv. destruct (dec_summary_dec s r (kb_dec_weaker s Hkb) Hr) as (v' & Hv' & H).
  rewrite Hv in Hv'. injection Hv' as <-. tauto.
Qed.
Print Assumptions C13_decoder_summary.

(* repeat-count equivalence: the expansion e of an accepted picture s is accepted too and has the same size,
        sign, integer and fraction digit counts and class *)
Theorem C13_repeat_full : forall (s e : list N) r, known_bad s = false ->
  sp_expand s = Some e -> dec_parse s = Some (Ok r) ->
  exists r', dec_parse e = Some (Ok r') /\ p_size r' = p_size r /\
    g_sign (p_groups r') = g_sign (p_groups r) /\
    length (g_int (p_groups r')) = length (g_int (p_groups r)) /\
    length (g_frac (p_groups r')) = length (g_frac (p_groups r)) /\ p_zoned r' = p_zoned r.
Proof. exact repeat_full. Qed.
Print Assumptions C13_repeat_full.

(* the expansion stays outside the known findings and is its own expansion *)
Theorem C13_repeat_expansion_clean : forall (s e : list N) r, known_bad s = false ->
  sp_expand s = Some e -> dec_parse s = Some (Ok r) -> known_bad e = false /\ sp_expand e = Some e.
Proof. intros s e r H1 H2 H3. destruct (expansion_ok s e r H1 H2 H3) as (K & _ & _ & X & _). now split. Qed.
Print Assumptions C13_repeat_expansion_clean.

(* with the acceptance of the expansion as a hypothesis: the same size, and the same picture summary *)
Theorem C13_repeat_partial : forall (s e : list N) r r', known_bad s = false -> known_bad e = false ->
  sp_expand s = Some e -> dec_parse s = Some (Ok r) -> dec_parse e = Some (Ok r') ->
  p_size r' = p_size r /\ sp_parse e = sp_parse s.
Proof.
  intros s e r r' Hs _ Hexp Hr Hr'. destruct (repeat_full s e r Hs Hexp Hr) as (r'' & Hr'' & Hsz & _).
  rewrite Hr' in Hr''. injection Hr'' as <-. split; [exact Hsz|].
  destruct (C13_repeat_expansion_clean s e r Hs Hexp Hr) as [_ Hfix]. unfold sp_parse. now rewrite Hfix, Hexp.
Qed.
Print Assumptions C13_repeat_partial.

(* the decoder half under the decoder's own findings only.
   kb_dec (Spec/PictureWf.v) = the triggers of findings 6, 1, 2, 8, 7 restricted to the decoder-side scanner
   and zoned_decimal; the generator-side findings 3, 4, 5 play no role, so S9(5)V99 is covered.
   known_bad s = false implies kb_dec s = false. *)
Theorem C13_decoder_summary_dec : forall (s : list N) r, kb_dec s = false -> dec_parse s = Some (Ok r) ->
  exists v, sp_parse s = Some v /\ p_size r = positions v /\ length (g_int (p_groups r)) = int_digits v /\
            length (g_frac (p_groups r)) = frac_digits v /\ p_zoned r = numeric v /\
            forallb (fun c => negb (sp_foreign c)) s = true.
Proof. exact dec_summary_dec. Qed.
Print Assumptions C13_decoder_summary_dec.

Theorem C13_kb_dec_weaker : forall s : list N, known_bad s = false -> kb_dec s = false.
Proof. exact kb_dec_weaker. Qed.
Print Assumptions C13_kb_dec_weaker.

(* the bridge to the abstract pictures of the codec properties (C02, C04, C08, C18).
   Spec/SchemaTruth.v (C08): PNum signed m n rep_int rep_frac is printed by pic_text as  S? 9-run [V 9-run],
   PText alpha k rep as an A- or X-run; a run of k symbols is written out or as c(k) with the decimal numeral
   of k.  For ALL m, n, k (no bound), whatever the notation: *)
Theorem C13_printed_numeric : forall s m n ri rf, (1 <= m + n)%nat ->
  exists r, dec_parse (SchemaTruth.pic_text (SchemaTruth.PNum s m n ri rf)) = Some (Ok r) /\
    p_size r = ((if s then 1 else 0) + m + n)%nat /\
    g_sign (p_groups r) = (if s then [83] else []) /\
    length (g_int (p_groups r)) = m /\ length (g_frac (p_groups r)) = n /\
    g_int (p_groups r) = repeat 57 m /\ g_frac (p_groups r) = repeat 57 n /\
    p_zoned r = true.
Proof. exact printed_numeric. Qed.
Print Assumptions C13_printed_numeric.

Theorem C13_printed_text : forall alpha k rep, (1 <= k)%nat ->
  exists r, dec_parse (SchemaTruth.pic_text (SchemaTruth.PText alpha k rep)) = Some (Ok r) /\
    p_size r = k /\ p_zoned r = false /\ g_sign (p_groups r) = [] /\ g_frac (p_groups r) = [].
Proof. exact printed_text. Qed.
Print Assumptions C13_printed_text.

(* generator side: the same element list as the decoder, independent of the notation *)
Theorem C13_printed_elements : forall p, pic_nonempty p = true ->
  exists es, dec_normalize (SchemaTruth.pic_text p) = Some (Ok es) /\
             gen_normalize (SchemaTruth.pic_text p) = Some (Ok es) /\
             es = match p with
                  | SchemaTruth.PNum s m n _ _ => num_elems s m n
                  | SchemaTruth.PText alpha k _ => [E KDigit (repeat (text_char alpha) k)]
                  end.
Proof. exact printed_elements. Qed.
Print Assumptions C13_printed_elements.

(* every well-formed picture of C08 is covered *)
Theorem C13_wf_pic_nonempty : forall p, SchemaTruth.wf_pic p = true -> pic_nonempty p = true.
Proof.
  intros [s m n ri rf|alpha k rep]; cbn [SchemaTruth.wf_pic pic_nonempty]; intros H;
    [apply andb_true_iff in H; tauto|exact H].
Qed.
Print Assumptions C13_wf_pic_nonempty.

(* finding 4, stated exactly: the generator classifies a printed numeric picture as numeric iff no digit run is
   written with a repeat count (the decoder says numeric in every case, C13_printed_numeric) *)
Theorem C13_printed_numeric_class : forall s m n ri rf, (1 <= m + n)%nat ->
  gen_numeric (SchemaTruth.pic_text (SchemaTruth.PNum s m n ri rf))
  = negb (SchemaTruth.written_with_repeat (SchemaTruth.PNum s m n ri rf)).
Proof. exact printed_numeric_class. Qed.
Print Assumptions C13_printed_numeric_class.

Theorem C13_printed_text_class : forall alpha k rep, (1 <= k)%nat ->
  gen_numeric (SchemaTruth.pic_text (SchemaTruth.PText alpha k rep)) = false.
Proof.
  intros alpha k rep H. destruct k as [|k]; [lia|]. unfold SchemaTruth.pic_text, SchemaTruth.run.
  destruct rep, alpha; reflexivity.
Qed.
Print Assumptions C13_printed_text_class.

(* refutations of the unguarded statements by the faithful model: one witness per known finding *)
Definition str_9q9 : list N := [57; 63; 57].             (* 9?9 *)
Definition str_9_0 : list N := [57; 40; 48; 41].         (* 9(0) *)
Definition str_s9_3 : list N := [115; 57; 40; 51; 41].   (* s9(3) *)
Definition str_9_3 : list N := [57; 40; 51; 41].         (* 9(3) *)
Definition str_9_ai3 : list N := [57; 40; 1635; 41].     (* 9(U+0663) *)
Definition str_V : list N := [86].
Definition str_p9S : list N := [43; 57; 83].             (* +9S *)

(* 1: a foreign character in the middle is skipped: accepted with size 2 although it is no picture *)
Theorem C13_refuted_1 : exists r, dec_parse str_9q9 = Some (Ok r) /\ p_size r = 2%nat /\
  sp_parse str_9q9 = None /\ sp_foreign 63 = true.
Proof. eexists. vm_compute. repeat split; reflexivity. Qed.
Print Assumptions C13_refuted_1.

(* so the unguarded strictness statement is false *)
Theorem C13_strict_unguarded_refuted : ~ (forall s : list N,
  dec_parse s = Some (Err ValueError) \/
  exists r v, dec_parse s = Some (Ok r) /\ sp_parse s = Some v /\ p_size r = positions v /\
              forallb (fun c => negb (sp_foreign c)) s = true).
Proof.
  intros H. destruct (H str_9q9) as [H1|(r & v & _ & H2 & _)]; clear H.
  - vm_compute in H1. discriminate.
  - vm_compute in H2. discriminate.
Qed.
Print Assumptions C13_strict_unguarded_refuted.

(* 2: a zero count: DesignError from the decoder, accepted by the generator *)
Theorem C13_refuted_2 : dec_parse str_9_0 = Some (Err DesignError) /\
  gen_normalize str_9_0 = Some (Ok [E KDigit []]) /\ sp_parse str_9_0 = None.
Proof. vm_compute. repeat split; reflexivity. Qed.
Print Assumptions C13_refuted_2.

(* 3: letter case: the generator reads a sign and three digits, the decoder three unsigned digits *)
Theorem C13_refuted_3 :
  gen_normalize str_s9_3 = Some (Ok [E KSign [115]; E KDigit [57; 57; 57]]) /\
  dec_normalize str_s9_3 = Some (Ok [E KDigit [57; 57; 57]]) /\
  option_map positions (sp_parse str_s9_3) = Some 4%nat.
Proof. vm_compute. repeat split; reflexivity. Qed.
Print Assumptions C13_refuted_3.

(* 4: repeat notation: numeric for the decoder and the specification, text for the generator *)
Theorem C13_refuted_4 : exists r, dec_parse str_9_3 = Some (Ok r) /\ p_zoned r = true /\
  gen_numeric str_9_3 = false /\ option_map numeric (sp_parse str_9_3) = Some true /\
  gen_numeric [57; 57; 57] = true.
Proof. eexists. vm_compute. repeat split; reflexivity. Qed.
Print Assumptions C13_refuted_4.

(* 5: nothing matches: IndexError instead of ValueError *)
Theorem C13_refuted_5 : gen_normalize [] = Some (Err IndexError) /\ gen_normalize [63] = Some (Err IndexError).
Proof. vm_compute. split; reflexivity. Qed.
Print Assumptions C13_refuted_5.

(* 6: an Arabic-Indic digit as repeat count is accepted *)
Theorem C13_refuted_6 : exists r, dec_parse str_9_ai3 = Some (Ok r) /\ p_size r = 3%nat /\
  sp_parse str_9_ai3 = None /\ sp_foreign 1635 = true.
Proof. eexists. vm_compute. repeat split; reflexivity. Qed.
Print Assumptions C13_refuted_6.

(* 7: a picture of V only: numeric for the generator, not for the decoder *)
Theorem C13_refuted_7 : exists r, dec_parse str_V = Some (Ok r) /\ p_zoned r = false /\ gen_numeric str_V = true.
Proof. eexists. vm_compute. repeat split; reflexivity. Qed.
Print Assumptions C13_refuted_7.

(* 8: only the last sign is looked at: zoned decimal for the decoder, text for the generator *)
Theorem C13_refuted_8 : exists r, dec_parse str_p9S = Some (Ok r) /\ p_zoned r = true /\
  gen_numeric str_p9S = false /\ option_map numeric (sp_parse str_p9S) = Some false.
Proof. eexists. vm_compute. repeat split; reflexivity. Qed.
Print Assumptions C13_refuted_8.

(* non-vacuity: the guard is satisfiable by accepted and by rejected strings *)
(* S9(5)V99 is a known finding (4); its expansion S99999V99 and the edited Z(3)9.99CR are not *)
Example C13_example_numeric :
  known_bad [83; 57; 57; 57; 57; 57; 86; 57; 57] = false /\
  option_map p_size (match dec_parse [83; 57; 57; 57; 57; 57; 86; 57; 57] with Some (Ok r) => Some r | _ => None end) = Some 8%nat.
Proof. vm_compute. split; reflexivity. Qed.
Example C13_example_edited :
  known_bad [90; 40; 51; 41; 57; 46; 57; 57; 67; 82] = false /\
  option_map p_size (match dec_parse [90; 40; 51; 41; 57; 46; 57; 57; 67; 82] with Some (Ok r) => Some r | _ => None end) = Some 9%nat.
Proof. vm_compute. split; reflexivity. Qed.
Example C13_example_rejected :
  known_bad [88; 88; 40; 51; 41] = false /\ dec_parse [88; 88; 40; 51; 41] = Some (Err ValueError).
Proof. vm_compute. split; reflexivity. Qed.
(* the hypotheses of C13_repeat_partial are satisfiable: Z(3)9.99CR and its expansion ZZZ9.99CR *)
Example C13_example_repeat :
  let s := [90; 40; 51; 41; 57; 46; 57; 57; 67; 82] in
  let e := [90; 90; 90; 57; 46; 57; 57; 67; 82] in
  known_bad s = false /\ known_bad e = false /\ sp_expand s = Some e /\
  is_ok (match dec_parse s with Some x => x | None => Err OtherError end) = true /\
  is_ok (match dec_parse e with Some x => x | None => Err OtherError end) = true.
Proof. vm_compute. repeat split; reflexivity. Qed.
(* the printed form of PNum true 5 2 (count notation for the integer part) is S9(5)V99: a known finding (4) of the
   generator, not of the decoder *)
Example C13_example_printed :
  SchemaTruth.pic_text (SchemaTruth.PNum true 5 2 true false) = [83; 57; 40; 53; 41; 86; 57; 57] /\
  known_bad [83; 57; 40; 53; 41; 86; 57; 57] = true /\ kb_dec [83; 57; 40; 53; 41; 86; 57; 57] = false /\
  SchemaTruth.pic_text (SchemaTruth.PText false 12 true) = [88; 40; 49; 50; 41].
Proof. vm_compute. repeat split; reflexivity. Qed.
