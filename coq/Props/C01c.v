(* C01, companion - the layout theorem under the hypothesis on data names that real copybooks satisfy.
   Only property theorems; the lemmas they rest on are in Proofs/LayoutNamesP.v and Proofs/LayoutP.v.  No engine of its own: the model
   is C01's (Model/Layout.v, tied to /repo by the correspondence run of ./check C01, whose stream dup-names
   repeats data names in different groups).

   Why.  C01_layout demands NoDup (ids t): EVERY data name of the record distinct.  COBOL allows the same name in
   different groups (ZIP OF BILL-TO / ZIP OF SHIP-TO) and real copybooks use that.  LocationMaker.anchors is one
   flat namespace (the last registration of a name wins), but it is CONSULTED only for the $ref placeholders that
   build_json_schema puts where the members of a REDEFINES union stand - the redefined item and its redefiners -
   and for OCCURS DEPENDING ON counters (C06's family, excluded by [wf]).  Hence:

     siblings_distinct t       the children of every group have pairwise distinct names (name() of a group must be
                               unambiguous; the properties of an object are a dict);
     anchored_names_unique t   every name that stands for a member of a REDEFINES union ([anchored t]: an item that
                               redefines, or that a later sibling redefines) is the name of exactly one item of the
                               record;
     no_redefines t            no REDEFINES below the record: then [anchored t] is empty.

   Every other name may repeat in different groups.  Both are decidable (booleans).  NoDup (ids t) implies both
   (C01c_generalises_C01), so C01c_layout has C01_layout as a special case.

   The boundary.  On well-formed trees with distinct siblings anchored_names_unique is exactly the complement of
   the trigger of JC01's known finding K-duplicate-name-union (Judge/JLayoutCommon.v dup_union_name):
   C01c_boundary_is_known_finding.  With distinct siblings alone the statement is false
   (C01c_layout_siblings_only_refuted, by the finding's witness).  The hypothesis is sufficient, not necessary:
   because the LAST registration wins, a second use of a member's name EARLIER in the record does no harm
   (C01c_example_earlier_duplicate); the theorem does not cover that half of the trigger set. *)
From Coq Require Import List Arith NArith Bool.
Import ListNotations.
Require Import SR.Base.Res SR.Spec.Layout SR.Model.Layout SR.Proofs.LayoutP SR.Proofs.LayoutNamesP.
Require SR.Judge.JLayoutCommon.

(* 1. no REDEFINES: the anchors map is never consulted; only siblings must differ *)
Theorem C01c_layout_no_redefines : forall (B : Type) (dcount : list B -> nat) (r : list B) (e : env) (t : item),
  wf e t = true -> no_redefines t = true -> siblings_distinct t = true ->
  exists v0, nav_of dcount r (build t) = Ok v0
    /\ lstart (n_loc v0) = 0 /\ lend (n_loc v0) = extent e t
    /\ forall p v st, spec_nav e (VItem t) 0 p = inl (v, st) ->
         exists nv, nav_path dcount r v0 p = Ok nv
           /\ lstart (n_loc nv) = st /\ lend (n_loc nv) = st + view_size e v
           /\ nav_raw r nv = slice r st (st + view_size e v).
Proof.
  intros B dcount r e t Hw Hn Hsd. apply layout_correct_names; [exact Hw|exact Hsd|apply no_redefines_unique; exact Hn].
Qed.
Print Assumptions C01c_layout_no_redefines.

(* 2. the general form: REDEFINES anywhere [wf] allows it; only the names of union members must be unique *)
Theorem C01c_layout : forall (B : Type) (dcount : list B -> nat) (r : list B) (e : env) (t : item),
  wf e t = true -> siblings_distinct t = true -> anchored_names_unique t = true ->
  exists v0, nav_of dcount r (build t) = Ok v0
    /\ lstart (n_loc v0) = 0 /\ lend (n_loc v0) = extent e t
    /\ forall p v st, spec_nav e (VItem t) 0 p = inl (v, st) ->
         exists nv, nav_path dcount r v0 p = Ok nv
           /\ lstart (n_loc nv) = st /\ lend (n_loc nv) = st + view_size e v
           /\ nav_raw r nv = slice r st (st + view_size e v).
Proof. exact layout_correct_names. Qed.
Print Assumptions C01c_layout.

Theorem C01c_index_refused : forall (B : Type) (dcount : list B -> nat) (r : list B) (e : env) (t : item),
  wf e t = true -> siblings_distinct t = true -> anchored_names_unique t = true ->
  forall v0, nav_of dcount r (build t) = Ok v0 ->
  forall p x st i, spec_nav e (VItem t) 0 p = inl (VItem x, st) -> is_table x = true -> count e (item_oc x) <= i ->
    exists nv, nav_path dcount r v0 p = Ok nv /\ nav_index dcount r nv i = Err IndexError.
Proof.
  intros B dcount r e t Hw Hsd Hu. destruct (root_good B dcount r e t Hw Hsd Hu) as (l & an & Hwalk & Hg).
  exact (root_index_refused B dcount r e t l an Hwalk Hg).
Qed.
Print Assumptions C01c_index_refused.

(* the hypothesis of C01_layout implies the hypotheses of C01c_layout *)
Theorem C01c_generalises_C01 : forall t : item,
  NoDup (ids t) -> siblings_distinct t = true /\ anchored_names_unique t = true.
Proof. exact (fun t H => conj (proj1 NoDup_siblings_distinct t H) (NoDup_anchored_names_unique t H)). Qed.
Print Assumptions C01c_generalises_C01.

Theorem C01c_no_redefines_is_special_case : forall t : item,
  no_redefines t = true -> anchored_names_unique t = true.
Proof. exact no_redefines_unique. Qed.
Print Assumptions C01c_no_redefines_is_special_case.

(* 3. the boundary: the theorem's hypothesis fails exactly where JC01 reports K-duplicate-name-union *)
Theorem C01c_boundary_is_known_finding : forall (e : env) (t : item),
  wf e t = true -> siblings_distinct t = true ->
  anchored_names_unique t = negb (JLayoutCommon.dup_union_name t).
Proof.
  intros e t Hw Hsd. unfold anchored_names_unique, JLayoutCommon.dup_union_name.
  rewrite (proj1 all_ids_ids t), (proj1 (union_ids_anchored e) t Hw Hsd).
  apply forallb_one_negb_two. apply (proj1 anchored_incl_ids).
Qed.
Print Assumptions C01c_boundary_is_known_finding.

(* the statement with distinct siblings alone, kept visible; the faithful model refutes it *)
Definition C01c_layout_siblings_only : Prop :=
  forall (B : Type) (dcount : list B -> nat) (r : list B) (e : env) (t : item),
  wf e t = true -> siblings_distinct t = true ->
  exists v0, nav_of dcount r (build t) = Ok v0
    /\ lstart (n_loc v0) = 0 /\ lend (n_loc v0) = extent e t
    /\ forall p v st, spec_nav e (VItem t) 0 p = inl (v, st) ->
         exists nv, nav_path dcount r v0 p = Ok nv
           /\ lstart (n_loc nv) = st /\ lend (n_loc nv) = st + view_size e v
           /\ nav_raw r nv = slice r st (st + view_size e v).

Theorem C01c_layout_siblings_only_refuted : ~ C01c_layout_siblings_only.
Proof.
  intros H.
  destruct (H unit (fun _ => 0) [] (fun _ => 0) dup_tree eq_refl eq_refl) as (v0 & Hnav & _ & _ & Hp).
  vm_compute in Hnav. injection Hnav as <-.
  destruct (Hp [PName 2%N] _ _ eq_refl) as (nv & Hpath & Hst & _).
  vm_compute in Hpath. injection Hpath as <-. discriminate.
Qed.
Print Assumptions C01c_layout_siblings_only_refuted.

(* the witness of K-duplicate-name-union: 01 R. 05 ZIP PIC 9999. 05 G. 10 ZIP PIC XX. 05 Z2 REDEFINES ZIP PIC X.
   (R=1 ZIP=2 G=3 Z2=4).  Well formed, siblings distinct, ZIP is a union member used twice: the judge's trigger
   holds, the COBOL rules put ZIP at 0-4, name(ZIP) lands on G's ZIP at 4-6. *)
Theorem C01c_refuted_4 :
  wf (fun _ => 0) dup_tree = true /\ siblings_distinct dup_tree = true /\ anchored_names_unique dup_tree = false
  /\ JLayoutCommon.dup_union_name dup_tree = true
  /\ spec_nav (fun _ => 0) (VItem dup_tree) 0 [PName 2%N] = inl (VItem (Elem 2%N 4 Once None), 0)
  /\ exists v0 nv, nav_of (fun _ : list unit => 0) [] (build dup_tree) = Ok v0
       /\ nav_path (fun _ : list unit => 0) [] v0 [PName 2%N] = Ok nv
       /\ lstart (n_loc nv) = 4 /\ lend (n_loc nv) = 6.
Proof.
  vm_compute. repeat split. eexists. eexists. repeat split.
Qed.
Print Assumptions C01c_refuted_4.

(* 4. Non-vacuity.
   01 CUST. 05 BILL-TO. 10 STREET X(5). 10 ZIP X(5). 05 SHIP-TO. 10 STREET X(5). 10 ZIP X(5).
            05 PHONE X(4). 05 PHONE-R REDEFINES PHONE. 10 AREA X(2). 10 REST X(2). 05 LINES OCCURS 2. 10 ZIP X(3).
   (CUST=1 BILL-TO=2 STREET=3 ZIP=4 SHIP-TO=5 PHONE=6 PHONE-R=7 AREA=8 REST=9 LINES=10).
   STREET is used twice and ZIP three times; the union members PHONE and PHONE-R once each.
   ZIP OF BILL-TO is at 5-10, ZIP OF SHIP-TO at 15-20, REST OF PHONE-R at 22-24, ZIP OF LINES(1) at 27-30; length 30. *)
Definition ex_addr (i : id) : item :=
  Group i Once None (ICons (Elem 3%N 5 Once None) (ICons (Elem 4%N 5 Once None) INil)).
Definition ex_cust : item :=
  Group 1%N Once None
    (ICons (ex_addr 2%N) (ICons (ex_addr 5%N)
    (ICons (Elem 6%N 4 Once None)
    (ICons (Group 7%N Once (Some 6%N) (ICons (Elem 8%N 2 Once None) (ICons (Elem 9%N 2 Once None) INil)))
    (ICons (Group 10%N (Times 2) None (ICons (Elem 4%N 3 Once None) INil)) INil))))).

Example C01c_example :
  wf (fun _ => 0) ex_cust = true /\ siblings_distinct ex_cust = true /\ anchored_names_unique ex_cust = true
  /\ anchored ex_cust = [6%N; 7%N]
  /\ extent (fun _ => 0) ex_cust = 30
  /\ spec_nav (fun _ => 0) (VItem ex_cust) 0 [PName 2%N; PName 4%N] = inl (VItem (Elem 4%N 5 Once None), 5)
  /\ spec_nav (fun _ => 0) (VItem ex_cust) 0 [PName 5%N; PName 4%N] = inl (VItem (Elem 4%N 5 Once None), 15)
  /\ spec_nav (fun _ => 0) (VItem ex_cust) 0 [PName 7%N; PName 9%N] = inl (VItem (Elem 9%N 2 Once None), 22)
  /\ spec_nav (fun _ => 0) (VItem ex_cust) 0 [PName 10%N; PIndex 1; PName 4%N] = inl (VItem (Elem 4%N 3 Once None), 27).
Proof. vm_compute. repeat split; reflexivity. Qed.

(* ... and C01_layout does not apply to it *)
Example C01c_example_not_NoDup : ~ NoDup (ids ex_cust).
Proof. intros H. apply NoDup_nodupb in H. vm_compute in H. discriminate. Qed.

(* for C01c_layout_no_redefines: 01 CUST. 05 BILL-TO. 10 STREET X(5). 10 ZIP X(5). 05 SHIP-TO. 10 STREET X(5). 10 ZIP X(5).
   05 LINES OCCURS 2. 10 ZIP X(3). *)
Definition ex_cust_plain : item :=
  Group 1%N Once None
    (ICons (ex_addr 2%N) (ICons (ex_addr 5%N)
    (ICons (Group 10%N (Times 2) None (ICons (Elem 4%N 3 Once None) INil)) INil))).

Example C01c_example_no_redefines :
  wf (fun _ => 0) ex_cust_plain = true /\ no_redefines ex_cust_plain = true /\ siblings_distinct ex_cust_plain = true
  /\ extent (fun _ => 0) ex_cust_plain = 26
  /\ spec_nav (fun _ => 0) (VItem ex_cust_plain) 0 [PName 2%N; PName 4%N] = inl (VItem (Elem 4%N 5 Once None), 5)
  /\ spec_nav (fun _ => 0) (VItem ex_cust_plain) 0 [PName 5%N; PName 4%N] = inl (VItem (Elem 4%N 5 Once None), 15)
  /\ spec_nav (fun _ => 0) (VItem ex_cust_plain) 0 [PName 10%N; PIndex 1; PName 4%N] = inl (VItem (Elem 4%N 3 Once None), 23).
Proof. vm_compute. repeat split; reflexivity. Qed.

Example C01c_example_no_redefines_not_NoDup : ~ NoDup (ids ex_cust_plain).
Proof. intros H. apply NoDup_nodupb in H. vm_compute in H. discriminate. Qed.

(* the hypothesis is sufficient, not necessary: 01 R. 05 G. 10 ZIP PIC XX. 05 ZIP PIC 9999. 05 Z2 REDEFINES ZIP PIC X.
   The union member ZIP is used a second time EARLIER in the record; its own registration comes last and wins:
   ZIP at 2-6, Z2 at 2-3, ZIP OF G at 0-2, all where the COBOL rules put them. *)
Example C01c_example_earlier_duplicate :
  wf (fun _ => 0) dup_before_tree = true /\ siblings_distinct dup_before_tree = true
  /\ anchored_names_unique dup_before_tree = false
  /\ exists v0 a b c, nav_of (fun _ : list unit => 0) [] (build dup_before_tree) = Ok v0
       /\ nav_path (fun _ : list unit => 0) [] v0 [PName 2%N] = Ok a /\ lstart (n_loc a) = 2 /\ lend (n_loc a) = 6
       /\ nav_path (fun _ : list unit => 0) [] v0 [PName 4%N] = Ok b /\ lstart (n_loc b) = 2 /\ lend (n_loc b) = 3
       /\ nav_path (fun _ : list unit => 0) [] v0 [PName 3%N; PName 2%N] = Ok c /\ lstart (n_loc c) = 0 /\ lend (n_loc c) = 2.
Proof.
  vm_compute. repeat split. eexists. eexists. eexists. eexists. repeat split.
Qed.
