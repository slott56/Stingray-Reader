(* C08 - Generated schemas are valid, loadable and tell the truth about each field.
   Only property theorems here, over the lemmas of Proofs/JsonTypeP.v.

   Part 1, one elementary item.  [u] is the USAGE spelling (numbered as in Spec/Encode.v, all 13),
   [p : fpic] the picture: numeric S?9(m)V9(n) with each digit run written out or in repeat
   notation, or text X(k) / A(k).  [pic_text p] is the PICTURE character string;
   [emit_field u p] is the model of json_type + the elementary branch of build_json_schema
   (Model/JsonType.v; name sets, character set and emitted dicts regenerated from the source into
   Gen/JsonTypeParams.v), lengths through the model of estruct.calcsize (Model/Estruct.v);
   [delivered_type] is the type of CONVERSION[conversion](estruct.unpack(...)) (Model/Estruct.v,
   Model/Conversion.v).  [spec_field] is what the property demands (Spec/SchemaTruth.v), byte
   length = C04's [spec_size]; [valid_record] = the mainframe encodings of Spec/Encode.v.
   Codes: type 1 string 2 integer 3 number 4 decimal; contentEncoding 1 cp037 2 packed-decimal
   3 bigendian-int 4 bigendian-float 5 bigendian-double; conversion 0 absent 6 decimal;
   Python type 2 int 3 float 4 str 5 Decimal.

   Part 2, the schema tree.  [build t] is Model/Layout.v's model of build_json_schema's structure
   (compared with the emitted document on every C01 and C08 run). *)
From Coq Require Import ZArith List Bool.
Import ListNotations.
Require Import SR.Base.Res SR.Spec.Encode SR.Spec.Fits SR.Spec.Layout SR.Model.Layout SR.Spec.SchemaTruth
  SR.Model.JsonType SR.Proofs.JsonTypeP.
Open Scope N_scope.

(* ---- TRUTHFUL: every spelling, every picture (1 <= m + n <= 18, any k >= 1), outside the two
   known-bad families: the emitted type / contentEncoding / conversion are the demanded ones,
   minLength = maxLength = the demanded byte length, the Python type the keywords declare is the
   demanded one ... *)
Theorem C08_truthful : forall (u : N) (p : fpic) (t e c sz : N) (py : Z),
  wf_pic p = true -> spec_field u p = Some (t, e, c, sz, py) -> known_bad_C08 u p = None ->
  emit_field u p = Ok (mkfield t e c sz sz) /\ declared_pytype t c = Some py.
Proof.
  intros u p t e c sz py Hwf Hs Hk. pose proof (generators_agree u p Hwf Hk) as H. unfold agrees in H. rewrite Hs in H.
  destruct H as [Ej [_ [Ec Hd]]]. split; [exact (emit_with_ok json_type u p t e c sz Ej Ec)|exact Hd].
Qed.
Print Assumptions C08_truthful.

(* ... and for EVERY item with a decoder (also the known-bad ones) every valid record delivers a
   value of the demanded Python type: Decimal for numeric DISPLAY and packed, int for binary,
   str for text.  [f] is whatever the generator emitted. *)
Theorem C08_truthful_delivered : forall (u : N) (p : fpic) (f : field) (buffer : list N) (t e c sz : N) (py : Z),
  wf_pic p = true -> spec_field u p = Some (t, e, c, sz, py) -> emit_field u p = Ok f ->
  valid_record u p buffer -> delivered_type u p (f_conv f) buffer = Ok py.
Proof. exact delivered. Qed.
Print Assumptions C08_truthful_delivered.

(* extended-vocabulary generator: vocabulary type, no contentEncoding / conversion, same lengths *)
Theorem C08_extended : forall (u : N) (p : fpic) (tx sz : N),
  wf_pic p = true -> spec_field_ext u p = Some (tx, sz) -> known_bad_C08 u p = None ->
  emit_field_ext u p = Ok (mkfield tx 0 0 sz sz).
Proof.
  intros u p tx sz Hwf Hx Hk. pose proof (generators_agree u p Hwf Hk) as H. unfold agrees in H. unfold spec_field_ext in Hx.
  destruct (spec_field u p) as [[[[[t e] c] sz'] py]|]; [|discriminate]. inversion Hx; subst.
  destruct H as [_ [Ex [Ec _]]]. exact (emit_with_ok json_type_ext u p _ 0 0 sz Ex Ec).
Qed.
Print Assumptions C08_extended.

(* The full statement without the guard is FALSE of the code as it is. *)
Definition C08_truthful_unguarded : Prop := forall (u : N) (p : fpic) (t e c sz : N) (py : Z),
  wf_pic p = true -> spec_field u p = Some (t, e, c, sz, py) ->
  emit_field u p = Ok (mkfield t e c sz sz) /\ declared_pytype t c = Some py.

(* Known finding K-repeat-not-decimal: PIC 9(3) DISPLAY is declared a plain string (no conversion;
   the keywords declare str) while PIC 999, the same item, is declared decimal - and both deliver
   a Decimal (zoned F1 F2 F3 -> 123). *)
Theorem C08_refuted_9_3 :
  pic_text (PNum false 3 0 true false) = [57; 40; 51; 41]
  /\ spec_field 11 (PNum false 3 0 true false) = Some (1, 1, 6, 3, 5%Z)
  /\ emit_field 11 (PNum false 3 0 true false) = Ok (mkfield 1 1 0 3 3)
  /\ emit_field 11 (PNum false 3 0 false false) = Ok (mkfield 1 1 6 3 3)
  /\ declared_pytype 1 0 = Some 4%Z
  /\ delivered_type 11 (PNum false 3 0 true false) 0 (enc_zoned [1; 2; 3] 15) = Ok 5%Z
  /\ emit_field_ext 11 (PNum false 3 0 true false) = Ok (mkfield 1 0 0 3 3)
  /\ ~ C08_truthful_unguarded.
Proof.
  repeat split; try reflexivity.
  intros H. destruct (H 11 (PNum false 3 0 true false) 1 1 6 3 5%Z eq_refl eq_refl) as [E _]. discriminate E.
Qed.
Print Assumptions C08_refuted_9_3.

(* Known finding (C04's K-signed-binary-size seen through the schema): S9(4) COMP is declared 4 bytes long. *)
Theorem C08_refuted_signed_binary :
  spec_field 10 (PNum true 4 0 false false) = Some (2, 3, 0, 2, 2%Z)
  /\ emit_field 10 (PNum true 4 0 false false) = Ok (mkfield 2 3 0 4 4).
Proof. split; reflexivity. Qed.
Print Assumptions C08_refuted_signed_binary.

(* Known finding (C04's K-float-no-decoder): COMP-1 / COMP-2 items are declared as the property says
   (covered by C08_truthful) but nothing is ever delivered for them. *)
Theorem C08_refuted_float : forall u s m n ri rf conv buffer,
  is_float_spelling u = true -> delivered_type u (PNum s m n ri rf) conv buffer = Err RuntimeError.
Proof.
  intros u s m n ri rf conv buffer. unfold is_float_spelling, mem_spelling. rewrite orb_true_iff, !ListFactsP.existsb_eqb_In.
  unfold float4_spellings, float8_spellings. cbn [In]. intros [[<-|[<-|[]]]|[<-|[<-|[]]]]; reflexivity.
Qed.
Print Assumptions C08_refuted_float.

(* ---- REFERENCES RESOLVE: for every record description whose DEPENDING ON counters are names of the
   description, every $ref and every maxItemsDependsOn of the generated schema names an $anchor of
   the generated schema.  (Neither distinct names nor well-formed REDEFINES are needed for this.) *)
Theorem C08_refs_resolve : forall t : item,
  build_raises t = false -> incl (counters_of t) (ids_of t) ->
  incl (refs_of (build t)) (anchors_of (build t)).
Proof.
  intros t _ Hc k Hk. apply (proj1 refs_are_names) in Hk. apply (proj1 ids_are_anchors).
  rewrite (proj1 ids_bridge) in *. revert Hk. apply incl_map. apply incl_app; [apply incl_refl|exact Hc].
Qed.
Print Assumptions C08_refs_resolve.

(* every name of the description is an anchor *)
Theorem C08_names_anchored : forall (t : item) (i : id), In i (ids_of t) -> In (KName i) (anchors_of (build t)).
Proof. exact names_anchored. Qed.
Print Assumptions C08_names_anchored.

(* ---- VALID (structure): with pairwise distinct names, every oneOf of the generated schema has at
   least one alternative and the member names of every properties object are distinct. *)
Theorem C08_valid_shape_partial : forall t : item,
  NoDup (ids_of t) -> build_raises t = false -> shape_ok (build t) = true.
Proof. intros t Hnd _. exact (shape_build t Hnd). Qed.
Print Assumptions C08_valid_shape_partial.

(* ---- VALID (structure), full: additionally no $anchor is declared twice.  [wf8 e t] (Spec/JsonTypeWf.v):
   among the children of every non-repeated group a REDEFINES names an earlier sibling that is not itself
   a redefiner, is no longer than it, and elementary OCCURS items are not union members (C01's [unions_ok]);
   no REDEFINES inside a repeated group (there the generator raises); OCCURS DEPENDING ON anywhere. *)
Theorem C08_valid_shape : forall (e : env) (t : item),
  NoDup (ids_of t) -> wf8 e t = true -> valid_2020_12_shape (build t) = true.
Proof.
  intros e t Hnd Hw. unfold valid_2020_12_shape.
  rewrite (shape_build t Hnd).
  rewrite (NoDup_nodup_keys _ (anchors_distinct e t Hnd Hw)). reflexivity.
Qed.
Print Assumptions C08_valid_shape.

Theorem C08_anchors_distinct : forall (e : env) (t : item),
  NoDup (ids_of t) -> wf8 e t = true -> NoDup (anchors_of (build t)).
Proof. exact anchors_distinct. Qed.
Print Assumptions C08_anchors_distinct.

(* a well-formed description is one the generator does not refuse *)
Theorem C08_wf_not_refused : forall (e : env) (t : item), wf8 e t = true -> build_raises t = false.
Proof. intros e. exact (proj1 (wf8_not_raises e)). Qed.
Print Assumptions C08_wf_not_refused.

(* ---- LOADABLE, REFERENCES BOUND: the model of SchemaMaker.from_json (Model/JsonType.v [load]: name_cache keyed
   by $anchor else title, $ref bound at once or deferred, maxItemsDependsOn bound at once or ValueError) run on
   the generated schema of a well-formed description returns, and EVERY reference site ([site_keys]: each $ref
   and each maxItemsDependsOn, in document order) is bound to an object whose $anchor is the name referred to -
   with C08_anchors_distinct: to THE sub-schema bearing that name.  [filler i] says item i is a FILLER (its
   title is not its name).  [odo_ok [] t] (Spec/SchemaTruth.v): every DEPENDING ON names a counter declared
   earlier in the description, a counter being an elementary item without OCCURS outside every REDEFINES union;
   a DEPENDING ON inside a redefining item must name a counter declared earlier inside that item (conservative:
   COBOL allows no OCCURS DEPENDING ON under REDEFINES at all). *)
Theorem C08_loadable : forall (filler : id -> bool) (e : env) (t : item),
  NoDup (ids_of t) -> wf8 e t = true -> odo_ok [] t = true ->
  exists l, load filler (build t) = Ok l /\ map fst l = site_keys (build t)
            /\ forall k d, In (k, d) l -> snd d = Some k.
Proof.
  intros filler e t Hnd Hw Hodo. rewrite <- (proj1 ids_bridge) in Hnd.
  destruct (proj1 (main_all filler e) t [] [] Hw Hnd) as [c' [l [E G]]].
  { split; [constructor|]. split; [intros i _ [cl []]|intros j []]. }
  { exact Hodo. }
  destruct (resolve_good c' l G) as [l' [Er [M Gl]]].
  exists l'. unfold load, build. rewrite E, Er. split; [reflexivity|]. split; [|exact Gl].
  rewrite M. pose proof (proj1 (lwalk_spec filler) (build_alt t) []) as H. rewrite E in H. exact (proj1 H).
Qed.
Print Assumptions C08_loadable.

(* non-vacuity.  S9(3)V99 COMP-3, written out: string / packed-decimal / decimal / 3 bytes; 12 34 5D -> a Decimal *)
Example C08_example_field :
  wf_pic (PNum true 3 2 false false) = true /\ known_bad_C08 8 (PNum true 3 2 false false) = None
  /\ spec_field 8 (PNum true 3 2 false false) = Some (1, 2, 6, 3, 5%Z)
  /\ emit_field 8 (PNum true 3 2 false false) = Ok (mkfield 1 2 6 3 3)
  /\ enc_packed [1; 2; 3; 4; 5] 13 = [18; 52; 93]
  /\ delivered_type 8 (PNum true 3 2 false false) 6 [18; 52; 93] = Ok 5%Z
  /\ spec_field 11 (PText false 3 true) = Some (1, 1, 0, 3, 4%Z) /\ pic_text (PText false 3 true) = [88; 40; 51; 41].
Proof. repeat split; reflexivity. Qed.

Example C08_example_record : valid_record 8 (PNum true 3 2 false false) [18; 52; 93].
Proof. right. left. split; [cbn; auto|]. exists [1; 2; 3; 4; 5], 13. repeat split. Qed.

(* 01 R. 05 C PIC 9. 05 A PIC X(2). 05 B REDEFINES A PIC X(2). 05 T OCCURS 0 TO 3 DEPENDING ON C PIC X. *)
Definition example_tree : item :=
  Group 1 Once None
    (ICons (Elem 2 1 Once None) (ICons (Elem 3 2 Once None) (ICons (Elem 4 2 Once (Some 3%N))
      (ICons (Elem 5 1 (Odo 2) None) INil)))).
Example C08_example_tree :
  build_raises example_tree = false /\ incl (counters_of example_tree) (ids_of example_tree)
  /\ refs_of (build example_tree) = [KName 3; KName 4; KName 2]
  /\ anchors_of (build example_tree) = [KName 1; KName 2; KRedef 3; KName 3; KName 4; KName 5]
  /\ valid_2020_12_shape (build example_tree) = true.
Proof.
  repeat split; try reflexivity.
  intros x [<-|[]]. right. left. reflexivity.
Qed.
Example C08_example_tree_wf :
  wf8 (fun _ => 0%nat) example_tree = true /\ odo_ok [] example_tree = true
  /\ site_keys (build example_tree) = [KName 3; KName 4; KName 2]
  /\ load (fun _ => false) (build example_tree)
     = Ok [(KName 3, (CAtomic, Some (KName 3))); (KName 4, (CAtomic, Some (KName 4))); (KName 2, (CAtomic, Some (KName 2)))].
Proof. repeat split; reflexivity. Qed.
Example C08_example_tree_nodup : NoDup (ids_of example_tree).
Proof. apply NoDup_by_nodup. reflexivity. Qed.
