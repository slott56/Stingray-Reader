(* C02, second layer - the round trips happen in buffers of the width the layout uses; what becomes of the
   implied decimal point of a binary item; the concrete decoder of an OCCURS DEPENDING ON counter.
   Companion of Props/C02.v; the lemmas the theorems rest on are in Proofs/EstructP.v and
   Proofs/EstructWidthP.v.  No engine of its own: the model is C02's (Model/Estruct.v, tied to /repo by the
   correspondence run of ./check C02).

   1. Field width.  C02's round trips are stated for the image [enc_packed ds s] / [enc_zoned ds z] /
      [enc_be w v], whatever its length.  C02c_*_field_roundtrip add: that image has EXACTLY the number of
      bytes the size function (estruct.calcsize, which lays out the record) gives the item - for packed items,
      unsigned DISPLAY items and binary items outside the finding K-signed-binary-size (C04).

      Signed DISPLAY items are different, and stated as they are: the project counts the S of the picture
      as a position, so the field is ONE BYTE WIDER than the image (C04c_display_signed_field:
      calcsize = 1 + length image), whereas a mainframe stores S9(n) DISPLAY in n bytes with the sign in the
      zone of the last digit.  The decoder takes the low nibble of EVERY byte of the buffer it is handed as a
      digit and the sign from the zone of the last byte; handed the whole field, image at its end, it reads
      the FIRST byte of the field - the position counted for the S - as one more, most significant, digit:
        C02c_display_signed_extra_byte        value = lo(b) * 10^digits + stored value
        C02c_display_signed_extra_byte_zero   the stored value comes back only if that byte's low nibble is 0
                                              (F0, 40 space, 60 minus, 00)
        C02c_display_signed_extra_byte_bad    a low nibble above 9 there (4E plus) is a ValueError
      That byte is C18's known finding K-sign-position ([sign_position_set]: first byte of the buffer of a
      signed DISPLAY item with a non-zero low nibble): F1 F2 F3 in S99 decodes to 123.

   2. Binary items with an implied decimal point.  C02_binary_roundtrip returns [VInt v] for ANY number
      of fraction digits.  The property text says "an exact decimal carrying the picture's implied scale ...
      or an int for binary items", so this is allowed by the letter; what a user sees is this: a field
      declared PIC S9(3)V99 COMP that stores 123.45 (12345 hundredths, the fullword 00 00 30 39) comes back as the
      int 12345 - one hundred times the stored amount - while the same picture as COMP-3 or DISPLAY comes back
      as Decimal('123.45').  The scale is silently dropped; nothing downstream restores it (the "decimal"
      conversion is Decimal(12345)).  C02c_binary_ignores_scale states it for every picture with a fraction,
      C02c_binary_scale_blind says the decoder cannot tell S9(3)V99 from S9(5): same result on every buffer.

   3. The counter of OCCURS DEPENDING ON.  C06 / C10 are proved for an arbitrary total [dcount].
      [dcount_zoned] (Model/ZonedCounter.v) is the one the code uses on EBCDIC records:
      int(unpack(<unsigned DISPLAY picture of the field's length>, bytes)).  From C02's zoned round trip:
      the image of a digit string with a positive zone (F unsigned, C, A, E) decodes to the string's value.
      Props/C06c.v instantiates C06's theorems with it. *)
From Coq Require Import ZArith NArith List Bool Lia.
Import ListNotations.
Require Import SR.Base.Res SR.Base.Dec SR.Gen.EstructParams SR.Spec.Encode SR.Model.Estruct SR.Model.ZonedCounter.
Require Import SR.Proofs.EstructP SR.Proofs.EstructWidthP.
Open Scope N_scope.

(* 1. round trip in a buffer of the field's width *)

Theorem C02c_packed_field_roundtrip : forall (u : N) (s : bool) (m n : nat) (ds : list N) (sg : N),
  In u packed_spellings -> (1 <= m + n <= 28)%nat -> length ds = (m + n)%nat ->
  forallb is_digit ds = true -> valid_sign sg = true ->
  calcsize u (mkpic s m n) = Ok (N.of_nat (length (enc_packed ds sg)))
  /\ unpack u (mkpic s m n) (enc_packed ds sg) = Ok (VDec (mkdec (is_neg_sign sg) (val ds) (- Z.of_nat n))).
Proof.
  intros u s m n ds sg Hu Hmn Hl Hd Hs. split; [apply packed_field; [assumption|lia|assumption]|].
  apply (C02_packed u (mkpic s m n) ds sg); [assumption|assumption|assumption|lia].
Qed.
Print Assumptions C02c_packed_field_roundtrip.

Theorem C02c_display_unsigned_field_roundtrip : forall (m n : nat) (ds : list N) (z : N),
  (1 <= m + n <= 28)%nat -> length ds = (m + n)%nat -> forallb is_digit ds = true -> valid_sign z = true ->
  calcsize display_spelling (mkpic false m n) = Ok (N.of_nat (length (enc_zoned ds z)))
  /\ unpack display_spelling (mkpic false m n) (enc_zoned ds z)
     = Ok (VDec (mkdec (is_neg_sign z) (val ds) (- Z.of_nat n))).
Proof.
  intros m n ds z Hmn Hl Hd Hs. split; [apply display_unsigned_field; [lia|assumption]|].
  apply (C02_zoned (mkpic false m n) ds z); [|assumption|assumption|lia].
  intros ->. cbn [length] in Hl. lia.
Qed.
Print Assumptions C02c_display_unsigned_field_roundtrip.

Theorem C02c_binary_field_roundtrip : forall (u : N) (s : bool) (m n w : nat) (v : Z),
  In u binary_spellings -> spec_binary_width (m + n) = Some w ->
  s && ((m + n =? 4)%nat || (m + n =? 9)%nat) = false ->
  (- 2 ^ (8 * Z.of_nat w - 1) <= v < 2 ^ (8 * Z.of_nat w - 1))%Z ->
  calcsize u (mkpic s m n) = Ok (N.of_nat (length (enc_be w v)))
  /\ unpack u (mkpic s m n) (enc_be w v) = Ok (VInt v).
Proof.
  intros u s m n w v Hu Hw Hk Hv. split; [apply binary_field; assumption|].
  apply (C02_binary u (mkpic s m n) w v); assumption.
Qed.
Print Assumptions C02c_binary_field_roundtrip.

(* signed DISPLAY: the field is b :: image (one byte more, C04c_display_signed_field); what the decoder makes of it *)
Theorem C02c_display_signed_extra_byte : forall (p : pic) (ds : list N) (z b : N),
  ds <> [] -> forallb is_digit ds = true -> valid_sign z = true -> (length ds <= 27)%nat ->
  is_digit (lo b) = true ->
  unpack display_spelling p (b :: enc_zoned ds z)
  = Ok (VDec (mkdec (is_neg_sign z) (lo b * 10 ^ N.of_nat (length ds) + val ds) (- Z.of_nat (p_frac p)))).
Proof. exact display_signed_extra_byte. Qed.
Print Assumptions C02c_display_signed_extra_byte.

Theorem C02c_display_signed_extra_byte_zero : forall (p : pic) (ds : list N) (z b : N),
  ds <> [] -> forallb is_digit ds = true -> valid_sign z = true -> (length ds <= 27)%nat ->
  lo b = 0 ->
  unpack display_spelling p (b :: enc_zoned ds z)
  = Ok (VDec (mkdec (is_neg_sign z) (val ds) (- Z.of_nat (p_frac p)))).
Proof.
  intros p ds z b Hne Hd Hs Hl Hb.
  rewrite display_signed_extra_byte by (try assumption; rewrite Hb; reflexivity).
  rewrite Hb. reflexivity.
Qed.
Print Assumptions C02c_display_signed_extra_byte_zero.

Theorem C02c_display_signed_extra_byte_bad : forall (p : pic) (ds : list N) (z b : N),
  is_digit (lo b) = false -> unpack display_spelling p (b :: enc_zoned ds z) = Err ValueError.
Proof.
  intros p ds z b Hb. unfold unpack. rewrite usage_display. unfold unpack_zoned.
  replace zoned_check_digits with true by reflexivity. cbn [andb existsb].
  unfold is_digit in Hb. replace (9 <? lo b) with true by lia. reflexivity.
Qed.
Print Assumptions C02c_display_signed_extra_byte_bad.

(* 2. binary items with an implied decimal point *)

Theorem C02c_binary_ignores_scale : forall (u : N) (p : pic) (w : nat) (v : Z),
  In u binary_spellings -> (0 < p_frac p)%nat -> spec_binary_width (p_int p + p_frac p) = Some w ->
  (- 2 ^ (8 * Z.of_nat w - 1) <= v < 2 ^ (8 * Z.of_nat w - 1))%Z ->
  unpack u p (enc_be w v) = Ok (VInt v).
Proof. intros u p w v Hu _ Hw Hv. apply C02_binary; assumption. Qed.
Print Assumptions C02c_binary_ignores_scale.

Theorem C02c_binary_scale_blind : forall (u : N) (p q : pic) (buffer : list N),
  In u binary_spellings -> (p_int p + p_frac p = p_int q + p_frac q)%nat ->
  unpack u p buffer = unpack u q buffer.
Proof.
  intros u p q buffer Hu Hpq. destruct (usage_binary u Hu) as (H1 & H2 & H3). unfold unpack. rewrite H1, H2, H3.
  unfold unpack_binary_int, bin_width. replace bin_counts_fraction with true by reflexivity.
  replace (N.of_nat (p_int p) + N.of_nat (p_frac p)) with (N.of_nat (p_int q) + N.of_nat (p_frac q)) by lia.
  reflexivity.
Qed.
Print Assumptions C02c_binary_scale_blind.

(* 3. the OCCURS DEPENDING ON counter *)

Theorem C02c_counter_roundtrip : forall (ds : list N) (z : N),
  ds <> [] -> forallb is_digit ds = true -> (length ds <= 28)%nat -> In z pos_signs ->
  dcount_zoned (enc_zoned ds z) = N.to_nat (val ds).
Proof. exact dcount_zoned_enc. Qed.
Print Assumptions C02c_counter_roundtrip.

(* the unsigned item PIC 9(k): zone F *)
Theorem C02c_counter_roundtrip_unsigned : forall ds : list N,
  ds <> [] -> forallb is_digit ds = true -> (length ds <= 28)%nat ->
  dcount_zoned (enc_zoned ds 15) = N.to_nat (val ds).
Proof. intros. apply dcount_zoned_enc; try assumption. cbn. auto. Qed.
Print Assumptions C02c_counter_roundtrip_unsigned.

(* non-vacuity *)

(* -123.45 in S9(3)V99 COMP-3: three bytes 12 34 5D, the size function says three.
   0042 in 9(4): F0 F0 F4 F2, four.  -2 in S9(3) COMP: FF FE, two. *)
Example C02c_examples_fields :
  calcsize 8 (mkpic true 3 2) = Ok 3 /\ length (enc_packed [1; 2; 3; 4; 5] 13) = 3%nat
  /\ unpack 8 (mkpic true 3 2) (enc_packed [1; 2; 3; 4; 5] 13) = Ok (VDec (mkdec true 12345 (-2)))
  /\ calcsize 11 (mkpic false 4 0) = Ok 4 /\ enc_zoned [0; 0; 4; 2] 15 = [240; 240; 244; 242]
  /\ unpack 11 (mkpic false 4 0) [240; 240; 244; 242] = Ok (VDec (mkdec false 42 0))
  /\ calcsize 10 (mkpic true 3 0) = Ok 2 /\ enc_be 2 (-2) = [255; 254]
  /\ unpack 10 (mkpic true 3 0) [255; 254] = Ok (VInt (-2)).
Proof. vm_compute. repeat split; reflexivity. Qed.

(* S99 DISPLAY holding +12: the image is F1 C2 (two bytes), the field three.  With F0 or a space in front the
   12 comes back; with F7 in front the result is 712 (does not fit the picture: K-sign-position); with the
   plus sign 4E of SIGN LEADING SEPARATE it is a ValueError; with the minus sign 60 in front of F1 F2 the result
   is PLUS 12 (low nibble 0 read as a digit, sign from the zone F of the last byte). *)
Example C02c_examples_signed_display :
  calcsize 11 (mkpic true 2 0) = Ok 3 /\ enc_zoned [1; 2] 12 = [241; 194]
  /\ unpack 11 (mkpic true 2 0) [240; 241; 194] = Ok (VDec (mkdec false 12 0))
  /\ unpack 11 (mkpic true 2 0) [64; 241; 194] = Ok (VDec (mkdec false 12 0))
  /\ unpack 11 (mkpic true 2 0) [247; 241; 194] = Ok (VDec (mkdec false 712 0))
  /\ is_digit (lo 247) = true /\ lo 240 = 0 /\ lo 64 = 0 /\ is_digit (lo 78) = false
  /\ unpack 11 (mkpic true 2 0) [78; 241; 194] = Err ValueError
  /\ unpack 11 (mkpic true 2 0) [96; 241; 242] = Ok (VDec (mkdec false 12 0))
  /\ sign_position_set (mkpic true 2 0) [247; 241; 194] = true.
Proof. vm_compute. repeat split; reflexivity. Qed.

(* S9(3)V99 COMP storing 123.45 = 12345 hundredths in a fullword 00 00 30 39: the int 12345.
   The same picture as COMP-3 gives the decimal 123.45 = 12345E-2.  S9(5) COMP gives the same int. *)
Example C02c_examples_binary_scale :
  (0 < p_frac (mkpic true 3 2))%nat /\ spec_binary_width (3 + 2) = Some 4%nat
  /\ enc_be 4 12345 = [0; 0; 48; 57]
  /\ unpack 10 (mkpic true 3 2) [0; 0; 48; 57] = Ok (VInt 12345)
  /\ unpack 10 (mkpic true 5 0) [0; 0; 48; 57] = Ok (VInt 12345)
  /\ unpack 8 (mkpic true 3 2) (enc_packed [1; 2; 3; 4; 5] 12) = Ok (VDec (mkdec false 12345 (-2))).
Proof. vm_compute. repeat split; try reflexivity; repeat constructor. Qed.

(* a counter PIC 99 holding 07 is F0 F7 and counts 7; with zone C on the last digit (signed item, positive) too;
   a corrupt counter counts 0 in the model (the code raises: outside the theorems, see Model/ZonedCounter.v) *)
Example C02c_examples_counter :
  enc_zoned [0; 7] 15 = [240; 247] /\ dcount_zoned [240; 247] = 7%nat
  /\ dcount_zoned [240; 199] = 7%nat /\ dcount_zoned [241; 242; 243] = 123%nat
  /\ In 15 pos_signs /\ In 12 pos_signs /\ In 10 pos_signs /\ In 14 pos_signs
  /\ dcount_zoned [240; 250] = 0%nat.
Proof. vm_compute. repeat split; auto 10. Qed.
