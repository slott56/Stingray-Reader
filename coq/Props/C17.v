(* C17 - Cleaned names are always legal JSON Schema anchors.
   Only the property theorems are here; the lemmas they rest on (clean_spec, clean_fixed) are in Proofs/NameCleanerP.v.
   [clean] is the model of name_cleaner with the character classes and regex flags read
   from the current source (Gen/NameCleanerParams.v); [legal] is the anchor pattern of the
   JSON Schema meta-schema (Spec/Anchor.v).  [Some (Ok r)] = returned r;
   [Some (Err _)] = raised; [None] = loop did not end within [length s] iterations. *)
From Coq Require Import NArith List.
Import ListNotations.
Require Import SR.Base.Res SR.Spec.Anchor SR.Model.NameCleaner SR.Proofs.NameCleanerP.

(* For every string: cleaning terminates, never raises, and returns the empty string or a
   legal anchor. *)
Theorem C17_total_legal : forall s : list N,
  exists r, clean s = Some (Ok r) /\ (r = [] \/ legal r = true).
Proof. intros s. destruct (clean_spec s) as (r & H & Hl & _). exists r. split; assumption. Qed.
Print Assumptions C17_total_legal.

(* An already legal name (or the empty string) is returned unchanged. *)
Theorem C17_legal_unchanged : forall s : list N,
  (s = [] \/ legal s = true) -> clean s = Some (Ok s).
Proof. exact clean_fixed. Qed.
Print Assumptions C17_legal_unchanged.

(* Idempotent. *)
Theorem C17_idempotent : forall s r : list N, clean s = Some (Ok r) -> clean r = Some (Ok r).
Proof.
  intros s r H. destruct (clean_spec s) as (r' & H' & Hl & _).
  rewrite H in H'. injection H' as <-. exact (clean_fixed r Hl).
Qed.
Print Assumptions C17_idempotent.

(* Non-vacuity: a heading with a blank, a line break and punctuation: 'a b\n!' gives 'a_b_' *)
Example C17_example :
  clean [97; 32; 98; 10; 33]%N = Some (Ok [97; 95; 98; 95]%N) /\ legal [97; 95; 98; 95]%N = true.
Proof. vm_compute. split; reflexivity. Qed.

(* The property's consequence for spreadsheets: EVERY non-empty heading - blank-only, line breaks included - is cleaned to
   a legal anchor (never to the empty string), so it can become a column of a heading-row schema that validates. *)
Theorem C17_heading_column : forall s r : list N, s <> [] -> clean s = Some (Ok r) -> legal r = true.
Proof.
  intros s r Hs H. destruct (clean_spec s) as (r' & H' & Hl & Hne).
  rewrite H in H'. injection H' as <-. destruct Hl as [->|Hl]; [destruct (Hne Hs eq_refl)|exact Hl].
Qed.
Print Assumptions C17_heading_column.

Example C17_blank_heading : clean [32; 10]%N = Some (Ok [95]%N).
Proof. vm_compute. reflexivity. Qed.
