(* C15, companion file - documents with maxItemsDependsOn (what COBOL OCCURS DEPENDING ON tables are
   emitted with:  {"type": "array", "items": ..., "maxItemsDependsOn": {"$ref": "#COUNTER"}}).
   Only the property theorems; the lemmas are in Proofs/SchemaMakerOdoP.v.  The
   model is the one of Props/C15.v (Model/SchemaMaker.v [load], tied to /repo by harness/c15.py):
   walk_schema makes a DependsOnArraySchema AFTER walking the items and binds max_ref_to AT ONCE
   from name_cache; a name that is not in the cache at that moment is a ValueError (the code's own
   words: forward references for maxItemsDependsOn aren't supported) - no fix-up as for $ref.

   [wf] [uniq_anchors] [shadowed] [has_dangling] [refs_resolved] [stargets] [mirrors]  as in Props/C15.v;
        wf already admits maxItemsDependsOn (kind KDepends: items present, "#name" reference)
   [counter_names d]      the names after '#' of the maxItemsDependsOn of d   (Spec/JsonDocOdo.v)
   [dangling_any d]       some $ref OR some maxItemsDependsOn names no $anchor of d
   [counters_declared d]  every depending array names a counter DECLARED before it: the sub-schema
                          bearing the $anchor is closed before the array is - it stands earlier in the
                          document or inside the array's items (definition by one pass over d)
   [counters_placed d]    the same, said with paths: some sub-schema bearing the anchor has a path q with
                          closed_before q a (a = path of the array): q is not a prefix of a, and q is
                          before a in document order or below a
   [depends_sites s]      (attributes, max_ref_to) of every DependsOnArraySchema of the loaded graph
   [tables_bound d s]     each of them has a "#x" maxItemsDependsOn and max_ref_to = find_anchor d x *)
From Coq Require Import NArith List Bool.
Import ListNotations.
Require Import SR.Base.Res SR.Spec.JsonDoc SR.Spec.JsonDocOdo SR.Model.SchemaMaker SR.Proofs.SchemaMakerP
  SR.Proofs.SchemaMakerOdoP.

(* ---- LOADS, BOUND, GIVEN BACK: a document of the grammar extended with maxItemsDependsOn, unique
   anchors, no title shadowing, no dangling $ref, every counter declared before its table: loading
   succeeds, json() of the root is the document and every node mirrors its sub-document, every
   reference of either kind points at the sub-schema bearing the anchor, and in particular every
   DependsOnArraySchema's max_ref_to does ---- *)
Theorem C15c_loads_depends_on : forall d,
  wf d = true -> uniq_anchors d = true -> shadowed d = false ->
  has_dangling d = false -> counters_declared d = true ->
  exists s, load d = Ok s /\ attrs s = d /\ mirrors s d = true /\
            refs_resolved d s = true /\ map fst (stargets s) = refnames d /\ tables_bound d s = true.
Proof. exact load_depends_on. Qed.
Print Assumptions C15c_loads_depends_on.

(* [counters_declared] is defined by one pass over the document; said with paths it is
   [counters_placed]: for each depending array at path a naming x, some sub-schema bearing $anchor x
   sits at a path q that is not a prefix of a and is before a in document order or below a *)
Theorem C15c_declared_is_placed : forall d, wf d = true -> counters_declared d = counters_placed d.
Proof.
  intros d Hwf. apply eq_true_iff_eq. unfold counters_placed.
  rewrite (declared_placed d Hwf), forallb_forall.
  split; intros H e He; apply table_placed_spec, H, He.
Qed.
Print Assumptions C15c_declared_is_placed.

(* the main statement with the condition in its path form *)
Theorem C15c_loads_depends_on_placed : forall d,
  wf d = true -> uniq_anchors d = true -> shadowed d = false ->
  has_dangling d = false -> counters_placed d = true ->
  exists s, load d = Ok s /\ attrs s = d /\ mirrors s d = true /\
            refs_resolved d s = true /\ map fst (stargets s) = refnames d /\ tables_bound d s = true.
Proof.
  intros d Hwf Hu Hs Hdg Hp. apply load_depends_on; try assumption.
  rewrite (C15c_declared_is_placed d Hwf). exact Hp.
Qed.
Print Assumptions C15c_loads_depends_on_placed.

(* loading alone needs neither unique anchors nor the absence of shadowing *)
Theorem C15c_loads : forall d,
  wf d = true -> has_dangling d = false -> counters_declared d = true -> exists s, load d = Ok s.
Proof. exact load_depends_ok. Qed.
Print Assumptions C15c_loads.

(* what [tables_bound] says of one DependsOnArraySchema object: its maxItemsDependsOn is "#x" and
   max_ref_to is the sub-schema [find_anchor d x] (C15_find_anchor_bears: a sub-schema bearing x) *)
Theorem C15c_tables_bound_meaning : forall d s a t,
  tables_bound d s = true -> In (a, t) (depends_sites s) ->
  exists x, k_mido (scal_of a) = Some (hash :: x) /\ find_anchor d x = Some t.
Proof.
  intros d s a t H He. unfold tables_bound in H. rewrite forallb_forall in H. specialize (H _ He).
  unfold site_bound in H. simpl in H.
  destruct (k_mido (scal_of a)) as [[|ch name]|]; simpl in H; try discriminate.
  destruct (N.eqb ch hash) eqn:Eh; [|discriminate]. apply N.eqb_eq in Eh. subst ch.
  exists name. split; [reflexivity|].
  destruct (find_anchor d name) as [u|]; [|discriminate].
  apply path_eqb_iff in H. congruence.
Qed.
Print Assumptions C15c_tables_bound_meaning.

(* for EVERY document, a successful load leaves each DependsOnArraySchema among the references
   C15_refs speaks of: C15_refs covers max_ref_to *)
Theorem C15c_refs_cover_tables : forall d s,
  uniq_anchors d = true -> shadowed d = false -> load d = Ok s -> tables_bound d s = true.
Proof. exact load_tables_bound. Qed.
Print Assumptions C15c_refs_cover_tables.

(* ---- a counter that is not declared when its table closes is refused with ValueError: declared
   after the table, the table itself, a sub-schema enclosing the table, or nowhere ---- *)
Theorem C15c_counter_not_declared : forall d,
  wf d = true -> shadowed d = false -> counters_declared d = false -> load d = Err ValueError.
Proof.
  intros d Hwf Hs Hd. destruct (load_total d Hwf) as [[s H]|H]; [|exact H].
  rewrite (load_declared d s Hs H) in Hd. discriminate.
Qed.
Print Assumptions C15c_counter_not_declared.

Theorem C15c_counter_not_placed : forall d,
  wf d = true -> shadowed d = false -> counters_placed d = false -> load d = Err ValueError.
Proof.
  intros d Hwf Hs Hp. apply C15c_counter_not_declared; try assumption.
  rewrite (C15c_declared_is_placed d Hwf). exact Hp.
Qed.
Print Assumptions C15c_counter_not_placed.

(* conversely a successful load means every counter was declared before its table *)
Theorem C15c_loaded_declared : forall d s,
  shadowed d = false -> load d = Ok s -> counters_declared d = true.
Proof. exact load_declared. Qed.
Print Assumptions C15c_loaded_declared.

(* ---- dangling: a reference of EITHER kind that names no anchor is a ValueError ---- *)
Theorem C15c_dangling : forall d,
  wf d = true -> uniq_anchors d = true -> shadowed d = false -> dangling_any d = true ->
  load d = Err ValueError.
Proof. intros d Hwf _ Hs. apply load_dangles; assumption. Qed.
Print Assumptions C15c_dangling.

(* declared counters are anchors of the document: with no dangling $ref nothing dangles *)
Theorem C15c_declared_not_dangling : forall d,
  wf d = true -> has_dangling d = false -> counters_declared d = true -> dangling_any d = false.
Proof. exact nothing_dangles. Qed.
Print Assumptions C15c_declared_not_dangling.

(* ---- exactly which documents load ---- *)
Theorem C15c_loads_exactly : forall d,
  wf d = true -> uniq_anchors d = true -> shadowed d = false ->
  (is_ok (load d) = true <-> has_dangling d = false /\ counters_declared d = true).
Proof. intros d Hwf _ Hs. apply load_exactly; assumption. Qed.
Print Assumptions C15c_loads_exactly.

(* ---- the statement WITHOUT a condition on the place of the counter (the counter declared before
   or after the table) is FALSE of the code as it is: candidate finding K-odo-forward-counter ---- *)
Definition C15c_loads_depends_on_full : Prop :=
  forall d, wf d = true -> uniq_anchors d = true -> shadowed d = false -> dangling_any d = false ->
  exists s, load d = Ok s.

Theorem C15c_loads_depends_on_refuted : ~ C15c_loads_depends_on_full.
Proof.
  intros H. destruct odo_forward_facts as (W & U & S & D & _ & _ & _ & L).
  destruct (H odo_forward W U S D) as [s E]. rewrite L in E. discriminate.
Qed.
Print Assumptions C15c_loads_depends_on_refuted.

(* the witness: {v: array of string depending on #X, a: integer $anchor X} *)
Example C15c_witness_forward :
  wf odo_forward = true /\ uniq_anchors odo_forward = true /\ shadowed odo_forward = false /\
  dangling_any odo_forward = false /\ counters_declared odo_forward = false /\
  counters_placed odo_forward = false /\
  find_anchor odo_forward nX = Some [1%nat] /\ load odo_forward = Err ValueError.
Proof. exact odo_forward_facts. Qed.

(* non-vacuity.  {a: integer $anchor X, v: array of string depending on #X} *)
Example C15c_example_backward :
  wf odo_backward = true /\ uniq_anchors odo_backward = true /\ shadowed odo_backward = false /\
  has_dangling odo_backward = false /\ counters_declared odo_backward = true /\
  counters_placed odo_backward = true /\ counter_names odo_backward = [nX] /\
  match load odo_backward with
  | Ok s => depends_sites s = [(mk_tab None nX (mk_atom s_string None None), [0%nat])] /\
            find_anchor odo_backward nX = Some [0%nat] /\ tables_bound odo_backward s = true
  | Err _ => False
  end.
Proof. vm_compute. repeat split. Qed.

(* counter, a table of forward $refs, a second table inside the group referred to *)
Example C15c_example_mixed :
  wf odo_mixed = true /\ uniq_anchors odo_mixed = true /\ shadowed odo_mixed = false /\
  has_dangling odo_mixed = false /\ counters_declared odo_mixed = true /\ counters_placed odo_mixed = true /\
  refnames odo_mixed = [nX; nY; nX] /\
  match load odo_mixed with
  | Ok s => stargets s = [(nX, Some [0%nat]); (nY, Some [2%nat]); (nX, Some [0%nat])] /\
            map snd (depends_sites s) = [[0%nat]; [0%nat]] /\ tables_bound odo_mixed s = true /\
            attrs s = odo_mixed
  | Err _ => False
  end.
Proof. vm_compute. repeat split. Qed.

(* a counter inside the table's own items is declared when the table closes *)
Example C15c_example_inside :
  wf odo_inside = true /\ counters_declared odo_inside = true /\ counters_placed odo_inside = true /\
  match load odo_inside with Ok s => map snd (depends_sites s) = [[0%nat]] | Err _ => False end.
Proof. vm_compute. repeat split. Qed.

(* the table itself, an enclosing sub-schema, no sub-schema: refused *)
Example C15c_example_refused :
  (wf odo_self = true /\ uniq_anchors odo_self = true /\ shadowed odo_self = false /\
   dangling_any odo_self = false /\ counters_declared odo_self = false /\ counters_placed odo_self = false /\
   load odo_self = Err ValueError) /\
  (wf odo_ancestor = true /\ uniq_anchors odo_ancestor = true /\ shadowed odo_ancestor = false /\
   dangling_any odo_ancestor = false /\ counters_declared odo_ancestor = false /\
   counters_placed odo_ancestor = false /\ load odo_ancestor = Err ValueError) /\
  (wf odo_dangling = true /\ uniq_anchors odo_dangling = true /\ shadowed odo_dangling = false /\
   has_dangling odo_dangling = false /\ dangling_any odo_dangling = true /\
   counters_declared odo_dangling = false /\ load odo_dangling = Err ValueError).
Proof. vm_compute. repeat split. Qed.
