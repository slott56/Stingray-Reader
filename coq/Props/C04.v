(* C04 - A field's width is what its decoder needs, and is the same wherever reported.
   The property's space is finite and is enumerated completely: [cfgs] (Spec/SizeCfg.v) is the list
   of all 13 x 2 x 189 = 4914 configurations and appears in the statements; [cfgs_complete] shows
   nothing is missing.  [cfg_ok] says: calcsize = the width the property lists, the item's own decoder
   accepts that width, the native-bytes reader and the text reader report the same.
   The lemmas are in Proofs/EstructP.v (cfgs_complete, cfgs_count) and Proofs/EstructWidthP.v (C04_exact). *)
From Coq Require Import ZArith NArith List Bool.
Import ListNotations.
Require Import SR.Base.Res SR.Spec.Encode SR.Spec.Fits SR.Spec.SizeCfg SR.Model.Estruct SR.Proofs.EstructP SR.Proofs.EstructWidthP.

Theorem C04_space_is_complete : forall (u : N) (s : bool) (m n : nat),
  (u < 13)%N -> (1 <= m + n <= 18)%nat -> In (u, s, m, n) cfgs.
Proof. exact cfgs_complete. Qed.
Print Assumptions C04_space_is_complete.

Theorem C04_all : forall c : cfg, In c cfgs -> known_bad_C04 c = None -> cfg_ok c = true.
Proof. intros c Hin Hk. rewrite <- (C04_exact c Hin), Hk. reflexivity. Qed.
Print Assumptions C04_all.

(* the known-bad set is exact: every configuration in it really fails
   (findings K-signed-binary-size, K-float-no-decoder, K-struct-packed) *)
Theorem C04_refuted_known_bad : forall (c : cfg) (k : Z), In c cfgs -> known_bad_C04 c = Some k -> cfg_ok c = false.
Proof. intros c k Hin Hk. rewrite <- (C04_exact c Hin), Hk. reflexivity. Qed.
Print Assumptions C04_refuted_known_bad.

Example C04_examples :
  length cfgs = 4914%nat
  /\ calcsize 8 (mkpic true 5 2) = Ok 4%N /\ spec_size 8 true 5 2 = Some 4%N      (* S9(5)V99 COMP-3: 4 bytes *)
  /\ calcsize 8 (mkpic false 4 0) = Ok 3%N                                        (* 9(4) COMP-3: 3 bytes *)
  /\ calcsize 10 (mkpic true 4 0) = Ok 4%N /\ spec_size 10 true 4 0 = Some 2%N    (* S9(4) COMP: the finding *)
  /\ decoder_accepts 10 (mkpic true 4 0) 4 = false.
Proof. split; [exact cfgs_count|]. vm_compute. repeat split; reflexivity. Qed.
