(* C03 - Format transparency: the same table reads the same from every file format.  PARTIAL:
   the third-party parsers (csv, openpyxl, pyexcel, numbers_parser, xlrd, json) are OUTSIDE the model.
   They enter as the universally quantified functions [ext_write] / [ext_parse] with the hypothesis
   H_ext "what the parser delivers for the file the writer produced for W is the stored table" -
   ASSUMED, NOT PROVED; it is an explicit premise of every theorem that uses it.  The two formats
   the library decodes itself (fixed-width text, EBCDIC) are proved down to the file image, with no
   such premise.  Only the property theorems are here; the lemmas they rest on are in
   Proofs/WorkbookP.v and, for the text formats at the end of the file, Proofs/CsvP.v, NdjsonP.v, TextFormatsP.v.

   Spec/Transparency.v   [table] = header + rows of text cells, [workbook] = named sheets in order,
                         [cells_by_name], [pad_table], the writers [write_fixed_text] / [write_ebcdic],
                         [numbers_doc] / [flatten_numbers] (the documented sheet::table names)
   Model/Workbook.v      [open_read parse f img probes] = open_workbook(path) or the class for the format,
                         sheet_iter(), schema bound by set_schema_loader(HeadingRowSchemaLoader()) for
                         formats with a header row and by set_schema(...) for NDJSON, rows(),
                         row.name(c).value() for the column names: per sheet (name, result of reading);
                         [read_fixed] / [read_ebcdic] the same run for COBOL_Text_File / COBOL_EBCDIC_File
                         on a file image with the schema of a copybook of X(w) items ([layout_of]);
                         [phys f W] = the parser-level content of a file that stores W;
                         [expected W] = every sheet by name, every row in order, the str under every column.
   A value read is [Ok (Some (Txt s))] = the str s; [Err e] = the call raised. *)
From Coq Require Import NArith List Lia.
Import ListNotations.
Require Import SR.Base.Res SR.Spec.Transparency SR.Spec.Encode SR.Gen.RecfmParams SR.Model.HeaderRow SR.Model.Workbook.
Require Import SR.Proofs.WorkbookP.

(* The file suffix alone selects the reader: for every format with a registered suffix the registry
   (registrations read from the source on every run) hands the file to that format's class. *)
Theorem C03_suffix : forall f : fmt, reader_for f = Ok f.
Proof. exact reader_for_ok. Qed.
Print Assumptions C03_suffix.

(* Facade, both binding paths, UNDER H_ext.  For every workbook with distinct sheet names whose tables are
   rectangular with distinct column names, stored in any third-party format (one table under the empty
   name for the single-sheet formats): open -> sheet_iter -> rows -> name(c).value() returns exactly the
   sheets (names, order), the rows (count, order) and the cell under every column name.
   Header-row binding: CSV, TAB, XLSX, ODS, XLS (C09 lifted through sheet_iter); explicit schema: NDJSON. *)
Theorem C03_facade : forall (image : Type) (ext_write : fmt -> workbook -> image) (ext_parse : fmt -> image -> content),
  (forall f W, third_party f = true -> storable f W = true -> ext_parse f (ext_write f W) = phys f W) ->
  forall f W, third_party f = true -> storable f W = true -> wf_workbook W ->
    open_read ext_parse f (ext_write f W) (headers W) = Ok (expected W).
Proof. exact facade_ok. Qed.
Print Assumptions C03_facade.

(* [expected] is the spec's by-name association for every row, and has the workbook's sheets and row counts *)
Theorem C03_expected_by_name : forall T : table,
  rows_by_name (t_header T) (expected_rows T) = expected_by_name T.
Proof.
  intros T. unfold rows_by_name, expected_rows, expected_by_name, cells_by_name. f_equal. rewrite !map_map.
  apply map_ext. induction (t_header T) as [|h hs IH]; intros [|c r]; try reflexivity.
  cbn [map combine fst snd]. f_equal. apply IH.
Qed.
Print Assumptions C03_expected_by_name.

Theorem C03_expected_shape : forall W : workbook,
  map fst (expected W) = map fst W
  /\ Forall2 (fun o s => exists rows, snd o = Ok rows /\ length rows = length (t_rows (snd s))) (expected W) W.
Proof.
  intros W. split; [unfold expected; rewrite map_map; reflexivity|].
  induction W as [|s W IH]; constructor; [|exact IH].
  eexists. split; [reflexivity|]. rewrite map_length. reflexivity.
Qed.
Print Assumptions C03_expected_shape.

(* Numbers, UNDER H_num: every table of every sheet is presented as a sheet named sheet::table, provided
   every (sheet, table) name pair splits back at the first separator (known finding 1 otherwise). *)
Theorem C03_facade_numbers : forall (image : Type) (ext_parse : fmt -> image -> content) (num_write : numbers_doc -> image),
  (forall d, ext_parse F_NUMBERS (num_write d) = phys_numbers d) ->
  forall d, wf_numbers d ->
    open_read ext_parse F_NUMBERS (num_write d) (headers (flatten_numbers d)) = Ok (expected (flatten_numbers d)).
Proof. intros image ext_parse num_write H d Hd. exact (facade_numbers_ok image ext_parse num_write H d Hd). Qed.
Print Assumptions C03_facade_numbers.

(* a sheet name without a colon always splits back *)
Theorem C03_numbers_names : forall s t : key,
  forallb (fun c => negb (c =? 58)%N) s = true -> partition_sep (s ++ name_sep ++ t) = (s, t).
Proof. exact partition_no_colon. Qed.
Print Assumptions C03_numbers_names.

(* known finding 1: a Numbers sheet named a::b holding table T cannot be read (KeyError) *)
Theorem C03_refuted_1 :
  NoDup (map fst bad_doc)
  /\ read_header (phys_numbers bad_doc) (headers (flatten_numbers bad_doc))
     = [([97; 58; 58; 98; 58; 58; 84]%N, Err KeyError)]
  /\ read_header (phys_numbers bad_doc) (headers (flatten_numbers bad_doc)) <> expected (flatten_numbers bad_doc).
Proof.
  split; [cbn; constructor; [intros []|constructor]|].
  split; [vm_compute; reflexivity|]. vm_compute. intros H. discriminate H.
Qed.
Print Assumptions C03_refuted_1.

(* Fixed-width text, NO hypothesis: reading the image the Coq writer produces, with the copybook layout of the
   widths, gives back the padded table - for every table with distinct column names, cells no longer than
   their columns and free of line breaks. *)
Theorem C03_fixed_text : forall (T : table) (widths : list nat),
  NoDup (t_header T) -> fits widths T = true -> line_safe T = true ->
  read_fixed (write_fixed_text T widths) (layout_of (t_header T) widths) (t_header T)
  = expected [([], pad_table widths T)].
Proof. exact fixed_text_ok. Qed.
Print Assumptions C03_fixed_text.

(* EBCDIC, NO hypothesis: RECFM N (records no longer than the reader's buffer) or F, lrecl not given or the
   record length, any Python file object kind; cells in the CP037 repertoire. *)
Theorem C03_fixed_ebcdic : forall (r : recfm) (kind : N) (wb_lrecl : option nat) (T : table) (widths : list nat),
  NoDup (t_header T) -> fits widths T = true -> repertoire_ok T = true -> t_header T <> [] ->
  (r = RECFM_N -> list_sum widths <= N.to_nat buffer_size) ->
  wb_lrecl = None \/ wb_lrecl = Some (list_sum widths) ->
  read_ebcdic r kind wb_lrecl (write_ebcdic T widths) (layout_of (t_header T) widths) (t_header T)
  = expected [([], pad_table widths T)].
Proof. exact ebcdic_ok. Qed.
Print Assumptions C03_fixed_ebcdic.

(* the repertoire of CP037 is Latin-1, decoding inverts encoding on it, and cells that fill their columns
   are not changed by padding *)
Theorem C03_repertoire :
  (forall c, (c < 256)%N -> in_repertoire c = true)
  /\ (forall c, in_repertoire c = true -> cp037 (encode_char c) = c)
  /\ (forall widths T, fits_exactly widths T = true -> pad_table widths T = T).
Proof. split; [exact latin1_in_repertoire|]. split; [exact decode_encode|exact pad_table_exact]. Qed.
Print Assumptions C03_repertoire.

(* Hence any two formats agree (UNDER H_ext): on sheets, rows and every cell by name ... *)
Theorem C03_agree : forall (image : Type) (ext_write : fmt -> workbook -> image) (ext_parse : fmt -> image -> content),
  (forall f W, third_party f = true -> storable f W = true -> ext_parse f (ext_write f W) = phys f W) ->
  forall f g W, third_party f = true -> third_party g = true ->
    storable f W = true -> storable g W = true -> wf_workbook W ->
    open_read ext_parse f (ext_write f W) (headers W) = open_read ext_parse g (ext_write g W) (headers W).
Proof.
  intros image ext_write ext_parse H f g W Hf Hg Hsf Hsg Hwf.
  rewrite !(facade_ok image ext_write ext_parse H) by assumption. reflexivity.
Qed.
Print Assumptions C03_agree.

(* ... and the fixed-width file of T reads like any third-party format's file of the padded T
   (of T itself when the cells fill their columns: C03_repertoire, third part). *)
Theorem C03_agree_fixed : forall (image : Type) (ext_write : fmt -> workbook -> image) (ext_parse : fmt -> image -> content),
  (forall f W, third_party f = true -> storable f W = true -> ext_parse f (ext_write f W) = phys f W) ->
  forall f T widths, third_party f = true -> NoDup (t_header T) -> fits widths T = true ->
    (line_safe T = true ->
       open_read ext_parse f (ext_write f [([], pad_table widths T)]) [t_header T]
       = Ok (read_fixed (write_fixed_text T widths) (layout_of (t_header T) widths) (t_header T)))
    /\ (forall r kind wb_lrecl, repertoire_ok T = true -> t_header T <> [] ->
          (r = RECFM_N -> list_sum widths <= N.to_nat buffer_size) ->
          wb_lrecl = None \/ wb_lrecl = Some (list_sum widths) ->
          open_read ext_parse f (ext_write f [([], pad_table widths T)]) [t_header T]
          = Ok (read_ebcdic r kind wb_lrecl (write_ebcdic T widths) (layout_of (t_header T) widths) (t_header T))).
Proof.
  intros image ext_write ext_parse H f T widths Htp Hnd Hfit.
  rewrite (facade_padded image ext_write ext_parse H f T widths Htp Hnd Hfit). split.
  - intros Hsafe. rewrite fixed_text_ok by assumption. reflexivity.
  - intros r kind wb_lrecl Hrep Hne Hbuf Hl. rewrite ebcdic_ok by assumption. reflexivity.
Qed.
Print Assumptions C03_agree_fixed.

(* Single-sheet formats present one sheet named '' - whatever the file holds (no hypothesis). *)
Theorem C03_single_sheet :
  (forall rows, sheet_names (C_single rows) = [[]])
  /\ (forall docs, sheet_names (C_json docs) = [[]])
  /\ (forall f W, third_party f = true -> single_sheet f = true -> sheet_names (phys f W) = [[]])
  /\ (forall f c probes, third_party f = true -> single_sheet f = true -> sheet_names c = [[]] ->
        map fst (facade_read f c probes) = [[]])
  /\ (forall file l probes, map fst (read_fixed file l probes) = [[]])
  /\ (forall r kind wb_lrecl file l probes, map fst (read_ebcdic r kind wb_lrecl file l probes) = [[]]).
Proof.
  repeat split; try reflexivity.
  - intros f W Htp Hs. destruct f; try discriminate Htp; try discriminate Hs; reflexivity.
  - intros f c probes Htp Hs Hn. destruct f; try discriminate Htp; try discriminate Hs; cbn [facade_read].
    + unfold read_header. rewrite Hn. reflexivity.
    + unfold read_header. rewrite Hn. reflexivity.
    + unfold read_json. rewrite Hn. reflexivity.
Qed.
Print Assumptions C03_single_sheet.

(* non-vacuity: the hypotheses are satisfiable, on a table with two columns and two rows *)
Definition ex_T : table :=
  mk_table [[65]; [66; 50]]%N [[[97; 98]; [233]]; [[48; 48; 49]; [32]]]%N.     (* A, B2 | ab, e-acute | 001, blank *)

Lemma ex_T_wf : wf_table ex_T.
Proof.
  split; [|reflexivity].
  cbn. apply NoDup_two. discriminate.
Qed.

Example C03_example_wf : wf_workbook [([83]%N, ex_T); ([84]%N, ex_T)] /\ wf_workbook [([], ex_T)].
Proof.
  split; split.
  - cbn [map fst]. apply NoDup_two. discriminate.
  - constructor; [exact ex_T_wf|]. constructor; [exact ex_T_wf|constructor].
  - cbn [map fst]. constructor; [intros []|constructor].
  - constructor; [exact ex_T_wf|constructor].
Qed.

(* the third-party premise has a model: parsers and writers that are inverse to each other *)
Example C03_example_H_ext :
  exists (ext_write : fmt -> workbook -> fmt * workbook) (ext_parse : fmt -> fmt * workbook -> content),
    forall f W, third_party f = true -> storable f W = true -> ext_parse f (ext_write f W) = phys f W.
Proof. exists (fun f W => (f, W)), (fun _ p => phys (fst p) (snd p)). reflexivity. Qed.

Example C03_example_fixed :
  fits [3; 2] ex_T = true /\ line_safe ex_T = true /\ repertoire_ok ex_T = true /\ t_header ex_T <> []
  /\ list_sum [3; 2] <= N.to_nat buffer_size
  /\ write_fixed_text ex_T [3; 2] = [97; 98; 32; 233; 32; 10; 48; 48; 49; 32; 32; 10]%N
  /\ write_ebcdic ex_T [3; 2] = [129; 130; 64; 81; 64; 240; 240; 241; 64; 64]%N
  /\ read_fixed (write_fixed_text ex_T [3; 2]) (layout_of (t_header ex_T) [3; 2]) (t_header ex_T)
     = [([], Ok [[Ok (Some (Txt [97; 98; 32]%N)); Ok (Some (Txt [233; 32]%N))];
                 [Ok (Some (Txt [48; 48; 49]%N)); Ok (Some (Txt [32; 32]%N))]])].
Proof.
  repeat apply conj.
  5: { change (list_sum [3; 2]) with 5. unfold buffer_size. lia. }
  all: vm_compute; first [reflexivity | discriminate].
Qed.

Example C03_example_numbers :
  wf_numbers [([83]%N, [([84; 49]%N, ex_T); ([84; 50]%N, ex_T)])]
  /\ map fst (flatten_numbers [([83]%N, [([84; 49]%N, ex_T); ([84; 50]%N, ex_T)])])
     = [[83; 58; 58; 84; 49]; [83; 58; 58; 84; 50]]%N.
Proof.
  split; [|reflexivity]. split; [|split].
  - cbn [map fst]. constructor; [intros []|constructor].
  - constructor; [|constructor]. split.
    + cbn [map fst snd]. apply NoDup_two. discriminate.
    + constructor; [exact ex_T_wf|]. constructor; [exact ex_T_wf|constructor].
  - intros s t [<-|[]] [<-|[<-|[]]]; reflexivity.
Qed.

(* TEXT FORMATS: the premise H_ext DISCHARGED for CSV, tab-delimited text and NDJSON.
   Model/Csv.v      csv_write d rows = the characters csv.writer(f, delimiter=d) (excel dialect) writes for the rows;
                    csv_read d file = list(csv.reader(...)) over the file opened in mode r with the default newline
                    handling (universal newlines), Ok rows or the exception; csv_read_raw = the same over a file opened
                    with newline=''; lib_read = the one of the two that CSVUnpacker.open's open call selects, READ FROM
                    THE SOURCE on every run (Gen/CsvOpenParams.csv_newline_raw, harness/t1_c03b.py): csv_read_raw from
                    commit aa3b8fc on (fix: CSV files are opened with newline=''), csv_read before it.
   Model/Ndjson.v   ndjson_write ea docs = one json.dumps(dict, ensure_ascii=ea) per line; ndjson_read file = the
                    json.loads of every line as JSONUnpacker delivers them (Done docs / Raise e).
   Proofs/CsvP.v, Proofs/NdjsonP.v, Proofs/TextFormatsP.v hold the proofs.  Both models are tied to CPython and to the
   library on every run by the second engine of this property (harness/c03b.py, Judge/JC03b.v). *)
Require SR.Model.Csv SR.Model.Ndjson SR.Proofs.CsvP SR.Proofs.NdjsonP.
Require Import SR.Proofs.TextFormatsP.

(* CSV: for EVERY delimiter other than the quote character, CR and LF, and EVERY list of rows (no rows, rows without
   cells, a single empty cell, ragged rows) whose cells are any code points except the carriage return and hold at most
   csv.field_size_limit() = 131072 characters, csv.reader over the file opened in mode r WITHOUT newline='' (the open
   call of the tree before aa3b8fc) returns exactly the rows the writer was given.
   delim_ok d  = negb (d =? 34) && negb (d =? 13) && negb (d =? 10)
   table_ok T  = forallb (forallb (fun c => forallb (fun x => negb (x =? 13)) c && (N.of_nat (length c) <=? 131072))) T *)
Theorem C03_csv_roundtrip : forall (delim : N) (T : list (list Csv.text)),
  Csv.delim_ok delim = true -> Csv.table_ok T = true -> Csv.csv_read delim (Csv.csv_write delim T) = Ok T.
Proof. exact CsvP.csv_roundtrip. Qed.
Print Assumptions C03_csv_roundtrip.

(* the same file read the way the csv documentation asks for and the library now opens it (newline=''): carriage
   returns come back too.  table_ok_raw T = forallb (forallb (fun c => N.of_nat (length c) <=? 131072)) T *)
Theorem C03_csv_roundtrip_raw : forall (delim : N) (T : list (list Csv.text)),
  Csv.delim_ok delim = true -> Csv.table_ok_raw T = true -> Csv.csv_read_raw delim (Csv.csv_write delim T) = Ok T.
Proof. exact CsvP.csv_roundtrip_raw. Qed.
Print Assumptions C03_csv_roundtrip_raw.

(* A text-mode open WITHOUT newline='' - what CSVUnpacker.open did in the tree before aa3b8fc (repaired finding
   K-csv-carriage-return) - does not read a carriage return back: it arrives as a line feed and CR LF as ONE line feed;
   with newline='' the same file gives the cell back.  This is a statement about csv_read (the text-mode reader), not
   about the library as it is now (lib_read, C03_text_premise). *)
Theorem C03_csv_text_mode_refuted :
  Csv.csv_read Csv.COMMA (Csv.csv_write Csv.COMMA [[[97; 13; 98]]]%N) = Ok [[[97; 10; 98]]]%N
  /\ Csv.csv_read Csv.COMMA (Csv.csv_write Csv.COMMA [[[97; 13; 10; 98]]]%N) = Ok [[[97; 10; 98]]]%N
  /\ Csv.csv_read_raw Csv.COMMA (Csv.csv_write Csv.COMMA [[[97; 13; 98]]]%N) = Ok [[[97; 13; 98]]]%N.
Proof. repeat apply conj; vm_compute; reflexivity. Qed.
Print Assumptions C03_csv_text_mode_refuted.

(* the library's reader, as CSVUnpacker.open opens the file NOW (read from the source): every table comes back *)
Theorem C03_csv_roundtrip_lib : forall (delim : N) (T : list (list Csv.text)),
  Csv.delim_ok delim = true -> Csv.table_ok_raw T = true -> Csv.lib_read delim (Csv.csv_write delim T) = Ok T.
Proof. exact CsvP.lib_roundtrip. Qed.
Print Assumptions C03_csv_roundtrip_lib.

(* delim_ok is exact: each of the three excluded delimiters loses a table even with newline='' *)
Theorem C03_csv_delimiters_exact :
  Csv.csv_read_raw 34 (Csv.csv_write 34 [[[97; 34]; [98]]]%N) <> Ok [[[97; 34]; [98]]]%N
  /\ Csv.csv_read_raw 13 (Csv.csv_write 13 [[[97]; [98]]]%N) <> Ok [[[97]; [98]]]%N
  /\ Csv.csv_read_raw 10 (Csv.csv_write 10 [[[97]; [98]]]%N) <> Ok [[[97]; [98]]]%N.
Proof. repeat apply conj; vm_compute; discriminate. Qed.
Print Assumptions C03_csv_delimiters_exact.

(* NDJSON: for both values of ensure_ascii and EVERY list of dicts with distinct keys, json.loads of every written
   line returns the dict.  With ensure_ascii the keys and values are code points (<= 0x10FFFF) without a high
   surrogate directly followed by a low surrogate; without it they are any text (CR, LF, U+0085, U+2028, U+2029,
   non-BMP and lone surrogate code points included).
   doc_ok ea d = distinct (map fst d) && forallb (fun kv => text_ok ea (fst kv) && text_ok ea (snd kv)) d
   text_ok ea s = if ea then forallb (fun c => c <=? 1114111) s && no_pair s else true *)
Theorem C03_ndjson_roundtrip : forall (ea : bool) (docs : list Ndjson.doc),
  forallb (Ndjson.doc_ok ea) docs = true -> Ndjson.ndjson_read (Ndjson.ndjson_write ea docs) = Ndjson.Done docs.
Proof. exact NdjsonP.ndjson_roundtrip. Qed.
Print Assumptions C03_ndjson_roundtrip.

(* text_ok is exact under ensure_ascii: two code points, a high and a low surrogate, come back as one *)
Theorem C03_ndjson_surrogates_exact :
  Ndjson.ndjson_read (Ndjson.ndjson_write true [[([97], [55296; 56320])]]%N) = Ndjson.Done [[([97], [65536])]]%N
  /\ Ndjson.ndjson_read (Ndjson.ndjson_write false [[([97], [55296; 56320])]]%N) = Ndjson.Done [[([97], [55296; 56320])]]%N
  /\ Ndjson.ndjson_read (Ndjson.ndjson_write true [[([97], [55296; 97; 56320])]]%N) = Ndjson.Done [[([97], [55296; 97; 56320])]]%N.
Proof. repeat apply conj; vm_compute; reflexivity. Qed.
Print Assumptions C03_ndjson_surrogates_exact.

(* The premise of C03_facade, PROVED for the three text formats: what the unpacker delivers for the file the
   harness's writer wrote for W is the stored table.
   text_parse reads CSV / TAB through lib_read, i.e. through the open call the source has now; the proof needs
   Gen/CsvOpenParams.csv_newline_raw = true and stops compiling when the fix aa3b8fc is reverted.
   text_storable ea f W: CSV / TAB = table_ok_raw (header row :: data rows) - cells of ANY code points, carriage returns
   included, within the field size limit; NDJSON = text_ok ea of every name and cell *)
Theorem C03_text_premise : forall (ea : bool) (f : fmt) (W : workbook),
  text_format f = true -> storable f W = true -> wf_workbook W -> text_storable ea f W = true ->
  text_parse f (text_write ea f W) = phys f W.
Proof. exact text_parse_write. Qed.
Print Assumptions C03_text_premise.

(* the facade theorem for CSV, TAB and NDJSON with NO premise about a parser *)
Theorem C03_facade_text : forall (ea : bool) (f : fmt) (W : workbook),
  text_format f = true -> storable f W = true -> wf_workbook W -> text_storable ea f W = true ->
  open_read text_parse f (text_write ea f W) (headers W) = Ok (expected W).
Proof. exact facade_text. Qed.
Print Assumptions C03_facade_text.

Corollary C03_facade_csv : forall (W : workbook),
  storable F_CSV W = true -> wf_workbook W -> text_storable true F_CSV W = true ->
  open_read text_parse F_CSV (text_write true F_CSV W) (headers W) = Ok (expected W).
Proof. intros W. exact (facade_text true F_CSV W eq_refl). Qed.
Print Assumptions C03_facade_csv.

Corollary C03_facade_tab : forall (W : workbook),
  storable F_TAB W = true -> wf_workbook W -> text_storable true F_TAB W = true ->
  open_read text_parse F_TAB (text_write true F_TAB W) (headers W) = Ok (expected W).
Proof. intros W. exact (facade_text true F_TAB W eq_refl). Qed.
Print Assumptions C03_facade_tab.

Corollary C03_facade_ndjson : forall (ea : bool) (W : workbook),
  storable F_NDJSON W = true -> wf_workbook W -> text_storable ea F_NDJSON W = true ->
  open_read text_parse F_NDJSON (text_write ea F_NDJSON W) (headers W) = Ok (expected W).
Proof. intros ea W. exact (facade_text ea F_NDJSON W eq_refl). Qed.
Print Assumptions C03_facade_ndjson.

(* the three text formats agree with each other (no premise) ... *)
Theorem C03_agree_text : forall (ea ea' : bool) (f g : fmt) (W : workbook),
  text_format f = true -> text_format g = true -> storable f W = true -> storable g W = true -> wf_workbook W ->
  text_storable ea f W = true -> text_storable ea' g W = true ->
  open_read text_parse f (text_write ea f W) (headers W) = open_read text_parse g (text_write ea' g W) (headers W).
Proof. intros. rewrite !facade_text by assumption. reflexivity. Qed.
Print Assumptions C03_agree_text.

(* ... and with every other third-party format, whose own premise stays assumed *)
Theorem C03_agree_text_ext : forall (image : Type) (ext_write : fmt -> workbook -> image) (ext_parse : fmt -> image -> content),
  (forall f W, third_party f = true -> storable f W = true -> ext_parse f (ext_write f W) = phys f W) ->
  forall ea f g W, text_format f = true -> third_party g = true ->
    storable f W = true -> storable g W = true -> wf_workbook W -> text_storable ea f W = true ->
    open_read text_parse f (text_write ea f W) (headers W) = open_read ext_parse g (ext_write g W) (headers W).
Proof.
  intros image ext_write ext_parse H ea f g W Hf Hg Hsf Hsg Hwf Hok. rewrite facade_text by assumption.
  symmetry. apply (facade_ok image ext_write ext_parse H); assumption.
Qed.
Print Assumptions C03_agree_text_ext.

(* non-vacuity of the text-format theorems *)
Example C03_example_csv_domain :
  Csv.delim_ok Csv.COMMA = true /\ Csv.delim_ok Csv.TAB = true /\ Csv.delim_ok 32 = true /\ Csv.delim_ok 128512 = true
  /\ Csv.delim_ok 34 = false /\ Csv.delim_ok 13 = false /\ Csv.delim_ok 10 = false
  (* no rows; a row without cells; one empty cell; ragged rows; quote, delimiter, LF, blanks, NUL, U+2028, non-BMP *)
  /\ Csv.table_ok [] = true /\ Csv.table_ok [[]; [[]]; [[]; []]]%N = true
  /\ Csv.table_ok [[[34; 44; 10]; [32; 97; 32]]; [[0; 8232; 128512]]]%N = true
  /\ Csv.table_ok [[[97; 13]]]%N = false /\ Csv.table_ok_raw [[[97; 13]]]%N = true
  /\ Csv.csv_write Csv.COMMA [[]; [[]]; [[]; []]; [[34; 44; 10]; [32; 97; 32]]]%N
     = [13; 10; 34; 34; 13; 10; 44; 13; 10; 34; 34; 34; 44; 10; 34; 44; 32; 97; 32; 13; 10]%N.
Proof. repeat apply conj; vm_compute; reflexivity. Qed.

Example C03_example_ndjson_domain :
  Ndjson.doc_ok true [([97], [34; 92; 10; 13; 133; 8232; 8233; 128512; 55296]); ([], [])]%N = true
  /\ Ndjson.doc_ok false [([97], [55296; 56320])]%N = true
  /\ Ndjson.doc_ok true [([97], [55296; 56320])]%N = false
  /\ Ndjson.doc_ok true [([97], [49]); ([97], [50])]%N = false
  /\ Ndjson.ndjson_write true [[([97], [34; 233; 128512])]; []]%N
     = [123; 34; 97; 34; 58; 32; 34; 92; 34; 92; 117; 48; 48; 101; 57; 92; 117; 100; 56; 51; 100; 92; 117; 100; 101; 48; 48;
        34; 125; 10; 123; 125; 10]%N.
Proof. repeat apply conj; vm_compute; reflexivity. Qed.

(* a table with a quote, a delimiter, a line feed, a carriage return, CR LF, blanks, an empty cell, non-ASCII and
   non-BMP text is in the domain of all three formats *)
Example C03_example_text_formats :
  wf_workbook [([], ex_text_T)]
  /\ text_storable true F_CSV [([], ex_text_T)] = true /\ text_storable true F_TAB [([], ex_text_T)] = true
  /\ text_storable true F_NDJSON [([], ex_text_T)] = true /\ text_storable false F_NDJSON [([], ex_text_T)] = true.
Proof.
  split; [|repeat apply conj; vm_compute; reflexivity].
  apply wf_single. split; [|reflexivity].
  cbn. apply NoDup_two. discriminate.
Qed.
