(* C07b - Copybook to schema, END TO END ON RAW TEXT: a second engine of property C07 (every entry appears once, in place,
   and none is lost).  The property theorems; the arguments they close are lemmas of Proofs/PipelineP.v.

   Model/Pipeline.v    schemas_of_text text = what list(schema_iter(io.StringIO(text))) does, for EVERY text: [Done (Ok docs)] the
                       list of JSON-schema documents with every keyword in insertion order, [Done (Err e)] the exception class,
                       [Unmodelled w] (never on the domain of these theorems).  It is the COMPOSITION of the layer models
                       (RefFormat, Clauses, Structure, Picture, Estruct, JsonType - imported, not copied) plus the glue, the
                       decoder's second parse of the cobol text and the schema maker with its shared mutable dicts (a heap).
                       The correspondence run (harness/c07b.py, Judge/JC07b.v) compares it with the real code on raw text.
   Spec/Copybook.v     centry: one data description entry = two level digits, clauses and spelling (Spec/Clauses.v), the white
                       space around it; print_copybook es tail seqs: the reference-format text (code areas cut at line feeds,
                       every line behind a six-character sequence area and a blank indicator); copybook_ok: the domain (every
                       entry in the domain of C12b's printer theorem, its picture accepted by the picture scanner, the period
                       of an entry its first period followed by white space, code lines of at most 64 characters, none blank,
                       none a listing directive or a COPY statement); spec_entry / spec_info: the fields a correct reader
                       recovers (from [expected], the dictionary of Spec/Clauses.v); doc_of / docs_of: the document a tree of
                       entries calls for (one node per entry, children in order under their names, title / anchor / cobol, the
                       array wrapper of OCCURS) - the SHAPE; type keywords and sizes of elementary items are json_type and the
                       decoder's calcsize of the entry (properties C08 and C04).
   What is proved
     C07b_sentences, C07b_entries   text layer and clause layer composed (C12_sentences + the card layout + C12b_clause_dict_printer):
                       the sentences / DDE fields read from the text of ANY printed copybook of the domain are the specification's.
     C07b_layer_b      ... hence the documents are Layer B (structure() + schema maker) run on the specification's entries;
                       REDEFINES included.
     C07b_emission     the schema maker's heap model on a forest without REDEFINES is the pure function docs_of.
     C07b_end_to_end   ALL LAYERS COMPOSED, REDEFINES INCLUDED: for every copybook of the domain whose entries form a forest with
                       well-formed names, the outcome is docs_r of that forest (Spec/Copybook.v: the pure, REDEFINES-aware
                       document specification).  C07b_emission_redefines: the schema maker's heap model = docs_r.
     C07b_end_to_end_partial   all layers composed with C07_structure for copybooks WITHOUT REDEFINES: the forest is the one
                       Spec/Dde.v demands (every kept entry once, in source order, parent = nearest preceding smaller level, roots)
                       and the documents are docs_of of that forest.
     C07b_every_entry_once   ... and, in terms of the documents themselves: the objects that define an entry (title, cobol) are, in
                       document order, exactly the kept entries of the copybook - each once, none lost, in source order.
     C07b_relayout     sequence areas, indentation, line breaks before entries, what follows the last entry: no influence at all
                       (any outcome, REDEFINES included).
     C07b_respelling_partial   ... and the documents are equal up to the cobol keyword, for copybooks without REDEFINES.
     C07b_respelling_entries   clause order, optional words, synonyms, letter case, separators: the recovered entries have the same
                       content (level, name, FILLER up to case, REDEFINES target, PICTURE / OCCURS presence).
     C07b_every_entry_once_redefines   with REDEFINES: the defining objects are the kept entries as a multiset (none lost, none twice).
     C07b_respelling   REDEFINES included: two printings of the same entries give the same outcome up to the cobol keyword.
   Hypotheses that remain (each a decidable boolean with an Example): the printable domain of the layer theorems (copybook_ok),
   well-formed names (names_wf / copybook_names_ok), distinct sibling names (shape_ok), and for respelling the decoder's
   second parse finding the entry's own USAGE and PICTURE (respelling_domain).
   Witnesses: C07b_refuted_k2 (known finding C07-K2 end to end), C07b_refuted_duplicate_sibling, C07b_refuted_one_digit_level(s). *)
From Coq Require Import NArith List Bool Permutation.
Import ListNotations.
Require Import SR.Base.Res SR.Model.RefFormat SR.Spec.RefFormat SR.Spec.Clauses SR.Spec.Dde.
Require SR.Model.Structure SR.Proofs.StructureP.
Require Import SR.Model.Pipeline SR.Spec.Copybook SR.Proofs.PipelineP.
Open Scope N_scope.

(* ---- text layer: the sentences of a printed copybook ---- *)
Theorem C07b_sentences : forall es tail seqs,
  forallb ce_wf es = true -> forallb is_ws tail = true -> layout_ok seqs (code_text es tail) = true ->
  sentences_of_text (print_copybook es tail seqs) = Ok (spec_sentences (map ce_print es)).
Proof. exact sentences_of_printed. Qed.
Print Assumptions C07b_sentences.

(* ---- text layer + clause layer: the DDE fields of every entry, in order ---- *)
Theorem C07b_entries : forall es tail seqs, copybook_ok es tail seqs = true ->
  entries_of_text (print_copybook es tail seqs) = ROk (map spec_entry es).
Proof.
  intros es tail seqs H. destruct (printed_reads_as es tail seqs H) as [Hes S]. unfold entries_of_text.
  rewrite S, (infos_of_printed es Hes), map_map. reflexivity.
Qed.
Print Assumptions C07b_entries.

(* ---- ... so the documents are Layer B on the specification's entries (also with REDEFINES) ---- *)
Theorem C07b_layer_b : forall es tail seqs, copybook_ok es tail seqs = true ->
  schemas_of_text (print_copybook es tail seqs) = to_outcome (docs_of_infos (map spec_info es)).
Proof. intros es tail seqs H. exact (reading_schemas _ es (printed_reads_as es tail seqs H)). Qed.
Print Assumptions C07b_layer_b.

(* ---- the schema maker: shared mutable dicts (heap) = a pure function of the forest when nothing is redefined ---- *)
Theorem C07b_emission : forall f : list xtree, forallb noredef f = true -> build_all f = docs_of f.
Proof. exact build_all_noredef. Qed.
Print Assumptions C07b_emission.

(* ---- end to end, copybooks without REDEFINES ----
   [f] is the forest of structure(); by C07_structure it holds every kept entry exactly once in source order, each below the
   nearest preceding entry with a smaller level number, the roots being the entries without one.  [xf] is f with the clause
   values of the entries attached in that order.  The documents are docs_of xf: one per root, one node per kept entry. *)
Theorem C07b_end_to_end_partial : forall es tail seqs,
  copybook_ok es tail seqs = true -> no_redefines es = true -> levels_ascii es = true ->
  exists f xf,
    SR.Model.Structure.structure (map spec_entry es) = Ok f
    /\ SR.Model.Structure.preorder_f f = SR.Proofs.StructureP.kept_of (map spec_entry es)
    /\ SR.Model.Structure.parents f
       = spec_parents (SR.Proofs.StructureP.levels_of (SR.Proofs.StructureP.kept_of (map spec_entry es)))
    /\ SR.Model.Structure.root_pos 0 f
       = spec_roots (SR.Proofs.StructureP.levels_of (SR.Proofs.StructureP.kept_of (map spec_entry es)))
    /\ annot_forest f (kept_infos (map spec_info es)) = Some xf
    /\ map erase xf = f
    /\ concat (map xpre xf) = kept_infos (map spec_info es)
    /\ schemas_of_text (print_copybook es tail seqs) = to_outcome (docs_of xf).
Proof.
  intros es tail seqs OK NR LA. destruct (end_to_end_noredef es tail seqs OK NR) as (f & xf & Hf & A & R & Q & _ & S).
  assert (D : Forall (fun e => two_digits (SR.Model.Structure.elv e) = true) (map spec_entry es)).
  { apply Forall_forall. intros e He. apply in_map_iff in He as (c & <- & Hc). unfold levels_ascii in LA. rewrite forallb_forall in LA.
    apply (LA c Hc). }
  destruct (SR.Proofs.StructureP.structure_full _ _ D Hf) as (P1 & P2 & P3).
  exists f, xf. repeat split; assumption.
Qed.
Print Assumptions C07b_end_to_end_partial.

(* ---- the property itself, in terms of the documents: every kept entry is defined exactly once, in source order ----
   [defs doc] lists (title, cobol) of every object of a document that has a title and is not a reference placeholder, in
   document order; [entry_defs es] lists (data name, level + clause text) of the entries of the copybook that become nodes
   (all but the later 66 / 77 / 88 levels).  copybook_shape_ok: siblings carry different names (else the later one REPLACES
   the earlier under the same key) and an elementary OCCURS item has no subordinate entries (the code drops them). *)
Theorem C07b_every_entry_once : forall es tail seqs docs,
  copybook_ok es tail seqs = true -> no_redefines es = true -> copybook_shape_ok es = true ->
  schemas_of_text (print_copybook es tail seqs) = Done (Ok docs) ->
  flat_map defs docs = entry_defs es.
Proof.
  intros es tail seqs docs OK NR SH H.
  destruct (end_to_end_noredef es tail seqs OK NR) as (f & xf & Hf & A & R & Q & _ & S).
  unfold copybook_shape_ok in SH. rewrite Hf, A in SH. rewrite S in H. apply to_outcome_ok in H.
  rewrite (docs_of_defs xf docs SH H), R, (structure_preorder _ _ Hf). reflexivity.
Qed.
Print Assumptions C07b_every_entry_once.

(* ---- END TO END, REDEFINES INCLUDED ----
   Spec/Copybook.v docs_r is the REDEFINES-aware document specification: the redefined item and its redefiners gathered in a
   oneOf property REDEFINES-x of their group where the first of them stands, each keeping a reference placeholder under its
   own name; KeyError under an OCCURS group (known finding C07-K2).  For EVERY copybook of the domain whose entries form a
   forest (structure() returns: every REDEFINES target is a unique earlier sibling) in which no item is named like one of
   its ancestors and no name starts with REDEFINES- (names_wf), the outcome - documents or the exception of an elementary
   item's type / size - is docs_r of that forest [xf] (f with the clause values attached in source order).
   The schema maker's shared mutable dicts (names[parent.unique_name], the oneOf lists it appends to) are a heap in the model;
   the proof carries an invariant relating the properties dict under construction to the documents built so far. *)
Theorem C07b_end_to_end : forall es tail seqs f,
  copybook_ok es tail seqs = true -> SR.Model.Structure.structure (map spec_entry es) = Ok f ->
  exists xf, annot_forest f (kept_infos (map spec_info es)) = Some xf /\ map erase xf = f
             /\ concat (map xpre xf) = kept_infos (map spec_info es)
             /\ (forallb (names_wf []) xf = true ->
                 schemas_of_text (print_copybook es tail seqs) = to_outcome (docs_r xf)).
Proof. intros es tail seqs f OK. exact (reading_end_to_end _ es f (printed_reads_as es tail seqs OK)). Qed.
Print Assumptions C07b_end_to_end.

(* the schema maker alone: heap model = pure specification on every forest with well-formed names *)
Theorem C07b_emission_redefines : forall f : list xtree, forallb (names_wf []) f = true -> build_all f = docs_r f.
Proof. exact Redef.build_all_names_wf. Qed.
Print Assumptions C07b_emission_redefines.

(* where nothing is redefined docs_r is docs_of: C07b_end_to_end_partial is the full statement restricted to copybooks
   without REDEFINES (and there the hypothesis on names is not needed) *)
Theorem C07b_docs_r_without_redefines : forall f : list xtree, forallb noredef f = true -> docs_r f = docs_of f.
Proof.
  induction f as [|t f IH]; intros H; [reflexivity|]. cbn [forallb] in H. apply andb_true_iff in H as [Ht Hf].
  cbn [docs_r docs_of]. rewrite (proj1 doc_r_noredef t Ht), (IH Hf). reflexivity.
Qed.
Print Assumptions C07b_docs_r_without_redefines.

(* ---- the property itself with REDEFINES: every kept entry is defined exactly once.  A redefined item and its redefiners stand
        together in the oneOf at the place of the redefined item, so the defining objects are the kept entries as a MULTISET
        (none lost, none twice); without REDEFINES also in source order (C07b_every_entry_once).
        shape_ok: siblings carry different names, an elementary OCCURS item has no subordinate entries. ---- *)
Theorem C07b_every_entry_once_redefines : forall es tail seqs f xf docs,
  copybook_ok es tail seqs = true -> SR.Model.Structure.structure (map spec_entry es) = Ok f ->
  annot_forest f (kept_infos (map spec_info es)) = Some xf ->
  forallb (names_wf []) xf = true -> forallb shape_ok xf = true ->
  schemas_of_text (print_copybook es tail seqs) = Done (Ok docs) ->
  Permutation (flat_map defs docs) (entry_defs es).
Proof.
  intros es tail seqs f xf docs OK Hf A NW SH H.
  destruct (C07b_end_to_end es tail seqs f OK Hf) as (xf' & A' & R & Q & S). rewrite A in A'. injection A' as <-.
  rewrite (S NW) in H. apply to_outcome_ok in H.
  apply (Permutation_trans (docs_r_defs xf docs SH NW H)). rewrite R, (structure_preorder _ _ Hf). apply Permutation_refl.
Qed.
Print Assumptions C07b_every_entry_once_redefines.

(* ---- layout: sequence areas, indentation, the white space around level numbers and after periods, what follows the last
        entry have no influence on the outcome (documents or exception), REDEFINES included ---- *)
Theorem C07b_relayout : forall es tail seqs es' tail' seqs',
  Forall2 same_core es es' -> copybook_ok es tail seqs = true -> copybook_ok es' tail' seqs' = true ->
  schemas_of_text (print_copybook es tail seqs) = schemas_of_text (print_copybook es' tail' seqs').
Proof.
  intros es tail seqs es' tail' seqs' F OK OK'.
  rewrite (C07b_layer_b _ _ _ OK), (C07b_layer_b _ _ _ OK'), (same_core_info _ _ F). reflexivity.
Qed.
Print Assumptions C07b_relayout.

(* ---- respelling: two printings of the same entries - clauses in any order, any optional words, synonyms, letter case,
        separators, layout - are read as entries with the same content ---- *)
Theorem C07b_respelling_entries : forall es tail seqs es' tail' seqs',
  Forall2 same_clauses es es' -> copybook_ok es tail seqs = true -> copybook_ok es' tail' seqs' = true ->
  exists E E', entries_of_text (print_copybook es tail seqs) = ROk E
            /\ entries_of_text (print_copybook es' tail' seqs') = ROk E'
            /\ map content E = map content E'.
Proof.
  intros es tail seqs es' tail' seqs' F OK OK'.
  exists (map spec_entry es), (map spec_entry es'). split; [apply (C07b_entries _ _ _ OK)|]. split; [apply (C07b_entries _ _ _ OK')|].
  apply copybook_entries_ok in OK, OK'.
  rewrite !map_map. induction F as [|e e' es es' S F IH]; [reflexivity|]. cbn [forallb] in OK, OK'.
  apply andb_true_iff in OK as [Oe OK]. apply andb_true_iff in OK' as [Oe' OK']. cbn [map]. rewrite (IH OK OK'). f_equal.
  apply same_clauses_content; assumption.
Qed.
Print Assumptions C07b_respelling_entries.

(* ---- ... and the DOCUMENTS are equal up to the cobol keyword (the one keyword that shows how the entry was written), for
        copybooks without REDEFINES in which the word FILLER is written in upper case and the decoder's second parse of every
        entry ends up with the entry's own usage and picture (respelling_domain: excludes the known findings K-C12-lowercase and
        K-C12-value-literal-reparsed; keyword-bearing data names are not excluded: Props/C04e.v).  Clause order, optional words, synonyms (PIC / PICTURE, COMP / BINARY / COMP-4,
        COMP-3 / PACKED-DECIMAL ...), letter case of the other reserved words, separators and layout are free. ---- *)
Theorem C07b_respelling_partial : forall es tail seqs es' tail' seqs',
  Forall2 same_clauses es es' ->
  copybook_ok es tail seqs = true -> copybook_ok es' tail' seqs' = true ->
  no_redefines es = true -> no_redefines es' = true ->
  forallb respelling_domain es = true -> forallb respelling_domain es' = true ->
  strip_outcome (schemas_of_text (print_copybook es tail seqs)) = strip_outcome (schemas_of_text (print_copybook es' tail' seqs')).
Proof.
  intros es tail seqs es' tail' seqs' SC OK OK' NR NR' RD RD'.
  destruct (end_to_end_noredef es tail seqs OK NR) as (f & xf & Hf & _ & R & Q & N & S).
  destruct (end_to_end_noredef es' tail' seqs' OK' NR') as (f' & xf' & Hf' & _ & R' & Q' & N' & S').
  pose proof (Resp2.docs_r_respelling es es' SC (copybook_entries_ok _ _ _ OK) (copybook_entries_ok _ _ _ OK') RD RD') as DR.
  rewrite Hf, Hf' in DR. rewrite S, S', <- (C07b_docs_r_without_redefines xf N), <- (C07b_docs_r_without_redefines xf' N'). apply DR; assumption.
Qed.
Print Assumptions C07b_respelling_partial.

(* ---- the same WITH REDEFINES: two printings of the same entries give the same outcome up to the cobol keyword - the same
        documents, or the same exception (a REDEFINES target that is no unique earlier sibling: ValueError; REDEFINES below an
        OCCURS group: KeyError ...).  copybook_names_ok: on the forest of the entries no item is named like one of its
        ancestors and no name starts with REDEFINES- (nothing is asked when structure() refuses the copybook). ---- *)
Theorem C07b_respelling : forall es tail seqs es' tail' seqs',
  Forall2 same_clauses es es' ->
  copybook_ok es tail seqs = true -> copybook_ok es' tail' seqs' = true ->
  forallb respelling_domain es = true -> forallb respelling_domain es' = true ->
  Resp2.copybook_names_ok es = true -> Resp2.copybook_names_ok es' = true ->
  strip_outcome (schemas_of_text (print_copybook es tail seqs)) = strip_outcome (schemas_of_text (print_copybook es' tail' seqs')).
Proof.
  intros es tail seqs es' tail' seqs' SC OK OK' RD RD' NM NM'.
  pose proof (Resp2.docs_r_respelling es es' SC (copybook_entries_ok _ _ _ OK) (copybook_entries_ok _ _ _ OK') RD RD') as DR.
  destruct (SR.Model.Structure.structure (map spec_entry es)) as [f|e] eqn:Hf, (SR.Model.Structure.structure (map spec_entry es')) as [f'|e'] eqn:Hf'; try contradiction.
  - destruct (C07b_end_to_end es tail seqs f OK Hf) as (xf & A & R & Q & S).
    destruct (C07b_end_to_end es' tail' seqs' f' OK' Hf') as (xf' & A' & R' & Q' & S').
    unfold Resp2.copybook_names_ok in NM, NM'. rewrite Hf, A in NM. rewrite Hf', A' in NM'. rewrite (S NM), (S' NM').
    apply DR; assumption.
  - subst e'. rewrite (C07b_layer_b _ _ _ OK), (C07b_layer_b _ _ _ OK'). unfold docs_of_infos.
    rewrite !map_entry_spec_info, Hf, Hf'. reflexivity.
Qed.
Print Assumptions C07b_respelling.

Definition sp0 : cspell := {| ch := []; masks := []; seps := [] |}.
Definition mkce (d1 d2 : N) (cs : list clause) (sps : spelling) (lead gap : line) : centry :=
  {| ce_d1 := d1; ce_d2 := d2; ce_cs := cs; ce_sps := sps; ce_lead := lead; ce_gap := gap; ce_term := 10 |}.
Definition ind4 : line := [32; 32; 32; 32].
Definition brk : line := [10; 32; 32; 32; 32; 32; 32; 32; 32].             (* a line break inside an entry, then eight blanks *)

Definition n_CUST_REC : line := [67; 85; 83; 84; 45; 82; 69; 67].
Definition n_CUST_NO : line := [67; 85; 83; 84; 45; 78; 79].
Definition p_9_5 : line := [57; 40; 53; 41].
Definition p_X_3 : line := [88; 40; 51; 41].
Definition p_S9_3 : line := [83; 57; 40; 51; 41].

(*  000100 01 CUST-REC .
    000200     05  CUST-NO PIC 9(5) .
    000300     05 FILLER, PICTURE IS X(3) USAGE IS DISPLAY.
    000400     05 T OCCURS 3 TIMES
    000500         PIC S9(3) COMP-3.                                           *)
Definition ex_es : list centry :=
  [mkce 48 49 [CName n_CUST_REC] [] [] [32];
   mkce 48 53 [CName n_CUST_NO; CPicture p_9_5] [] ind4 [32; 32];
   mkce 48 53 [CFiller; CPicture p_X_3; CUsage 0]
        [(sp0, [44; 32]); ({| ch := [1; 1]; masks := []; seps := [] |}, [32]); ({| ch := [2; 0]; masks := []; seps := [] |}, [])] ind4 [32];
   mkce 48 53 [CName [84]; COccurs [51] None; CPicture p_S9_3; CUsage 2]
        [(sp0, [32]); ({| ch := [1]; masks := []; seps := [] |}, brk); (sp0, [32]); (sp0, [])] ind4 [32]].
Definition ex_seqs : list line :=
  [[48;48;48;49;48;48]; [48;48;48;50;48;48]; [48;48;48;51;48;48]; [48;48;48;52;48;48]; [48;48;48;53;48;48]].

Example C07b_example_domain :
  copybook_ok ex_es [] ex_seqs = true /\ no_redefines ex_es = true /\ levels_ascii ex_es = true
  /\ copybook_shape_ok ex_es = true /\ forallb respelling_domain ex_es = true /\ Resp2.copybook_names_ok ex_es = true.
Proof. vm_compute. repeat split; reflexivity. Qed.

(* the documents of the example: one record, the three items in order under their names; FILLER is titled FILLER and
   anchored FILLER-1; T is an array of 3 whose item carries the packed-decimal type; sizes 5 and 3 *)
Example C07b_example_docs :
  exists rec a b c,
    schemas_of_text (print_copybook ex_es [] ex_seqs)
    = Done (Ok [JObj [(k_title, JStr n_CUST_REC); (k_anchor, JStr n_CUST_REC); (k_cobol, JStr rec); (k_type, JStr v_object);
                      (k_properties, JObj [(n_CUST_NO, a); (SR.Model.Structure.gen_name 1, b); ([84], c)])]])
    /\ a = JObj [(k_title, JStr n_CUST_NO); (k_anchor, JStr n_CUST_NO);
                 (k_cobol, JStr [48;53;32;67;85;83;84;45;78;79;32;80;73;67;32;57;40;53;41]);
                 (k_type, JStr v_string); (k_contentEncoding, JStr v_cp037); (k_maxLength, JInt 5); (k_minLength, JInt 5)]
    /\ flat_map defs [JObj [(k_title, JStr n_CUST_REC); (k_anchor, JStr n_CUST_REC); (k_cobol, JStr rec); (k_type, JStr v_object);
                            (k_properties, JObj [(n_CUST_NO, a); (SR.Model.Structure.gen_name 1, b); ([84], c)])]]
       = entry_defs ex_es.
Proof. do 4 eexists. split; [vm_compute; reflexivity|]. split; vm_compute; reflexivity. Qed.

(* the same entries respelled and laid out differently: clause order, PIC for PICTURE IS, no USAGE IS, a synonym
   (PACKED-DECIMAL for COMP-3), lower-case times, semicolon separators, blank sequence areas, other indentation *)
Definition ex_es' : list centry :=
  [mkce 48 49 [CName n_CUST_REC] [(sp0, [])] [] [32; 32];
   mkce 48 53 [CName n_CUST_NO; CPicture p_9_5] [(sp0, [59; 32]); (sp0, [])] [32] [32];
   mkce 48 53 [CFiller; CUsage 0; CPicture p_X_3]
        [(sp0, [32]); ({| ch := [0; 0]; masks := []; seps := [] |}, [59; 32; 32]); (sp0, [])] [32] [32];
   mkce 48 53 [CName [84]; CUsage 2; CPicture p_S9_3; COccurs [51] None]
        [(sp0, [32]); ({| ch := [1; 2]; masks := []; seps := [] |}, [32]); (sp0, [32]);
         ({| ch := [1]; masks := [[]; [true; true; true; true; true]]; seps := [] |}, [])] [32] [32]].

Example C07b_example_respelling :
  Forall2 same_clauses ex_es ex_es' /\ copybook_ok ex_es' [] [] = true /\ no_redefines ex_es' = true /\ forallb respelling_domain ex_es' = true
  /\ schemas_of_text (print_copybook ex_es [] ex_seqs) <> schemas_of_text (print_copybook ex_es' [] [])
  /\ strip_outcome (schemas_of_text (print_copybook ex_es [] ex_seqs)) = strip_outcome (schemas_of_text (print_copybook ex_es' [] [])).
Proof.
  split.
  { apply Forall2_cons; [split; [reflexivity|split; [reflexivity|apply Permutation_refl]]|].
    apply Forall2_cons; [split; [reflexivity|split; [reflexivity|apply Permutation_refl]]|].
    apply Forall2_cons; [split; [reflexivity|split; [reflexivity|apply perm_skip; apply perm_swap]]|].
    apply Forall2_cons; [split; [reflexivity|split; [reflexivity|]]|apply Forall2_nil].
    apply perm_skip. apply (Permutation_rev [COccurs [51] None; CPicture p_S9_3; CUsage 2]). }
  split; [vm_compute; reflexivity|]. split; [vm_compute; reflexivity|]. split; [vm_compute; reflexivity|]. split; [vm_compute; discriminate|vm_compute; reflexivity].
Qed.

(* with REDEFINES (outside C07b_end_to_end_partial): the conclusion of the full statement holds on this instance
     01 R.  05 A PIC X(3).  05 B REDEFINES A PIC 9(3).  05 C PIC X. *)
Definition ex_redef : list centry :=
  [mkce 48 49 [CName [82]] [] [] [32];
   mkce 48 53 [CName [65]; CPicture p_X_3] [] ind4 [32];
   mkce 48 53 [CName [66]; CRedefines [65]; CPicture [57; 40; 51; 41]] [] ind4 [32];
   mkce 48 53 [CName [67]; CPicture [88]] [] ind4 [32]].

Example C07b_example_redefines :
  copybook_ok ex_redef [] [] = true /\ no_redefines ex_redef = false
  /\ (exists docs, schemas_of_text (print_copybook ex_redef [] []) = Done (Ok docs)
                   /\ Permutation (flat_map defs docs) (entry_defs ex_redef))
  /\ (exists f xf, SR.Model.Structure.structure (map spec_entry ex_redef) = Ok f
                   /\ annot_forest f (kept_infos (map spec_info ex_redef)) = Some xf
                   /\ forallb (names_wf []) xf = true /\ forallb shape_ok xf = true
                   /\ schemas_of_text (print_copybook ex_redef [] []) = to_outcome (docs_r xf)).
Proof.
  split; [vm_compute; reflexivity|]. split; [vm_compute; reflexivity|]. split.
  - eexists. split; [vm_compute; reflexivity|]. vm_compute. apply Permutation_refl.
  - eexists. eexists. split; [vm_compute; reflexivity|]. split; [vm_compute; reflexivity|]. split; [vm_compute; reflexivity|]. split; vm_compute; reflexivity.
Qed.

(* the hypotheses of C07b_respelling are satisfiable with REDEFINES: ex_redef against the same entries with the clauses of B
   in another order (PIC before REDEFINES) and PICTURE IS for PIC *)
Definition ex_redef' : list centry :=
  [mkce 48 49 [CName [82]] [] [] [32];
   mkce 48 53 [CName [65]; CPicture p_X_3] [(sp0, [32]); ({| ch := [1; 1]; masks := []; seps := [] |}, [])] [32] [32; 32];
   mkce 48 53 [CName [66]; CPicture [57; 40; 51; 41]; CRedefines [65]] [] [32] [32];
   mkce 48 53 [CName [67]; CPicture [88]] [] [32] [32]].

Example C07b_example_respelling_redefines :
  Forall2 same_clauses ex_redef ex_redef' /\ copybook_ok ex_redef' [] [] = true
  /\ forallb respelling_domain ex_redef = true /\ forallb respelling_domain ex_redef' = true
  /\ Resp2.copybook_names_ok ex_redef = true /\ Resp2.copybook_names_ok ex_redef' = true.
Proof.
  split.
  { apply Forall2_cons; [split; [reflexivity|split; [reflexivity|apply Permutation_refl]]|].
    apply Forall2_cons; [split; [reflexivity|split; [reflexivity|apply Permutation_refl]]|].
    apply Forall2_cons; [split; [reflexivity|split; [reflexivity|apply perm_skip; apply perm_swap]]|].
    apply Forall2_cons; [split; [reflexivity|split; [reflexivity|apply Permutation_refl]]|apply Forall2_nil]. }
  split; [vm_compute; reflexivity|]. split; [vm_compute; reflexivity|]. split; [vm_compute; reflexivity|]. split; vm_compute; reflexivity.
Qed.

(* known finding C07-K2 reproduced end to end on text: REDEFINES below an OCCURS group raises KeyError
     01 R.  05 T OCCURS 2.  10 A PIC X.  10 B REDEFINES A PIC X. *)
Definition ex_k2 : list centry :=
  [mkce 48 49 [CName [82]] [] [] [32];
   mkce 48 53 [CName [84]; COccurs [50] None] [] ind4 [32];
   mkce 49 48 [CName [65]; CPicture [88]] [] ind4 [32];
   mkce 49 48 [CName [66]; CRedefines [65]; CPicture [88]] [] ind4 [32]].

Theorem C07b_refuted_k2 :
  copybook_ok ex_k2 [] [] = true /\ schemas_of_text (print_copybook ex_k2 [] []) = Done (Err KeyError).
Proof. split; vm_compute; reflexivity. Qed.
Print Assumptions C07b_refuted_k2.

(* copybook_shape_ok is needed: two siblings with the same data name - the later one REPLACES the earlier under the same key,
   the first entry is lost (candidate finding)     01 R.  05 A PIC X.  05 A PIC 9. *)
Definition ex_dup : list centry :=
  [mkce 48 49 [CName [82]] [] [] [32];
   mkce 48 53 [CName [65]; CPicture [88]] [] ind4 [32];
   mkce 48 53 [CName [65]; CPicture [57]] [] ind4 [32]].

Theorem C07b_refuted_duplicate_sibling :
  copybook_ok ex_dup [] [] = true /\ no_redefines ex_dup = true /\ copybook_shape_ok ex_dup = false
  /\ exists docs, schemas_of_text (print_copybook ex_dup [] []) = Done (Ok docs)
                  /\ length (flat_map defs docs) = 2%nat /\ length (entry_defs ex_dup) = 3%nat.
Proof. split; [vm_compute; reflexivity|]. split; [vm_compute; reflexivity|]. split; [vm_compute; reflexivity|].
  eexists. split; [vm_compute; reflexivity|]. split; vm_compute; reflexivity. Qed.
Print Assumptions C07b_refuted_duplicate_sibling.

(* a level number written with ONE digit (COBOL allows 1 .. 49 as well as 01 .. 49) is not seen by the sentence pattern: the
   entry is lost without any error (candidate finding); raw text, outside the printer's domain
     "       01 REC." / "           5  A PIC X(3)." / "           05 B PIC X."   defines REC and B only *)
Definition text_one_digit : list N := [32; 32; 32; 32; 32; 32; 32; 48; 49; 32; 82; 69; 67; 46; 10; 32; 32; 32; 32; 32; 32; 32; 32; 32; 32; 32; 53; 32; 32; 65; 32; 80; 73; 67; 32; 88; 40; 51; 41; 46; 10; 32; 32; 32; 32; 32; 32; 32; 32; 32; 32; 32; 48; 53; 32; 66; 32; 80; 73; 67; 32; 88; 46; 10].
Theorem C07b_refuted_one_digit_level :
  exists docs, schemas_of_text text_one_digit = Done (Ok docs)
               /\ map fst (flat_map defs docs) = [[82; 69; 67]; [66]].
Proof. eexists. split; vm_compute; reflexivity. Qed.
Print Assumptions C07b_refuted_one_digit_level.

(* ... and a copybook that uses one-digit level numbers throughout has no sentence at all: StopIteration
     "       1  REC." / "           5  A PIC XXX." *)
Definition text_one_digit_all : list N := [32; 32; 32; 32; 32; 32; 32; 49; 32; 32; 82; 69; 67; 46; 10; 32; 32; 32; 32; 32; 32; 32; 32; 32; 32; 32; 53; 32; 32; 65; 32; 80; 73; 67; 32; 88; 88; 88; 46; 10].
Theorem C07b_refuted_one_digit_levels_only : schemas_of_text text_one_digit_all = Done (Err StopIter).
Proof. vm_compute. reflexivity. Qed.
Print Assumptions C07b_refuted_one_digit_levels_only.
