(* C10, companion: the unconditional theorems of Props/C10.v (laziness, index commutation, raw containment) for
   COBOL-built schemas of record descriptions WITH OCCURS DEPENDING ON.  The property theorems; the lemmas they rest on
   are in Proofs/LayoutValueOdoP.v (J_cobol_o: every navigator reached satisfies C10's invariant for cobol_like schemas
   and has ODO-free items in every table) and, for such navigators, in Proofs/LayoutValueP.v.  No engine of its own:
   ./check C10 compiles and scans it with Props/C10.v.

   Props/C10.v: C10_cobol_like_built and the _cobol theorems assume C01's wf - no ODO anywhere in the tree.
   Here the hypothesis is
     wfo e [] t       (Proofs/LayoutOdoP.v) the well-formedness of C06_layout: an ODO table may stand anywhere a
                      non-repeated item may stand (in the record, in nested non-repeated groups, next to REDEFINES
                      unions); its counter is an EARLIER non-repeated elementary item that is in no union and no table;
                      an ODO item does not itself REDEFINE; items inside tables (fixed or ODO) and members of
                      REDEFINES unions are C01-well-formed (no ODO inside them); the REDEFINES rules of C01 hold.
                      wfo takes the count vector e only to compare the lengths of union members, exactly as wf does.
     NoDup (ids t)    item ids distinct.
   With ODO the location tree depends on the record, through the counter fields only (C10_tree_counters).  So laziness
   reads: two records that give every counter field the layout consults the same count - the condition of
   C10_tree_counters, word for word - and hold the same bytes in the range of the location reached, are navigated by
   the same path to the same location and give the same value there, error status included (C10c_lazy_odo).
   Index commutation and containment of an occurrence need no side condition either: under wfo no table has an ODO
   inside its items (C10c_items_odo_free), which is the trigger of the known finding K-index-odo-value
   (C10_index_odo_refuted: there the outer table is OCCURS 2 with an ODO table inside, which wfo excludes). *)
From Coq Require Import List ZArith.
Import ListNotations.
Require Import SR.Base.Res SR.Spec.Layout SR.Model.Layout SR.Model.LayoutValue SR.Spec.Coherence.
Require Import SR.Proofs.LayoutP SR.Proofs.LayoutOdoP SR.Proofs.LayoutValueOdoP.
Open Scope nat_scope.

(* what cobol_parser emits for such a record description is cobol_like, so every theorem of Props/C10.v that asks
   for cobol_like (C10_commute_index, C10_raw_name_all, C10_foot_inside, C10_lazy_cobol_like) applies to it *)
Theorem C10c_cobol_like_built_odo : forall (e : env) (avail : list id) (t : item),
  wfo e avail t = true -> NoDup (ids t) -> cobol_like (build t) = true.
Proof. exact cobol_like_build_o. Qed.
Print Assumptions C10c_cobol_like_built_odo.

(* unpacker.nav does not raise on a record that carries a count vector (Holds: C06_layout's hypothesis), so the
   premise vnav_of ... = Ok v0 below is met by every such record *)
Theorem C10c_nav_exists_odo : forall (B : Type) (dcount : list B -> nat) (r : list B) (e : env) (t : item),
  wfo e [] t = true -> NoDup (ids t) -> Holds B dcount r e t 0 ->
  exists v0, vnav_of dcount r (build t) = Ok v0.
Proof.
  intros B dcount r e t Hw Hnd Hh. destruct (layout_correct_odo B dcount r e t Hw Hnd Hh) as [n0 [Hn _]].
  rewrite (SR.Proofs.LayoutValueP.nav_of_erase B dcount r) in Hn.
  destruct (vnav_of dcount r (build t)) as [v0|ex]; [now exists v0|discriminate].
Qed.
Print Assumptions C10c_nav_exists_odo.

(* every table reached, fixed or ODO, has items without OCCURS DEPENDING ON *)
Theorem C10c_items_odo_free : forall (B : Type) (dcount : list B -> nat) (r : list B) (e : env) (t : item)
    (p : list wstep) (v0 v : vnav) st sz isz cnt it sch,
  wfo e [] t = true -> NoDup (ids t) ->
  vnav_of dcount r (build t) = Ok v0 -> vnav_path dcount r v0 p = Ok v ->
  vn_loc v = WArr st sz isz cnt it sch -> odo_free sch = true.
Proof.
  intros B dcount r e t p v0 v st sz isz cnt it sch Hw Hnd H0 Hp.
  exact (ofree_items v st sz isz cnt it sch (proj2 (J_cobol_o B dcount r e t p v0 v Hw Hnd H0 Hp))).
Qed.
Print Assumptions C10c_items_odo_free.

(* index: whole and part.  The table may be an ODO table (cnt is then the count this record's counter field gives) *)
Theorem C10c_commute_index_odo : forall (B : Type) (dcount : list B -> nat) (A : Type) (dec : option key -> list B -> res A)
    (r : list B) (e : env) (t : item) (p : list wstep) (v0 v : vnav) st sz isz cnt it sch (xs : list (pv A)) i,
  wfo e [] t = true -> NoDup (ids t) ->
  vnav_of dcount r (build t) = Ok v0 -> vnav_path dcount r v0 p = Ok v ->
  vn_loc v = WArr st sz isz cnt it sch ->
  vnav_value r dec v = Some (Ok (PList xs)) -> i < cnt ->
  exists v' x, vnav_index dcount r v i = Ok v' /\ nth_error xs i = Some x /\ vnav_value r dec v' = Some (Ok x).
Proof.
  intros B dcount A dec r e t p v0 v st sz isz cnt it sch xs i Hw Hnd H0 Hp Hl.
  destruct (J_cobol_o B dcount r e t p v0 v Hw Hnd H0 Hp) as [Hj Ho].
  exact (SR.Proofs.LayoutValueP.commute_index_J B dcount A dec r v st sz isz cnt it sch xs i Hj Hl (ofree_items v _ _ _ _ _ _ Ho Hl)).
Qed.
Print Assumptions C10c_commute_index_odo.

(* raw bytes: every child reached by name, members of REDEFINES unions included, lies inside its parent *)
Theorem C10c_raw_name_odo : forall (B : Type) (dcount : list B -> nat) (r : list B) (e : env) (t : item)
    (p : list wstep) (v0 v v' : vnav) k,
  wfo e [] t = true -> NoDup (ids t) ->
  vnav_of dcount r (build t) = Ok v0 -> vnav_path dcount r v0 p = Ok v -> vnav_name v k = Ok v' ->
  wstart (vn_loc v) <= wstart (vn_loc v') /\ wend (vn_loc v') <= wend (vn_loc v) /\
  vnav_raw r v' = slice (vnav_raw r v) (wstart (vn_loc v') - wstart (vn_loc v)) (wend (vn_loc v') - wstart (vn_loc v)).
Proof.
  intros B dcount r e t p v0 v v' k Hw Hnd H0 Hp Hn.
  destruct (SR.Proofs.LayoutValueP.name_inside_all B dcount r v k v' (proj1 (J_cobol_o B dcount r e t p v0 v Hw Hnd H0 Hp)) Hn) as [H1 H2].
  repeat split; try assumption. now apply SR.Proofs.LayoutValueP.raw_slice.
Qed.
Print Assumptions C10c_raw_name_odo.

(* raw bytes: occurrence i of a table, fixed or ODO, starts at start + i * item_size, has the item size, lies inside
   the table and its raw bytes are that slice of the table's *)
Theorem C10c_raw_index_odo : forall (B : Type) (dcount : list B -> nat) (r : list B) (e : env) (t : item)
    (p : list wstep) (v0 v v' : vnav) st sz isz cnt it sch i,
  wfo e [] t = true -> NoDup (ids t) ->
  vnav_of dcount r (build t) = Ok v0 -> vnav_path dcount r v0 p = Ok v ->
  vn_loc v = WArr st sz isz cnt it sch -> vnav_index dcount r v i = Ok v' ->
  wstart (vn_loc v') = st + isz * i /\ wsize (vn_loc v') = isz /\
  wstart (vn_loc v) <= wstart (vn_loc v') /\ wend (vn_loc v') <= wend (vn_loc v) /\
  vnav_raw r v' = slice (vnav_raw r v) (wstart (vn_loc v') - wstart (vn_loc v)) (wend (vn_loc v') - wstart (vn_loc v)).
Proof.
  intros B dcount r e t p v0 v v' st sz isz cnt it sch i Hw Hnd H0 Hp Hl Hi.
  destruct (J_cobol_o B dcount r e t p v0 v Hw Hnd H0 Hp) as [[Hinv _] Ho].
  destruct (SR.Proofs.LayoutValueP.index_inside B dcount r v st sz isz cnt it sch i v' Hinv Hl (ofree_items v _ _ _ _ _ _ Ho Hl) Hi)
    as [H1 [H2 [H3 H4]]].
  repeat split; try assumption. now apply SR.Proofs.LayoutValueP.raw_slice.
Qed.
Print Assumptions C10c_raw_index_odo.

(* value() of every location reached takes no slice outside the location's own range *)
Theorem C10c_foot_inside_odo : forall (B : Type) (dcount : list B -> nat) (r : list B) (e : env) (t : item)
    (p : list wstep) (v0 v : vnav),
  wfo e [] t = true -> NoDup (ids t) ->
  vnav_of dcount r (build t) = Ok v0 -> vnav_path dcount r v0 p = Ok v -> foot_inside v = true.
Proof.
  intros B dcount r e t p v0 v Hw Hnd H0 Hp.
  exact (SR.Proofs.LayoutValueP.foot_inside_J B dcount r v (proj1 (J_cobol_o B dcount r e t p v0 v Hw Hnd H0 Hp))).
Qed.
Print Assumptions C10c_foot_inside_odo.

(* the counters decide the tree, and nothing else in the record does: a record r' that gives every counter field
   the ODO tables consult the same count as r (the condition of C10_tree_counters) is navigated by the same path to the
   same navigator, location and anchors alike *)
Theorem C10c_same_nav_odo : forall (B : Type) (dcount : list B -> nat) (r : list B) (e : env) (r' : list B) (t : item)
    (p : list wstep) (v0 v : vnav),
  wfo e [] t = true -> NoDup (ids t) ->
  vnav_of dcount r (build t) = Ok v0 -> vnav_path dcount r v0 p = Ok v ->
  (forall c a cst csz, In c (odo_keys (build t)) -> In (KName c, WAtom a cst csz) (vn_an v0) ->
     dcount (slice r cst (cst + csz)) = dcount (slice r' cst (cst + csz))) ->
  vnav_of dcount r' (build t) = Ok v0 /\ vnav_path dcount r' v0 p = Ok v.
Proof.
  intros B dcount r e r' t p v0 v Hw Hnd H0 Hp Hc. split.
  - exact (SR.Proofs.LayoutValueP.nav_counters B dcount r r' (build t) v0 H0 Hc).
  - rewrite <- (ofree_path_record_free B dcount r r' p v0); [exact Hp|].
    exact (proj2 (J_cobol_o B dcount r e t [] v0 v0 Hw Hnd H0 eq_refl)).
Qed.
Print Assumptions C10c_same_nav_odo.

(* laziness (non-interference), unconditionally: r and r' agree on the counters (as above) and on the bytes of the
   location reached in r.  Then the same path reaches the same location in r', and value() gives the same answer in
   both, the exception included: undecodable bytes anywhere else can neither raise nor change it. *)
Theorem C10c_lazy_odo : forall (B : Type) (dcount : list B -> nat) (A : Type) (dec : option key -> list B -> res A)
    (r : list B) (e : env) (r' : list B) (t : item) (p : list wstep) (v0 v : vnav),
  wfo e [] t = true -> NoDup (ids t) ->
  vnav_of dcount r (build t) = Ok v0 -> vnav_path dcount r v0 p = Ok v ->
  (forall c a cst csz, In c (odo_keys (build t)) -> In (KName c, WAtom a cst csz) (vn_an v0) ->
     dcount (slice r cst (cst + csz)) = dcount (slice r' cst (cst + csz))) ->
  vnav_raw r v = vnav_raw r' v ->
  vnav_of dcount r' (build t) = Ok v0 /\ vnav_path dcount r' v0 p = Ok v /\
  vnav_value r dec v = vnav_value r' dec v.
Proof.
  intros B dcount A dec r e r' t p v0 v Hw Hnd H0 Hp Hc Hraw.
  destruct (C10c_same_nav_odo B dcount r e r' t p v0 v Hw Hnd H0 Hp Hc) as [G1 G2]. split; [exact G1|]. split; [exact G2|].
  apply (SR.Proofs.LayoutValueP.lazy_value B A dec); [|exact Hraw]. exact (C10c_foot_inside_odo B dcount r e t p v0 v Hw Hnd H0 Hp).
Qed.
Print Assumptions C10c_lazy_odo.

(* examples (non-vacuity)
   01 R. 05 N PIC 9. 05 T OCCURS DEPENDING ON N. 10 B PIC X. 10 C PIC X(2).
         05 D. 10 X PIC X(2). 10 Y PIC X. 05 E REDEFINES D PIC X(3). 05 F PIC X.
   ids: R=1 N=2 T=3 B=4 C=5 D=6 X=7 Y=8 E=9 F=10: an ODO table of groups next to a REDEFINES union.
   Bytes are numbers; the counter field holds its count; the decoder rejects a field containing 99. *)
Definition exo_tree : item :=
  Group 1%N Once None
    (ICons (Elem 2%N 1 Once None)
    (ICons (Group 3%N (Odo 2%N) None (ICons (Elem 4%N 1 Once None) (ICons (Elem 5%N 2 Once None) INil)))
    (ICons (Group 6%N Once None (ICons (Elem 7%N 2 Once None) (ICons (Elem 8%N 1 Once None) INil)))
    (ICons (Elem 9%N 3 Once (Some 6%N))
    (ICons (Elem 10%N 1 Once None) INil))))).
(* the count vector exo_r carries: Holds (C06_layout) asks it of every non-repeated elementary item outside the unions,
   each being a potential counter: N holds 2, F holds 20 *)
Definition exo_env : env := fun c => if N.eqb c 2%N then 2 else if N.eqb c 10%N then 20 else 0.
Definition exo_dec (a : option key) (bs : list nat) : res (list nat) :=
  if existsb (Nat.eqb 99) bs then Err ValueError else Ok bs.
Definition exo_dcount (bs : list nat) : nat := match bs with [n] => n | _ => 0 end.
(* N=2, T = (11, 12 13) (14, 15 16), D = E = 17 18 19, F = 20 *)
Definition exo_r : list nat := [2; 11; 12; 13; 14; 15; 16; 17; 18; 19; 20].
(* the same counter; an undecodable byte in C of the first occurrence and another in F *)
Definition exo_bad : list nat := [2; 11; 99; 13; 14; 15; 16; 17; 18; 19; 99].
(* another counter: one occurrence, everything after it moves *)
Definition exo_one : list nat := [1; 11; 12; 13; 17; 18; 19; 20].
Definition exo_nav (r : list nat) : res vnav := vnav_of exo_dcount r (build exo_tree).
Definition exo_at (r : list nat) (p : list wstep) : res vnav :=
  match exo_nav r with Ok v => vnav_path exo_dcount r v p | Err e => Err e end.
Definition exo_val (r : list nat) (p : list wstep) : vres (pv (list nat)) :=
  match exo_at r p with Ok v => vnav_value r exo_dec v | Err e => Some (Err e) end.
Definition exo_raw (r : list nat) (p : list wstep) : list nat :=
  match exo_at r p with Ok v => vnav_raw r v | Err _ => [] end.

(* the hypotheses on the tree hold, for any count vector; the schema consults the counter N *)
Example C10c_example_wfo :
  wfo exo_env [] exo_tree = true /\ wfo (fun _ => 0) [] exo_tree = true
  /\ SR.Proofs.LayoutP.wf exo_env exo_tree = false
  /\ cobol_like (build exo_tree) = true /\ odo_keys (build exo_tree) = [2%N].
Proof. vm_compute. repeat split; reflexivity. Qed.
Example C10c_example_ids : NoDup (ids exo_tree).
Proof. vm_compute. repeat constructor; simpl; intuition discriminate. Qed.

(* the whole record: the ODO table has the two occurrences the counter announces; the union shows D, then E *)
Example C10c_example_whole :
  exo_val exo_r [] = Some (Ok (PDict
    [(KName 2%N, PAtom [2]);
     (KName 3%N, PList [PDict [(KName 4%N, PAtom [11]); (KName 5%N, PAtom [12; 13])];
                        PDict [(KName 4%N, PAtom [14]); (KName 5%N, PAtom [15; 16])]]);
     (KRedef 6%N, PDict [(KName 7%N, PAtom [17; 18]); (KName 8%N, PAtom [19])]);
     (KName 6%N, PDict [(KName 7%N, PAtom [17; 18]); (KName 8%N, PAtom [19])]);
     (KName 9%N, PAtom [17; 18; 19]);
     (KName 10%N, PAtom [20])])).
Proof. vm_compute. reflexivity. Qed.

(* hypotheses and conclusion of C10c_commute_index_odo on the ODO table T, index 1; of C10c_raw_index_odo;
   of C10c_raw_name_odo on the union member E (a $ref placeholder) and on D.Y *)
Example C10c_example_index :
  match exo_at exo_r [SKey (KName 3%N)] with
  | Ok v =>
      match vn_loc v, vnav_value exo_r exo_dec v, vnav_index exo_dcount exo_r v 1 with
      | WArr st sz isz cnt _ sch, Some (Ok (PList [_; x1])), Ok v1 =>
          vnav_value exo_r exo_dec v1 = Some (Ok x1) /\ x1 = PDict [(KName 4%N, PAtom [14]); (KName 5%N, PAtom [15; 16])]
          /\ (st, sz, isz, cnt) = (1, 6, 3, 2) /\ odo_free sch = true
          /\ wstart (vn_loc v1) = 4 /\ wsize (vn_loc v1) = 3 /\ vnav_raw exo_r v1 = [14; 15; 16]
          /\ vnav_index exo_dcount exo_r v 2 = Err IndexError
      | _, _, _ => False
      end
  | Err _ => False
  end
  /\ exo_raw exo_r [SKey (KName 9%N)] = [17; 18; 19]
  /\ exo_raw exo_r [SKey (KName 6%N); SKey (KName 8%N)] = [19]
  /\ (match exo_at exo_r [] with Ok v => ref_prop v (KName 9%N) | Err _ => false end) = true.
Proof. vm_compute. repeat split; reflexivity. Qed.

(* hypotheses and conclusion of C10c_lazy_odo / C10c_same_nav_odo: exo_r and exo_bad agree on the counter field, so the
   same paths reach the same navigators; the whole value of exo_bad raises, and so does the first occurrence, but the
   second occurrence, the union and its members hold the same bytes in both records and read the same *)
Example C10c_example_lazy :
  exo_nav exo_bad = exo_nav exo_r
  /\ exo_at exo_bad [SKey (KName 3%N); SIdx 1] = exo_at exo_r [SKey (KName 3%N); SIdx 1]
  /\ exo_raw exo_bad [SKey (KName 3%N); SIdx 1] = exo_raw exo_r [SKey (KName 3%N); SIdx 1]
  /\ exo_val exo_bad [] = Some (Err ValueError)
  /\ exo_val exo_bad [SKey (KName 3%N)] = Some (Err ValueError)
  /\ exo_val exo_bad [SKey (KName 3%N); SIdx 0] = Some (Err ValueError)
  /\ exo_val exo_bad [SKey (KName 3%N); SIdx 1] = Some (Ok (PDict [(KName 4%N, PAtom [14]); (KName 5%N, PAtom [15; 16])]))
  /\ exo_val exo_bad [SKey (KName 3%N); SIdx 1] = exo_val exo_r [SKey (KName 3%N); SIdx 1]
  /\ exo_val exo_bad [SKey (KName 3%N); SIdx 0; SKey (KName 4%N)] = Some (Ok (PAtom [11]))
  /\ exo_val exo_bad [SKey (KName 9%N)] = Some (Ok (PAtom [17; 18; 19]))
  /\ exo_val exo_bad [SKey (KRedef 6%N)] = exo_val exo_r [SKey (KRedef 6%N)]
  /\ exo_val exo_bad [SKey (KName 10%N)] = Some (Err ValueError)
  /\ (match exo_at exo_r [SKey (KName 3%N)] with Ok v => foot_inside v | Err _ => false end) = true
  /\ (match exo_at exo_r [] with Ok v => foot_inside v | Err _ => false end) = true.
Proof. vm_compute. repeat split; reflexivity. Qed.

(* the condition on the counters cannot be dropped: exo_one holds another count, the table has one occurrence, the union
   and F start three bytes earlier - the navigator of exo_r is not the navigator of exo_one *)
Example C10c_example_counter_needed :
  exo_dcount (slice exo_r 0 1) = 2 /\ exo_dcount (slice exo_one 0 1) = 1
  /\ exo_at exo_one [SKey (KName 3%N); SIdx 1] = Err IndexError
  /\ (match exo_at exo_r [SKey (KName 9%N)], exo_at exo_one [SKey (KName 9%N)] with
      | Ok v, Ok v1 => (wstart (vn_loc v), wstart (vn_loc v1)) = (7, 4)
      | _, _ => False
      end)
  /\ exo_val exo_one [SKey (KName 9%N)] = Some (Ok (PAtom [17; 18; 19]))
  /\ exo_val exo_one [SKey (KName 3%N)] = Some (Ok (PList [PDict [(KName 4%N, PAtom [11]); (KName 5%N, PAtom [12; 13])]])).
Proof. vm_compute. repeat split; reflexivity. Qed.

(* C10c_nav_exists_odo: exo_r carries the count vector exo_env *)
Example C10c_example_holds : Holds nat exo_dcount exo_r exo_env exo_tree 0.
Proof. vm_compute. repeat (first [exact I | reflexivity | eexists | split]). Qed.
