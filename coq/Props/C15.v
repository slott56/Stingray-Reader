(* C15 - JSON Schema is mirrored one-to-one; JSON instances navigate like plain indexing.
   Only the property theorems; the lemmas are in Proofs/SchemaMakerP.v (what a successful load
   establishes, navigation) and Proofs/SchemaMakerOdoP.v (when loading succeeds).

   [load]      model of SchemaMaker.from_json (Model/SchemaMaker.v): Ok graph | Err exception class
   [mirrors]   Spec/JsonDoc.v: every loaded node holds its sub-document as attributes (json() is the
               document), has the kind its keywords determine ([shape_kw], priority oneOf, $ref, atomic
               type, array/items, object/properties), children in document order with the same names
   [stargets]  every reference of the loaded graph: (name, path of the node pointed at)
   [refs_resolved d s]  each of them is Some t with t = find_anchor d name (the sub-schema whose
               $anchor is that name)
   [wf]        the supported grammar; [uniq_anchors] no two sub-schemas share an $anchor;
   [shadowed]  trigger of known finding K-title-shadows-anchor: a sub-schema without $anchor has a
               title (or the UNNAMED default) that some reference names
   [nav_value root v p]  model of DNav(root, v).name/index ... .value(); [index_json v p] plain indexing *)
From Coq Require Import ZArith List.
Import ListNotations.
Require Import SR.Base.Res SR.Spec.JsonDoc SR.Model.SchemaMaker SR.Proofs.SchemaMakerP SR.Proofs.SchemaMakerOdoP.

(* ---- mirror: for EVERY document (in the grammar or not) a successful load mirrors it ---- *)
Theorem C15_mirror : forall d s, load d = Ok s -> mirrors s d = true.
Proof. exact load_mirrors. Qed.
Print Assumptions C15_mirror.

(* Schema.json() of the loaded root is the document *)
Theorem C15_json_roundtrip : forall d s, load d = Ok s -> attrs s = d.
Proof. exact load_attrs. Qed.
Print Assumptions C15_json_roundtrip.

(* what [mirrors] says at a node (and, by its definition, recursively at every child): the
   attributes ARE the sub-document and the class is the one the keywords determine *)
Theorem C15_mirror_meaning : forall s d,
  mirrors s d = true -> attrs s = d /\ kind_of s = shape_of_keywords d.
Proof. exact mirrors_meaning. Qed.
Print Assumptions C15_mirror_meaning.

(* on the grammar the loader either succeeds or reports ValueError, nothing else *)
Theorem C15_grammar_total : forall d, wf d = true -> (exists s, load d = Ok s) \/ load d = Err ValueError.
Proof. exact load_total. Qed.
Print Assumptions C15_grammar_total.

(* ... and it succeeds when nothing dangles (documents without maxItemsDependsOn): the case of
   C15c_loads with no counter to declare *)
Theorem C15_loads : forall d,
  wf d = true -> has_depends d = false -> has_dangling d = false -> exists s, load d = Ok s.
Proof. intros d Hwf Hnd Hdg. apply load_depends_ok; auto using no_depends_declared. Qed.
Print Assumptions C15_loads.

(* ---- references: backward or forward, each resolves to the sub-schema bearing the anchor ---- *)
Theorem C15_refs : forall d s,
  uniq_anchors d = true -> shadowed d = false -> load d = Ok s ->
  refs_resolved d s = true /\ map fst (stargets s) = refnames d.
Proof. exact load_refs. Qed.
Print Assumptions C15_refs.

(* the path [find_anchor] yields is the path of a sub-schema of the document bearing that anchor *)
Theorem C15_find_anchor_bears : forall d x t,
  find_anchor d x = Some t -> exists sc k, In (t, sc, k) (all_nodes d) /\ k_anchor sc = Some x.
Proof. exact find_anchor_bears. Qed.
Print Assumptions C15_find_anchor_bears.

(* a dangling reference is a ValueError *)
Theorem C15_dangling : forall d,
  wf d = true -> uniq_anchors d = true -> shadowed d = false -> has_dangling d = true ->
  load d = Err ValueError.
Proof. intros d Hwf _ Hs Hd. apply load_dangles; auto using has_dangling_any. Qed.
Print Assumptions C15_dangling.

(* without the guard [shadowed d = false] both statements are FALSE of the code as it is
   (known finding K-title-shadows-anchor); the witnesses are in Spec/SchemaMakerWitness.v *)
Theorem C15_refs_refuted_title :
  ~ (forall d s, wf d = true -> uniq_anchors d = true -> load d = Ok s -> refs_resolved d s = true).
Proof.
  intros H. destruct witness_shadow_facts as (W & U & _ & R).
  destruct (load witness_shadow) as [s|e] eqn:E; [|exact R].
  rewrite (H witness_shadow s W U E) in R. discriminate.
Qed.
Print Assumptions C15_refs_refuted_title.

Theorem C15_dangling_refuted_title :
  ~ (forall d, wf d = true -> uniq_anchors d = true -> has_dangling d = true -> load d = Err ValueError).
Proof.
  intros H. destruct witness_title_only_facts as (W & U & _ & D & L).
  rewrite (H witness_title_only W U D) in L. discriminate.
Qed.
Print Assumptions C15_dangling_refuted_title.

(* whatever a navigation returns is what plain indexing returns: every graph, instance, path *)
Theorem C15_dnav_value : forall root v p x, nav_value root v p = Ok x -> index_json v p = Ok x.
Proof. exact nav_value_sound. Qed.
Print Assumptions C15_dnav_value.

(* for an instance that has the structure of its schema, navigation and plain indexing coincide *)
Theorem C15_dnav : forall root v p x,
  conforms root root v = true -> (nav_value root v p = Ok x <-> index_json v p = Ok x).
Proof.
  intros root v p x C. split; [apply nav_value_sound|].
  intros I. destruct (navigate_complete root p root v x C I) as (s' & N & _).
  unfold nav_value. rewrite N. reflexivity.
Qed.
Print Assumptions C15_dnav.

(* a name on a non-object and an index on a non-array are refused with TypeError *)
Theorem C15_dnav_name_refused : forall root s v k t,
  stype root s = Ok t -> str_eqb t s_object = false -> nav_step root s v (SName k) = Err TypeError.
Proof. intros root s v k t H1 H2. unfold nav_step. rewrite H1, H2. reflexivity. Qed.
Print Assumptions C15_dnav_name_refused.

Theorem C15_dnav_index_refused : forall root s v z t,
  stype root s = Ok t -> str_eqb t s_array = false -> nav_step root s v (SIndex z) = Err TypeError.
Proof. intros root s v z t H1 H2. unfold nav_step. rewrite H1, H2. reflexivity. Qed.
Print Assumptions C15_dnav_index_refused.

(* ---- non-vacuity: a document with a forward and two backward references, maxItemsDependsOn and a
   oneOf satisfies every hypothesis above, loads, and a conforming instance navigates ---- *)
Example C15_example :
  wf example_doc = true /\ uniq_anchors example_doc = true /\ shadowed example_doc = false /\
  has_dangling example_doc = false /\ refnames example_doc = [nY; nX; nX] /\
  match load example_doc with
  | Ok s => mirrors s example_doc = true /\ refs_resolved example_doc s = true /\
            stargets s = [(nY, Some [3; 1]%nat); (nX, Some [1%nat]); (nX, Some [1%nat])] /\
            conforms s s example_instance = true /\
            nav_value s example_instance [SName kv; SIndex (-1)] = Ok (JInt 8) /\
            nav_value s example_instance [SName kr; SName ka] = Ok JNull /\
            nav_value s example_instance [SName kw; SIndex 0] = Err TypeError
  | Err _ => False
  end.
Proof. vm_compute. repeat split. Qed.

(* the hypotheses of C15_dangling / C15_loads are satisfiable *)
Example C15_example_dangling :
  wf example_dangling = true /\ uniq_anchors example_dangling = true /\ shadowed example_dangling = false /\
  has_dangling example_dangling = true /\ has_depends example_dangling = false.
Proof. vm_compute. repeat split. Qed.

(* the witnesses of the two refutations *)
Example C15_witness_shadow :
  wf witness_shadow = true /\ uniq_anchors witness_shadow = true /\ shadowed witness_shadow = true /\
  match load witness_shadow with Ok s => refs_resolved witness_shadow s = false | Err _ => False end.
Proof. exact witness_shadow_facts. Qed.

Example C15_witness_title_only :
  wf witness_title_only = true /\ uniq_anchors witness_title_only = true /\
  shadowed witness_title_only = true /\ has_dangling witness_title_only = true /\
  is_ok (load witness_title_only) = true.
Proof. exact witness_title_only_facts. Qed.
