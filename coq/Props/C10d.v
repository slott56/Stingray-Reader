(* C10, companion: the property's last sentence when the OCCURS DEPENDING ON counter itself cannot be decoded.

     "Reading one field touches only that field: bytes that cannot be decoded raise an error only when their own field is
      requested and never prevent reading any other field or REDEFINES alternative of the same record."

   Props/C10.v and Props/C10c.v take the navigator as given (vnav_of ... = Ok v0) and the counter decoder as a total
   function, so a record whose counter bytes are no number is outside their statements.  Model/LayoutPartial.v adds the
   partial decoder dcountp : list B -> res nat and the constructor vnav_ofp that follows LocationMaker.walk: the walk
   raises the decoder's exception at the first table, in walk order, whose counter does not decode.  This file says what
   the code does then.  Property theorems (the lemmas they rest on are in Proofs/LayoutPartialP.v), the full
   sentence as a Definition, its refutation by the witness that is the replay of finding K-bad-counter-blocks-record, and
   non-vacuity examples.  No engine of its own: ./check C10 compiles and scans it with Props/C10.v, and the stream
   bad-counter of harness/c10.py ties vnav_ofp to unpacker.nav on records with corrupted counters.

   Vocabulary (Model/LayoutPartial.v)
     vnav_ofp dcountp r s         unpacker.nav(schema, instance) with a counter decoder that may raise
     vnav_indexp / vnav_pathp     NDNav.index / a path of name and index steps over it
     readp dcountp r dec s p      nav = unpacker.nav(...); nav.<path p>.value() - what an application does to read one field
     dtot dcountp                 the total decoder dcountp extends to (0 where it raises)
     nav_ctrs dcount r s          the counter fields (bytes) the walk of Model/LayoutValue.v consults, in walk order
     bad_counter dcountp r s      the exception of the first of them, in walk order, that dcountp rejects (None: all decode)
     vnav_of_prepass              bad_counter first, then the existing constructor vnav_of (dtot dcountp) *)
From Coq Require Import List ZArith.
Import ListNotations.
Require Import SR.Base.Res SR.Spec.Layout SR.Model.Layout SR.Model.LayoutValue SR.Spec.Coherence.
Require Import SR.Model.Estruct SR.Model.LayoutPartial.
Require Import SR.Proofs.LayoutP SR.Proofs.LayoutOdoP SR.Proofs.LayoutPartialP.
Require SR.Props.C10c.
Open Scope nat_scope.

(* the tie to the existing model: the res-valued copy of the walk IS the pre-pass over the existing walk, for every
   schema (COBOL-built or not), every start, every anchors table, every record *)
Theorem C10d_walk_is_prepass : forall (B : Type) (dcountp : list B -> res nat) (r : list B) (s : js) (st : nat) (an : wanchors),
  walkvp dcountp r s st an = walk_prepass dcountp r s st an.
Proof. exact walkvp_prepass. Qed.
Print Assumptions C10d_walk_is_prepass.

Theorem C10d_nav_is_prepass : forall (B : Type) (dcountp : list B -> res nat) (r : list B) (s : js),
  vnav_ofp dcountp r s = vnav_of_prepass dcountp r s.
Proof. exact vnav_ofp_prepass. Qed.
Print Assumptions C10d_nav_is_prepass.

(* (a) if every counter the walk reaches decodes, the partial constructor returns what the total one returns, for
   ANY total decoder that agrees with the partial one on those counters: every theorem of Props/C10.v and Props/C10c.v
   about vnav_of dcount r s is a theorem about vnav_ofp dcountp r s *)
Theorem C10d_counters_ok_agrees : forall (B : Type) (dcountp : list B -> res nat) (dcount : list B -> nat) (r : list B) (s : js),
  (forall bs, In bs (nav_ctrs dcount r s) -> dcountp bs = Ok (dcount bs)) ->
  vnav_ofp dcountp r s = vnav_of dcount r s.
Proof.
  intros B dcountp dcount r s H. unfold vnav_ofp, vfrom_instancep, vnav_of, vfrom_instance.
  rewrite (walkvp_agree B dcountp dcount r); [reflexivity|exact H].
Qed.
Print Assumptions C10d_counters_ok_agrees.

(* the same in the vocabulary of C10c_lazy_odo: every REGISTERED counter field an ODO table of the schema names decodes *)
Theorem C10d_registered_counters_ok : forall (B : Type) (dcountp : list B -> res nat) (r : list B) (s : js) (v0 : vnav),
  vnav_of (dtot dcountp) r s = Ok v0 ->
  (forall c a cst csz, In c (odo_keys s) -> In (KName c, WAtom a cst csz) (vn_an v0) ->
     exists n, dcountp (slice r cst (cst + csz)) = Ok n) ->
  vnav_ofp dcountp r s = Ok v0.
Proof.
  intros B dcountp r s v0 H0 Hc. apply readable_iff. split; [|exact H0].
  apply first_err_none_iff. intros bs Hb. apply in_map_iff in Hb. destruct Hb as [p [<- Hp]].
  destruct (nav_cpos_registered B dcountp r s v0 H0 p Hp) as (c & a & Hk & Hin). exact (Hc c a (fst p) (snd p) Hk Hin).
Qed.
Print Assumptions C10d_registered_counters_ok.

(* corollary of (a) with C10c_commute_index_odo: index commutation for the ODO family, with the partial constructor and
   the partial index (NDNav.index re-walks the occurrence with the same unpacker) *)
Theorem C10d_commute_index_odo : forall (B : Type) (dcountp : list B -> res nat) (A : Type) (dec : option key -> list B -> res A)
    (r : list B) (e : env) (t : item) (p : list wstep) (v0 v : vnav) st sz isz cnt it sch (xs : list (pv A)) i,
  wfo e [] t = true -> NoDup (ids t) ->
  vnav_ofp dcountp r (build t) = Ok v0 -> vnav_pathp dcountp r v0 p = Ok v ->
  vn_loc v = WArr st sz isz cnt it sch ->
  vnav_value r dec v = Some (Ok (PList xs)) -> i < cnt ->
  exists v' x, vnav_indexp dcountp r v i = Ok v' /\ nth_error xs i = Some x /\ vnav_value r dec v' = Some (Ok x).
Proof.
  intros B dcountp A dec r e t p v0 v st sz isz cnt it sch xs i Hw Hnd H0 Hp Hl Hv Hi.
  destruct (navp_total_odo B dcountp r e t p v0 v Hw Hnd H0 Hp) as (G0 & Gp & _ & Hof).
  rewrite (vnav_indexp_ofree B dcountp r v i Hof).
  exact (C10c.C10c_commute_index_odo B (dtot dcountp) A dec r e t p v0 v st sz isz cnt it sch xs i Hw Hnd G0 Gp Hl Hv Hi).
Qed.
Print Assumptions C10d_commute_index_odo.

(* corollary of (a) with C10c_lazy_odo: laziness for the ODO family with the partial constructor.  r and r' give every
   registered counter the same ANSWER of the partial decoder (the same count, or the same exception - the latter cannot
   occur, a navigator exists) and hold the same bytes in the range of the location reached: then r' has the same
   navigator, the same path reaches the same location, and value() gives the same answer, the exception included.
   Undecodable bytes anywhere else - in particular in fields that are no counter of a table - neither raise nor change it. *)
Theorem C10d_lazy_odo : forall (B : Type) (dcountp : list B -> res nat) (A : Type) (dec : option key -> list B -> res A)
    (r : list B) (e : env) (r' : list B) (t : item) (p : list wstep) (v0 v : vnav),
  wfo e [] t = true -> NoDup (ids t) ->
  vnav_ofp dcountp r (build t) = Ok v0 -> vnav_pathp dcountp r v0 p = Ok v ->
  (forall c a cst csz, In c (odo_keys (build t)) -> In (KName c, WAtom a cst csz) (vn_an v0) ->
     dcountp (slice r cst (cst + csz)) = dcountp (slice r' cst (cst + csz))) ->
  vnav_raw r v = vnav_raw r' v ->
  vnav_ofp dcountp r' (build t) = Ok v0 /\ vnav_pathp dcountp r' v0 p = Ok v /\
  vnav_value r dec v = vnav_value r' dec v.
Proof.
  intros B dcountp A dec r e r' t p v0 v Hw Hnd H0 Hp Hc Hraw.
  destruct (navp_total_odo B dcountp r e t p v0 v Hw Hnd H0 Hp) as (G0 & Gp & Hof0 & _).
  assert (Hag : forall c a cst csz, In c (odo_keys (build t)) -> In (KName c, WAtom a cst csz) (vn_an v0) ->
            dtot dcountp (slice r cst (cst + csz)) = dtot dcountp (slice r' cst (cst + csz))).
  { intros c a cst csz Hk Hin. unfold dtot. now rewrite (Hc c a cst csz Hk Hin). }
  destruct (C10c.C10c_lazy_odo B (dtot dcountp) A dec r e r' t p v0 v Hw Hnd G0 Gp Hag Hraw) as (K0 & Kp & Kv).
  split; [exact (vnav_ofp_counters B dcountp r r' (build t) v0 H0 Hc)|]. split; [|exact Kv].
  rewrite (vnav_pathp_ofree B dcountp r' p v0 Hof0). exact Kp.
Qed.
Print Assumptions C10d_lazy_odo.

(* corollaries of (a) with C10c_raw_name_odo, C10c_raw_index_odo, C10c_foot_inside_odo: containment of raw bytes and of the
   slices value() takes, with the partial constructor *)
Theorem C10d_raw_name_odo : forall (B : Type) (dcountp : list B -> res nat) (r : list B) (e : env) (t : item)
    (p : list wstep) (v0 v v' : vnav) k,
  wfo e [] t = true -> NoDup (ids t) ->
  vnav_ofp dcountp r (build t) = Ok v0 -> vnav_pathp dcountp r v0 p = Ok v -> vnav_name v k = Ok v' ->
  wstart (vn_loc v) <= wstart (vn_loc v') /\ wend (vn_loc v') <= wend (vn_loc v) /\
  vnav_raw r v' = slice (vnav_raw r v) (wstart (vn_loc v') - wstart (vn_loc v)) (wend (vn_loc v') - wstart (vn_loc v)).
Proof.
  intros B dcountp r e t p v0 v v' k Hw Hnd H0 Hp Hn.
  destruct (navp_total_odo B dcountp r e t p v0 v Hw Hnd H0 Hp) as (G0 & Gp & _ & _).
  exact (C10c.C10c_raw_name_odo B (dtot dcountp) r e t p v0 v v' k Hw Hnd G0 Gp Hn).
Qed.
Print Assumptions C10d_raw_name_odo.

Theorem C10d_raw_index_odo : forall (B : Type) (dcountp : list B -> res nat) (r : list B) (e : env) (t : item)
    (p : list wstep) (v0 v v' : vnav) st sz isz cnt it sch i,
  wfo e [] t = true -> NoDup (ids t) ->
  vnav_ofp dcountp r (build t) = Ok v0 -> vnav_pathp dcountp r v0 p = Ok v ->
  vn_loc v = WArr st sz isz cnt it sch -> vnav_indexp dcountp r v i = Ok v' ->
  wstart (vn_loc v') = st + isz * i /\ wsize (vn_loc v') = isz /\
  wstart (vn_loc v) <= wstart (vn_loc v') /\ wend (vn_loc v') <= wend (vn_loc v) /\
  vnav_raw r v' = slice (vnav_raw r v) (wstart (vn_loc v') - wstart (vn_loc v)) (wend (vn_loc v') - wstart (vn_loc v)).
Proof.
  intros B dcountp r e t p v0 v v' st sz isz cnt it sch i Hw Hnd H0 Hp Hl Hi.
  destruct (navp_total_odo B dcountp r e t p v0 v Hw Hnd H0 Hp) as (G0 & Gp & _ & Hof).
  rewrite (vnav_indexp_ofree B dcountp r v i Hof) in Hi.
  exact (C10c.C10c_raw_index_odo B (dtot dcountp) r e t p v0 v v' st sz isz cnt it sch i Hw Hnd G0 Gp Hl Hi).
Qed.
Print Assumptions C10d_raw_index_odo.

Theorem C10d_foot_inside_odo : forall (B : Type) (dcountp : list B -> res nat) (r : list B) (e : env) (t : item)
    (p : list wstep) (v0 v : vnav),
  wfo e [] t = true -> NoDup (ids t) ->
  vnav_ofp dcountp r (build t) = Ok v0 -> vnav_pathp dcountp r v0 p = Ok v -> foot_inside v = true.
Proof.
  intros B dcountp r e t p v0 v Hw Hnd H0 Hp.
  destruct (navp_total_odo B dcountp r e t p v0 v Hw Hnd H0 Hp) as (G0 & Gp & _ & _).
  exact (C10c.C10c_foot_inside_odo B (dtot dcountp) r e t p v0 v Hw Hnd G0 Gp).
Qed.
Print Assumptions C10d_foot_inside_odo.

(* the same tie one level down: the navigator of Model/Layout.v (C01, C06: start and size only) with the partial decoder *)
Theorem C10d_layout_counters_ok_agrees : forall (B : Type) (dcountp : list B -> res nat) (dcount : list B -> nat) (r : list B) (s : js),
  (forall bs, In bs (nav_ctrs dcount r s) -> dcountp bs = Ok (dcount bs)) ->
  nav_ofp dcountp r s = nav_of dcount r s.
Proof.
  intros B dcountp dcount r s H. unfold nav_ofp.
  rewrite (C10d_counters_ok_agrees B dcountp dcount r s H), (SR.Proofs.LayoutValueP.nav_of_erase B dcount r s).
  destruct (vnav_of dcount r s); reflexivity.
Qed.
Print Assumptions C10d_layout_counters_ok_agrees.

Theorem C10d_layout_bad_counter_blocks : forall (B : Type) (dcountp : list B -> res nat) (r : list B) (s : js) (ex : exn),
  bad_counter dcountp r s = Some ex -> nav_ofp dcountp r s = Err ex.
Proof. intros B dcountp r s ex H. unfold nav_ofp. now rewrite (bad_counter_blocks B dcountp r s ex H). Qed.
Print Assumptions C10d_layout_bad_counter_blocks.

(* (b) if the first counter, in walk order, that does not decode fails with ex, unpacker.nav raises ex: for EVERY
   tree of the ODO family, every record, every per-field decoder - and so does every attempt to read any field by any
   path, the fields that lie before the table and whose place no counter influences included *)
Theorem C10d_bad_counter_blocks_record : forall (B : Type) (dcountp : list B -> res nat) (A : Type)
    (dec : option key -> list B -> res A) (r : list B) (e : env) (t : item) (ex : exn),
  wfo e [] t = true -> NoDup (ids t) ->
  bad_counter dcountp r (build t) = Some ex ->
  vnav_ofp dcountp r (build t) = Err ex /\ forall p, readp dcountp r dec (build t) p = Some (Err ex).
Proof.
  intros B dcountp A dec r e t ex _ _ H. pose proof (bad_counter_blocks B dcountp r (build t) ex H) as Hb.
  split; [exact Hb|]. intros p. unfold readp. now rewrite Hb.
Qed.
Print Assumptions C10d_bad_counter_blocks_record.

(* nothing in (b) depends on the tree being COBOL-built: any schema *)
Theorem C10d_bad_counter_blocks_any_schema : forall (B : Type) (dcountp : list B -> res nat) (r : list B) (A : Type)
    (dec : option key -> list B -> res A) (s : js) (ex : exn),
  bad_counter dcountp r s = Some ex -> forall p, readp dcountp r dec s p = Some (Err ex).
Proof. intros B dcountp r A dec s ex H p. unfold readp. now rewrite (bad_counter_blocks B dcountp r s ex H). Qed.
Print Assumptions C10d_bad_counter_blocks_any_schema.

(* the very first counter the walk consults is enough *)
Theorem C10d_first_counter_blocks : forall (B : Type) (dcountp : list B -> res nat) (r : list B) (s : js) bs rest (ex : exn),
  nav_ctrs (dtot dcountp) r s = bs :: rest -> dcountp bs = Err ex -> vnav_ofp dcountp r s = Err ex.
Proof.
  intros B dcountp r s bs rest ex Hc He. apply bad_counter_blocks. unfold bad_counter. rewrite Hc. cbn [first_err]. now rewrite He.
Qed.
Print Assumptions C10d_first_counter_blocks.

(* (c) the property's sentence.  A field "whose place does not depend on an undecodable counter": whatever count
   the undecodable counters are given (every total decoder that extends the partial one), the path leads to the same
   elementary location [st, st + sz).  "Whose own bytes decode": dec on that slice is Ok x.  The sentence demands that
   the field can then be read and reads as x. *)
Definition C10d_lazy_full : Prop :=
  forall (B A : Type) (dcountp : list B -> res nat) (dec : option key -> list B -> res A) (r : list B) (e : env) (t : item)
         (p : list wstep) (a : option key) (st sz : nat) (x : A),
    wfo e [] t = true -> NoDup (ids t) ->
    (forall dcount : list B -> nat, (forall bs n, dcountp bs = Ok n -> dcount bs = n) ->
       exists v0 v, vnav_of dcount r (build t) = Ok v0 /\ vnav_path dcount r v0 p = Ok v /\ vn_loc v = WAtom a st sz) ->
    dec a (slice r st (st + sz)) = Ok x ->
    readp dcountp r dec (build t) p = Some (Ok (PAtom x)).

(* the witness, which is the replay of finding K-bad-counter-blocks-record:
       01 REC. 05 HDR PIC X(3). 05 N PIC 9. 05 T OCCURS 1 TO 5 TIMES DEPENDING ON N PIC XX. 05 AFTER PIC X(2).
   ids: REC=1 HDR=2 N=3 T=4 AFTER=5.  EBCDIC record 'ABC', N = byte 0x4A (low nibble A: no zoned digit), 'aabb', 'ZZ'.
   The counter decoder is the code's zoned decoder (Model/Estruct.v through dcountp_zoned), the field decoder the code's
   PIC X decoder.  HDR occupies bytes 0..3 before the table, under every count; its bytes decode to 'ABC'. *)
Definition wit_tree : item :=
  Group 1%N Once None
    (ICons (Elem 2%N 3 Once None)
    (ICons (Elem 3%N 1 Once None)
    (ICons (Elem 4%N 2 (Odo 3%N) None)
    (ICons (Elem 5%N 2 Once None) INil)))).
Definition wit_env : env := fun _ => 0.
Definition wit_bad : list N := [193; 194; 195; 74; 129; 129; 130; 130; 233; 233]%N.
Definition wit_good : list N := [193; 194; 195; 242; 129; 129; 130; 130; 233; 233]%N.
Definition wit_dec (a : option key) (bs : list N) : res pyval := unpack_x 11 (length bs) bs.
Definition wit_hdr : list wstep := [SKey (KName 2%N)].

Theorem C10d_lazy_full_refuted : ~ C10d_lazy_full.
Proof.
  intros H.
  specialize (H N pyval dcountp_zoned wit_dec wit_bad wit_env wit_tree wit_hdr (Some (KName 2%N)) 0 3 (VStr [65; 66; 67]%N)).
  assert (Hw : wfo wit_env [] wit_tree = true) by (vm_compute; reflexivity).
  assert (Hnd : NoDup (ids wit_tree)) by (vm_compute; repeat constructor; simpl; intuition discriminate).
  assert (Hplace : forall dcount : list N -> nat, (forall bs n, dcountp_zoned bs = Ok n -> dcount bs = n) ->
            exists v0 v, vnav_of dcount wit_bad (build wit_tree) = Ok v0 /\ vnav_path dcount wit_bad v0 wit_hdr = Ok v
                         /\ vn_loc v = WAtom (Some (KName 2%N)) 0 3).
  { intros dcount _. eexists. eexists. split; [vm_compute; reflexivity|]. split; vm_compute; reflexivity. }
  assert (Hdec : wit_dec (Some (KName 2%N)) (slice wit_bad 0 (0 + 3)) = Ok (VStr [65; 66; 67]%N)) by (vm_compute; reflexivity).
  specialize (H Hw Hnd Hplace Hdec). vm_compute in H. discriminate H.
Qed.
Print Assumptions C10d_lazy_full_refuted.

(* (d) what CAN be promised.  The navigator exists exactly when no counter the walk reaches is rejected, and is
   then the navigator of the existing model ... *)
Theorem C10d_readable_iff : forall (B : Type) (dcountp : list B -> res nat) (r : list B) (s : js) (v : vnav),
  vnav_ofp dcountp r s = Ok v <-> (bad_counter dcountp r s = None /\ vnav_of (dtot dcountp) r s = Ok v).
Proof. exact readable_iff. Qed.
Print Assumptions C10d_readable_iff.

(* ... for the ODO family: fields are readable exactly when ALL counters the walk reaches decode (Holds: C06_layout's
   hypothesis - the record carries a count vector - under the completed decoder; it only serves to know that the
   existing constructor returns) *)
Theorem C10d_readable_iff_odo : forall (B : Type) (dcountp : list B -> res nat) (r : list B) (e : env) (t : item),
  wfo e [] t = true -> NoDup (ids t) -> Holds B (dtot dcountp) r e t 0 ->
  ((exists v0, vnav_ofp dcountp r (build t) = Ok v0)
   <-> (forall bs, In bs (nav_ctrs (dtot dcountp) r (build t)) -> exists n, dcountp bs = Ok n)).
Proof.
  intros B dcountp r e t Hw Hnd Hh. apply readable_iff_counters. exact (C10c.C10c_nav_exists_odo B (dtot dcountp) r e t Hw Hnd Hh).
Qed.
Print Assumptions C10d_readable_iff_odo.

(* ... and when it does not exist, the exception is the decoder's own, that of the first rejected counter: no other
   failure is possible *)
Theorem C10d_unreadable_iff_odo : forall (B : Type) (dcountp : list B -> res nat) (r : list B) (e : env) (t : item) (ex : exn),
  wfo e [] t = true -> NoDup (ids t) -> Holds B (dtot dcountp) r e t 0 ->
  (vnav_ofp dcountp r (build t) = Err ex <-> bad_counter dcountp r (build t) = Some ex).
Proof.
  intros B dcountp r e t ex Hw Hnd Hh. apply unreadable_is_bad_counter. exact (C10c.C10c_nav_exists_odo B (dtot dcountp) r e t Hw Hnd Hh).
Qed.
Print Assumptions C10d_unreadable_iff_odo.

(* a second record that gives the registered counters the same answers has the same navigator: the location tree depends
   on the record through the counters only (C10_tree_counters), with the partial constructor *)
Theorem C10d_tree_counters : forall (B : Type) (dcountp : list B -> res nat) (r r' : list B) (s : js) (v0 : vnav),
  vnav_ofp dcountp r s = Ok v0 ->
  (forall c a cst csz, In c (odo_keys s) -> In (KName c, WAtom a cst csz) (vn_an v0) ->
     dcountp (slice r cst (cst + csz)) = dcountp (slice r' cst (cst + csz))) ->
  vnav_ofp dcountp r' s = Ok v0.
Proof. exact vnav_ofp_counters. Qed.
Print Assumptions C10d_tree_counters.

(* examples (non-vacuity), on the witness *)
Definition wit_read (r : list N) (p : list wstep) : vres (pv pyval) := readp dcountp_zoned r wit_dec (build wit_tree) p.

(* the hypotheses on the tree; the walk consults exactly one counter field, byte 3 *)
Example C10d_example_tree :
  wfo wit_env [] wit_tree = true /\ odo_keys (build wit_tree) = [3%N]
  /\ nav_cpos (dtot dcountp_zoned) wit_bad (build wit_tree) = [(3, 1)]
  /\ nav_ctrs (dtot dcountp_zoned) wit_bad (build wit_tree) = [[74%N]]
  /\ nav_ctrs (dtot dcountp_zoned) wit_good (build wit_tree) = [[242%N]].
Proof. vm_compute. repeat split; reflexivity. Qed.
Example C10d_example_ids : NoDup (ids wit_tree).
Proof. vm_compute. repeat constructor; simpl; intuition discriminate. Qed.

(* C10d_counters_ok_agrees, C10d_readable_iff: the good record (N = 0xF2).  The counter decodes to 2; the partial
   constructor is the total one; every field reads *)
Example C10d_example_good :
  dcountp_zoned [242%N] = Ok 2 /\ bad_counter dcountp_zoned wit_good (build wit_tree) = None
  /\ vnav_ofp dcountp_zoned wit_good (build wit_tree) = vnav_of (dtot dcountp_zoned) wit_good (build wit_tree)
  /\ (exists v, vnav_ofp dcountp_zoned wit_good (build wit_tree) = Ok v)
  /\ wit_read wit_good wit_hdr = Some (Ok (PAtom (VStr [65; 66; 67]%N)))
  /\ wit_read wit_good [SKey (KName 5%N)] = Some (Ok (PAtom (VStr [90; 90]%N)))
  /\ wit_read wit_good [SKey (KName 4%N); SIdx 1] = Some (Ok (PDict [(KName 4%N, PAtom (VStr [98; 98]%N))]))
  /\ wit_read wit_good [SKey (KName 4%N); SIdx 2] = Some (Err IndexError).
Proof. vm_compute. repeat split; try reflexivity. eexists; reflexivity. Qed.

(* C10d_bad_counter_blocks_record, C10d_first_counter_blocks, C10d_unreadable_iff_odo: the bad record (N = 0x4A).  The
   counter raises ValueError; so does unpacker.nav; HDR, N itself, the table and AFTER all fail with that ValueError,
   although HDR's own bytes decode and HDR lies before the table *)
Example C10d_example_bad :
  dcountp_zoned [74%N] = Err ValueError /\ bad_counter dcountp_zoned wit_bad (build wit_tree) = Some ValueError
  /\ vnav_ofp dcountp_zoned wit_bad (build wit_tree) = Err ValueError
  /\ wit_read wit_bad wit_hdr = Some (Err ValueError)
  /\ wit_read wit_bad [SKey (KName 3%N)] = Some (Err ValueError)
  /\ wit_read wit_bad [SKey (KName 4%N)] = Some (Err ValueError)
  /\ wit_read wit_bad [SKey (KName 5%N)] = Some (Err ValueError)
  /\ wit_dec (Some (KName 2%N)) (slice wit_bad 0 3) = Ok (VStr [65; 66; 67]%N)
  (* the existing total model, given the completed decoder, reads HDR - it cannot express the failure *)
  /\ (match vnav_of (dtot dcountp_zoned) wit_bad (build wit_tree) with
      | Ok v0 => match vnav_path (dtot dcountp_zoned) wit_bad v0 wit_hdr with
                 | Ok v => vnav_value wit_bad wit_dec v | Err e => Some (Err e) end
      | Err e => Some (Err e) end) = Some (Ok (PAtom (VStr [65; 66; 67]%N))).
Proof. vm_compute. repeat split; reflexivity. Qed.

(* C10d_readable_iff_odo / C10d_unreadable_iff_odo: both records carry a count vector under the completed decoder
   (HDR and AFTER count as potential counters: Holds asks a count of every non-repeated elementary item) *)
Definition wit_env_good : env := fun c => if N.eqb c 3%N then 2 else if N.eqb c 2%N then 123 else if N.eqb c 5%N then 99 else 0.
Definition wit_env_bad : env := fun c => if N.eqb c 2%N then 123 else if N.eqb c 5%N then 11 else 0.
Example C10d_example_holds :
  Holds N (dtot dcountp_zoned) wit_good wit_env_good wit_tree 0 /\ Holds N (dtot dcountp_zoned) wit_bad wit_env_bad wit_tree 0.
Proof.
  (* not vm_compute on the whole statement: the place of each item is an existential variable there *)
  split; cbn -[dtot dcountp_zoned slice wit_good wit_bad wit_env_good wit_env_bad];
    repeat (first [exact I | split | (eexists; split; [reflexivity|]) | (vm_compute; reflexivity)]).
Qed.

(* C10d_lazy_odo / C10d_tree_counters: a record that differs from wit_good in a field that is NO counter (the first
   occurrence of T) has the same navigator, and every other field reads the same; a packed counter field with a nibble
   above 9 is rejected by the packed decoder as the zoned one is by the zoned decoder *)
Definition wit_other : list N := [193; 194; 195; 242; 64; 64; 130; 130; 233; 233]%N.
Example C10d_example_lazy :
  vnav_ofp dcountp_zoned wit_other (build wit_tree) = vnav_ofp dcountp_zoned wit_good (build wit_tree)
  /\ wit_read wit_other wit_hdr = wit_read wit_good wit_hdr
  /\ wit_read wit_other [SKey (KName 4%N); SIdx 1] = wit_read wit_good [SKey (KName 4%N); SIdx 1]
  /\ dcountp_packed [0; 44]%N = Ok 2 /\ dcountp_packed [10; 44]%N = Err ValueError.
Proof. vm_compute. repeat split; reflexivity. Qed.
