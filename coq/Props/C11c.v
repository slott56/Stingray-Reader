(* C11c - the FIRST half of C11: loading and using a schema never changes it.  After any number of library calls the JSON
   Schema document and the loaded schema equal their initial state.  (Companion of Props/C11.v, which proves the second half -
   results do not depend on what was processed before - and says that the first half cannot be stated over a functional model.)

   Here object identity and mutation are modelled explicitly (Model/Heap.v): a heap of objects with identity whose slots may hold
   references; regions RDoc (the caller's document: the root and all that is reachable from it), RNode (the loaded schema:
   Schema wrappers, which hold the document BY REFERENCE in _attributes, and the containers of their children), RLib (unpackers,
   sheets, SchemaMaker.name_cache / fixup_list, LocationMaker.anchors, Location trees, navigators), RClass (class attributes,
   module variables); and what a library call does as a list of actions Read / Alloc / Write(site) / Release, where every write
   must be a MUTATION SITE of the summary of the function that performs it, aimed at an object that lies where the site's root
   class says (root_ok).  The action lists are universally quantified: EVERY behaviour that respects the summaries is covered,
   for every initial heap, every history (list of calls) of any length.

   WHAT IS PROVED
     C11c_document_unchanged         if no function that runs during the history has an ALIAS-rooted, SCHEMANODE-rooted or deeper
                                     write in its summary, every document object is, after the history, the object it was
     C11c_document_value_unchanged   ... hence the document as a VALUE (the JSON tree rendered from any document object, to any
                                     depth) is what it was
     C11c_loaded_schema_unchanged    ... and every Schema node keeps its class and every slot other than ref_to (the slot the
                                     fix-up pass of SchemaMaker.resolve writes)
     C11c_current_source             the summaries read from the CURRENT source (Gen/EffectParams.v, regenerated on every run by
                                     harness/t1_c11heap.py) have no such write: all three statements hold for every history over them
     C11c_entry_points_summarised    every entry point of the property (from_json / walk_schema / resolve, Schema.json / print /
                                     dump_iter, the unpackers' nav / calcsize / value, LocationMaker.from_instance / from_schema /
                                     walk, NDNav / DNav / WBNav name / index / value / raw / dump, Row.name / values, Sheet.set_schema /
                                     row_iter, the schema loaders, schema_iter) has a summary in the generated table, and it is clean
     C11c_classlevel_sites_are_modelled   the CLASSLEVEL sites of the current source are exactly the process-wide writes that
                                     Model/Globals.v accounts for under the two behaviours read from the source (Gen/GlobalsParams.v):
                                     DDE.filler_count in DDE.__init__, in structure() iff reset_at_start, SchemaMaker.ATOMIC in the
                                     extended maker iff ext_mutates_atomic.  A new class attribute or module variable written by
                                     any scanned function breaks this theorem (and thereby tells that C11's state machine is short
                                     of a component).
     C11c_totals_consistent          the per-module totals of the generated file are those of its table
     C11c_alias_write_refuted, C11c_deep_write_refuted, C11c_schemanode_write_refuted
                                     the hypothesis is needed: ONE write through self._attributes, ONE write one dereference below
                                     an OWN container, ONE attribute hung on a Schema node - each changes a protected object
   A source edit that adds such a write (a cache in self._attributes, schema.attributes[..] = .. in LocationMaker.walk) changes
   Gen/EffectParams.v, Proofs/HeapEffectsP.v stops compiling, and the check searches its histories (documents and loaded schemas
   fingerprinted before and after) for the failing one, as for any broken proof.

   WHAT IS TRUSTED (beyond the kernel) - the tie between the summaries and the Python code:
     * the classification pass harness/t1_c11heap.py (fail closed: shapes it does not understand fall back to the pinned file and
       the run relies on the fingerprints), i.e. that it finds every mutation site of the four scanned modules (schema_instance,
       workbook, implementations, the use-side and all class-level writes of cobol_parser) and that the object a site mutates
       lies in the region its class denotes;
     * CPython semantics of the constructs the pass recognises: a literal, a comprehension, a constructor call of a class without
       __new__, a builtin constructor / copy and the result of an operator are NEW objects; typing.cast is the identity; assignment
       to an attribute never changes a dict or a list; comprehension variables are local; parameter annotations int / str are
       believed for  x += e  on a bare name; a parameter of a PRIVATE helper only receives what the call sites in the scanned
       modules pass;
     * functions outside the scanned modules (standard library, stingray.estruct, the spreadsheet packages, jsonschema) do not
       mutate the arguments the library hands them;
     * the PRODUCER pipeline of cobol_parser (text -> DDE tree -> document under construction) is outside this theorem except for
       its class-level writes: its heap is the subject of C07b_emission_redefines, and documents of earlier parses are
       fingerprinted by the correspondence run;
     * ref_to: the theorem exempts the slot, it does not show that only from_json's own fresh nodes are fixed up (a long-lived
       SchemaMaker whose walk_schema / resolve are called twice directly does re-point earlier forward references; DESIGN.md,
       under C11c, says why no finding is recorded). *)
From Coq Require Import String List Bool Arith ZArith.
Import ListNotations.
Require Import SR.Model.HeapRule SR.Model.Heap SR.Proofs.HeapP SR.Proofs.HeapEffectsP.
Require Import SR.Gen.EffectParams SR.Gen.GlobalsParams.
Open Scope string_scope.
Open Scope list_scope.

(* The frame property: for EVERY table of summaries T, every initial heap, every history h whose calls only run functions with
   clean summaries: a document object is unchanged. *)
Theorem C11c_document_unchanged : forall (T : table) (h : list call) (s0 s1 : st),
  forallb (call_clean T) h = true -> run T s0 h = Some s1 ->
  forall o ob, hget o (hp s0) = Some ob -> o_reg ob = RDoc -> hget o (hp s1) = Some ob.
Proof.
  intros T h s0 s1 Hc Hr o ob Ho Hd. destruct (run_keeps T h s0 s1 Hc Hr) as [_ K].
  destruct (K o ob (hget_lt _ _ _ Ho) Ho) as (ob' & H1 & _ & _ & D & _). rewrite (D Hd) in H1. exact H1.
Qed.
Print Assumptions C11c_document_unchanged.

(* ... the JSON value rendered from a document object is unchanged (DOC closed under reachability). *)
Theorem C11c_document_value_unchanged : forall (T : table) (h : list call) (s0 s1 : st),
  forallb (call_clean T) h = true -> run T s0 h = Some s1 -> doc_closed (hp s0) ->
  forall n o ob, hget o (hp s0) = Some ob -> o_reg ob = RDoc ->
  render n (hp s1) (VRef o) = render n (hp s0) (VRef o).
Proof.
  intros T h s0 s1 Hc Hr Hcl n o ob Ho Hd.
  eapply render_doc_same; eauto. intros; eapply C11c_document_unchanged; eauto.
Qed.
Print Assumptions C11c_document_value_unchanged.

(* ... every object of the loaded schema keeps its region, its kind and every slot other than ref_to. *)
Theorem C11c_loaded_schema_unchanged : forall (T : table) (h : list call) (s0 s1 : st),
  forallb (call_clean T) h = true -> run T s0 h = Some s1 ->
  forall o ob, hget o (hp s0) = Some ob -> o_reg ob = RNode ->
  exists ob', hget o (hp s1) = Some ob' /\ o_reg ob' = RNode /\ o_kind ob' = o_kind ob
              /\ forall k, k <> k_ref_to -> dget k (o_slots ob') = dget k (o_slots ob).
Proof.
  intros T h s0 s1 Hc Hr o ob Ho Hn. destruct (run_keeps T h s0 s1 Hc Hr) as [_ K].
  destruct (K o ob (hget_lt _ _ _ Ho) Ho) as (ob' & H1 & R & Kd & _ & N).
  exists ob'. split; [auto|]. split; [congruence|]. split; [auto|]. apply N; auto.
Qed.
Print Assumptions C11c_loaded_schema_unchanged.

(* The summaries of the current source are clean, so the three statements hold for EVERY history over them. *)
Theorem C11c_current_source : forall (h : list call) (s0 s1 : st), run effects s0 h = Some s1 ->
  (forall o ob, hget o (hp s0) = Some ob -> o_reg ob = RDoc -> hget o (hp s1) = Some ob)
  /\ (forall o ob, hget o (hp s0) = Some ob -> o_reg ob = RNode ->
      exists ob', hget o (hp s1) = Some ob' /\ o_reg ob' = RNode /\ o_kind ob' = o_kind ob
                  /\ forall k, k <> k_ref_to -> dget k (o_slots ob') = dget k (o_slots ob))
  /\ (doc_closed (hp s0) -> forall n o ob, hget o (hp s0) = Some ob -> o_reg ob = RDoc ->
      render n (hp s1) (VRef o) = render n (hp s0) (VRef o)).
Proof.
  intros h s0 s1 Hr. pose proof (all_calls_clean effects h current_table_clean) as Hc. split; [|split].
  - intros; eapply C11c_document_unchanged; eauto.
  - intros; eapply C11c_loaded_schema_unchanged; eauto.
  - intros; eapply C11c_document_value_unchanged; eauto.
Qed.
Print Assumptions C11c_current_source.

Theorem C11c_entry_points_summarised : forall f : fname, In f entry_points ->
  has_summary effects f = true /\ fn_clean effects f = true.
Proof.
  intros f H. split.
  - pose proof entry_points_check as E. rewrite forallb_forall in E. exact (E f H).
  - apply sites_clean_of_table, current_table_clean.
Qed.
Print Assumptions C11c_entry_points_summarised.

(* (function, slot) of every write to process-wide state in the scanned modules = what Model/Globals.v models *)
Theorem C11c_classlevel_sites_are_modelled : forall x : fname * string,
  In x (classlevel_sites effects) <-> In x (globals_classlevel reset_at_start ext_mutates_atomic).
Proof. exact (same_sites_iff _ _ classlevel_check). Qed.
Print Assumptions C11c_classlevel_sites_are_modelled.

Theorem C11c_totals_consistent : forall (m : string) (t : totals), In (m, t) module_totals -> totals_of effects m = t.
Proof.
  intros m t H. pose proof totals_check as E. rewrite forallb_forall in E.
  apply totals_eqb_eq. exact (E (m, t) H).
Qed.
Print Assumptions C11c_totals_consistent.

(* The hypothesis is needed.  ex_s0 (Model/Heap.v): objects 0-3 a document, 6-9 the schema loaded from it.
   Schema.json with  self._attributes.setdefault(_size, ..) : the ALIAS write lands in document object 2 *)
Theorem C11c_alias_write_refuted :
  exists s1, run bad_alias_table ex_s0 bad_alias_history = Some s1
             /\ hget 2 (hp ex_s0) = Some (Obj RDoc KDict [("title", VStr "A"); ("$anchor", VStr "A"); ("type", VStr "string")])
             /\ hget 2 (hp s1) = Some (Obj RDoc KDict [("title", VStr "A"); ("$anchor", VStr "A"); ("type", VStr "string"); ("_size", VInt 3)]).
Proof. eexists. vm_compute. repeat split; reflexivity. Qed.
Print Assumptions C11c_alias_write_refuted.

(* a write ONE dereference below a container the library owns: the fresh dict {A: -> 2} holds a reference to the document *)
Theorem C11c_deep_write_refuted :
  exists s1, run bad_deep_table ex_s0 bad_deep_history = Some s1 /\ hget 2 (hp s1) <> hget 2 (hp ex_s0).
Proof. eexists. vm_compute. split; [reflexivity | discriminate]. Qed.
Print Assumptions C11c_deep_write_refuted.

(* an attribute hung on a loaded Schema node *)
Theorem C11c_schemanode_write_refuted :
  exists s1 ob', run bad_node_table ex_s0 bad_node_history = Some s1 /\ hget 6 (hp s1) = Some ob'
                 /\ dget "_size" (o_slots ob') = Some (VInt 3)
                 /\ (exists ob, hget 6 (hp ex_s0) = Some ob /\ o_reg ob = RNode /\ dget "_size" (o_slots ob) = None).
Proof. eexists. eexists. vm_compute. repeat split; try reflexivity. eexists. repeat split; reflexivity. Qed.
Print Assumptions C11c_schemanode_write_refuted.

(* Non-vacuity.  A history that loads the document again (a maker, two Schema nodes, a forward reference fixed up),
   builds a navigator and opens a file on the long-lived unpacker: it RUNS under a table of the generated shape (18 objects
   afterwards), every call is clean, the library's own objects did change (anchors, name_cache, the unpacker, the fresh
   RefToSchema's ref_to), the document is closed, and all ten objects of the document and of the schema loaded before are
   what they were. *)
Example C11c_example :
  forallb (call_clean ex_table) ex_history = true
  /\ doc_closedb ex_heap = true
  /\ exists s1, run ex_table ex_s0 ex_history = Some s1
     /\ length (hp s1) = 18
     /\ firstn 5 (hp s1) = firstn 5 ex_heap
     /\ firstn 4 (skipn 6 (hp s1)) = firstn 4 (skipn 6 ex_heap)
     /\ hget 5 (hp s1) = Some (Obj RLib (KInst "EBCDIC") [("the_file", VInt 3)])
     /\ hget 14 (hp s1) = Some (Obj RNode (KInst "RefToSchema") [("_attributes", VRef 3); ("ref_to", VRef 13)])
     /\ hget 16 (hp s1) = Some (Obj RLib KDict [("A", VRef 17)])
     /\ render 5 (hp s1) (VRef 0) = render 5 ex_heap (VRef 0)
     /\ render 5 ex_heap (VRef 0)
        = JObj KDict [("type", JStr "object");
                      ("properties", JObj KDict [("A", JObj KDict [("title", JStr "A"); ("$anchor", JStr "A"); ("type", JStr "string")]);
                                                 ("R", JObj KDict [("title", JStr "R"); ("$ref", JStr "#A")])])].
Proof.
  split; [vm_compute; reflexivity|]. split; [vm_compute; reflexivity|].
  (* the end state gets a name, so that its 18 objects stand once in the proof and not in every clause *)
  pose (s1 := match run ex_table ex_s0 ex_history with Some s => s | None => ex_s0 end).
  vm_compute in s1. exists s1. vm_compute. repeat split.
Qed.

(* the premise of C11c_document_value_unchanged is satisfiable: the example document is closed *)
Example C11c_example_closed : doc_closed (hp ex_s0).
Proof. apply doc_closedb_sound. vm_compute. reflexivity. Qed.

(* the GENERATED table is exercised too: its first OWN site performs a write on the long-lived unpacker and the run goes through
   (so C11c_current_source is not about a table under which nothing can happen) *)
Example C11c_current_source_runs :
  match pick OWN effects with
  | Some (f, s) =>
      exists s1, run effects ex_s0 [Call f [AWrite f s 5 [] "slot" (Some (VInt 1))]] = Some s1
                 /\ hget 5 (hp s1) = Some (Obj RLib (KInst "EBCDIC") [("slot", VInt 1)])
  | None => False
  end.
Proof. vm_compute. eexists. split; reflexivity. Qed.

(* ... and the same write aimed at a document object is refused by the model: OWN means library-owned *)
Example C11c_current_source_own_cannot_reach_document :
  match pick OWN effects with
  | Some (f, s) => run effects ex_s0 [Call f [AWrite f s 2 [] "slot" (Some (VInt 1))]] = None
  | None => False
  end.
Proof. vm_compute. reflexivity. Qed.

(* the class-level sites of the current source, spelled out *)
Example C11c_classlevel_now :
  reset_at_start = true -> ext_mutates_atomic = false ->
  forall x, In x (classlevel_sites effects)
            <-> x = ("cobol_parser.DDE.__init__", "DDE.filler_count=") \/ x = ("cobol_parser.structure", "DDE.filler_count=").
Proof.
  intros Hr He x. rewrite C11c_classlevel_sites_are_modelled. rewrite Hr, He. cbn. intuition.
Qed.
