(* C07 - Copybook to schema: every entry appears once, in place, and none is lost.
   The property theorems; the long proofs are in Proofs/StructureP.v, Proofs/StructureFullP.v (when
   structure raises), Proofs/SentenceValueP.v (text layer, finding 5) and Proofs/OneDigitLevelP.v
   (text layer, finding 6).

   [structure l] is the model of cobol_parser.structure run on the sentences l after clause_dict
   (Model/Structure.v: DDE naming with the FILLER counter, the stack walk with two-character string
   comparison of levels, the 66/77/88 skip, the unfiltered first node, the REDEFINES marking).
   [mk_ddes 0 l] are the DDE objects (entry + unique_name) in source order, [kept_of l] the first
   of them followed by the later ones whose level is not 66/77/88.
   [preorder_f f] lists the nodes of forest f in preorder, [parents f] gives for each of them the
   preorder index of its parent, [root_pos 0 f] the preorder indices of the tree roots.
   [spec_parents], [spec_roots], [kept_level], [lvl_num] come from Spec/Dde.v and know nothing of
   the implementation.  No well-nesting of the level sequence is assumed anywhere. *)
From Coq Require Import NArith List.
Import ListNotations.
Require Import SR.Base.Res SR.Spec.Dde SR.Model.Structure SR.Proofs.StructureP SR.Proofs.StructureFullP.
Require SR.Model.RefFormat SR.Proofs.SentenceValueP SR.Proofs.OneDigitLevelP SR.Proofs.RedefinesCaseP.

(* Every kept entry exactly once and in source order; the parent of each is the nearest preceding
   kept entry with a strictly smaller level number; the trees start exactly at the entries that
   have no such predecessor.  For every entry list with ASCII two-digit levels on which
   structure() returns. *)
Theorem C07_structure : forall (l : list entry) (f : list tree),
  Forall (fun e => two_digits (elv e) = true) l ->
  structure l = Ok f ->
  preorder_f f = kept_of l
  /\ parents f = spec_parents (levels_of (kept_of l))
  /\ root_pos 0 f = spec_roots (levels_of (kept_of l)).
Proof. exact structure_full. Qed.
Print Assumptions C07_structure.

(* When the first entry is not a 66/77/88 level the first node is nothing special:
   the forest holds exactly the entries of level other than 66/77/88, in source order. *)
Theorem C07_structure_entries : forall (l : list entry) (f : list tree),
  Forall (fun e => two_digits (elv e) = true) l ->
  match l with [] => True | e :: _ => kept_level (lvl_num (elv e)) = true end ->
  structure l = Ok f ->
  preorder_f f = filter keep (mk_ddes 0 l)
  /\ map de (preorder_f f) = filter (fun e => kept_level (lvl_num (elv e))) l.
Proof.
  intros l f Hd H1 H. destruct (structure_full l f Hd H) as [-> _].
  destruct l as [|e r]; [discriminate|]. apply Forall_cons_iff in Hd. destruct Hd as [He Hr]. split.
  - unfold kept_of. destruct (mk_ddes_cons e 0%N) as (d & c1 & <- & M). rewrite M.
    cbn [filter]. rewrite keep_num by exact He. unfold dlv. rewrite H1. reflexivity.
  - rewrite kept_of_entries by exact Hr. cbn [filter]. rewrite H1. reflexivity.
Qed.
Print Assumptions C07_structure_entries.

(* Every level-01 entry starts a tree, provided no entry has level 00. *)
Theorem C07_level01_root : forall (K : list N) (k : nat),
  Forall (fun y => (1 <= y)%N) K -> nth_error K k = Some 1%N -> spec_parent K k = None.
Proof. exact (least_level_root 1%N). Qed.
Print Assumptions C07_level01_root.

(* structure() returns whenever no entry carries a REDEFINES clause (so the hypothesis of
   C07_structure is met by every such copybook). *)
Theorem C07_structure_total_without_redefines : forall l : list entry,
  l <> [] -> Forall (fun e => eredef e = None) l -> exists f, structure l = Ok f.
Proof. exact structure_no_redefines. Qed.
Print Assumptions C07_structure_total_without_redefines.

(* FILLER numbering.  Within one record (no level-01 entry after the first; c = any counter value
   left by what came before): if the user-given names are pairwise distinct and none has the form
   FILLER-n, all unique names are pairwise distinct. *)
Theorem C07_names_distinct : forall (c : N) (l : list entry),
  Forall no01 (tl l) -> NoDup (users l) -> Forall not_generated (users l) ->
  NoDup (map du (mk_ddes c l)).
Proof. exact names_distinct. Qed.
Print Assumptions C07_names_distinct.

(* A level-01 entry restarts the numbering: the names of a record do not depend on what precedes it. *)
Theorem C07_record_restart : forall (l1 : list entry) (c : N) (e : entry) (l2 : list entry),
  lvl_eqb (elv e) L01 = true ->
  mk_ddes c (l1 ++ e :: l2) = mk_ddes c l1 ++ mk_ddes 0 (e :: l2).
Proof.
  induction l1 as [|x l1 IH]; intros c e l2 He.
  - apply mk_ddes_01. exact He.
  - cbn [app mk_ddes]. destruct (is_filler x); cbn [app]; rewrite IH by exact He; reflexivity.
Qed.
Print Assumptions C07_record_restart.

(* A named entry is titled with its data name; the generated numerals are injective. *)
Theorem C07_named_keep_name : forall (l : list entry) (c : N) (d : dde),
  In d (mk_ddes c l) -> is_filler (de d) = false -> du d = dde_name (de d).
Proof.
  induction l as [|e r IH]; intros c d Hin Hf; [destruct Hin|].
  cbn [mk_ddes] in Hin. destruct (is_filler e) eqn:E; destruct Hin as [<- | Hin];
    try (eapply IH; eassumption).
  - cbn [de] in Hf. congruence.
  - reflexivity.
Qed.
Print Assumptions C07_named_keep_name.

Theorem C07_generated_names_injective : forall n m : N, gen_name n = gen_name m -> n = m.
Proof. exact gen_name_inj. Qed.
Print Assumptions C07_generated_names_injective.

(* REDEFINES errors, full strength, over the specification's notion of earlier siblings
   (Spec/Dde.v redefines_ok: entries before it whose nearest preceding entry with a strictly smaller
   level number is the same one; the first kept entry and every entry that starts a tree are exempt):
   on a non-empty list with ASCII two-digit levels structure() returns exactly when every REDEFINES
   clause of a non-root kept entry names exactly one earlier sibling, and raises ValueError otherwise.
   E is the copybook as the specification sees it: (level number, data name, REDEFINES target) of the
   kept entries.  Proved in Proofs/StructureFullP.v. *)
Theorem C07_redefines_error_full :
  forall l : list entry, l <> [] ->
  Forall (fun e => two_digits (elv e) = true) l ->
  let E := map (fun d => (lvl_num (dlv d), dde_name (de d), eredef (de d))) (kept_of l) in
  (redefines_ok E = true -> exists f, structure l = Ok f)
  /\ (redefines_ok E = false -> structure l = Err ValueError).
Proof. exact redefines_error_full. Qed.
Print Assumptions C07_redefines_error_full.

(* Two partial statements: the only exception of structure() on a non-empty list is ValueError ... *)
Theorem C07_redefines_error_partial : forall (l : list entry) (e : exn),
  structure l = Err e -> (l = [] /\ e = StopIter) \/ (l <> [] /\ e = ValueError).
Proof.
  intros [|x r] e H; unfold structure in H.
  - left. injection H as <-. split; reflexivity.
  - right. split; [discriminate|]. destruct (mk_ddes_cons x 0%N) as (d & c1 & _ & M). rewrite M in H.
    cbn [structure_ddes] in H. destruct (run _ _) as [s|e1] eqn:Er; [discriminate|].
    injection H as <-. exact (run_err _ _ _ Er).
Qed.
Print Assumptions C07_redefines_error_partial.

(* ... and a step raises it exactly when a kept entry that lands below an open node b carries a
   redefines clause whose target is the name of zero or of several children of b so far
   (stated on the model's state, not on the specification's siblings). *)
Theorem C07_redefines_step_partial : forall (s : state) (d : dde) (e : exn),
  step s d = Err e <->
  e = ValueError /\ keep d = true /\
  exists b r' tgt, pop (dlv d) (cur s) (rest s) = inl (b, r') /\ eredef (de d) = Some tgt
                   /\ length (filter (name_is tgt) (fkids b)) <> 1.
Proof. exact step_err. Qed.
Print Assumptions C07_redefines_step_partial.

(* ------------------------------------------------------------------ witnesses *)
Definition mk (a b : N) (name : option str) (red : option str) (pic occ : bool) : entry :=
  {| elv := (a, b); ename := name; efill := None; eredef := red; epic := pic; eocc := occ; etext := [] |}.
Definition nA : str := [65%N].
Definition nB : str := [66%N].
Definition nR : str := [82%N].
Definition nT : str := [84%N].

(* Known finding 2 (refutes the clause of the property that a well-formed copybook never ends in an
   internal error): 01 R. 05 T OCCURS 2. 10 A PIC X. 10 B REDEFINES A PIC 9. builds a forest but
   the schema maker raises KeyError. *)
Definition witness2 : list entry :=
  [mk 48 49 (Some nR) None false false; mk 48 53 (Some nT) None false true;
   mk 49 48 (Some nA) None true false; mk 49 48 (Some nB) (Some nA) true false]%N.

Theorem C07_refuted_2 : (exists f, structure witness2 = Ok f) /\ schemas witness2 = Err KeyError.
Proof. split; [eexists|]; vm_compute; reflexivity. Qed.
Print Assumptions C07_refuted_2.

(* Known finding 5 (refutes "carrying its clause text"), on the text-layer model
   (Model/RefFormat.v: reference_format, dde_sentences, compact_source).  The copybook
          01 R.
            05 FLD-A PIC X(5) VALUE 'A. B'.
            05 FLD-B PIC X.
   comes back as three entries, the second with the text  FLD-A PIC X(5) VALUE 'A  : the sentence
   pattern ends the entry at the period inside the literal; no entry carries the text as written. *)
Theorem C07_refuted_5 :
  SentenceValueP.entry_texts SentenceValueP.witness5
  = Ok [([48; 49], [82]); ([48; 53], SentenceValueP.w5_got); ([48; 53], [70; 76; 68; 45; 66; 32; 80; 73; 67; 32; 88])]%N
  /\ SentenceValueP.w5_got <> SentenceValueP.w5_written
  /\ (forall got, SentenceValueP.entry_texts SentenceValueP.witness5 = Ok got ->
                  ~ In SentenceValueP.w5_written (map snd got)).
Proof. exact SentenceValueP.refuted_5. Qed.
Print Assumptions C07_refuted_5.

(* ... and in general: an entry  d1 d2 blank a . w b  whose text a holds no period-white-space pair
   (has_term a = false) comes back as (d1 d2, a) whatever follows the period and the white-space
   character w - in particular when a . w b is one VALUE literal. *)
Theorem C07_sentence_cut_at_period_ws :
  forall (d1 d2 c : N) (a : SR.Model.RefFormat.line) (w : N) (b : SR.Model.RefFormat.line),
  SR.Model.RefFormat.is_digit d1 = true -> SR.Model.RefFormat.is_digit d2 = true ->
  SR.Model.RefFormat.is_ws c = false ->
  SR.Spec.RefFormat.has_term (c :: a) = false -> SR.Model.RefFormat.is_ws w = true ->
  exists more,
    SR.Model.RefFormat.dde_sentences [[d1; d2; 32%N] ++ (c :: a) ++ 46%N :: w :: b] = ([d1; d2], c :: a) :: more.
Proof. exact SentenceValueP.sentence_cut. Qed.
Print Assumptions C07_sentence_cut_at_period_ws.

(* Known finding 6 (refutes "none is lost"), on the text-layer model.  The copybook
          1 R.
             5 A PIC X.
             10 B PIC X.
   (level numbers 01 and 05 written with one digit, as COBOL allows) comes back as the single entry
   10 B PIC X; with 01 and 05 written out all three come back; the first two lines alone yield nothing. *)
Theorem C07_refuted_6 :
  SentenceValueP.entry_texts OneDigitLevelP.witness6 = Ok [([49; 48], [66; 32; 80; 73; 67; 32; 88])]%N
  /\ SentenceValueP.entry_texts [OneDigitLevelP.w6_line1'; OneDigitLevelP.w6_line2'; OneDigitLevelP.w6_line3]
     = Ok [([48; 49], [82]); ([48; 53], [65; 32; 80; 73; 67; 32; 88]); ([49; 48], [66; 32; 80; 73; 67; 32; 88])]%N
  /\ SR.Model.RefFormat.dde_sentences [skipn 7 OneDigitLevelP.w6_line1; skipn 7 OneDigitLevelP.w6_line2] = [].
Proof. exact OneDigitLevelP.refuted_6. Qed.
Print Assumptions C07_refuted_6.

(* ... and in general: a text in which no two adjacent characters are digits yields no entry at all,
   whatever one-digit level numbers it holds. *)
Theorem C07_no_digit_pair_no_sentence : forall lines : list SR.Model.RefFormat.line,
  OneDigitLevelP.digit_pair (concat lines) = false -> SR.Model.RefFormat.dde_sentences lines = [].
Proof. exact OneDigitLevelP.no_pair_no_sentence. Qed.
Print Assumptions C07_no_digit_pair_no_sentence.

(* Known finding 7 (refutes the clause that a well-formed copybook never ends in an internal error):
   01 R. 05 fld-a PIC X. 05 B REDEFINES FLD-A PIC X.  COBOL words are not case-sensitive: with names
   and targets in upper case the REDEFINES clause names exactly one earlier sibling (up_spec); structure
   compares the spelling and raises ValueError; with the clause spelled like the declaration it returns. *)
Theorem C07_refuted_7 :
  Forall (fun e => two_digits (elv e) = true) RedefinesCaseP.witness7
  /\ redefines_ok (RedefinesCaseP.up_spec RedefinesCaseP.witness7) = true
  /\ structure RedefinesCaseP.witness7 = Err ValueError
  /\ (exists f, structure RedefinesCaseP.witness7_same_case = Ok f).
Proof.
  split; [repeat constructor|]. split; [vm_compute; reflexivity|]. split; [vm_compute; reflexivity|].
  eexists. vm_compute. reflexivity.
Qed.
Print Assumptions C07_refuted_7.

(* Non-vacuity: 01 R. 05 A PIC. 05 (unnamed) PIC. 10 (unnamed) PIC. 88 B. 03 B REDEFINES A PIC. 01 (unnamed) PIC.
   structure returns; preorder, parents and roots as the specification says; FILLER-1, FILLER-2, then
   FILLER-1 again in the second record. *)
Definition sample : list entry :=
  [mk 48 49 (Some nR) None false false; mk 48 53 (Some nA) None true false; mk 48 53 None None true false;
   mk 49 48 None None true false; mk 56 56 (Some nB) None false false; mk 48 51 (Some nB) (Some nA) true false;
   mk 48 49 None None true false]%N.

Example C07_example :
  Forall (fun e => two_digits (elv e) = true) sample
  /\ (exists f, structure sample = Ok f
                /\ parents f = [None; Some 0; Some 0; Some 2; Some 0; None]
                /\ root_pos 0 f = [0; 5]
                /\ map du (preorder_f f) = [nR; nA; gen_name 1; gen_name 2; nB; gen_name 1])
  /\ spec_parents (levels_of (kept_of sample)) = [None; Some 0; Some 0; Some 2; Some 0; None].
Proof.
  split; [repeat constructor|]. split; [eexists; split; [vm_compute; reflexivity|]|]; vm_compute; repeat split.
Qed.

Example C07_names_example :
  let l := [mk 48 49 (Some nR) None false false; mk 48 53 None None true false; mk 48 53 (Some nA) None true false;
            mk 48 53 None None true false]%N in
  Forall no01 (tl l) /\ NoDup (users l) /\ Forall not_generated (users l).
Proof.
  cbn zeta. split; [repeat constructor|]. split.
  - vm_compute. constructor; [intros [H|[]]; discriminate H|]. constructor; [intros []|constructor].
  - repeat constructor; intros n H; rewrite gen_name_eq in H; discriminate H.
Qed.

(* non-vacuity of C07_redefines_error_full: the hypotheses hold on the sample (a REDEFINES that names
   one earlier sibling across an 88 level and a deeper group: redefines_ok = true) and on the two failing
   lists below (redefines_ok = false: no sibling, two siblings of that name) *)
Definition Espec (l : list entry) := map (fun d => (lvl_num (dlv d), dde_name (de d), eredef (de d))) (kept_of l).
Example C07_redefines_full_example :
  let none := [mk 48 49 (Some nR) None false false; mk 48 53 (Some nB) (Some nA) true false]%N in
  let two := [mk 48 49 (Some nR) None false false; mk 48 53 (Some nA) None true false;
              mk 48 53 (Some nA) None true false; mk 48 53 (Some nB) (Some nA) true false]%N in
  (* a cousin of that name is not a sibling: 01 R. 05 T. 10 A PIC. 05 U. 10 B REDEFINES A PIC. *)
  let cousin := [mk 48 49 (Some nR) None false false; mk 48 53 (Some nT) None false false;
                 mk 49 48 (Some nA) None true false; mk 48 53 (Some [85%N]) None false false;
                 mk 49 48 (Some nB) (Some nA) true false]%N in
  (sample <> [] /\ Forall (fun e => two_digits (elv e) = true) sample /\ redefines_ok (Espec sample) = true)
  /\ (Forall (fun e => two_digits (elv e) = true) none /\ redefines_ok (Espec none) = false)
  /\ (Forall (fun e => two_digits (elv e) = true) two /\ redefines_ok (Espec two) = false)
  /\ (Forall (fun e => two_digits (elv e) = true) cousin /\ redefines_ok (Espec cousin) = false
      /\ structure cousin = Err ValueError).
Proof.
  cbn zeta. repeat split; try discriminate; try (repeat constructor); vm_compute; reflexivity.
Qed.

(* zero matches and two matches *)
Example C07_redefines_example :
  structure [mk 48 49 (Some nR) None false false; mk 48 53 (Some nB) (Some nA) true false]%N = Err ValueError
  /\ structure [mk 48 49 (Some nR) None false false; mk 48 53 (Some nA) None true false;
                mk 48 53 (Some nA) None true false; mk 48 53 (Some nB) (Some nA) true false]%N = Err ValueError.
Proof. split; vm_compute; reflexivity. Qed.
