(* C12e - companion of C12 / C07: THE TEXT LAYER'S THEOREMS COMPOSED WITH THE WHOLE-PARSER MODEL.
   The property theorems; the lemmas they rest on are in Proofs/TextNoiseP.v and Proofs/TextLayoutP.v; vocabulary in Spec/TextNoiseWf.v.  No engine of
   its own: the models are Model/RefFormat.v (compared with reference_format / dde_sentences by ./check C12) and Model/Pipeline.v,
   Model/TextLayout.v (compared with schema_iter on raw text by ./check C07; LocationMaker / NDNav by ./check C01, C10).

   What it connects.  Props/C12.v (layer A) proves for reference_format ALONE that sequence numbers (columns 1-6), identification
   text (columns 73-80), inserted comment / blank / bare EJECT-SKIP lines and continuation change nothing.  Props/C07b.v / C07c.v /
   C12d.v prove schemas, layout and values for the texts of print_copybook under copybook_ok - a domain without comment, blank or
   directive lines, with nothing in columns 73-80 and code lines of at most 64 characters.  This file states that a copybook as it is
   found in a library - numbered, commented, with EJECT lines and a deck name in columns 73-80 - gets the same schemas and layout.

   What is proved.
     C12e_factorisation_*     Model/Pipeline.v and Model/TextLayout.v depend on the text ONLY through the value
                              reference_format (lines_of_text text) []: sentences, schemas, entries, forest, layouts, located,
                              value_in_text are functions of that value (schemas_of_rf, layouts_of_rf); two texts with the same
                              value agree on all of them.  Even less matters: when nothing is a COPY statement, only the code
                              areas one after the other (C12e_code_areas_only) - not how they are cut into lines or joined into
                              continuation groups (a minus in column 7 or not).
     C12e_noise_schemas, C12e_noise_all, C12e_seq_area_schemas, C12e_comments_schemas, C12e_noise_lines
                              for EVERY source text src (inside or outside any printer domain; any outcome, exceptions included)
                              and every src' obtained from it by the changes of C12_seq_area_partial / C12_comments_partial, with
                              their side conditions, any number of times, lines added or taken away (decorated): the same schemas,
                              entries, layouts, the same (start, end) for every path, the same decoded values.
     C12e_printed_reads_as, C12e_decorated_reads_as, C12e_deck_reads_as
                              reads_as text es: the sentences of the text are those of the entries es.  It holds for every printed
                              copybook (C07b_sentences), is preserved by decoration, and holds for every CARD DECK whose code
                              areas spell the entries: columns 1-6 anything, blank indicator, a code area of UP TO 65 characters
                              (the full columns 8-72), anything in columns 73 onwards behind a full code area.
     C12e_reading_*           the theorems C07b_entries, C07b_layer_b, C07b_end_to_end, C07c_text_documents_are_built_trees,
                              C07c_text_to_layout, C07c_text_to_layout_odo, C07c_text_to_values, C12d_respelling_layout /
                              _located / _values with  print_copybook es tail seqs + copybook_ok  replaced by ANY text that reads as
                              the entries: nothing more of the text enters their proofs.
     C12e_decorated_copybook_to_layout, C12e_decorated_copybook_respelling, C12e_decorated_copybook_values
                              the conclusions of C07c_text_to_layout, C12d_respelling_layout / _located, C12d_respelling_values for
                              DECORATED printed copybooks.
     C12e_deck_same_core      a card deck (decorated or not) and the printed copybook of the same entries up to layout: the same
                              outcome, whatever it is.
     C12e_noise_replacing, C12e_replacing_schemas
                              REPLACING.  schema_iter calls reference_format(source) WITHOUT a REPLACING list (it even ignores its
                              deformat argument), and so does Model/Pipeline.v sentences_of_text: C12_replacing cannot be composed
                              with the pipeline model as it is.  For a caller that chains the functions by hand -
                              structure(dde_sentences(reference_format(source, replacing))) = schemas_of_rf of that call - noise
                              changes nothing with any REPLACING list, and with a list without an empty search string the result
                              is that of the substituted code areas (C12_replacing).
   What stays outside: the two known findings of layer A - a NUMBERED or identified EJECT / SKIPn line and a comment line with
   indicator slash are code for the parser (C12_comments_refuted_1 / _2) - are not [plain_noise] and therefore not covered here
   either; the examples below use a bare EJECT line. *)
From Coq Require Import String Ascii.
From Coq Require Import NArith ZArith List Bool Permutation.
Import ListNotations.
Require Import SR.Base.Res SR.Model.RefFormat SR.Spec.RefFormat SR.Spec.Clauses.
Require SR.Model.Structure SR.Proofs.LayoutP SR.Proofs.LayoutOdoP.
Require Import SR.Model.Pipeline SR.Spec.Copybook SR.Proofs.PipelineP.
Require Import SR.Spec.Layout SR.Model.Layout.
Require Import SR.Spec.Encode SR.Spec.Record SR.Model.Estruct SR.Model.LayoutValue SR.Model.RecordValue.
Require Import SR.Model.TextLayout SR.Proofs.TextLayoutP SR.Proofs.TextNoiseP.
Require SR.Props.C07b SR.Props.C07c SR.Props.C12d.

Local Notation text := SR.Model.Pipeline.str.

(* ------------------------------------------------------------------ 1. factorisation *)
Theorem C12e_factorisation_schemas : forall t : text,
  schemas_of_text t = schemas_of_rf (reference_format (lines_of_text t) []).
Proof. reflexivity. Qed.
Print Assumptions C12e_factorisation_schemas.

Theorem C12e_factorisation_layouts : forall t : text,
  layouts_of_text t = layouts_of_rf (reference_format (lines_of_text t) []).
Proof. reflexivity. Qed.
Print Assumptions C12e_factorisation_layouts.

Theorem C12e_factorisation : forall a b : text,
  reference_format (lines_of_text a) [] = reference_format (lines_of_text b) [] ->
  sentences_of_text a = sentences_of_text b
  /\ schemas_of_text a = schemas_of_text b
  /\ entries_of_text a = entries_of_text b
  /\ forest_of_text a = forest_of_text b
  /\ layouts_of_text a = layouts_of_text b
  /\ (forall (B : Type) (k : nat) (dcount : list B -> nat) (r : list B) (p : list step),
        located a k dcount r p = located b k dcount r p)
  /\ (forall (xf : list xtree) (k : nat) (dcount : list N -> nat) (r : list N) (p : list step),
        value_in_text a xf k dcount r p = value_in_text b xf k dcount r p).
Proof. exact factorisation. Qed.
Print Assumptions C12e_factorisation.

(* when both texts are accepted (no COPY statement, some code line): only the code areas, one after the other, matter *)
Theorem C12e_code_areas_only : forall (a b : text) ga gb,
  reference_format (lines_of_text a) [] = Ok ga -> reference_format (lines_of_text b) [] = Ok gb ->
  code_of (lines_of_text a) = code_of (lines_of_text b) ->
  sentences_of_text a = sentences_of_text b /\ schemas_of_text a = schemas_of_text b /\ layouts_of_text a = layouts_of_text b.
Proof.
  intros a b ga gb Ha Hb C.
  assert (S : sentences_of_text a = sentences_of_text b).
  { unfold sentences_of_text. rewrite Ha, Hb. unfold dde_sentences. rewrite (rf_ok_code _ _ Ha), (rf_ok_code _ _ Hb), C. reflexivity. }
  pose proof (same_sentences_schemas a b S) as SC. split; [exact S|]. split; [exact SC|exact (same_schemas_layouts a b SC)].
Qed.
Print Assumptions C12e_code_areas_only.

(* ------------------------------------------------------------------ 2. card-image noise: every text, every outcome *)
Theorem C12e_noise_all : forall src src' : text, text_decorated src src' ->
  sentences_of_text src' = sentences_of_text src
  /\ schemas_of_text src' = schemas_of_text src
  /\ entries_of_text src' = entries_of_text src
  /\ forest_of_text src' = forest_of_text src
  /\ layouts_of_text src' = layouts_of_text src
  /\ (forall (B : Type) (k : nat) (dcount : list B -> nat) (r : list B) (p : list step),
        located src' k dcount r p = located src k dcount r p)
  /\ (forall (xf : list xtree) (k : nat) (dcount : list N -> nat) (r : list N) (p : list step),
        value_in_text src' xf k dcount r p = value_in_text src xf k dcount r p).
Proof. intros src src' D. apply factorisation. symmetry. apply decorated_rf. exact D. Qed.
Print Assumptions C12e_noise_all.

Theorem C12e_noise_schemas : forall src src' : text, text_decorated src src' -> schemas_of_text src' = schemas_of_text src.
Proof. intros src src' D. exact (proj1 (proj2 (C12e_noise_all src src' D))). Qed.
Print Assumptions C12e_noise_schemas.

(* the two single steps, stated with the relations of C12_seq_area_partial and C12_comments_partial *)
Theorem C12e_seq_area_schemas : forall src src' : text, Forall2 seq_variant (lines_of_text src) (lines_of_text src') ->
  schemas_of_text src' = schemas_of_text src /\ layouts_of_text src' = layouts_of_text src.
Proof.
  intros src src' H.
  assert (D : text_decorated src src') by (apply (dec_areas _ _ _ H); apply dec_same).
  destruct (C12e_noise_all src src' D) as (_ & S & _ & _ & L & _). split; assumption.
Qed.
Print Assumptions C12e_seq_area_schemas.

Theorem C12e_comments_schemas : forall src src' : text, inserted plain_noise (lines_of_text src) (lines_of_text src') ->
  schemas_of_text src' = schemas_of_text src /\ layouts_of_text src' = layouts_of_text src.
Proof.
  intros src src' H.
  assert (D : text_decorated src src') by (apply (dec_add _ _ _ H); apply dec_same).
  destruct (C12e_noise_all src src' D) as (_ & S & _ & _ & L & _). split; assumption.
Qed.
Print Assumptions C12e_comments_schemas.

(* a list of text lines is the list of lines of its concatenation, so a decorated text can be written line by line *)
Theorem C12e_lines_of_concat : forall ls, text_lines ls = true -> lines_of_text (concat ls) = ls.
Proof. exact lines_of_concat. Qed.
Print Assumptions C12e_lines_of_concat.

Theorem C12e_noise_lines : forall (src : text) ls', text_lines ls' = true -> decorated (lines_of_text src) ls' ->
  schemas_of_text (concat ls') = schemas_of_text src /\ layouts_of_text (concat ls') = layouts_of_text src.
Proof.
  intros src ls' T D.
  assert (D' : text_decorated src (concat ls')) by (unfold text_decorated; rewrite (lines_of_concat ls' T); exact D).
  destruct (C12e_noise_all src _ D') as (_ & S & _ & _ & L & _). split; assumption.
Qed.
Print Assumptions C12e_noise_lines.

(* one line of noise - a blank line (C12_noise_blank), a comment line (C12_noise_comment: indicator star or D), a bare listing
   directive (C12_noise_directive) - put anywhere into a text, also between a line and the line that continues its entry *)
Theorem C12e_insert_noise_line : forall a b l, text_lines (a ++ b) = true -> text_lines (a ++ l :: b) = true -> plain_noise l = true ->
  schemas_of_text (concat (a ++ l :: b)) = schemas_of_text (concat (a ++ b))
  /\ layouts_of_text (concat (a ++ l :: b)) = layouts_of_text (concat (a ++ b)).
Proof.
  intros a b l T T' H. apply C12e_comments_schemas. rewrite (lines_of_concat _ T), (lines_of_concat _ T'). apply inserted_mid. exact H.
Qed.
Print Assumptions C12e_insert_noise_line.

(* decoration is an equivalence (reflexive by dec_same) *)
Theorem C12e_decorated_sym : forall a b, decorated a b -> decorated b a.
Proof. exact decorated_sym. Qed.
Print Assumptions C12e_decorated_sym.

Theorem C12e_decorated_trans : forall a b c, decorated a b -> decorated b c -> decorated a c.
Proof. exact decorated_trans. Qed.
Print Assumptions C12e_decorated_trans.

(* ------------------------------------------------------------------ 3. texts that read as a list of entries *)
Theorem C12e_printed_reads_as : forall es tail seqs, copybook_ok es tail seqs = true -> reads_as (print_copybook es tail seqs) es.
Proof. exact printed_reads_as. Qed.
Print Assumptions C12e_printed_reads_as.

Theorem C12e_decorated_reads_as : forall (T T' : text) es, reads_as T es -> text_decorated T T' -> reads_as T' es.
Proof. intros T T' es [H S] D. split; [exact H|]. rewrite (proj1 (C12e_noise_all T T' D)). exact S. Qed.
Print Assumptions C12e_decorated_reads_as.

(* card decks: what reference_format makes of them, and the entries they read as *)
Theorem C12e_deck_sentences : forall d, d <> [] -> deck_ok d = true ->
  sentences_of_text (deck_text d) = Ok (dde_sentences (map ci_code d)).
Proof. exact deck_sentences. Qed.
Print Assumptions C12e_deck_sentences.

Theorem C12e_deck_reads_as : forall d es tail, d <> [] -> deck_ok d = true ->
  forallb ce_ok es = true -> forallb is_ws tail = true -> deck_code d = code_text es tail ->
  reads_as (deck_text d) es.
Proof.
  intros d es tail NE H Hes Ht C. split; [exact Hes|]. rewrite (deck_sentences d NE H). f_equal.
  apply (SR.Proofs.RefFormatP.sentences_lines _ (map ce_print es) tail).
  - pose proof (ce_ok_wf es Hes) as Hwf. rewrite forallb_forall in *. intros x Hx. apply in_map_iff in Hx as (e & <- & He). apply (Hwf e He).
  - exact Ht.
  - unfold deck_code in C. rewrite C. unfold code_text. rewrite map_map. reflexivity.
Qed.
Print Assumptions C12e_deck_reads_as.

(* ------------------------------------------------------------------ 4. the text theorems for every text that reads as its entries *)
(* C07b_entries, C07b_layer_b *)
Theorem C12e_reading_entries : forall (T : text) es, reads_as T es -> entries_of_text T = ROk (map spec_entry es).
Proof.
  intros T es [Hes S]. unfold entries_of_text. rewrite S, (infos_of_printed es Hes), map_map. reflexivity.
Qed.
Print Assumptions C12e_reading_entries.

Theorem C12e_reading_schemas : forall (T : text) es, reads_as T es ->
  schemas_of_text T = to_outcome (docs_of_infos (map spec_info es)).
Proof. exact reading_schemas. Qed.
Print Assumptions C12e_reading_schemas.

(* C07b_relayout *)
Theorem C12e_reading_same_core : forall (T T' : text) es es', reads_as T es -> reads_as T' es' -> Forall2 same_core es es' ->
  schemas_of_text T = schemas_of_text T' /\ layouts_of_text T = layouts_of_text T'.
Proof.
  intros T T' es es' R R' SC.
  assert (S : schemas_of_text T = schemas_of_text T').
  { rewrite (reading_schemas T es R), (reading_schemas T' es' R'), (same_core_info es es' SC). reflexivity. }
  split; [exact S|exact (same_schemas_layouts T T' S)].
Qed.
Print Assumptions C12e_reading_same_core.

(* C07b_end_to_end *)
Theorem C12e_reading_end_to_end : forall (T : text) es f, reads_as T es ->
  SR.Model.Structure.structure (map spec_entry es) = Ok f ->
  exists xf, annot_forest f (kept_infos (map spec_info es)) = Some xf /\ map SR.Proofs.PipelineP.erase xf = f
             /\ concat (map xpre xf) = kept_infos (map spec_info es)
             /\ (forallb (names_wf []) xf = true -> schemas_of_text T = to_outcome (docs_r xf)).
Proof. exact reading_end_to_end. Qed.
Print Assumptions C12e_reading_end_to_end.

(* C07c_text_documents_are_built_trees *)
Theorem C12e_reading_documents_are_built_trees : forall (T : text) es, reads_as T es -> bridge_domain es = true ->
  exists f xf docs,
    SR.Model.Structure.structure (map spec_entry es) = Ok f
    /\ annot_forest f (kept_infos (map spec_info es)) = Some xf /\ map SR.Proofs.PipelineP.erase xf = f
    /\ concat (map xpre xf) = kept_infos (map spec_info es)
    /\ schemas_of_text T = Done (Ok docs)
    /\ Forall2 (fun doc t => layout_of_doc doc = Some (build (item_of t))) docs xf
    /\ layouts_of_text T = Some (map (fun t => build (item_of t)) xf).
Proof. exact reading_documents_are_built. Qed.
Print Assumptions C12e_reading_documents_are_built_trees.

(* C07c_text_to_layout *)
Theorem C12e_reading_to_layout : forall (T : text) es, reads_as T es -> text_layout_ok es = true ->
  exists f xf schemas,
    SR.Model.Structure.structure (map spec_entry es) = Ok f
    /\ annot_forest f (kept_infos (map spec_info es)) = Some xf /\ map SR.Proofs.PipelineP.erase xf = f
    /\ concat (map xpre xf) = kept_infos (map spec_info es)
    /\ layouts_of_text T = Some schemas /\ length schemas = length xf
    /\ forall k s t, nth_error schemas k = Some s -> nth_error xf k = Some t ->
         s = build (item_of t)
         /\ forall (B : Type) (dcount : list B -> nat) (r : list B),
            exists v0, nav_of dcount r s = Ok v0
              /\ lstart (n_loc v0) = 0%nat /\ lend (n_loc v0) = extent no_counters (item_of t)
              /\ forall p v st, spec_nav no_counters (VItem (item_of t)) 0 p = inl (v, st) ->
                   exists nv, nav_path dcount r v0 p = Ok nv
                     /\ lstart (n_loc nv) = st /\ lend (n_loc nv) = (st + view_size no_counters v)%nat
                     /\ nav_raw r nv = slice r st (st + view_size no_counters v).
Proof. exact reading_to_layout. Qed.
Print Assumptions C12e_reading_to_layout.

(* C07c_text_to_layout_odo *)
Theorem C12e_reading_to_layout_odo : forall (T : text) es, reads_as T es -> bridge_domain es = true ->
  exists xf schemas,
    forest_of_entries es = Some xf
    /\ layouts_of_text T = Some schemas /\ length schemas = length xf
    /\ forall k s t, nth_error schemas k = Some s -> nth_error xf k = Some t ->
         s = build (item_of t)
         /\ forall (B : Type) (dcount : list B -> nat) (r : list B) (e : env),
            SR.Proofs.LayoutOdoP.wfo e [] (item_of t) = true -> NoDup (SR.Proofs.LayoutP.ids (item_of t)) ->
            SR.Proofs.LayoutOdoP.Holds B dcount r e (item_of t) 0 ->
            exists v0, nav_of dcount r s = Ok v0
              /\ lstart (n_loc v0) = 0%nat /\ lend (n_loc v0) = extent e (item_of t)
              /\ forall p v st, spec_nav e (VItem (item_of t)) 0 p = inl (v, st) ->
                   exists nv, nav_path dcount r v0 p = Ok nv
                     /\ lstart (n_loc nv) = st /\ lend (n_loc nv) = (st + view_size e v)%nat
                     /\ nav_raw r nv = slice r st (st + view_size e v)
                     /\ (forall x, v = VItem x -> is_table x = true ->
                           forall i, (count e (item_oc x) <= i)%nat -> nav_index dcount r nv i = Err IndexError).
Proof. exact reading_to_layout_odo. Qed.
Print Assumptions C12e_reading_to_layout_odo.

(* C07c_text_to_values *)
Theorem C12e_reading_to_values : forall (T : text) es, reads_as T es -> text_values_ok es = true ->
  exists xf schemas,
    forest_of_entries es = Some xf
    /\ layouts_of_text T = Some schemas /\ length schemas = length xf
    /\ forall k s t, nth_error schemas k = Some s -> nth_error xf k = Some t ->
       forall (dcount : list N -> nat) (vals : assignment),
         record_ok (kinds_of t) vals no_counters (item_of t) = true ->
         forall p i sz st, elem_at no_counters (item_of t) p = Some (i, sz, st) ->
           own_storage no_counters (VItem (item_of t)) 0 p = true ->
           value_at (kinds_of t) dcount (spec_record (kinds_of t) vals no_counters (item_of t)) s p
           = Some (Ok (PAtom (py_of (stored (kinds_of t i) (vals p))))).
Proof. exact reading_to_values. Qed.
Print Assumptions C12e_reading_to_values.

(* C12d_respelling_layout *)
Theorem C12e_reading_respelling_layout : forall (T T' : text) es es',
  Forall2 same_clauses es es' -> reads_as T es -> reads_as T' es' ->
  forallb respelling_domain es = true -> forallb respelling_domain es' = true ->
  text_layout_ok es = true ->
  text_layout_ok es' = true
  /\ records_of_entries es = records_of_entries es'
  /\ exists schemas, layouts_of_text T = Some schemas /\ layouts_of_text T' = Some schemas.
Proof. exact reading_respelling_layout. Qed.
Print Assumptions C12e_reading_respelling_layout.

(* C12d_respelling_located *)
Theorem C12e_reading_respelling_located : forall (T T' : text) es es',
  Forall2 same_clauses es es' -> reads_as T es -> reads_as T' es' ->
  forallb respelling_domain es = true -> forallb respelling_domain es' = true ->
  text_layout_ok es = true ->
  forall (B : Type) (dcount : list B -> nat) (r : list B) (k : nat) (p : list step),
    located T k dcount r p = located T' k dcount r p.
Proof. exact reading_respelling_located. Qed.
Print Assumptions C12e_reading_respelling_located.

(* C12d_respelling_values *)
Theorem C12e_reading_respelling_values : forall (T T' : text) es es',
  Forall2 same_clauses es es' -> reads_as T es -> reads_as T' es' ->
  forallb respelling_domain es = true -> forallb respelling_domain es' = true ->
  text_values_ok es = true ->
  text_values_ok es' = true
  /\ exists xf xf', forest_of_entries es = Some xf /\ forest_of_entries es' = Some xf'
       /\ map kinds_of xf = map kinds_of xf'
       /\ forall (k : nat) (dcount : list N -> nat) (r : list N) (p : list step),
            value_in_text T xf k dcount r p = value_in_text T' xf' k dcount r p.
Proof. exact reading_respelling_values. Qed.
Print Assumptions C12e_reading_respelling_values.

(* ------------------------------------------------------------------ 5. decorated printed copybooks: copybooks as found in libraries *)
(* the conclusions of C07c_text_to_layout for print_copybook's text with noise added: the SAME outcome as the undecorated text,
   and the schema computed from the decorated text, navigated, lands on the bytes the COBOL rules assign *)
Theorem C12e_decorated_copybook_to_layout : forall es tail seqs (src' : text),
  copybook_ok es tail seqs = true -> text_layout_ok es = true ->
  text_decorated (print_copybook es tail seqs) src' ->
  schemas_of_text src' = schemas_of_text (print_copybook es tail seqs)
  /\ exists f xf schemas,
    SR.Model.Structure.structure (map spec_entry es) = Ok f
    /\ annot_forest f (kept_infos (map spec_info es)) = Some xf /\ map SR.Proofs.PipelineP.erase xf = f
    /\ concat (map xpre xf) = kept_infos (map spec_info es)
    /\ layouts_of_text src' = Some schemas /\ length schemas = length xf
    /\ forall k s t, nth_error schemas k = Some s -> nth_error xf k = Some t ->
         s = build (item_of t)
         /\ forall (B : Type) (dcount : list B -> nat) (r : list B),
            exists v0, nav_of dcount r s = Ok v0
              /\ lstart (n_loc v0) = 0%nat /\ lend (n_loc v0) = extent no_counters (item_of t)
              /\ forall p v st, spec_nav no_counters (VItem (item_of t)) 0 p = inl (v, st) ->
                   exists nv, nav_path dcount r v0 p = Ok nv
                     /\ lstart (n_loc nv) = st /\ lend (n_loc nv) = (st + view_size no_counters v)%nat
                     /\ nav_raw r nv = slice r st (st + view_size no_counters v).
Proof.
  intros es tail seqs src' OK TL D. split; [apply C12e_noise_schemas; exact D|].
  apply (reading_to_layout src' es); [|exact TL]. apply (C12e_decorated_reads_as _ _ _ (printed_reads_as es tail seqs OK) D).
Qed.
Print Assumptions C12e_decorated_copybook_to_layout.

(* the conclusions of C12d_respelling_layout / C12d_respelling_located for two decorated printed copybooks *)
Theorem C12e_decorated_copybook_respelling : forall es tail seqs es' tail' seqs' (src1 src2 : text),
  Forall2 same_clauses es es' ->
  copybook_ok es tail seqs = true -> copybook_ok es' tail' seqs' = true ->
  forallb respelling_domain es = true -> forallb respelling_domain es' = true ->
  text_layout_ok es = true ->
  text_decorated (print_copybook es tail seqs) src1 -> text_decorated (print_copybook es' tail' seqs') src2 ->
  (exists schemas, layouts_of_text src1 = Some schemas /\ layouts_of_text src2 = Some schemas)
  /\ forall (B : Type) (dcount : list B -> nat) (r : list B) (k : nat) (p : list step),
       located src1 k dcount r p = located src2 k dcount r p.
Proof.
  intros es tail seqs es' tail' seqs' src1 src2 SC OK OK' RD RD' TL D1 D2.
  pose proof (C12e_decorated_reads_as _ _ _ (printed_reads_as es tail seqs OK) D1) as R1.
  pose proof (C12e_decorated_reads_as _ _ _ (printed_reads_as es' tail' seqs' OK') D2) as R2.
  split.
  - destruct (reading_respelling_layout src1 src2 es es' SC R1 R2 RD RD' TL) as (_ & _ & H). exact H.
  - apply (reading_respelling_located src1 src2 es es' SC R1 R2 RD RD' TL).
Qed.
Print Assumptions C12e_decorated_copybook_respelling.

(* ... and of C12d_respelling_values *)
Theorem C12e_decorated_copybook_values : forall es tail seqs es' tail' seqs' (src1 src2 : text),
  Forall2 same_clauses es es' ->
  copybook_ok es tail seqs = true -> copybook_ok es' tail' seqs' = true ->
  forallb respelling_domain es = true -> forallb respelling_domain es' = true ->
  text_values_ok es = true ->
  text_decorated (print_copybook es tail seqs) src1 -> text_decorated (print_copybook es' tail' seqs') src2 ->
  exists xf xf', forest_of_entries es = Some xf /\ forest_of_entries es' = Some xf'
       /\ map kinds_of xf = map kinds_of xf'
       /\ forall (k : nat) (dcount : list N -> nat) (r : list N) (p : list step),
            value_in_text src1 xf k dcount r p = value_in_text src2 xf' k dcount r p.
Proof.
  intros es tail seqs es' tail' seqs' src1 src2 SC OK OK' RD RD' TV D1 D2.
  pose proof (C12e_decorated_reads_as _ _ _ (printed_reads_as es tail seqs OK) D1) as R1.
  pose proof (C12e_decorated_reads_as _ _ _ (printed_reads_as es' tail' seqs' OK') D2) as R2.
  destruct (reading_respelling_values src1 src2 es es' SC R1 R2 RD RD' TV) as (_ & H). exact H.
Qed.
Print Assumptions C12e_decorated_copybook_values.

(* a card deck, decorated or not, against the printed copybook of the same entries up to layout: the same outcome *)
Theorem C12e_deck_same_core : forall d es tail (src' : text) es0 tail0 seqs0,
  d <> [] -> deck_ok d = true -> forallb ce_ok es = true -> forallb is_ws tail = true -> deck_code d = code_text es tail ->
  text_decorated (deck_text d) src' ->
  copybook_ok es0 tail0 seqs0 = true -> Forall2 same_core es0 es ->
  schemas_of_text src' = schemas_of_text (print_copybook es0 tail0 seqs0)
  /\ layouts_of_text src' = layouts_of_text (print_copybook es0 tail0 seqs0).
Proof.
  intros d es tail src' es0 tail0 seqs0 NE DK Hes Ht C D OK0 SC.
  pose proof (C12e_decorated_reads_as _ _ _ (C12e_deck_reads_as d es tail NE DK Hes Ht C) D) as R1.
  apply (C12e_reading_same_core src' _ es es0 R1 (printed_reads_as _ _ _ OK0)).
  clear - SC. induction SC as [|a b l l' (H1 & H2 & H3 & H4) _ IH]; constructor; [|exact IH]. repeat split; symmetry; assumption.
Qed.
Print Assumptions C12e_deck_same_core.

(* ------------------------------------------------------------------ 6. REPLACING (not reachable through schema_iter) *)
Theorem C12e_noise_replacing : forall (src src' : text) repl, text_decorated src src' ->
  schemas_of_rf (reference_format (lines_of_text src') repl) = schemas_of_rf (reference_format (lines_of_text src) repl)
  /\ layouts_of_rf (reference_format (lines_of_text src') repl) = layouts_of_rf (reference_format (lines_of_text src) repl).
Proof. intros src src' repl D. rewrite (decorated_rf _ _ D repl). split; reflexivity. Qed.
Print Assumptions C12e_noise_replacing.

Theorem C12e_replacing_schemas : forall (src : text) repl, repl_ok repl = true ->
  schemas_of_rf (reference_format (lines_of_text src) repl)
  = schemas_of_rf (join_all (map (fun c => (fst c, subst_all repl (snd c))) (cards (lines_of_text src)))).
Proof. intros src repl H. destruct (SR.Proofs.RefFormatP.replacing (lines_of_text src) repl H) as (_ & _ & E). rewrite E. reflexivity. Qed.
Print Assumptions C12e_replacing_schemas.

(* ------------------------------------------------------------------ non-vacuity *)
Import SR.Props.C07b.
Open Scope N_scope.

(* a line written as a string, without its line feed *)
Definition L (s : string) : line := map N_of_ascii (list_ascii_of_string s).
Definition LF (s : string) : line := L s ++ [10].

(* ---- A. the record of Props/C07b.v as print_copybook prints it, and as it is found in a library ----
          01 CUST-REC .                                      000100 01 CUST-REC .
              05  CUST-NO PIC 9(5) .                         000150* CUSTOMER NUMBER, ASSIGNED BY BILLING
              05 FILLER, PICTURE IS X(3) USAGE IS DISPLAY.   000200     05  CUST-NO PIC 9(5) .
              05 T OCCURS 3 TIMES                                   EJECT
                  PIC S9(3) COMP-3.                          000300     05 FILLER, PICTURE IS X(3) USAGE IS DISPLAY.
                                                             (an empty line)
                                                             000400     05 T OCCURS 3 TIMES
                                                                   * THREE MONTHLY AMOUNTS
                                                             000500         PIC S9(3) COMP-3.
                                                                   D    05 DEBUG-ONLY PIC X.
   the comment between the two lines of entry T stands between a line and the line that continues the entry *)
Definition ex_plain : text := print_copybook ex_es [] [].
Definition ex_numbered : list line :=
  [LF "000100 01 CUST-REC ."; LF "000200     05  CUST-NO PIC 9(5) ."; LF "000300     05 FILLER, PICTURE IS X(3) USAGE IS DISPLAY.";
   LF "000400     05 T OCCURS 3 TIMES"; LF "000500         PIC S9(3) COMP-3."].
Definition ex_library_lines : list line :=
  [LF "000100 01 CUST-REC ."; LF "000150* CUSTOMER NUMBER, ASSIGNED BY BILLING"; LF "000200     05  CUST-NO PIC 9(5) .";
   LF "       EJECT"; LF "000300     05 FILLER, PICTURE IS X(3) USAGE IS DISPLAY."; [10];
   LF "000400     05 T OCCURS 3 TIMES"; LF "      * THREE MONTHLY AMOUNTS"; LF "000500         PIC S9(3) COMP-3.";
   LF "      D    05 DEBUG-ONLY PIC X."].
Definition ex_library : text := concat ex_library_lines.

Example C12e_example_decorated :
  text_lines ex_library_lines = true
  /\ lines_of_text ex_plain <> ex_numbered
  /\ Forall2 seq_variant (lines_of_text ex_plain) ex_numbered
  /\ inserted plain_noise ex_numbered ex_library_lines
  /\ text_decorated ex_plain ex_library.
Proof.
  assert (T : text_lines ex_library_lines = true) by (vm_compute; reflexivity).
  assert (A : Forall2 seq_variant (lines_of_text ex_plain) ex_numbered) by (apply areasb_sound; vm_compute; reflexivity).
  assert (I : inserted plain_noise ex_numbered ex_library_lines) by (apply insertedb_sound; vm_compute; reflexivity).
  split; [exact T|]. split; [discriminate|]. split; [exact A|]. split; [exact I|].
  unfold text_decorated, ex_library. rewrite (lines_of_concat _ T). exact (dec_areas _ _ _ A (dec_add _ _ _ I (dec_same _))).
Qed.

(* one comment line between the two lines of entry T: the hypotheses of C12e_insert_noise_line *)
Example C12e_example_insert :
  exists a b, lines_of_text ex_plain = a ++ b /\ List.length a = 4%nat
    /\ text_lines (a ++ b) = true /\ text_lines (a ++ LF "      * THREE MONTHLY AMOUNTS" :: b) = true
    /\ plain_noise (LF "      * THREE MONTHLY AMOUNTS") = true
    /\ (exists docs, schemas_of_text (concat (a ++ LF "      * THREE MONTHLY AMOUNTS" :: b)) = Done (Ok docs)).
Proof.
  exists (firstn 4 (lines_of_text ex_plain)), (skipn 4 (lines_of_text ex_plain)).
  split; [symmetry; apply firstn_skipn|]. split; [vm_compute; reflexivity|]. split; [vm_compute; reflexivity|].
  split; [vm_compute; reflexivity|]. split; [vm_compute; reflexivity|]. eexists. vm_compute. reflexivity.
Qed.

(* the hypotheses of C12e_decorated_copybook_to_layout hold, the two texts differ, and what the theorem promises is there: the
   same documents, one layout, the same places (the real LocationMaker agrees: T(2) at 12-14, the record 14 bytes long) *)
Example C12e_example_decorated_layout :
  copybook_ok ex_es [] [] = true /\ text_layout_ok ex_es = true /\ text_values_ok ex_es = true
  /\ ex_library <> ex_plain
  /\ schemas_of_text ex_library = schemas_of_text ex_plain
  /\ (exists docs, schemas_of_text ex_library = Done (Ok docs))
  /\ layouts_of_text ex_library = layouts_of_text ex_plain
  /\ (exists s, layouts_of_text ex_library = Some [s])
  /\ located ex_library 0 (fun _ : list unit => O) [] [] = Some (Ok (0, 14)%nat)
  /\ located ex_library 0 (fun _ : list unit => O) [] (steps_of [NName [84]; NIndex 2; NName [84]]) = Some (Ok (12, 14)%nat)
  /\ located ex_plain 0 (fun _ : list unit => O) [] (steps_of [NName [84]; NIndex 2; NName [84]]) = Some (Ok (12, 14)%nat).
Proof.
  assert (OK : copybook_ok ex_es [] [] = true) by (vm_compute; reflexivity).
  pose proof (proj1 SR.Props.C07c.C07c_example_c07b) as TV. pose proof (values_ok_layout _ TV) as TL. pose proof (layout_ok_bridge _ TL) as BD.
  destruct C12e_example_decorated as (_ & _ & _ & _ & D). destruct (C12e_noise_all _ _ D) as (_ & S & _ & _ & L & _).
  destruct (SR.Props.C07c.C07c_text_documents_are_built_trees _ _ _ OK BD) as (f & xf & docs & _ & _ & _ & _ & SD & _).
  pose proof (printed_layouts _ _ _ OK BD) as P. fold ex_plain in SD, P.
  split; [exact OK|]. split; [exact TL|]. split; [exact TV|]. split; [apply length_neq; vm_compute; discriminate|]. split; [exact S|].
  split; [exists docs; rewrite S; exact SD|]. split; [exact L|]. unfold located. rewrite L, P.
  (* named, the layouts are evaluated once, not once for every conjunct *)
  set (ss := option_map _ _). vm_compute. split; [eexists; reflexivity|repeat split; reflexivity].
Qed.

(* ex_plain reads as ex_es, and its layouts are built from their record descriptions (C07c_text_documents_are_built_trees) *)
Lemma ex_plain_layouts : reads_as ex_plain ex_es /\ layouts_of_text ex_plain = option_map (map build) (records_of_entries ex_es).
Proof.
  destruct C12e_example_decorated_layout as (OK & TL & _).
  split; [exact (printed_reads_as _ _ _ OK)|exact (printed_layouts _ _ _ OK (layout_ok_bridge _ TL))].
Qed.

(* the decorated text against a decorated RESPELLING (ex_es' of Props/C07b.v, numbered and commented): the hypotheses of
   C12e_decorated_copybook_respelling / _values hold *)
Definition ex_library' : text :=
  concat (LF "      * THE SAME RECORD, SPELLED OTHERWISE" :: lines_of_text (print_copybook ex_es' [] []) ++ [LF "       SKIP1"]).
Example C12e_example_decorated_respelling :
  Forall2 same_clauses ex_es ex_es' /\ copybook_ok ex_es' [] [] = true
  /\ forallb respelling_domain ex_es = true /\ forallb respelling_domain ex_es' = true
  /\ text_decorated (print_copybook ex_es' [] []) ex_library'
  /\ layouts_of_text ex_library = layouts_of_text ex_library'
  /\ located ex_library' 0 (fun _ : list unit => O) [] (steps_of [NName [84]; NIndex 2; NName [84]]) = Some (Ok (12, 14)%nat).
Proof.
  destruct C07b_example_respelling as (SC & OK' & _ & RD' & _). destruct C07b_example_domain as (_ & _ & _ & _ & RD & _).
  destruct C12e_example_decorated_layout as (OK & TL & _). destruct C12e_example_decorated as (_ & _ & _ & _ & D).
  assert (D' : text_decorated (print_copybook ex_es' [] []) ex_library')
    by (apply (text_chain_sound _ ex_library' [lines_of_text ex_library']); vm_compute; reflexivity).
  destruct (C12e_decorated_copybook_respelling _ _ _ _ _ _ _ _ SC OK OK' RD RD' TL D D') as [(schemas & L & L') _].
  split; [exact SC|]. split; [exact OK'|]. split; [exact RD|]. split; [exact RD'|]. split; [exact D'|].
  split; [rewrite L, L'; reflexivity|].
  destruct (C12e_noise_all _ _ D) as (_ & _ & _ & _ & LP & _).
  rewrite L, <- L' in LP. unfold located. rewrite LP, (proj2 ex_plain_layouts). vm_compute. reflexivity.
Qed.

(* ---- B. the same record as an 80-column CARD DECK: every code area padded to column 72, columns 73-80 free.
        ex_deck0: columns 1-6 and 73-80 blank / empty;  ex_deck1: numbered, the deck name CUSTREC1 in columns 73-80.
        The entries the deck reads as (ex_es80) are ex_es with every line feed replaced by the padding - also the line break inside
        entry T, so ex_es80 is a RESPELLING of ex_es (another separator), not a relayout.
          000100 01 CUST-REC .                                                    CUSTREC1
          000200     05  CUST-NO PIC 9(5) .                                       CUSTREC1   ...                       ---- *)
Definition pad_card (sq id l : line) : card_image :=
  let c := removelast (skipn 7 l) in
  {| ci_seq := sq; ci_code := c ++ repeat 32 (65 - List.length c); ci_id := id ++ [10] |}.
Definition deck_of (sqs ids ls : list line) : list card_image :=
  map (fun p => pad_card (fst (fst p)) (snd (fst p)) (snd p)) (combine (combine sqs ids) ls).

Definition ex_deck0 : list card_image := deck_of (repeat blank6 5) (repeat [] 5) (lines_of_text ex_plain).
Definition ex_deck1 : list card_image := deck_of ex_seqs (repeat (L "CUSTREC1") 5) (lines_of_text ex_plain).

Definition mk80 (d1 d2 : N) (cs : list clause) (sps : spelling) (lead gap : line) : centry :=
  {| ce_d1 := d1; ce_d2 := d2; ce_cs := cs; ce_sps := sps; ce_lead := lead; ce_gap := gap; ce_term := 32 |}.
Definition ex_es80 : list centry :=
  [mk80 48 49 [CName n_CUST_REC] [] [] [32];
   mk80 48 53 [CName n_CUST_NO; CPicture p_9_5] [] (repeat 32 51 ++ ind4) [32; 32];
   mk80 48 53 [CFiller; CPicture p_X_3; CUsage 0]
        [(sp0, [44; 32]); ({| ch := [1; 1]; masks := []; seps := [] |}, [32]); ({| ch := [2; 0]; masks := []; seps := [] |}, [])]
        (repeat 32 38 ++ ind4) [32];
   mk80 48 53 [CName [84]; COccurs [51] None; CPicture p_S9_3; CUsage 2]
        [(sp0, [32]); ({| ch := [1]; masks := []; seps := [] |}, repeat 32 42 ++ repeat 32 8); (sp0, [32]); (sp0, [])]
        (repeat 32 16 ++ ind4) [32]].
Definition ex_tail80 : line := repeat 32 39.

(* every card is 7 + 65 + 8 characters and a line feed; the deck is in the domain and reads as ex_es80 *)
Example C12e_example_deck :
  map (fun c => List.length (ci_line c)) ex_deck1 = [81; 81; 81; 81; 81]%nat
  /\ ex_deck1 <> [] /\ deck_ok ex_deck0 = true /\ deck_ok ex_deck1 = true
  /\ forallb ce_ok ex_es80 = true /\ forallb is_ws ex_tail80 = true
  /\ deck_code ex_deck1 = code_text ex_es80 ex_tail80 /\ deck_code ex_deck0 = code_text ex_es80 ex_tail80
  /\ sentences_of_text (deck_text ex_deck1) = Ok (spec_sentences (map ce_print ex_es80)).
Proof.
  assert (NE : ex_deck1 <> []) by discriminate.
  assert (DK : deck_ok ex_deck1 = true) by (vm_compute; reflexivity).
  assert (Hes : forallb ce_ok ex_es80 = true) by (vm_compute; reflexivity).
  assert (Ht : forallb is_ws ex_tail80 = true) by (vm_compute; reflexivity).
  assert (C : deck_code ex_deck1 = code_text ex_es80 ex_tail80) by (vm_compute; reflexivity).
  split; [vm_compute; reflexivity|]. split; [exact NE|]. split; [vm_compute; reflexivity|]. split; [exact DK|].
  split; [exact Hes|]. split; [exact Ht|]. split; [exact C|]. split; [vm_compute; reflexivity|].
  exact (proj2 (C12e_deck_reads_as _ _ _ NE DK Hes Ht C)).
Qed.

Lemma ex_decks_read : reads_as (deck_text ex_deck0) ex_es80 /\ reads_as (deck_text ex_deck1) ex_es80.
Proof.
  destruct C12e_example_deck as (_ & NE & DK0 & DK & Hes & Ht & C & C0 & _).
  assert (NE0 : ex_deck0 <> []) by discriminate.
  split; [exact (C12e_deck_reads_as _ _ _ NE0 DK0 Hes Ht C0)|exact (C12e_deck_reads_as _ _ _ NE DK Hes Ht C)].
Qed.

(* columns 1-6 and 73-80 are a [Forall2 seq_variant] step (the identification area behind a full code area) ... *)
Example C12e_example_deck_areas :
  Forall2 seq_variant (map ci_line ex_deck0) (map ci_line ex_deck1)
  /\ text_decorated (deck_text ex_deck0) (deck_text ex_deck1).
Proof.
  assert (A : Forall2 seq_variant (map ci_line ex_deck0) (map ci_line ex_deck1)) by (apply areasb_sound; vm_compute; reflexivity).
  destruct C12e_example_deck as (_ & _ & DK0 & DK1 & _).
  split; [exact A|]. unfold text_decorated, deck_text. rewrite !lines_of_concat by (apply deck_lines; assumption).
  exact (dec_areas _ _ _ A (dec_same _)).
Qed.

(* ... and the deck with comment cards (numbered, with the deck name), a bare EJECT line and a blank card added *)
Definition ex_deck_library : text :=
  match map ci_line ex_deck1 with
  | [c1; c2; c3; c4; c5] =>
      concat [c1; LF "000150* CUSTOMER NUMBER, ASSIGNED BY BILLING                                CUSTREC1"; c2; LF "       EJECT"; c3;
              LF "                                                                                "; c4;
              LF "000450* THREE MONTHLY AMOUNTS                                                   CUSTREC1"; c5]
  | _ => []
  end.

(* the hypotheses of C12e_reading_respelling_layout / _located / _values (deck against the printed copybook), of
   C12e_reading_to_layout / _values (the deck alone) and of C12e_decorated_reads_as hold; the promised equalities are there *)
Example C12e_example_deck_layout :
  text_decorated (deck_text ex_deck0) ex_deck_library
  /\ Forall2 same_clauses ex_es ex_es80 /\ forallb respelling_domain ex_es80 = true
  /\ text_layout_ok ex_es80 = true /\ text_values_ok ex_es80 = true /\ bridge_domain ex_es80 = true
  /\ ex_deck_library <> deck_text ex_deck1 /\ deck_text ex_deck1 <> ex_plain
  /\ schemas_of_text ex_deck_library = schemas_of_text ex_plain
  /\ layouts_of_text ex_deck_library = layouts_of_text ex_plain
  /\ layouts_of_text (deck_text ex_deck1) = layouts_of_text ex_plain
  /\ (exists s, layouts_of_text ex_deck_library = Some [s])
  /\ located ex_deck_library 0 (fun _ : list unit => O) [] (steps_of [NName [84]; NIndex 2; NName [84]]) = Some (Ok (12, 14)%nat)
  /\ located ex_deck_library 0 (fun _ : list unit => O) [] [] = Some (Ok (0, 14)%nat).
Proof.
  assert (D : text_decorated (deck_text ex_deck0) ex_deck_library).
  { apply (decorated_trans _ _ _ (proj2 C12e_example_deck_areas)).
    apply (text_chain_sound _ ex_deck_library [lines_of_text ex_deck_library]); vm_compute; reflexivity. }
  assert (SC : Forall2 same_clauses ex_es ex_es80).
  { repeat (apply Forall2_cons; [split; [reflexivity|split; [reflexivity|apply Permutation_refl]]|]). apply Forall2_nil. }
  split; [exact D|]. split; [exact SC|].
  assert (RD80 : forallb respelling_domain ex_es80 = true) by (vm_compute; reflexivity).
  assert (TV80 : text_values_ok ex_es80 = true) by (rewrite text_values_ok_eq; vm_compute; reflexivity).
  split; [exact RD80|]. split; [exact (values_ok_layout _ TV80)|]. split; [exact TV80|].
  split; [exact (layout_ok_bridge _ (values_ok_layout _ TV80))|].
  split; [apply length_neq; vm_compute; discriminate|]. split; [apply length_neq; vm_compute; discriminate|].
  destruct ex_plain_layouts as [RP P]. destruct ex_decks_read as [R0 R1]. pose proof (C12e_decorated_reads_as _ _ _ R0 D) as RL.
  destruct C07b_example_domain as (_ & _ & _ & _ & RD & _). destruct C12e_example_decorated_layout as (_ & TL & _).
  split.
  { rewrite (C12e_reading_schemas _ _ RL), (C12e_reading_schemas _ _ RP). vm_compute. reflexivity. }
  destruct (C12e_reading_respelling_layout _ _ _ _ SC RP RL RD RD80 TL) as (_ & _ & schemas & L & LL).
  destruct (C12e_reading_respelling_layout _ _ _ _ SC RP R1 RD RD80 TL) as (_ & _ & schemas1 & L1 & LD).
  split; [rewrite L, LL; reflexivity|]. split; [rewrite L1, LD; reflexivity|].
  rewrite <- L, P in LL. unfold located. rewrite LL.
  set (ss := option_map _ _). vm_compute. split; [eexists; reflexivity|split; reflexivity].
Qed.

(* the decoded values too: the deck and the printed copybook on a record of arbitrary bytes (Props/C12d.v ex_bytes) *)
Example C12e_example_deck_values :
  map (fun p => value_in_text ex_deck_library (SR.Props.C12d.ex_xf ex_es80) 0 (fun _ => O) SR.Props.C12d.ex_bytes (steps_of p))
      [[NName n_CUST_NO]; [NName [84]; NIndex 0; NName [84]]; [NName [84]; NIndex 2; NName [84]]]
  = map (fun p => value_in_text ex_plain (SR.Props.C12d.ex_xf ex_es) 0 (fun _ => O) SR.Props.C12d.ex_bytes (steps_of p))
      [[NName n_CUST_NO]; [NName [84]; NIndex 0; NName [84]]; [NName [84]; NIndex 2; NName [84]]]
  /\ value_in_text ex_deck_library (SR.Props.C12d.ex_xf ex_es80) 0 (fun _ => O) SR.Props.C12d.ex_bytes (steps_of [NName n_CUST_NO])
     = Some (Some (Ok (PAtom (VDec (SR.Base.Dec.mkdec false 1234 0))))).
Proof.
  destruct C12e_example_deck_layout as (D & SC & RD80 & _). destruct ex_plain_layouts as [RP P].
  destruct C07b_example_domain as (_ & _ & _ & _ & RD & _). destruct C12e_example_decorated_layout as (_ & _ & TV & _).
  pose proof (C12e_decorated_reads_as _ _ _ (proj1 ex_decks_read) D) as RL.
  destruct (C12e_reading_respelling_values _ _ _ _ SC RP RL RD RD80 TV) as (_ & xf & xf' & FE & FE' & _ & V).
  assert (X : forall p, value_in_text ex_deck_library (SR.Props.C12d.ex_xf ex_es80) 0 (fun _ => O) SR.Props.C12d.ex_bytes p
                        = value_in_text ex_plain (SR.Props.C12d.ex_xf ex_es) 0 (fun _ => O) SR.Props.C12d.ex_bytes p)
    by (intros p; unfold SR.Props.C12d.ex_xf; rewrite FE, FE'; symmetry; apply V).
  split; [apply map_ext; intros p; apply X|]. rewrite X. unfold value_in_text. rewrite P. vm_compute. reflexivity.
Qed.

(* ---- C. a deck against the printed copybook of the same entries up to layout (C12e_deck_same_core), with REDEFINES:
        ex_redef of Props/C07b.v (one entry per line), every line feed replaced by the padding ---- *)
Fixpoint relay (carry : line) (es : list centry) : list centry * line :=
  match es with
  | [] => ([], carry)
  | e :: r =>
      let n := (List.length (print_entry (ce_print e)) - 1)%nat in
      let (r', t) := relay (repeat 32 (65 - n - 1)) r in
      ({| ce_d1 := ce_d1 e; ce_d2 := ce_d2 e; ce_cs := ce_cs e; ce_sps := ce_sps e; ce_lead := carry ++ ce_lead e;
          ce_gap := ce_gap e; ce_term := 32 |} :: r', t)
  end.
Definition ex_redef80 : list centry := fst (relay [] ex_redef).
Definition ex_redef_tail80 : line := snd (relay [] ex_redef).
Definition ex_redef_deck : list card_image :=
  deck_of (repeat (L "R00000") 4) (repeat (L "REDEFDK ") 4) (lines_of_text (print_copybook ex_redef [] [])).

Example C12e_example_deck_same_core :
  ex_redef_deck <> [] /\ deck_ok ex_redef_deck = true /\ forallb ce_ok ex_redef80 = true /\ forallb is_ws ex_redef_tail80 = true
  /\ deck_code ex_redef_deck = code_text ex_redef80 ex_redef_tail80
  /\ copybook_ok ex_redef [] [] = true /\ Forall2 same_core ex_redef ex_redef80
  /\ schemas_of_text (deck_text ex_redef_deck) = schemas_of_text (print_copybook ex_redef [] [])
  /\ located (deck_text ex_redef_deck) 0 (fun _ : list unit => O) [] (steps_of [NName [66]]) = Some (Ok (0, 3)%nat).
Proof.
  assert (NE : ex_redef_deck <> []) by discriminate.
  assert (DK : deck_ok ex_redef_deck = true) by (vm_compute; reflexivity).
  assert (Hes : forallb ce_ok ex_redef80 = true) by (vm_compute; reflexivity).
  assert (Ht : forallb is_ws ex_redef_tail80 = true) by (vm_compute; reflexivity).
  assert (C : deck_code ex_redef_deck = code_text ex_redef80 ex_redef_tail80) by (vm_compute; reflexivity).
  assert (SC : Forall2 same_core ex_redef ex_redef80).
  { repeat (apply Forall2_cons; [repeat split|]). apply Forall2_nil. }
  pose proof (proj1 C07b_example_redefines) as OK.
  destruct (C12e_deck_same_core _ _ _ _ _ _ _ NE DK Hes Ht C (dec_same _) OK SC) as [S L].
  split; [exact NE|]. split; [exact DK|]. split; [exact Hes|]. split; [exact Ht|]. split; [exact C|]. split; [exact OK|].
  split; [exact SC|]. split; [exact S|]. unfold located.
  destruct SR.Props.C07c.C07c_example_c07b as (_ & _ & TV & _).
  rewrite L, (printed_layouts _ _ _ OK (layout_ok_bridge _ (values_ok_layout _ TV))).
  vm_compute. reflexivity.
Qed.

(* ---- D. only the code areas matter: a minus in column 7 (continuation) or a blank ----
        "       01 X" / "      -    PIC X."   against   "       01 X" / "           PIC X."  *)
Definition ex_cont : text := LF "       01 X" ++ LF "      -    PIC X.".
Definition ex_nocont : text := LF "       01 X" ++ LF "           PIC X.".
Example C12e_example_code_areas :
  reference_format (lines_of_text ex_cont) [] = Ok [LF "01 X" ++ LF "    PIC X."]
  /\ reference_format (lines_of_text ex_nocont) [] = Ok [LF "01 X"; LF "    PIC X."]
  /\ code_of (lines_of_text ex_cont) = code_of (lines_of_text ex_nocont)
  /\ (exists docs, schemas_of_text ex_cont = Done (Ok docs)).
Proof. split; [vm_compute; reflexivity|]. split; [vm_compute; reflexivity|]. split; [vm_compute; reflexivity|]. eexists. vm_compute. reflexivity. Qed.

(* ---- E. REPLACING with a hand-made chain: 'N' -> 5 turns  05 A PIC X('N').  into a field of five bytes; noise does not interfere ---- *)
Definition ex_repl : list (line * line) := [(L "'N'", L "5")].
Definition ex_tmpl : text := LF "       01 R." ++ LF "           05 A PIC X('N').".
Definition ex_tmpl' : text := LF "000100 01 R." ++ LF "      * THE LENGTH IS SET BY THE CALLER" ++ LF "000200     05 A PIC X('N').".
Example C12e_example_replacing :
  repl_ok ex_repl = true /\ text_decorated ex_tmpl ex_tmpl'
  /\ layouts_of_rf (reference_format (lines_of_text ex_tmpl') ex_repl)
     = Some [Layout.JObj (Some (KName (name_id [82]))) (PCons (KName (name_id [65])) (JAtom (Some (KName (name_id [65]))) 5) PNil)].
Proof.
  split; [vm_compute; reflexivity|]. split; [|vm_compute; reflexivity].
  apply (text_chain_sound _ ex_tmpl' [[LF "000100 01 R."; LF "000200     05 A PIC X('N')."]; lines_of_text ex_tmpl']); vm_compute; reflexivity.
Qed.
