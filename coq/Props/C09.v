(* C09 - Header-row / external schemas: by-name access, any column order, no row skipped.
   Only the property theorems are here; the lemmas they rest on are in Proofs/HeaderRowP.v.

   Model/HeaderRow.v: [row_iter l preset sheet] = list(sheet.rows()) for a sheet with loader l and
   pre-bound schema [preset]: [Ok (schema afterwards, instances of the rows delivered)] or the
   exception; [nav_name s k r] = row.name(k).value(), [Ok None] being the list [None] that
   WBNav.name substitutes for a missing cell; [values s r] = row.values();
   [read_after bs sheet] = the same after the binding calls bs (set_schema / set_schema_loader) on a fresh Sheet;
   [ext_load_meta] = ExternalSchemaLoader(sheet).load() under the documented protocol;
   [hand_schema names] = {type: object, properties: {name: {type: string}, ...}}.
   Spec/Table.v: [data_rows], [cells_in_header_order], [with_positions], [first_cells].
   A sheet is any list of rows, a row any list of cells, of any lengths. *)
From Coq Require Import NArith List Permutation.
Import ListNotations.
Require Import SR.Base.Res SR.Spec.Table SR.Model.HeaderRow SR.Proofs.HeaderRowP.

(* Every sheet: reading never raises, and the rows delivered are exactly the physical rows
   after the first, each once, in order (whatever the lengths of the rows, whatever the header). *)
Theorem C09_rows : forall (sh : sheet) (pre : option schema),
  exists os, row_iter HeadingRow pre sh = Ok (os, data_rows sh).
Proof. exact rows_tl. Qed.
Print Assumptions C09_rows.

(* A sheet with no rows yields no rows (and binds no schema). *)
Theorem C09_empty : forall pre : option schema, row_iter HeadingRow pre [] = Ok (pre, []).
Proof. exact rows_empty. Qed.
Print Assumptions C09_empty.

(* Distinct header names: the i-th header names the i-th column.  For every row r whatsoever
   (shorter or longer than the header), asking for the name str(c) of the i-th header cell
   gives the i-th cell of r, or the absent marker when r has no i-th cell. *)
Theorem C09_by_name : forall (h : row) (body : sheet) pre os rows,
  row_iter HeadingRow pre (h :: body) = Ok (os, rows) ->
  NoDup (map str_of h) ->
  exists s, os = Some s /\
    forall (r : row) (i : nat) (c : cell),
      nth_error h i = Some c -> nav_name s (str_of c) r = Ok (nth_error r i).
Proof. exact by_name_table. Qed.
Print Assumptions C09_by_name.

(* The value list of a row is its cells in header order: the first |h| cells, missing ones
   reported absent at their own place, nothing shifted. *)
Theorem C09_values : forall (h : row) (body : sheet) pre os rows,
  row_iter HeadingRow pre (h :: body) = Ok (os, rows) ->
  NoDup (map str_of h) ->
  exists s, os = Some s /\
    forall r : row, values s r = Ok (cells_in_header_order (length h) r).
Proof. exact values_table. Qed.
Print Assumptions C09_values.

(* Permuting the columns of a file changes no value obtained by name.  pi is any permutation
   of the column numbers; the second table has header h' = h re-ordered by pi and every data
   row re-ordered the same way (cell i of r' is cell pi[i] of r, a missing cell staying
   missing; cells beyond the header are unconstrained).  Then the two tables deliver rows
   that agree, pairwise, on every header name. *)
Theorem C09_permutation : forall (h h' : row) (body body' : sheet) (pi : list nat) pre os os' rows rows',
  NoDup (map str_of h) ->
  Permutation pi (seq 0 (length h)) ->
  Forall2 (fun c' j => nth_error h j = Some c') h' pi ->
  Forall2 (fun r r' => forall i j, nth_error pi i = Some j -> nth_error r' i = nth_error r j) body body' ->
  row_iter HeadingRow pre (h :: body) = Ok (os, rows) ->
  row_iter HeadingRow pre (h' :: body') = Ok (os', rows') ->
  exists s s', os = Some s /\ os' = Some s' /\
    Forall2 (fun r r' => forall c, In c h -> nav_name s' (str_of c) r' = nav_name s (str_of c) r)
            rows rows'.
Proof.
  intros h h' body body' pi pre os os' rows rows' Hnd Hperm Hh' Hb H H'.
  destruct (row_iter_inv _ _ _ _ _ H) as [-> ->]. destruct (row_iter_inv _ _ _ _ _ H') as [-> ->].
  eexists _, _. split; [reflexivity|]. split; [reflexivity|]. clear H H'.
  induction Hb as [|r r' l l' Hr HF IH]; constructor; [|exact IH].
  intros c Hc. exact (perm_by_name h h' pi r r' c Hnd Hperm Hh' Hr Hc).
Qed.
Print Assumptions C09_permutation.

(* External schema.  For every metadata sheet whose rows each start with a text cell, the
   names being distinct: the loaded schema has exactly those names as properties, in sheet
   order, with positions 0..n-1; a data sheet read with it delivers every row (no header row
   is taken); every by-name read equals the read through the hand-written schema with the
   same names (KeyError included), the i-th name reads the i-th cell, and the value lists of
   both are the cells in name order. *)
Theorem C09_external : forall (meta : sheet) (names : list key) (s : schema),
  first_cells meta = Some (map Txt names) -> NoDup names ->
  ext_load_meta meta = Ok s ->
  map (fun e => (e_key e, e_pos e)) s
    = map (fun p => (fst p, Some (snd p))) (with_positions names)
  /\ (forall data, row_iter NoLoader (Some s) data = Ok (Some s, data))
  /\ (forall k r, nav_name s k r = nav_name (hand_schema names) k r)
  /\ (forall i k r, nth_error names i = Some k -> nav_name s k r = Ok (nth_error r i))
  /\ (forall r, values s r = Ok (cells_in_header_order (length names) r)
             /\ values (hand_schema names) r = Ok (cells_in_header_order (length names) r)).
Proof. exact external. Qed.
Print Assumptions C09_external.

(* ... and under the same hypotheses the load does succeed. *)
Theorem C09_external_loads : forall (meta : sheet) (names : list key),
  first_cells meta = Some (map Txt names) -> NoDup names ->
  exists s, ext_load_meta meta = Ok s.
Proof. intros meta names H _. eexists. exact (ext_load_ok meta names H). Qed.
Print Assumptions C09_external_loads.

(* Binding calls on one Sheet object (set_schema, set_schema_loader, in any order and number)
   before rows(): the last call decides.  After any sequence ending in set_schema s the sheet
   is read by [row_iter NoLoader (Some s)] - every physical row is delivered and s is the
   schema, so C09_external applies whatever loader had been installed before; after any
   sequence ending in set_schema_loader(HeadingRowSchemaLoader()) it is read by
   [row_iter HeadingRow _] - the rows after the first are delivered and C09_by_name,
   C09_values, C09_permutation apply. *)
Theorem C09_binding_last_wins :
  (forall (bs : list binding) (s : schema) (data : sheet),
     read_after (bs ++ [SetSchema s]) data = row_iter NoLoader (Some s) data
     /\ read_after (bs ++ [SetSchema s]) data = Ok (Some s, data))
  /\ (forall (bs : list binding) (sh : sheet),
       (exists pre, read_after (bs ++ [SetLoader HeadingRow]) sh = row_iter HeadingRow pre sh)
       /\ (exists os, read_after (bs ++ [SetLoader HeadingRow]) sh = Ok (os, data_rows sh))).
Proof.
  split.
  - intros bs s data. unfold read_after. rewrite bind_all_snoc, rule_set_schema.
    split; [reflexivity|apply rows_noloader].
  - intros bs sh. unfold read_after. rewrite bind_all_snoc.
    split; [eexists; reflexivity|apply rows_tl].
Qed.
Print Assumptions C09_binding_last_wins.

(* Explicit positions.  A schema whose properties each declare a column position (a
   hand-written or external schema that lists the columns in another order than the file, or
   only some of them): whatever the order of the declarations and whatever the positions
   (position 0 included, wherever it is listed), a declared name reads the cell at ITS declared
   position (absent when the row is too short), any other name is a KeyError, and the value
   list is the cells at the declared positions in declaration order. *)
Theorem C09_explicit_positions : forall decl : list (key * nat),
  NoDup (map fst decl) ->
  (forall k r, nav_name (hand_schema_at decl) k r
               = match declared_cell key_eqb decl k r with Some v => Ok v | None => Err KeyError end)
  /\ (forall i k p r, nth_error decl i = Some (k, p) ->
                      nav_name (hand_schema_at decl) k r = Ok (nth_error r p))
  /\ (forall r, values (hand_schema_at decl) r = Ok (cells_at decl r)).
Proof.
  intros decl Hnd. rewrite (hand_schema_at_distinct decl Hnd). split; [|split].
  - intros k r. rewrite nav_name_unfold, find_declared. unfold declared_cell.
    destruct (declared_position key_eqb decl k); reflexivity.
  - intros i k p r Hi. exact (nav_declared decl k p r Hnd (nth_error_In decl i Hi)).
  - intros r. exact (values_declared decl r Hnd).
Qed.
Print Assumptions C09_explicit_positions.

(* non-vacuity: the hypotheses of each implication are satisfiable *)
Definition ex_a : cell := Txt [97; 32; 98]%N.          (* 'a b' *)
Definition ex_b : cell := Txt [49; 120]%N.             (* '1x' *)
Definition ex_1 : cell := Txt [49]%N.
Definition ex_2 : cell := Txt [50]%N.

Example ex_nodup : NoDup (map str_of [ex_a; ex_b]).
Proof.
  simpl. constructor; [|constructor; [intros []|constructor]].
  intros [H|[]]. discriminate.
Qed.

(* header 'a b','1x'; the short row ('1') reports its second cell absent *)
Example C09_by_name_example :
  row_iter HeadingRow None [[ex_a; ex_b]; [ex_1]]
    = Ok (Some [mk_entry [97; 32; 98]%N (Some 0); mk_entry [49; 120]%N (Some 1)], [[ex_1]])
  /\ NoDup (map str_of [ex_a; ex_b])
  /\ nav_name [mk_entry [97; 32; 98]%N (Some 0); mk_entry [49; 120]%N (Some 1)] [49; 120]%N [ex_1] = Ok None
  /\ values [mk_entry [97; 32; 98]%N (Some 0); mk_entry [49; 120]%N (Some 1)] [ex_1] = Ok [Some ex_1; None].
Proof. split; [vm_compute; reflexivity|]. split; [exact ex_nodup|]. split; vm_compute; reflexivity. Qed.

(* the two columns swapped *)
Example C09_permutation_hypotheses :
  NoDup (map str_of [ex_a; ex_b])
  /\ Permutation [1; 0] (seq 0 (length [ex_a; ex_b]))
  /\ Forall2 (fun c' j => nth_error [ex_a; ex_b] j = Some c') [ex_b; ex_a] [1; 0]
  /\ Forall2 (fun r r' : row => forall i j, nth_error [1; 0] i = Some j -> nth_error r' i = nth_error r j)
             [[ex_1; ex_2]] [[ex_2; ex_1]].
Proof.
  split; [exact ex_nodup|]. split; [simpl; apply perm_swap|].
  split; [repeat constructor|].
  constructor; [|constructor].
  intros [|[|i]] j H; simpl in H; try (injection H as <-; reflexivity).
  destruct i; discriminate.
Qed.

(* a metadata sheet with a full row and a row that has only a name *)
Example C09_external_example :
  first_cells [[ex_a; ex_1; ex_2]; [ex_b]] = Some (map Txt [[97; 32; 98]; [49; 120]]%N)
  /\ NoDup [[97; 32; 98]; [49; 120]]%N
  /\ ext_load_meta [[ex_a; ex_1; ex_2]; [ex_b]]
     = Ok [mk_entry [97; 32; 98]%N (Some 0); mk_entry [49; 120]%N (Some 1)].
Proof. split; [reflexivity|]. split; [exact ex_nodup|]. vm_compute. reflexivity. Qed.

(* outside the domain (model facts, recorded so that the restrictions are visible).
   The registered judge does not compare by-name reads outside the domain, so that a rewrite
   which resolves repeated names differently raises no alarm. *)

(* repeated header names collapse into one property that reads the LAST of the equal columns:
   [NoDup] cannot be dropped from C09_by_name / C09_values *)
Example C09_by_name_needs_distinct_headers :
  row_iter HeadingRow None [[ex_a; ex_a; ex_b]; [ex_1; ex_2; ex_1]]
    = Ok (Some [mk_entry [97; 32; 98]%N (Some 1); mk_entry [49; 120]%N (Some 2)], [[ex_1; ex_2; ex_1]])
  /\ nav_name [mk_entry [97; 32; 98]%N (Some 1); mk_entry [49; 120]%N (Some 2)] (str_of ex_a) [ex_1; ex_2; ex_1]
     = Ok (Some ex_2)
  /\ values [mk_entry [97; 32; 98]%N (Some 1); mk_entry [49; 120]%N (Some 2)] [ex_1; ex_2; ex_1]
     = Ok [Some ex_2; Some ex_1].
Proof. repeat split; vm_compute; reflexivity. Qed.

(* a metadata row with no first cell (a blank line of a CSV file) makes load() raise TypeError,
   and a repeated name leaves one property carrying the last position *)
Example C09_external_needs_named_distinct_rows :
  ext_load_meta [[ex_a]; []] = Err TypeError
  /\ ext_load_meta [[ex_a]; [ex_b]; [ex_a]]
     = Ok [mk_entry [97; 32; 98]%N (Some 2); mk_entry [49; 120]%N (Some 1)].
Proof. split; vm_compute; reflexivity. Qed.

(* position 0 declared second: the names read columns 1 and 0, the values come in that order *)
Example C09_explicit_positions_example :
  NoDup (map fst [([49; 120]%N, 1); ([97; 32; 98]%N, 0)])
  /\ nav_name (hand_schema_at [([49; 120]%N, 1); ([97; 32; 98]%N, 0)]) [97; 32; 98]%N [ex_1; ex_2] = Ok (Some ex_1)
  /\ values (hand_schema_at [([49; 120]%N, 1); ([97; 32; 98]%N, 0)]) [ex_1; ex_2] = Ok [Some ex_2; Some ex_1].
Proof.
  split; [|split; vm_compute; reflexivity].
  simpl. constructor; [|constructor; [intros []|constructor]]. intros [H|[]]. discriminate.
Qed.
