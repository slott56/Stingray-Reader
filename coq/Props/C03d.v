(* C03, companion file - the glue between the third-party parsers and the facade, for the four office formats.

   Props/C03.v (C03_facade, C03_facade_numbers) is stated over [content]: what xlrd / openpyxl / pyexcel / numbers_parser
   deliver for a file (assumed to be the stored workbook: premise H_ext / H_num).  Between that document and the facade
   stand XLSUnpacker, XLSXUnpacker, ODSUnpacker and NumbersUnpacker of src/stingray/implementations.py: sheet_iter turns
   the document into sheet names, instance_iter(name) into rows of cells.  Those two methods are NOT modelled by hand:
   harness/t1_impl.py reads them from the source on every run into Gen/ImplParams.v (per class: which names and in which
   order, the Numbers composite and its separator, how the sheet is found by name, iter_rows bounds, slices / reversed /
   islice on sheets, tables, rows and cells, the truthiness guard, the expression delivered for a cell), and
   Model/Workbook.v [sheet_names] / [wb_instances] INTERPRET those records ([names_book], [names_numbers], [deliver],
   [eval_cell], [partition_by]).

   Here: for the rules the source has NOW the glue is the identity on the parsed document - every stored sheet is
   announced once, in stored order, under its own name (sheet::table for Numbers); reading it by that name gives every
   stored row once, in stored order, every cell as the parser holds it (a str, a number, a date, None: any [cell]), no
   conversion; a name that is not there is a KeyError.  The statements quantify over ALL documents, not only over the
   text tables of [phys].  An edit such as iter_rows(min_row=2), str(cell.value), sheetnames[:-1], another separator or
   reversed(...) changes Gen/ImplParams.v, and the closed-form lemmas at the top of Proofs/WorkbookP.v - hence this file
   and Props/C03.v - stop compiling.  What the third-party calls themselves return stays assumed (facts listed in
   Model/Workbook.v above [glue_of]).  Only the property theorems are here; the lemmas they rest on are in
   Proofs/WorkbookP.v. *)
From Coq Require Import ZArith NArith List.
Import ListNotations.
Require Import SR.Base.Res SR.Model.HeaderRow SR.Model.Workbook.
Require Import SR.Proofs.WorkbookP.

(* XLS, XLSX, ODS (b ranges over the three): sheet_iter yields exactly the stored names in order; instance_iter(name)
   yields exactly the rows stored under the name.  Numbers: sheet_iter yields sheet::table for every table of every sheet
   in order; instance_iter(sheet::table) yields exactly the rows of that table (for a sheet name without a colon:
   known finding 1 of Props/C03.v otherwise). *)
Theorem C03d_office_glue_identity :
  (forall (b : book) (ss : list (key * sheet)),
     sheet_names (C_multi b ss) = map fst ss
     /\ forall name, wb_instances (C_multi b ss) name
                     = match lookup ss name with Some rows => Ok rows | None => Err KeyError end)
  /\ (forall (ss : list (key * list (key * sheet))),
     sheet_names (C_numbers ss) = flat_map (fun s => map (fun t => fst s ++ [58; 58]%N ++ fst t) (snd s)) ss
     /\ forall s t, forallb (fun c => negb (c =? 58)%N) s = true ->
          wb_instances (C_numbers ss) (s ++ [58; 58]%N ++ t)
          = match lookup ss s with
            | None => Err KeyError
            | Some tables => match lookup tables t with Some rows => Ok rows | None => Err KeyError end
            end).
Proof.
  split.
  - intros b ss. split; [apply rule_names_book|]. intros name. apply rule_instances_book.
  - intros ss. split; [rewrite rule_names_numbers, name_sep_eq; reflexivity|].
    intros s t Hs. rewrite rule_instances_numbers.
    pose proof (partition_no_colon s t Hs) as Hp. rewrite name_sep_eq in Hp. rewrite Hp. reflexivity.
Qed.
Print Assumptions C03d_office_glue_identity.

(* every stored sheet of a book with distinct sheet names is announced and read back whole *)
Theorem C03d_every_stored_sheet : forall (b : book) (ss : list (key * sheet)) (n : key) (rows : sheet),
  NoDup (map fst ss) -> In (n, rows) ss ->
  In n (sheet_names (C_multi b ss)) /\ wb_instances (C_multi b ss) n = Ok rows.
Proof.
  intros b ss n rows Hnd Hin. rewrite rule_names_book, rule_instances_book, (lookup_in_nodup ss n rows Hnd Hin).
  split; [|reflexivity]. change n with (fst (n, rows)). apply in_map. exact Hin.
Qed.
Print Assumptions C03d_every_stored_sheet.

(* every stored table of a Numbers document with distinct sheet names, distinct table names within the sheet and no
   colon in the sheet name *)
Theorem C03d_every_stored_table :
  forall (ss : list (key * list (key * sheet))) (s t : key) (tables : list (key * sheet)) (rows : sheet),
  NoDup (map fst ss) -> In (s, tables) ss -> NoDup (map fst tables) -> In (t, rows) tables ->
  forallb (fun c => negb (c =? 58)%N) s = true ->
  In (s ++ [58; 58]%N ++ t) (sheet_names (C_numbers ss)) /\ wb_instances (C_numbers ss) (s ++ [58; 58]%N ++ t) = Ok rows.
Proof.
  intros ss s t tables rows Hnd Hs Hndt Ht Hcolon.
  destruct C03d_office_glue_identity as [_ Hn]. destruct (Hn ss) as [Hnames Hinst].
  rewrite Hnames, (Hinst s t Hcolon), (lookup_in_nodup ss s tables Hnd Hs), (lookup_in_nodup tables t rows Hndt Ht).
  split; [|reflexivity]. apply in_flat_map. exists (s, tables). split; [exact Hs|].
  change (s ++ [58; 58]%N ++ t) with ((fun x : key * sheet => s ++ [58; 58]%N ++ fst x) (t, rows)).
  apply in_map. exact Ht.
Qed.
Print Assumptions C03d_every_stored_table.

(* the separator sheet_iter writes and the separator instance_iter splits at are the same two colons *)
Theorem C03d_separators : name_sep = [58; 58]%N /\ part_sep = name_sep.
Proof. split; reflexivity. Qed.
Print Assumptions C03d_separators.

(* one cell, one row: whatever the parser holds is what the facade's Row is built on *)
Theorem C03d_cells_unconverted : forall (o : office) (r : row), deliver_row o (glue_of o) r = Ok r.
Proof. exact rule_row. Qed.
Print Assumptions C03d_cells_unconverted.

(* non-vacuity: a book with two sheets holding text, a number, None and an empty row; a Numbers document *)
Definition ex_rows : sheet :=
  [[Txt [104]%N; Txt [105]%N]; [Txt [97]%N; Obj 2 [52; 50]%N]; []; [none_obj; Txt []]].
Definition ex_book : list (key * sheet) := [([83; 49]%N, ex_rows); ([83; 50]%N, [])].
Definition ex_tables : list (key * sheet) := [([84; 49]%N, ex_rows); ([84; 50]%N, [])].
Definition ex_numbers : list (key * list (key * sheet)) :=
  [([83]%N, ex_tables); ([85]%N, [([84; 49]%N, [[Txt [120]%N]])])].

Example C03d_example_domain :
  NoDup (map fst ex_book) /\ In ([83; 49]%N, ex_rows) ex_book
  /\ sheet_names (C_multi B_XLS ex_book) = [[83; 49]; [83; 50]]%N
  /\ wb_instances (C_multi B_XLSX ex_book) [83; 49]%N = Ok ex_rows
  /\ wb_instances (C_multi B_ODS ex_book) [83; 50]%N = Ok []
  /\ wb_instances (C_multi B_ODS ex_book) [83; 51]%N = Err KeyError
  /\ sheet_names (C_numbers ex_numbers) = [[83; 58; 58; 84; 49]; [83; 58; 58; 84; 50]; [85; 58; 58; 84; 49]]%N
  /\ wb_instances (C_numbers ex_numbers) [83; 58; 58; 84; 49]%N = Ok ex_rows
  /\ forallb (fun c => negb (c =? 58)%N) [83]%N = true
  /\ NoDup (map fst ex_numbers) /\ In ([83]%N, ex_tables) ex_numbers
  /\ NoDup (map fst ex_tables) /\ In ([84; 49]%N, ex_rows) ex_tables.
Proof.
  split; [apply NoDup_two; discriminate|].
  split; [left; reflexivity|].
  do 7 (split; [vm_compute; reflexivity|]).
  split; [apply NoDup_two; discriminate|]. split; [left; reflexivity|].
  split; [apply NoDup_two; discriminate|]. left; reflexivity.
Qed.

(* the interpreter means something: other rules give other results.  Each record below is what harness/t1_impl.py
   emits for the edit named beside it; none of them is the identity. *)
Definition k_val : list N := [118; 97; 108; 117; 101]%N.
(* for row in pyxl_sheet.iter_rows(min_row=2) *)
Definition g_min_row_2 : glue := mk_glue NA_names [] [] LK_name (Some 2%Z) None false [] false [] (CE_attr k_val CE_item).
(* [str(cell.value) for cell in row] *)
Definition g_str_value : glue := mk_glue NA_names [] [] LK_name None None false [] false [] (CE_str (CE_attr k_val CE_item)).
(* self.the_file.sheetnames[:-1] *)
Definition g_drop_last : glue :=
  mk_glue NA_names [SO_slice None (Some (-1)%Z) 1] [] LK_name None None false [] false [] (CE_attr k_val CE_item).
(* for row in reversed(list(xlrd_sheet.get_rows())) *)
Definition g_rows_reversed : glue := mk_glue NA_names [] [] LK_name None None false [SO_reversed] false [] (CE_attr k_val CE_item).
(* f"{sheet.name}||{table.name}" with name.partition("::") left as it is *)
Definition g_other_sep : glue :=
  mk_glue (NA_composite [124; 124]%N) [] [] (LK_partition [58; 58]%N) None None false [] false [] (CE_attr k_val CE_item).
(* [cell.value for cell in row] on the plain values pyexcel hands over *)
Definition g_value_of_value : glue := mk_glue NA_names [] [] LK_name None None false [] true [] (CE_attr k_val CE_item).
(* islice(rows, 1, None, 2) and [cell.value for cell in reversed(row)] *)
Definition g_step : glue :=
  mk_glue NA_names [] [] LK_name None None false [SO_slice (Some 1%Z) None 2] false [SO_reversed] (CE_attr k_val CE_item).

Example C03d_example_interpreter :
  deliver (O_book B_XLSX) g_min_row_2 ex_rows = Ok [[Txt [97]%N; Obj 2 [52; 50]%N]; []; [none_obj; Txt []]]
  /\ deliver O_NUMBERS g_min_row_2 ex_rows = Ok [[]; [none_obj; Txt []]]
  /\ deliver (O_book B_XLS) g_str_value ex_rows
     = Ok [[Txt [104]%N; Txt [105]%N]; [Txt [97]%N; Txt [52; 50]%N]; []; [Txt [78; 111; 110; 101]%N; Txt []]]
  /\ names_book g_drop_last ex_book = [[83; 49]%N]
  /\ deliver (O_book B_XLS) g_rows_reversed ex_rows = Ok (rev ex_rows)
  /\ names_numbers g_other_sep ex_numbers = [[83; 124; 124; 84; 49]; [83; 124; 124; 84; 50]; [85; 124; 124; 84; 49]]%N
  /\ instances_numbers g_other_sep ex_numbers [83; 124; 124; 84; 49]%N = Err KeyError
  /\ deliver (O_book B_ODS) g_value_of_value ex_rows = Err AttributeError
  /\ deliver (O_book B_XLS) g_step ex_rows = Ok [[Obj 2 [52; 50]%N; Txt [97]%N]; [Txt []; none_obj]].
Proof. repeat apply conj; vm_compute; reflexivity. Qed.
