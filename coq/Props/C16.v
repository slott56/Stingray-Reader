(* C16 - Conversion helpers restore exactly what the spreadsheet mangled.
   The property theorems; the lemmas are in Proofs/ConversionP.v.

   [digit_string], [decimal_places], [conversion_type] are the models (Model/Conversion.v) of
   stingray.schema_instance.digit_string / decimal_places / CONVERSION as the code is now; the
   CONVERSION table itself is read from the source on every run (Gen/ConversionParams.v).
   [dec] is an exact decimal (sign, coefficient, exponent) - what Decimal(x).as_tuple() reports
   for an int, float, numeric str or Decimal x; strings are lists of code points.
   The predicates [represents], [is_digit], [dval], [fitsb], [closeb], [named_type] are the
   specification (Spec/Conversion.v).  [Ok r] = returned r, [Err e] = raised e.
   A str argument of digit_string (read by int(), not as a decimal), None / bool / nan / inf / Fraction
   arguments, negative digit counts of decimal_places and the CONVERSION entries on values are the
   companion file Props/C16b.v. *)
From Coq Require Import ZArith NArith List Bool Lia.
Import ListNotations.
Require Import SR.Base.Res SR.Spec.Conversion SR.Model.Conversion SR.Proofs.ConversionP.
Open Scope Z_scope.

(* digit_string: any integer 0 <= v < 10^n, however it arrives (int, integral float, integral
   Decimal in any spelling - all are an x with [represents x v]), becomes exactly n decimal digits
   whose value is v.  The bound n <= 4300 is CPython's limit on int -> str conversion. *)
Theorem C16_digit_string : forall (n : nat) (x : dec) (v : Z),
  (1 <= n <= 4300)%nat -> represents x v -> 0 <= v < 10 ^ Z.of_nat n ->
  exists s, digit_string n x = Ok s /\
            length s = n /\ forallb is_digit s = true /\ dval s = v.
Proof.
  intros n x v Hn Hr Hv. rewrite digit_string_shape, (represents_int x v Hr).
  exact (digit_text_exact n v Hn Hv).
Qed.
Print Assumptions C16_digit_string.

(* More generally (any n >= 1, any v >= 0 printable by str): n digits denoting v mod 10^n,
   i.e. values of n digits or more lose their high digits silently.  The correspondence run
   exercises only v < 10^n, so outside that range this is a statement about the model. *)
Theorem C16_digit_string_general : forall (n : nat) (x : dec) (v : Z),
  (1 <= n)%nat -> represents x v -> 0 <= v < 10 ^ max_str_digits ->
  exists s, digit_string n x = Ok s /\
            length s = n /\ forallb is_digit s = true /\ dval s = v mod 10 ^ Z.of_nat n.
Proof.
  intros n x v Hn Hr Hv. rewrite digit_string_shape, (represents_int x v Hr).
  apply digit_text_spec; assumption.
Qed.
Print Assumptions C16_digit_string_general.

(* The bound n <= 4300 in C16_digit_string is needed: Decimal('1E+4300') < 10^4301 raises ValueError. *)
Theorem C16_digit_string_beyond_limit : digit_string 4301 (mkdec false 1 4300) = Err ValueError.
Proof.
  apply digit_string_too_long.
  rewrite int_of_dec_nonneg by (try reflexivity; discriminate).
  cbn [coef dexp]. change (Z.of_N 1) with 1.
  rewrite Z.mul_1_l, Z.abs_eq by (apply Z.pow_nonneg; discriminate).
  apply Z.le_refl.
Qed.
Print Assumptions C16_digit_string_beyond_limit.

(* decimal_places: for every d from 0 up to the 1000026 the default decimal context allows and
   every exact decimal x whose rounded value has at most 28 digits ([fitsb d x]): the result is an
   exact decimal with exponent -d (exactly d fractional digits), within half a unit in the last
   place of x (2*|r - x| <= 10^-d), and applying the helper again returns the same triple. *)
Theorem C16_places : forall (d : Z) (x : dec),
  0 <= d <= 1000026 -> fitsb d x = true ->
  exists r, decimal_places d x = Ok r /\ dexp r = - d /\ closeb d x r = true /\
            decimal_places d r = Ok r.
Proof. exact decimal_places_ok. Qed.
Print Assumptions C16_places.

(* The domain of C16_places is exact: when the rounded value would need more than 28 digits the
   helper raises InvalidOperation instead of returning a value. *)
Theorem C16_places_outside : forall (d : Z) (x : dec),
  0 <= d <= 1000026 -> fitsb d x = false -> decimal_places d x = Err DecimalInvalid.
Proof.
  intros d x Hd Hfit. apply decimal_places_err_ctx; [unfold emax, etiny; lia|].
  rewrite fits_ctx_fitsb by lia. exact Hfit.
Qed.
Print Assumptions C16_places_outside.

(* CONVERSION, the TABLE: every key of the schema vocabulary is present and bound to the constructor
   of the named type (key 0 = None to the identity).  [conversion_type] works on type CODES: it says
   which type a returned value has, not that the call returns - int(None), int('1.5'), Decimal('x')
   raise.  The statement about argument VALUES (returns => named type, and exactly when it raises
   what) is C16_conversion_value_types in Props/C16b.v. *)
Theorem C16_conversion_types : forall key arg : Z,
  In key vocabulary -> conversion_type key arg = Ok (named_type key arg).
Proof. exact conversion_named. Qed.
Print Assumptions C16_conversion_types.

(* Non-vacuity.  1020 as int or float 1020.0 (both (0, 1020, 0)), Decimal('1.02E+3') and
   Decimal('1020.00') all satisfy the hypotheses for n = 5 and give '01020'. *)
Example C16_example_digits :
  represents (mkdec false 1020 0) 1020 /\ represents (mkdec false 102 1) 1020 /\
  represents (mkdec false 102000 (-2)) 1020 /\ 0 <= 1020 < 10 ^ Z.of_nat 5 /\
  digit_string 5 (mkdec false 1020 0) = Ok [48; 49; 48; 50; 48]%N /\
  digit_string 5 (mkdec false 102 1) = Ok [48; 49; 48; 50; 48]%N /\
  digit_string 5 (mkdec false 102000 (-2)) = Ok [48; 49; 48; 50; 48]%N.
Proof. vm_compute. repeat split; try reflexivity; discriminate. Qed.

(* 0.125 to two places is the tie that goes to the even 0.12; -2.5 to zero places is -2;
   7 to three places is 7.000; 9999999999999999999999999999.5 (29 digits after rounding up) is outside [fitsb]. *)
Example C16_example_places :
  fitsb 2 (mkdec false 125 (-3)) = true /\
  decimal_places 2 (mkdec false 125 (-3)) = Ok (mkdec false 12 (-2)) /\
  fitsb 0 (mkdec true 25 (-1)) = true /\
  decimal_places 0 (mkdec true 25 (-1)) = Ok (mkdec true 2 0) /\
  fitsb 3 (mkdec false 7 0) = true /\
  decimal_places 3 (mkdec false 7 0) = Ok (mkdec false 7000 (-3)) /\
  fitsb 0 (mkdec false 99999999999999999999999999995 (-1)) = false /\
  decimal_places 0 (mkdec false 99999999999999999999999999995 (-1)) = Err DecimalInvalid.
Proof. vm_compute. repeat split; reflexivity. Qed.

Example C16_example_conversion : In 3 vocabulary /\ conversion_type 3 T_float = Ok T_int.
Proof. vm_compute. split; [right; right; right; left; reflexivity|reflexivity]. Qed.
