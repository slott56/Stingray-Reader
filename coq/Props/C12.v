(* C12 - Respelling a copybook (layout, case, synonyms, clause order) changes nothing.

   Layer A (this file): universal theorems about the hand-written model (Model/RefFormat.v) of
   reference_format, dde_sentences and DDE.compact_source, i.e. of the part of the property that is
   about card images, comment / blank / directive lines, continuation, REPLACING, line breaks and
   spacing.  A line is the list of its code points (with its line end), a source is a list of lines,
   [Ok out] = the generator yielded the lines out, [Err e] = it raised e.  Vocabulary (Spec/RefFormat.v):
   [seq_variant], [same_code], [same_class], [inserted], [plain_noise], [noise], [groups], [checked],
   [subst_all], [entry], [print_entry], [wf_entry], [layout], [wf_word], [wf_rest].

   Layer B (optional words, synonyms, clause order, separators, case, level renumbering, storage-neutral
   clauses) goes through the clause regular expression, structure(), the schema maker and estruct.  Its Coq
   statements live in companion files.  Props/C12b.v: a model of the clause regular expression, every printed
   entry recognised in every spelling, respelling leaves the clause record unchanged up to the as-written
   fields.  Props/C12c.v, over Model/Structure.v: level renumbering that keeps the nesting gives the same
   forest, the exact condition under which it does, 66/77/88-level entries are transparent.  Props/C12d.v: the
   composition down to layout and decoded values - two printings of the same entries give the same schemas,
   the same place for every path and the same decoded values.  Props/C12e.v: the card-image features of this
   file composed with the whole parser (sequence areas, inserted noise lines, 80-column decks).
   Level: proof, PARTIAL: level renumbering and 88 levels are proved at the forest level (C12c) and not
   composed through the text model; the spellings outside the domain of C12b / C12d are the recorded findings.
   All of it is also checked metamorphically on the real code by harness/c12.py + Judge/JC12.v (equality of
   the two observations).

   Where the faithful model refutes what the property text asks (numbered EJECT/SKIPn lines, indicator
   slash) the full statement is kept as a Definition, its negation is proved, and the proved theorem
   carries the extra hypothesis. *)
From Coq Require Import NArith List Bool.
Import ListNotations.
Require Import SR.Base.Res SR.Model.RefFormat SR.Spec.RefFormat SR.Proofs.RefFormatP.
Open Scope N_scope.

(* ------------------------------------------------------------------ sequence / identification areas *)

(* FULL: changing columns 1-6 and 73+ of any line (same columns 7-72) never changes the output. *)
Definition C12_seq_area_full : Prop :=
  forall src src' repl,
    Forall2 (fun l l' => l = l' \/ only_seq_area l l' \/ same_code l l') src src' ->
    reference_format src repl = reference_format src' repl.

(* REFUTED: the EJECT/SKIPn filter compares the whole stripped line, so numbering a directive line turns it
   into code ("       EJECT" is dropped, "000300 EJECT" is emitted). *)
Theorem C12_seq_area_refuted : ~ C12_seq_area_full.
Proof.
  intro H. destruct seq_area_directive_witness as [W1 W2]. apply W2. apply H. exact W1.
Qed.
Print Assumptions C12_seq_area_refuted.

(* PROVED: ... provided each changed line stays blank / non-blank and stays a bare directive or not
   ([same_class]); lines of fewer than 7 characters may change freely. *)
Theorem C12_seq_area_partial : forall src src' repl,
  Forall2 seq_variant src src' -> reference_format src repl = reference_format src' repl.
Proof. exact seq_area. Qed.
Print Assumptions C12_seq_area_partial.

(* ------------------------------------------------------------------ comment, blank, directive lines *)

(* FULL: inserting noise lines of the reference format (blank, shorter than 7, indicator star / slash / D,
   a listing directive alone in the code area) anywhere changes nothing. *)
Definition C12_comments_full : Prop :=
  forall s s' repl, inserted noise s s' -> reference_format s' repl = reference_format s repl.

Theorem C12_comments_refuted_1 :       (* numbered directive line, finding code 1 *)
  exists s s', inserted noise s s' /\ reference_format s' [] <> reference_format s [].
Proof. exists src_plain, src_num_eject. exact numbered_directive_witness. Qed.
Print Assumptions C12_comments_refuted_1.

Theorem C12_comments_refuted_2 :       (* indicator slash, finding code 2 *)
  exists s s', inserted noise s s' /\ reference_format s' [] <> reference_format s [].
Proof. exists src_plain, src_slash. exact slash_comment_witness. Qed.
Print Assumptions C12_comments_refuted_2.

(* PROVED: the same for the noise the code recognises ([plain_noise]: blank, shorter than 7, the whole
   stripped line is EJECT/SKIP1/SKIP2/SKIP3, indicator star or D) - anywhere, also between a line and its
   continuation line, before the first and after the last line, with any REPLACING list. *)
Theorem C12_comments_partial : forall s s' repl,
  inserted plain_noise s s' -> reference_format s' repl = reference_format s repl.
Proof. exact comments. Qed.
Print Assumptions C12_comments_partial.

(* the three shapes of [plain_noise] lines, by columns *)
Theorem C12_noise_blank : forall l, forallb is_ws l = true -> plain_noise l = true.
Proof. intros l H. unfold plain_noise, blank. rewrite H. reflexivity. Qed.
Print Assumptions C12_noise_blank.

Theorem C12_noise_comment : forall l,
  (7 <= length l)%nat -> (nth 6 l 0 = 42 \/ nth 6 l 0 = 68) -> plain_noise l = true.
Proof.
  intros l Hlen H. unfold plain_noise.
  assert (L : f_long l = true) by (apply PeanoNat.Nat.leb_le; exact Hlen).
  rewrite (col7_indicator l L). unfold indicator.
  destruct H as [H|H]; rewrite H; simpl; rewrite ?orb_true_r; reflexivity.
Qed.
Print Assumptions C12_noise_comment.

Theorem C12_noise_directive : forall a w b,
  forallb is_ws a = true -> forallb is_ws b = true -> In w directives -> plain_noise (a ++ w ++ b) = true.
Proof.
  intros a w b Ha Hb Hw. unfold plain_noise. rewrite (strip_padded a w b Ha Hb).
  assert (D : directive_word (strip w) = true).
  { rewrite directives_eq in Hw. simpl in Hw.
    destruct Hw as [H|[H|[H|[H|H]]]]; try contradiction; subst w; vm_compute; reflexivity. }
  rewrite D. rewrite !orb_true_r. reflexivity.
Qed.
Print Assumptions C12_noise_directive.

(* ------------------------------------------------------------------ continuation *)

(* The output is exactly the list of continuation groups (a code line absorbs the code areas of the
   minus-lines that follow it, nothing stripped); it raises RuntimeError when there is no code line and
   ValueError when a group other than the last starts with COPY. *)
Theorem C12_continuation : forall src repl,
  reference_format src repl = checked (groups (replace_cards repl (cards src))).
Proof. exact continuation. Qed.
Print Assumptions C12_continuation.

(* ------------------------------------------------------------------ REPLACING *)

(* With any REPLACING list without an empty search string: the cards (one per code line) keep their number
   and indicators, and every text has all pairs applied once, in list order, each as a left-to-right
   non-overlapping substitution ([subst_all], Spec).  On the tree before the fix every line was emitted
   once per pair. *)
Theorem C12_replacing : forall src repl, repl_ok repl = true ->
  map fst (replace_cards repl (cards src)) = map fst (cards src) /\
  map snd (replace_cards repl (cards src)) = map (subst_all repl) (map snd (cards src)) /\
  reference_format src repl = join_all (map (fun c => (fst c, subst_all repl (snd c))) (cards src)).
Proof. exact replacing. Qed.
Print Assumptions C12_replacing.

(* ------------------------------------------------------------------ model = reference-format spec *)

(* Outside the two known-bad line shapes the code does what the reference format says. *)
Theorem C12_refformat_spec : forall src repl out,
  known_bad src = false -> spec_reference_format src repl = Some out ->
  reference_format src repl = Ok out.
Proof. exact refformat_spec. Qed.
Print Assumptions C12_refformat_spec.

(* ------------------------------------------------------------------ sentences *)

(* A text made of entries "white space, two digits, white space, body, period, one white-space character"
   whose bodies hold no period followed by white space, however it is cut into lines, is split into exactly
   those (level, body) pairs, in order. *)
Theorem C12_sentences : forall lines es tail,
  forallb wf_entry es = true -> forallb is_ws tail = true ->
  concat lines = concat (map print_entry es) ++ tail ->
  dde_sentences lines = spec_sentences es.
Proof. exact sentences_lines. Qed.
Print Assumptions C12_sentences.

(* ------------------------------------------------------------------ line breaks and spacing *)

(* The same words separated by any non-empty white space (blanks, line ends, padding to column 72) give
   the same compact source text. *)
Theorem C12_spacing : forall w rest rest',
  wf_word w = true -> wf_rest rest -> wf_rest rest' -> map snd rest = map snd rest' ->
  compact (layout w rest) = compact (layout w rest').
Proof. exact line_breaks. Qed.
Print Assumptions C12_spacing.

(* End to end for one entry: two layouts of the same words (no word but the last ending in a period) are
   both recognised as one sentence with the same level and the same compact clause text. *)
Theorem C12_line_breaks : forall e e' w rest rest' tail tail',
  wf_entry e = true -> wf_entry e' = true -> e_d1 e = e_d1 e' -> e_d2 e = e_d2 e' ->
  wf_word w = true -> wf_rest rest -> wf_rest rest' -> map snd rest = map snd rest' ->
  forallb no_dot_end (removelast (w :: map snd rest)) = true ->
  forallb is_ws tail = true -> forallb is_ws tail' = true ->
  exists lv b b',
    dde_sentences [print_entry (with_body e (layout w rest)) ++ tail] = [(lv, b)] /\
    dde_sentences [print_entry (with_body e' (layout w rest')) ++ tail'] = [(lv, b')] /\
    compact b = compact b' /\ compact b = join_sp (w :: map snd rest).
Proof. exact line_breaks_sentences. Qed.
Print Assumptions C12_line_breaks.

(* ------------------------------------------------------------------ non-vacuity *)

(* "       01 X\n" / "      * C\n" / "      -    PIC X.\n" *)
Definition ex_a : line := [32;32;32;32;32;32;32;48;49;32;88;10].
Definition ex_c : line := [32;32;32;32;32;32;42;32;67;10].
Definition ex_b : line := [32;32;32;32;32;32;45;32;32;32;32;80;73;67;32;88;46;10].
Definition ex_a_num : line := [48;48;48;49;48;48;32;48;49;32;88;10].

(* a comment between a line and its continuation is harmless, and the two areas are concatenated *)
Example C12_example_comment_continuation :
  inserted plain_noise [ex_a; ex_b] [ex_a; ex_c; ex_b] /\
  reference_format [ex_a; ex_c; ex_b] [] = Ok [[48;49;32;88;10;32;32;32;32;80;73;67;32;88;46;10]].
Proof.
  split.
  - apply ins_keep. apply ins_add; [vm_compute; reflexivity|]. apply ins_keep. apply ins_nil.
  - vm_compute. reflexivity.
Qed.

Example C12_example_seq_area :
  Forall2 seq_variant [ex_a; ex_b] [ex_a_num; ex_b] /\ reference_format [ex_a_num; ex_b] [] = reference_format [ex_a; ex_b] [].
Proof.
  split.
  - constructor; [|constructor; [left; reflexivity|constructor]].
    right. right. split.
    + exists [32;32;32;32;32;32], [48;48;48;49;48;48], [32;48;49;32;88;10], [], [].
      repeat split; try reflexivity; try discriminate. right. split; reflexivity.
    + split; vm_compute; reflexivity.
  - vm_compute. reflexivity.
Qed.

(* REPLACING with two pairs: 'A' -> AB, then B -> C : one output line, both applied in order *)
Example C12_example_replacing :
  repl_ok [([39;65;39], [65;66]); ([66], [67])] = true /\
  reference_format [[32;32;32;32;32;32;32;48;49;32;39;65;39;46;10]] [([39;65;39], [65;66]); ([66], [67])]
  = Ok [[48;49;32;65;67;46;10]].
Proof. split; vm_compute; reflexivity. Qed.

Example C12_example_spec :
  known_bad [ex_a; ex_c; ex_b] = false /\
  spec_reference_format [ex_a; ex_c; ex_b] [] = Some [[48;49;32;88;10;32;32;32;32;80;73;67;32;88;46;10]].
Proof. split; vm_compute; reflexivity. Qed.

(* "01 A.\n  05 B PIC 9.9.\n" : the period inside the picture does not end the sentence *)
Definition ex_e1 : entry := {| e_lead := []; e_d1 := 48; e_d2 := 49; e_gap := [32]; e_body := [65]; e_term := 10 |}.
Definition ex_e2 : entry := {| e_lead := [32;32]; e_d1 := 48; e_d2 := 53; e_gap := [32];
                               e_body := [66;32;80;73;67;32;57;46;57]; e_term := 10 |}.
Example C12_example_sentences :
  forallb wf_entry [ex_e1; ex_e2] = true /\
  dde_sentences [print_entry ex_e1; print_entry ex_e2] = [([48;49], [65]); ([48;53], [66;32;80;73;67;32;57;46;57])].
Proof. split; vm_compute; reflexivity. Qed.

(* "B PIC X" on one line and "B\n      PIC   X" over two *)
Example C12_example_line_breaks :
  wf_word [66] = true /\ wf_rest [([32], [80;73;67]); ([32], [88])] /\
  wf_rest [([10;32;32;32;32;32;32], [80;73;67]); ([32;32;32], [88])] /\
  forallb no_dot_end (removelast ([66] :: map snd [([32], [80;73;67]); ([32], [88])])) = true /\
  compact (layout [66] [([10;32;32;32;32;32;32], [80;73;67]); ([32;32;32], [88])]) = [66;32;80;73;67;32;88].
Proof.
  split; [reflexivity|]. split; [repeat constructor|]. split; [repeat constructor|].
  split; vm_compute; reflexivity.
Qed.
