(* C10 - Navigation is coherent and lazy: a part of the value is the value of the part.
   The property theorems; the lemmas they rest on are in Proofs/LayoutValueP.v.

   Vocabulary (Model/LayoutValue.v; B = bytes or characters, A = decoded elementary values):
     walkv / vnav_of        LocationMaker.walk / unpacker.nav(schema, instance)
     vnav_name, vnav_index  NDNav.name, NDNav.index       vnav_path  a sequence of both
     vnav_raw               NDNav.raw                     vnav_value NDNav.value (location.value(instance))
     row_values             Row.values
     dec a bytes            unpacker.value(schema of the atom anchored a, bytes): may raise
     vres: None = out of fuel (cyclic $ref chain), Some (Err e) = raised e, Some (Ok x) = returned x
   The DNav and WBNav families return the instance itself from value(); their laws are C15_dnav_value /
   C15_dnav (navigation = plain indexing) and C09_by_name / C09_values (Props/C15.v, Props/C09.v). *)
From Coq Require Import List ZArith Bool Lia.
Import ListNotations.
Require Import SR.Base.Res SR.Spec.Layout SR.Model.Layout SR.Model.LayoutValue SR.Spec.Coherence SR.Proofs.LayoutValueP.
Require SR.Spec.Table SR.Spec.JsonDoc SR.Model.SchemaMaker SR.Proofs.SchemaMakerP SR.Model.HeaderRow SR.Proofs.HeaderRowP.
Require SR.Proofs.LayoutP.
Open Scope nat_scope.

(* name: every location tree, every anchors table, every record, every decoder.
   The whole value of a group decodes EVERY member, also every REDEFINES alternative, so it can raise
   where a part does not: hence the premise that the whole value exists. *)
Theorem C10_commute_name : forall (B A : Type) (dec : option key -> list B -> res A) (r : list B)
    (v v' : vnav) (k : key) (d : list (key * pv A)),
  vnav_value r dec v = Some (Ok (PDict d)) ->
  vnav_name v k = Ok v' ->
  exists x, dlookup k d = Some x /\ vnav_value r dec v' = Some (Ok x).
Proof. exact commute_name. Qed.
Print Assumptions C10_commute_name.

(* Row.values: the values of the top-level properties, in schema order *)
Theorem C10_values : forall (B A : Type) (dec : option key -> list B -> res A) (r : list B)
    (v : vnav) st sz ps (d : list (key * pv A)),
  vn_loc v = WObj st sz ps ->
  vnav_value r dec v = Some (Ok (PDict d)) ->
  map fst d = wkeys ps /\
  exists vs, row_values r dec v = Some (Ok vs) /\ Forall2 (fun k x => dlookup k d = Some x) (wkeys ps) vs.
Proof. exact row_values_whole. Qed.
Print Assumptions C10_values.

(* with distinct property names (a Python dict has no others) that is the list of the dict's values *)
Theorem C10_values_nodup : forall (B A : Type) (dec : option key -> list B -> res A) (r : list B)
    (v : vnav) st sz ps (d : list (key * pv A)),
  vn_loc v = WObj st sz ps -> NoDup (wkeys ps) ->
  vnav_value r dec v = Some (Ok (PDict d)) ->
  row_values r dec v = Some (Ok (map snd d)).
Proof.
  intros B A dec r v st sz ps d Hl Hnd Hv.
  destruct (row_values_whole B A dec r v st sz ps d Hl Hv) as [Hk [vs [Hr HF]]].
  rewrite <- Hk in HF, Hnd. now rewrite (dlookup_nodup A d vs Hnd HF) in Hr.
Qed.
Print Assumptions C10_values_nodup.

(* index: refused at and beyond the item count *)
Theorem C10_index_refused : forall (B : Type) (dcount : list B -> nat) (r : list B) (v : vnav) st sz isz cnt it sch i,
  vn_loc v = WArr st sz isz cnt it sch -> cnt <= i -> vnav_index dcount r v i = Err IndexError.
Proof.
  intros B dcount r v st sz isz cnt it sch i Hl Hi. rewrite vnav_index_unf, Hl. apply Nat.leb_le in Hi. now rewrite Hi.
Qed.
Print Assumptions C10_index_refused.

(* index: whole and part, for every navigator reached from unpacker.nav by names and indices,
   when the items schema has no $ref and no OCCURS DEPENDING ON inside; no condition on the rest of the schema.
   (Items WITH $ref: C10_commute_index below.) *)
Theorem C10_commute_index_partial : forall (B A : Type) (dcount : list B -> nat) (dec : option key -> list B -> res A)
    (r : list B) (s : js) (p : list wstep) (v0 v : vnav) st sz isz cnt it sch (xs : list (pv A)) i,
  vnav_of dcount r s = Ok v0 -> vnav_path dcount r v0 p = Ok v ->
  vn_loc v = WArr st sz isz cnt it sch -> simple sch = true ->
  vnav_value r dec v = Some (Ok (PList xs)) -> i < cnt ->
  exists v' x, vnav_index dcount r v i = Ok v' /\ nth_error xs i = Some x /\ vnav_value r dec v' = Some (Ok x).
Proof.
  intros B A dcount dec r s p v0 v st sz isz cnt it sch xs i H0 Hp.
  apply (commute_index_simple B dcount A dec r). exact (inv_reach B dcount r s p v0 v H0 Hp).
Qed.
Print Assumptions C10_commute_index_partial.

(* index: whole and part, for items that contain $ref (REDEFINES inside a group inside a repeated group).
   cobol_like s (Spec/Coherence.v; a boolean on the schema alone): every $ref is a property of an object and names the
   $anchor of a direct alternative of a oneOf that is an EARLIER property of the same object (what REDEFINES emits),
   and no $anchor occurs twice.  The items schema must not contain OCCURS DEPENDING ON (C10_index_odo_refuted).
   The fuel question is settled inside the proof: registered locations only refer to names registered before them,
   so the fuel of the re-walked item's own anchors table suffices (lemma settled). *)
Theorem C10_commute_index : forall (B A : Type) (dcount : list B -> nat) (dec : option key -> list B -> res A)
    (r : list B) (s : js) (p : list wstep) (v0 v : vnav) st sz isz cnt it sch (xs : list (pv A)) i,
  cobol_like s = true ->
  vnav_of dcount r s = Ok v0 -> vnav_path dcount r v0 p = Ok v ->
  vn_loc v = WArr st sz isz cnt it sch -> odo_free sch = true ->
  vnav_value r dec v = Some (Ok (PList xs)) -> i < cnt ->
  exists v' x, vnav_index dcount r v i = Ok v' /\ nth_error xs i = Some x /\ vnav_value r dec v' = Some (Ok x).
Proof.
  intros B A dcount dec r s p v0 v st sz isz cnt it sch xs i Hc H0 Hp.
  apply (commute_index_J B dcount A dec r). exact (J_reach B dcount r s p v0 v Hc H0 Hp).
Qed.
Print Assumptions C10_commute_index.

(* raw bytes: a child lies inside its parent, and its raw bytes are that slice of the parent's *)
Theorem C10_raw : forall (B : Type) (r : list B) (v v' : vnav),
  wstart (vn_loc v) <= wstart (vn_loc v') -> wend (vn_loc v') <= wend (vn_loc v) ->
  vnav_raw r v' = slice (vnav_raw r v) (wstart (vn_loc v') - wstart (vn_loc v)) (wend (vn_loc v') - wstart (vn_loc v)).
Proof. exact raw_slice. Qed.
Print Assumptions C10_raw.

(* a property that is not a $ref placeholder *)
Theorem C10_raw_name : forall (B : Type) (dcount : list B -> nat) (r : list B) (s : js) (p : list wstep) (v0 v v' : vnav) k,
  vnav_of dcount r s = Ok v0 -> vnav_path dcount r v0 p = Ok v ->
  vnav_name v k = Ok v' -> ref_prop v k = false ->
  wstart (vn_loc v) <= wstart (vn_loc v') /\ wend (vn_loc v') <= wend (vn_loc v) /\
  vnav_raw r v' = slice (vnav_raw r v) (wstart (vn_loc v') - wstart (vn_loc v)) (wend (vn_loc v') - wstart (vn_loc v)).
Proof.
  intros B dcount r s p v0 v v' k H0 Hp Hn Hr.
  destruct (name_inside B dcount r v k v' (inv_reach B dcount r s p v0 v H0 Hp) Hn Hr) as [H1 H2].
  repeat split; try assumption. now apply raw_slice.
Qed.
Print Assumptions C10_raw_name.

(* one occurrence of an item without OCCURS DEPENDING ON inside: occurrence i starts at start + i * item_size,
   has the item size, and its raw bytes are that slice of the table's *)
Theorem C10_raw_index : forall (B : Type) (dcount : list B -> nat) (r : list B) (s : js) (p : list wstep) (v0 v v' : vnav)
    st sz isz cnt it sch i,
  vnav_of dcount r s = Ok v0 -> vnav_path dcount r v0 p = Ok v ->
  vn_loc v = WArr st sz isz cnt it sch -> odo_free sch = true ->
  vnav_index dcount r v i = Ok v' ->
  wstart (vn_loc v') = st + isz * i /\ wsize (vn_loc v') = isz /\
  vnav_raw r v' = slice (vnav_raw r v) (wstart (vn_loc v') - wstart (vn_loc v)) (wend (vn_loc v') - wstart (vn_loc v)).
Proof.
  intros B dcount r s p v0 v v' st sz isz cnt it sch i H0 Hp Hl Hof Hi.
  destruct (index_inside B dcount r v st sz isz cnt it sch i v' (inv_reach B dcount r s p v0 v H0 Hp) Hl Hof Hi)
    as [H1 [H2 [H3 H4]]].
  repeat split; try assumption. now apply raw_slice.
Qed.
Print Assumptions C10_raw_index.

(* every child reached by name, the $ref placeholders (members of a REDEFINES union) included, for cobol_like schemas:
   the alternative a placeholder resolves to lies inside the object that holds the placeholder *)
Theorem C10_raw_name_all : forall (B : Type) (dcount : list B -> nat) (r : list B) (s : js) (p : list wstep) (v0 v v' : vnav) k,
  cobol_like s = true ->
  vnav_of dcount r s = Ok v0 -> vnav_path dcount r v0 p = Ok v ->
  vnav_name v k = Ok v' ->
  wstart (vn_loc v) <= wstart (vn_loc v') /\ wend (vn_loc v') <= wend (vn_loc v) /\
  vnav_raw r v' = slice (vnav_raw r v) (wstart (vn_loc v') - wstart (vn_loc v)) (wend (vn_loc v') - wstart (vn_loc v)).
Proof.
  intros B dcount r s p v0 v v' k Hc H0 Hp Hn.
  destruct (name_inside_all B dcount r v k v' (J_reach B dcount r s p v0 v Hc H0 Hp) Hn) as [H1 H2].
  repeat split; try assumption. now apply raw_slice.
Qed.
Print Assumptions C10_raw_name_all.

(* laziness (non-interference).  v is one navigator, valid for both records (the same location tree:
   that is what agreement on the ODO counters buys; for a schema without ODO the tree does not depend on the
   record at all, C10_tree_fixed).  If the records agree on the bytes of v's own range then value() gives the
   same answer, the exception included: undecodable bytes anywhere else can neither raise nor change it.
   foot_inside v says that value() takes no slice outside [start, end); it is computed from the location tree
   alone.  It is a THEOREM for every location reached in a cobol_like schema (C10_foot_inside), hence for everything
   cobol_parser emits for a well-formed record description (C10_foot_inside_cobol, C10_lazy_cobol), and for schemas
   without $ref and ODO (C10_foot_inside_simple); the judge also evaluates it on every location of every case. *)
Theorem C10_lazy : forall (B A : Type) (dec : option key -> list B -> res A) (r r' : list B) (v : vnav),
  foot_inside v = true ->
  vnav_raw r v = vnav_raw r' v ->
  vnav_value r dec v = vnav_value r' dec v.
Proof. exact lazy_value. Qed.
Print Assumptions C10_lazy.

(* an elementary item: the value is the item's own decoder applied to the item's own raw bytes, nothing else *)
Theorem C10_field : forall (B A : Type) (dec : option key -> list B -> res A) (r : list B) (v : vnav) a st sz,
  vn_loc v = WAtom a st sz ->
  vnav_value r dec v = match dec a (vnav_raw r v) with Ok x => Some (Ok (PAtom x)) | Err e => Some (Err e) end.
Proof. exact atom_value. Qed.
Print Assumptions C10_field.

(* the general frame statement: value() depends on the record only through the slices of its footprint *)
Theorem C10_frame : forall (B A : Type) (dec : option key -> list B -> res A) (r r' : list B) an f l o,
  (forall a b, In (a, b) (wfoot f an l o) -> slice r a b = slice r' a b) ->
  wvalue r dec f an l o = wvalue r' dec f an l o.
Proof. exact frame_wvalue. Qed.
Print Assumptions C10_frame.

(* the fuel only bounds cyclic $ref chains: a result, once defined, is the result for every larger fuel *)
Theorem C10_fuel_stable : forall (B A : Type) (dec : option key -> list B -> res A) (r : list B) an f f' l o x,
  f <= f' -> wvalue r dec f an l o = Some x -> wvalue r dec f' an l o = Some x.
Proof. exact wvalue_mono. Qed.
Print Assumptions C10_fuel_stable.

(* without OCCURS DEPENDING ON the location tree does not depend on the record at all *)
Theorem C10_tree_fixed : forall (B : Type) (dcount : list B -> nat) (r r' : list B) (s : js) st an,
  odo_free s = true -> walkv dcount r s st an = walkv dcount r' s st an.
Proof. intros B dcount r r' s st an H. exact (proj1 (walkv_record_free B dcount r r') s H st an). Qed.
Print Assumptions C10_tree_fixed.

(* with OCCURS DEPENDING ON: two records whose counter fields (the atoms registered under the names the ODO tables
   consult) give the same counts produce the same navigator, locations and anchors alike *)
Theorem C10_tree_counters : forall (B : Type) (dcount : list B -> nat) (r r' : list B) s v,
  vnav_of dcount r s = Ok v ->
  (forall c a cst csz, In c (odo_keys s) -> In (KName c, WAtom a cst csz) (vn_an v) ->
     dcount (slice r cst (cst + csz)) = dcount (slice r' cst (cst + csz))) ->
  vnav_of dcount r' s = Ok v.
Proof. exact nav_counters. Qed.
Print Assumptions C10_tree_counters.

(* for schemas without $ref and ODO every location reached reads inside its own range, so C10_lazy applies *)
Theorem C10_foot_inside_simple : forall (B : Type) (dcount : list B -> nat) (r : list B) s p v0 v,
  simple s = true -> vnav_of dcount r s = Ok v0 -> vnav_path dcount r v0 p = Ok v -> foot_inside v = true.
Proof. exact foot_inside_simple. Qed.
Print Assumptions C10_foot_inside_simple.

(* for cobol_like schemas (with or without OCCURS DEPENDING ON) every location reached reads inside its own range *)
Theorem C10_foot_inside : forall (B : Type) (dcount : list B -> nat) (r : list B) s p v0 v,
  cobol_like s = true -> vnav_of dcount r s = Ok v0 -> vnav_path dcount r v0 p = Ok v -> foot_inside v = true.
Proof.
  intros B dcount r s p v0 v Hc H0 Hp. exact (foot_inside_J B dcount r v (J_reach B dcount r s p v0 v Hc H0 Hp)).
Qed.
Print Assumptions C10_foot_inside.

(* hence laziness without the side condition: a navigator reached in record r, evaluated on any record r' that has the
   same bytes in the navigator's own range, gives the same answer, exceptions included *)
Theorem C10_lazy_cobol_like : forall (B A : Type) (dcount : list B -> nat) (dec : option key -> list B -> res A)
    (r r' : list B) s p v0 v,
  cobol_like s = true -> vnav_of dcount r s = Ok v0 -> vnav_path dcount r v0 p = Ok v ->
  vnav_raw r v = vnav_raw r' v ->
  vnav_value r dec v = vnav_value r' dec v.
Proof.
  intros B A dcount dec r r' s p v0 v Hc H0 Hp. apply lazy_value.
  exact (foot_inside_J B dcount r v (J_reach B dcount r s p v0 v Hc H0 Hp)).
Qed.
Print Assumptions C10_lazy_cobol_like.

(* NDNav.index takes any Python int; index_start_z (Model/LayoutValue.v) evaluates the refusal tests the extractor
   read in the source (Gen/LayoutParams.v: index_refuse_low, index_refuse) on an integer.
   Every negative index is refused with IndexError, whatever the table (fix 08e8809). *)
Theorem C10_negative_index_refused : forall (v : vnav) st sz isz cnt it sch z,
  vn_loc v = WArr st sz isz cnt it sch -> (z < 0)%Z ->
  index_start_z v z = Err IndexError.
Proof.
  intros v st sz isz cnt it sch z Hl Hz. rewrite index_start_z_unf, Hl. apply Z.ltb_lt in Hz. now rewrite Hz.
Qed.
Print Assumptions C10_negative_index_refused.

(* an index is accepted exactly when 0 <= index < item_count *)
Theorem C10_index_accepted_iff : forall (v : vnav) st sz isz cnt it sch z,
  vn_loc v = WArr st sz isz cnt it sch ->
  (index_start_z v z <> Err IndexError <-> (0 <= z < Z.of_nat cnt)%Z).
Proof.
  intros v st sz isz cnt it sch z Hl. rewrite index_start_z_unf, Hl.
  destruct (Z.ltb_spec z 0) as [H0|H0]; cbn [orb]; [split; [intros E; now elim E|lia]|].
  destruct (Z.leb_spec (Z.of_nat cnt) z) as [H1|H1]; [split; [intros E; now elim E|lia]|].
  split; [lia|discriminate].
Qed.
Print Assumptions C10_index_accepted_iff.

(* What fix 08e8809 repaired (finding K-negative-index): with the single test index >= item_count of the original
   source (no test against 0) a negative index is NOT refused, and the occurrence is walked from a start BEFORE the
   table. *)
Theorem C10_negative_index_old_refuted : forall (v : vnav) st sz isz cnt it sch z,
  vn_loc v = WArr st sz isz cnt it sch -> (z < 0)%Z ->
  index_start_with None (Some LayoutRule.CmpGe) v z = Ok (Z.of_nat st + Z.of_nat isz * z)%Z.
Proof.
  intros v st sz isz cnt it sch z Hl Hz. rewrite index_start_old_unf, Hl.
  destruct (Z.leb_spec (Z.of_nat cnt) z); [lia|reflexivity].
Qed.
Print Assumptions C10_negative_index_old_refuted.

(* on natural numbers index_start_z is where vnav_index walks *)
Theorem C10_index_start : forall (v : vnav) st sz isz cnt it sch i,
  vn_loc v = WArr st sz isz cnt it sch -> i < cnt ->
  index_start_z v (Z.of_nat i) = Ok (Z.of_nat (st + isz * i)).
Proof.
  intros v st sz isz cnt it sch i Hl Hi. rewrite index_start_z_unf, Hl.
  destruct (Z.ltb_spec (Z.of_nat i) 0); [lia|]. destruct (Z.leb_spec (Z.of_nat cnt) (Z.of_nat i)); [lia|]. cbn [orb]. f_equal. lia.
Qed.
Print Assumptions C10_index_start.

(* examples (non-vacuity and refutations) *)
(* 01 R. 05 A PIC X(2). 05 T OCCURS 2. 10 B PIC X. 10 C PIC X(2). 05 D PIC X(3). 05 E REDEFINES D PIC X(3).
   ids: R=1 A=2 T=3 B=4 C=5 D=6 E=7.  Bytes are numbers; the decoder rejects a field containing 99. *)
Definition ex_tree : item :=
  Group 1%N Once None
    (ICons (Elem 2%N 2 Once None)
    (ICons (Group 3%N (Times 2) None (ICons (Elem 4%N 1 Once None) (ICons (Elem 5%N 2 Once None) INil)))
    (ICons (Elem 6%N 3 Once None)
    (ICons (Elem 7%N 3 Once (Some 6%N)) INil)))).
Definition ex_dec (a : option key) (bs : list nat) : res (list nat) :=
  if existsb (Nat.eqb 99) bs then Err ValueError else Ok bs.
Definition ex_dcount (bs : list nat) : nat := 0.
Definition ex_r : list nat := [10; 11; 12; 13; 14; 15; 16; 17; 18; 19; 20].
Definition ex_bad : list nat := [10; 11; 12; 13; 14; 15; 99; 17; 18; 19; 20].     (* C of the second occurrence *)
Definition ex_nav (r : list nat) : res vnav := vnav_of ex_dcount r (build ex_tree).
Definition ex_at (r : list nat) (p : list wstep) : res vnav :=
  match ex_nav r with Ok v => vnav_path ex_dcount r v p | Err e => Err e end.
Definition ex_val (r : list nat) (p : list wstep) : vres (pv (list nat)) :=
  match ex_at r p with Ok v => vnav_value r ex_dec v | Err e => Some (Err e) end.

Example C10_example_whole :
  ex_val ex_r [] = Some (Ok (PDict
    [(KName 2%N, PAtom [10; 11]);
     (KName 3%N, PList [PDict [(KName 4%N, PAtom [12]); (KName 5%N, PAtom [13; 14])];
                        PDict [(KName 4%N, PAtom [15]); (KName 5%N, PAtom [16; 17])]]);
     (KRedef 6%N, PAtom [18; 19; 20]);
     (KName 6%N, PAtom [18; 19; 20]);
     (KName 7%N, PAtom [18; 19; 20])])).
Proof. vm_compute. reflexivity. Qed.

(* hypotheses of C10_commute_name, C10_values, C10_commute_index_partial, C10_raw_name, C10_raw_index hold here *)
Example C10_example_parts :
  ex_val ex_r [SKey (KName 3%N); SIdx 1; SKey (KName 5%N)] = Some (Ok (PAtom [16; 17]))
  /\ ex_val ex_r [SKey (KName 7%N)] = Some (Ok (PAtom [18; 19; 20]))
  /\ (match ex_at ex_r [SKey (KName 3%N)] with
      | Ok v => match vn_loc v with WArr _ _ _ cnt _ sch => simple sch && (cnt =? 2) | _ => false end
      | Err _ => false end) = true
  /\ (match ex_at ex_r [] with Ok v => ref_prop v (KName 2%N) | Err _ => true end) = false
  /\ (match ex_nav ex_r with Ok v => row_values ex_r ex_dec v | Err e => Some (Err e) end)
     = Some (Ok [PAtom [10; 11];
                 PList [PDict [(KName 4%N, PAtom [12]); (KName 5%N, PAtom [13; 14])];
                        PDict [(KName 4%N, PAtom [15]); (KName 5%N, PAtom [16; 17])]];
                 PAtom [18; 19; 20]; PAtom [18; 19; 20]; PAtom [18; 19; 20]]).
Proof. vm_compute. repeat split; reflexivity. Qed.

(* laziness: with one undecodable byte the whole record value raises, every other field still reads, the same
   location trees are built, foot_inside holds, and the refused index is refused *)
Example C10_example_lazy :
  ex_val ex_bad [] = Some (Err ValueError)
  /\ ex_val ex_bad [SKey (KName 3%N); SIdx 1; SKey (KName 5%N)] = Some (Err ValueError)
  /\ ex_val ex_bad [SKey (KName 3%N); SIdx 1; SKey (KName 4%N)] = Some (Ok (PAtom [15]))
  /\ ex_val ex_bad [SKey (KName 3%N); SIdx 0] = ex_val ex_r [SKey (KName 3%N); SIdx 0]
  /\ ex_at ex_bad [SKey (KName 3%N); SIdx 0] = ex_at ex_r [SKey (KName 3%N); SIdx 0]
  /\ (match ex_at ex_r [SKey (KName 3%N); SIdx 0] with Ok v => foot_inside v | Err _ => false end) = true
  /\ (match ex_at ex_r [] with Ok v => foot_inside v | Err _ => false end) = true
  /\ ex_at ex_r [SKey (KName 3%N); SIdx 2] = Err IndexError.
Proof. vm_compute. repeat split; reflexivity. Qed.

(* C10_tree_counters and C10_lazy together on the ODO record below: the records 1 21 22 and 1 99 22 agree on the
   counter, so they give the same navigator; the second holds an undecodable byte in the first occurrence of G,
   the second occurrence reads the same in both *)
Example C10_example_counters :
  vnav_of (fun bs => match bs with [n] => n | _ => 0 end) [1; 21; 22]
    (build (Group 1%N Once None (ICons (Elem 2%N 1 Once None) (ICons (Elem 4%N 1 (Odo 2%N) None) INil))))
  = vnav_of (fun bs => match bs with [n] => n | _ => 0 end) [1; 99; 22]
    (build (Group 1%N Once None (ICons (Elem 2%N 1 Once None) (ICons (Elem 4%N 1 (Odo 2%N) None) INil))))
  /\ odo_keys (build (Group 1%N Once None (ICons (Elem 2%N 1 Once None) (ICons (Elem 4%N 1 (Odo 2%N) None) INil)))) = [2%N].
Proof. vm_compute. split; reflexivity. Qed.

(* index(-1) on the table T (start 2, item size 3, 2 occurrences) is refused; index(1) is walked from 5; with the
   tests of the original source index(-1) was walked from start -1 *)
Example C10_negative_index_example :
  (match ex_at ex_r [SKey (KName 3%N)] with Ok v => index_start_z v (-1) | Err e => Err e end) = Err IndexError
  /\ (match ex_at ex_r [SKey (KName 3%N)] with Ok v => index_start_z v 1 | Err e => Err e end) = Ok 5%Z
  /\ (match ex_at ex_r [SKey (KName 3%N)] with
      | Ok v => index_start_with None (Some LayoutRule.CmpGe) v (-1) | Err e => Err e end) = Ok (-1)%Z.
Proof. vm_compute. repeat split; reflexivity. Qed.

(* K-index-odo-value: 01 R. 05 N PIC 9. 05 G OCCURS 2. 10 T OCCURS DEPENDING ON N PIC X.
   The whole value of G exists, G.index(0) raises KeyError: commutation fails (the items schema of G is not closed) *)
Definition ex_odo_tree : item :=
  Group 1%N Once None
    (ICons (Elem 2%N 1 Once None)
    (ICons (Group 3%N (Times 2) None (ICons (Elem 4%N 1 (Odo 2%N) None) INil)) INil)).
Definition ex_odo_dcount (bs : list nat) : nat := match bs with [n] => n | _ => 0 end.
Example C10_index_odo_refuted :
  match vnav_of ex_odo_dcount [1; 21; 22] (build ex_odo_tree) with
  | Ok v0 =>
      match vnav_name v0 (KName 3%N) with
      | Ok v =>
          vnav_value [1; 21; 22] ex_dec v
            = Some (Ok (PList [PDict [(KName 4%N, PList [PDict [(KName 4%N, PAtom [21])]])];
                               PDict [(KName 4%N, PList [PDict [(KName 4%N, PAtom [22])]])]]))
          /\ vnav_index ex_odo_dcount [1; 21; 22] v 0 = Err KeyError
      | Err _ => False
      end
  | Err _ => False
  end.
Proof. vm_compute. split; reflexivity. Qed.

(* COBOL-built schemas of well-formed record descriptions.
   SR.Proofs.LayoutP.wf e t and NoDup (ids t) are C01's hypotheses: no OCCURS DEPENDING ON, every REDEFINES names an
   earlier non-redefining sibling no shorter than itself, no elementary OCCURS item in a union, no REDEFINES directly
   inside a repeated group, item ids distinct.  For these the side conditions above are theorems, so whole-versus-part
   for indices, containment of every child and laziness hold with no hypothesis left about the schema. *)
Theorem C10_cobol_like_built : forall (e : env) (t : item),
  SR.Proofs.LayoutP.wf e t = true -> NoDup (SR.Proofs.LayoutP.ids t) -> cobol_like (build t) = true.
Proof. exact cobol_like_build. Qed.
Print Assumptions C10_cobol_like_built.

Theorem C10_commute_index_cobol : forall (B : Type) (dcount : list B -> nat) (A : Type) (dec : option key -> list B -> res A)
    (r : list B) (e : env) (t : item) (p : list wstep) (v0 v : vnav) st sz isz cnt it sch (xs : list (pv A)) i,
  SR.Proofs.LayoutP.wf e t = true -> NoDup (SR.Proofs.LayoutP.ids t) ->
  vnav_of dcount r (build t) = Ok v0 -> vnav_path dcount r v0 p = Ok v ->
  vn_loc v = WArr st sz isz cnt it sch ->
  vnav_value r dec v = Some (Ok (PList xs)) -> i < cnt ->
  exists v' x, vnav_index dcount r v i = Ok v' /\ nth_error xs i = Some x /\ vnav_value r dec v' = Some (Ok x).
Proof.
  intros B dcount A dec r e t p v0 v st sz isz cnt it sch xs i Hw Hnd H0 Hp Hl.
  destruct (J_cobol B dcount r e t p v0 v Hw Hnd H0 Hp) as [Hj [Ho _]].
  apply (commute_index_J B dcount A dec r v st sz isz cnt it sch xs i Hj Hl).
  rewrite Hl in Ho. apply andb_prop in Ho. exact (proj1 Ho).
Qed.
Print Assumptions C10_commute_index_cobol.

Theorem C10_raw_name_cobol : forall (B : Type) (dcount : list B -> nat) (r : list B) (e : env) (t : item) (p : list wstep) (v0 v v' : vnav) k,
  SR.Proofs.LayoutP.wf e t = true -> NoDup (SR.Proofs.LayoutP.ids t) ->
  vnav_of dcount r (build t) = Ok v0 -> vnav_path dcount r v0 p = Ok v -> vnav_name v k = Ok v' ->
  wstart (vn_loc v) <= wstart (vn_loc v') /\ wend (vn_loc v') <= wend (vn_loc v) /\
  vnav_raw r v' = slice (vnav_raw r v) (wstart (vn_loc v') - wstart (vn_loc v)) (wend (vn_loc v') - wstart (vn_loc v)).
Proof.
  intros B dcount r e t p v0 v v' k Hw Hnd H0 Hp Hn.
  destruct (name_inside_all B dcount r v k v' (proj1 (J_cobol B dcount r e t p v0 v Hw Hnd H0 Hp)) Hn) as [H1 H2].
  repeat split; try assumption. now apply raw_slice.
Qed.
Print Assumptions C10_raw_name_cobol.

Theorem C10_raw_index_cobol : forall (B : Type) (dcount : list B -> nat) (r : list B) (e : env) (t : item) (p : list wstep) (v0 v v' : vnav)
    st sz isz cnt it sch i,
  SR.Proofs.LayoutP.wf e t = true -> NoDup (SR.Proofs.LayoutP.ids t) ->
  vnav_of dcount r (build t) = Ok v0 -> vnav_path dcount r v0 p = Ok v ->
  vn_loc v = WArr st sz isz cnt it sch -> vnav_index dcount r v i = Ok v' ->
  wstart (vn_loc v') = st + isz * i /\ wsize (vn_loc v') = isz /\
  vnav_raw r v' = slice (vnav_raw r v) (wstart (vn_loc v') - wstart (vn_loc v)) (wend (vn_loc v') - wstart (vn_loc v)).
Proof.
  intros B dcount r e t p v0 v v' st sz isz cnt it sch i Hw Hnd H0 Hp Hl Hi.
  destruct (J_cobol B dcount r e t p v0 v Hw Hnd H0 Hp) as [[Hinv _] [Ho _]]. rewrite Hl in Ho. apply andb_prop in Ho.
  destruct (index_inside B dcount r v st sz isz cnt it sch i v' Hinv Hl (proj1 Ho) Hi) as [H1 [H2 [H3 H4]]].
  repeat split; try assumption. now apply raw_slice.
Qed.
Print Assumptions C10_raw_index_cobol.

Theorem C10_foot_inside_cobol : forall (B : Type) (dcount : list B -> nat) (r : list B) (e : env) (t : item) (p : list wstep) (v0 v : vnav),
  SR.Proofs.LayoutP.wf e t = true -> NoDup (SR.Proofs.LayoutP.ids t) ->
  vnav_of dcount r (build t) = Ok v0 -> vnav_path dcount r v0 p = Ok v -> foot_inside v = true.
Proof.
  intros B dcount r e t p v0 v Hw Hnd H0 Hp. exact (foot_inside_J B dcount r v (proj1 (J_cobol B dcount r e t p v0 v Hw Hnd H0 Hp))).
Qed.
Print Assumptions C10_foot_inside_cobol.

(* laziness, unconditionally: undecodable bytes outside a location's own range can neither raise nor change its value *)
Theorem C10_lazy_cobol : forall (B : Type) (dcount : list B -> nat) (A : Type) (dec : option key -> list B -> res A)
    (r : list B) (e : env) (r' : list B) (t : item) (p : list wstep) (v0 v : vnav),
  SR.Proofs.LayoutP.wf e t = true -> NoDup (SR.Proofs.LayoutP.ids t) ->
  vnav_of dcount r (build t) = Ok v0 -> vnav_path dcount r v0 p = Ok v ->
  vnav_raw r v = vnav_raw r' v ->
  vnav_value r dec v = vnav_value r' dec v.
Proof.
  intros B dcount A dec r e r' t p v0 v Hw Hnd H0 Hp. apply lazy_value.
  exact (foot_inside_J B dcount r v (proj1 (J_cobol B dcount r e t p v0 v Hw Hnd H0 Hp))).
Qed.
Print Assumptions C10_lazy_cobol.

(* non-vacuity: 01 R. 05 T OCCURS 2. 10 G. 15 B. 20 X PIC X(2). 20 Y REDEFINES X PIC X. 15 C REDEFINES B. 20 P PIC X(2).
   20 Q REDEFINES P PIC X(2).   (ids R=1 T=2 G=3 B=4 X=5 Y=6 C=7 P=8 Q=9): REDEFINES, two levels deep, inside a table *)
Definition ex_cobol : item :=
  Group 1%N Once None (ICons (Group 2%N (Times 2) None (ICons (Group 3%N Once None
    (ICons (Group 4%N Once None (ICons (Elem 5%N 2 Once None) (ICons (Elem 6%N 1 Once (Some 5%N)) INil)))
    (ICons (Group 7%N Once (Some 4%N) (ICons (Elem 8%N 2 Once None) (ICons (Elem 9%N 2 Once (Some 8%N)) INil))) INil))) INil)) INil).
Example C10_example_cobol_wf : SR.Proofs.LayoutP.wf (fun _ => 0) ex_cobol = true /\ cobol_like (build ex_cobol) = true.
Proof. vm_compute. split; reflexivity. Qed.
Example C10_example_cobol_ids : NoDup (SR.Proofs.LayoutP.ids ex_cobol).
Proof. vm_compute. repeat constructor; simpl; intuition discriminate. Qed.
Example C10_example_cobol_index :
  match vnav_of ex_dcount [1; 2; 3; 4] (build ex_cobol) with
  | Ok v0 =>
      match vnav_name v0 (KName 2%N) with
      | Ok v =>
          match vnav_value [1; 2; 3; 4] ex_dec v, vnav_index ex_dcount [1; 2; 3; 4] v 1 with
          | Some (Ok (PList [_; x1])), Ok v1 => vnav_value [1; 2; 3; 4] ex_dec v1 = Some (Ok x1)
          | _, _ => False
          end
      | Err _ => False
      end
  | Err _ => False
  end.
Proof. vm_compute. reflexivity. Qed.

(* the tie to C01's layout model:
   forgetting the atom annotation turns walkv / vnav_name / vnav_index / vnav_raw into walk / nav_name / nav_index /
   nav_raw of Model/Layout.v, so C01's theorems about starts and ends speak about these locations *)
Theorem C10_extends_C01 : forall (B : Type) (dcount : list B -> nat) (r : list B),
  (forall s, nav_of dcount r s = erase_rnav (vnav_of dcount r s))
  /\ (forall v k, nav_name (erase_nav v) k = erase_rnav (vnav_name v k))
  /\ (forall v i, nav_index dcount r (erase_nav v) i = erase_rnav (vnav_index dcount r v i))
  /\ (forall v, nav_raw r (erase_nav v) = vnav_raw r v).
Proof.
  intros B dcount r. repeat split.
  - apply nav_of_erase.
  - apply nav_name_erase.
  - apply nav_index_erase.
  - apply nav_raw_erase.
Qed.
Print Assumptions C10_extends_C01.

(* the other two navigator families.
   DNav.value() and WBNav.value() return the instance itself, so whole-versus-part reads
   value(path p nav) = instance indexed by p.  These are C15's and C09's lemmas, restated. *)
(* DNav: whatever navigation by names and indices returns is what plain indexing of the document returns *)
Theorem C10_dnav : forall root v p x,
  SR.Model.SchemaMaker.nav_value root v p = Ok x -> SR.Spec.JsonDoc.index_json v p = Ok x.
Proof. exact SR.Proofs.SchemaMakerP.nav_value_sound. Qed.
Print Assumptions C10_dnav.

Theorem C10_wbnav_name : forall (h : SR.Model.HeaderRow.row) (body : SR.Model.HeaderRow.sheet) pre os rows,
  SR.Model.HeaderRow.row_iter SR.Model.HeaderRow.HeadingRow pre (h :: body) = Ok (os, rows) ->
  NoDup (map SR.Model.HeaderRow.str_of h) ->
  exists s, os = Some s /\
    forall (r : SR.Model.HeaderRow.row) (i : nat) (c : SR.Model.HeaderRow.cell),
      nth_error h i = Some c -> SR.Model.HeaderRow.nav_name s (SR.Model.HeaderRow.str_of c) r = Ok (nth_error r i).
Proof. exact SR.Proofs.HeaderRowP.by_name_table. Qed.
Print Assumptions C10_wbnav_name.

Theorem C10_wbnav_values : forall (h : SR.Model.HeaderRow.row) (body : SR.Model.HeaderRow.sheet) pre os rows,
  SR.Model.HeaderRow.row_iter SR.Model.HeaderRow.HeadingRow pre (h :: body) = Ok (os, rows) ->
  NoDup (map SR.Model.HeaderRow.str_of h) ->
  exists s, os = Some s /\
    forall r : SR.Model.HeaderRow.row,
      SR.Model.HeaderRow.values s r = Ok (SR.Spec.Table.cells_in_header_order (length h) r).
Proof. exact SR.Proofs.HeaderRowP.values_table. Qed.
Print Assumptions C10_wbnav_values.
