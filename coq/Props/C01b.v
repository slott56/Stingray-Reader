(* C01b - C01 composed with C02: what is stored in a record is what navigation returns.
   "each data item ... is taken from exactly the bytes the record description assigns it" (C01), and the bytes a
   mainframe stores for a value decode to that value (C02), hence: the value a COBOL program moved into an elementary
   occurrence is the value NDNav.value() delivers for the path to that occurrence.
   Property theorems here; the lemmas they rest on are in Proofs/RecordP.v, which uses C01_layout (layout_correct),
   C10_extends_C01 (nav_of_erase, nav_name_erase, nav_index_erase, nav_raw_erase), C10_field (atom_value),
   C10_cobol_like_built (cobol_like_build) and C02's four round-trip theorems (C02_packed, C02_zoned, C02_binary,
   C02_text); C01b_group_value adds C10_commute_name (commute_name).

   Vocabulary.
     t : item, e : env, wf, ids, build, spec_nav          as in Props/C01.v (no OCCURS DEPENDING ON: e is irrelevant)
     kd : kinds                                            USAGE / PICTURE of every elementary item, by item id (Spec/Record.v):
                                                           KPacked u s m n | KZoned s m n | KBinary u s m n  for S?9(m)V9(n), KText k for X(k)
     vals : assignment                                     a value for every navigation path to an elementary occurrence:
                                                           FNum digits sign-nibble | FInt z | FTxt code-points
     spec_record kd vals e t                               the record a COBOL program writes: Spec/Encode.v's encoders laid end to
                                                           end by Spec/Layout.v's rules; an item that REDEFINES another owns no
                                                           storage, the record is built from the base items
     record_ok kd vals e t  (boolean)                      for every elementary occurrence that owns storage:
         kind_ok   the width the record description gives the item is the width Spec/Encode.v lists for its kind, the usage
                   spelling belongs to its family, at most 28 digit positions (C02's bound; K-packed-prec lies beyond),
                   binary 1-18 digits.  C04's known-bad family K-signed-binary-size (S9(4) COMP laid out in 4 bytes) is outside
                   kind_ok: there the record description's width is not the property's width.
         val_ok    digits only and no more of them than the picture has (the field is zero filled on the left), a valid
                   sign nibble (C F A E D B); an integer within the field's two's-complement range; a text of the field's
                   length in characters of code page 037
     elem_at e t p = Some (i, sz, st)  (computed)          the path p leads to an elementary occurrence of item i:
                                                           a plain item, or  T, j, T  for occurrence j of an elementary table T
     own_storage e (VItem t) 0 p  (boolean)                no step of p enters an item that REDEFINES another
     value_at kd dcount r (build t) p                      unpacker.nav(schema, r), then name / index along p, then value(), with
                                                           the per-atom decoder field_dec kd = estruct.unpack on the item's own
                                                           USAGE and PICTURE (Model/RecordValue.v; Judge/JC10.v dec_of)
     stored k v, py_of                                     the exact Decimal with the picture's scale / the int / the text

   The known findings K-pad-nibble and K-sign-position (C18: a buffer of the field's width can hold one digit position more
   than the picture) do not enter: the specification's encoders write a zero pad nibble, and for a signed DISPLAY item - whose
   width, in Spec/Encode.v as in the code, counts the S - a zero in the position of the S; what is stored has at most the
   picture's digits, and that is what is read.  dcount (decoding of OCCURS DEPENDING ON counters) is arbitrary: wf has none. *)
From Coq Require Import List ZArith.
Import ListNotations.
Require Import SR.Base.Res SR.Base.Dec SR.Spec.Layout SR.Spec.Encode SR.Spec.Record SR.Model.Layout SR.Model.Estruct
  SR.Model.LayoutValue SR.Model.RecordValue SR.Spec.Coherence SR.Proofs.RecordP.
Require SR.Proofs.LayoutP SR.Proofs.LayoutOdoP SR.Proofs.LayoutValueP SR.Proofs.LayoutValueOdoP.
Open Scope nat_scope.

Theorem C01b_stored_is_read : forall (dcount : list N -> nat) (kd : kinds) (vals : assignment) (e : env) (t : item),
  SR.Proofs.LayoutP.wf e t = true -> NoDup (SR.Proofs.LayoutP.ids t) -> record_ok kd vals e t = true ->
  forall p i sz st, elem_at e t p = Some (i, sz, st) -> own_storage e (VItem t) 0 p = true ->
    value_at kd dcount (spec_record kd vals e t) (build t) p = Some (Ok (PAtom (py_of (stored (kd i) (vals p))))).
Proof. exact stored_is_read. Qed.
Print Assumptions C01b_stored_is_read.

(* the field itself: the record holds, at the specification's place of the occurrence, the encoding of the assigned value *)
Theorem C01b_record_field : forall (kd : kinds) (vals : assignment) (e : env) (t : item) p i sz st,
  record_ok kd vals e t = true -> own_storage e (VItem t) 0 p = true -> elem_at e t p = Some (i, sz, st) ->
  slice (spec_record kd vals e t) st (st + sz) = enc_field (kd i) (vals p)
  /\ kind_ok (kd i) sz = true /\ val_ok (kd i) (vals p) = true.
Proof. exact record_field. Qed.
Print Assumptions C01b_record_field.

(* and the record has the specification's length *)
Theorem C01b_record_length : forall (kd : kinds) (vals : assignment) (e : env) (t : item),
  record_ok kd vals e t = true -> length (spec_record kd vals e t) = extent e t.
Proof. intros kd vals e t. exact (proj1 (length_rec kd vals e) t []). Qed.
Print Assumptions C01b_record_length.

(* whole group: where value() of a group (or of the record: p = []) exists, it holds the assigned value under the name of
   every elementary child that owns its storage.  The premise is needed: value() of a group decodes every member, the
   REDEFINES alternatives included, and can raise where the part does not (Props/C10.v). *)
Theorem C01b_group_value : forall (dcount : list N -> nat) (kd : kinds) (vals : assignment) (e : env) (t : item),
  SR.Proofs.LayoutP.wf e t = true -> NoDup (SR.Proofs.LayoutP.ids t) -> record_ok kd vals e t = true ->
  forall p k d i sz st,
    value_at kd dcount (spec_record kd vals e t) (build t) p = Some (Ok (PDict d)) ->
    elem_at e t (p ++ [PName k]) = Some (i, sz, st) -> own_storage e (VItem t) 0 (p ++ [PName k]) = true ->
    dlookup (KName k) d = Some (PAtom (py_of (stored (kd i) (vals (p ++ [PName k]))))).
Proof.
  intros dcount kd vals e t Hwf Hnd Hok p k d i sz st Hwhole Hat Hown.
  pose proof (stored_is_read dcount kd vals e t Hwf Hnd Hok _ i sz st Hat Hown) as Hpart.
  unfold value_at in *. destruct (vnav_of dcount (spec_record kd vals e t) (build t)) as [w0|ex]; [|discriminate].
  unfold wpath in Hpart. rewrite map_app in Hpart. fold (wpath p) in Hpart. rewrite SR.Proofs.LayoutValueP.vnav_path_app in Hpart.
  destruct (vnav_path dcount (spec_record kd vals e t) w0 (wpath p)) as [v|ex]; [|discriminate].
  cbn [map wstep_of_step vnav_path vnav_step] in Hpart.
  destruct (vnav_name v (KName k)) as [v'|ex] eqn:En; [|discriminate].
  destruct (SR.Proofs.LayoutValueP.commute_name N pyval (field_dec kd) _ v v' (KName k) d Hwhole En) as [x [Hx Hv]].
  rewrite Hv in Hpart. inversion Hpart; subst x. exact Hx.
Qed.
Print Assumptions C01b_group_value.

(* C06's general form: OCCURS DEPENDING ON tables
   anywhere a non-repeated item may stand (wfo, Props/C06.v C06_layout).  e is the count vector; the record built from the
   assignment must carry it: Holds says that the bytes at the place of every non-repeated elementary item outside REDEFINES
   unions decode (dcount) to e(item) - for the counters that is "the assigned counter value is the count the tables were laid
   out with"; for the other items it constrains nothing (e is consulted at counters only).  The first form takes the
   uniqueness of anchors as a boolean hypothesis on the emitted schema and depends on Proofs/RecordP.v only; for wfo that
   hypothesis is a theorem (Proofs/LayoutValueOdoP.v), which gives the form without it. *)
Theorem C01b_stored_is_read_odo_partial : forall (dcount : list N -> nat) (kd : kinds) (vals : assignment) (e : env) (t : item),
  SR.Proofs.LayoutOdoP.wfo e [] t = true -> NoDup (SR.Proofs.LayoutP.ids t) -> uniq_keys (build t) = true ->
  record_ok kd vals e t = true ->
  SR.Proofs.LayoutOdoP.Holds N dcount (spec_record kd vals e t) e t 0 ->
  forall p i sz st, elem_at e t p = Some (i, sz, st) -> own_storage e (VItem t) 0 p = true ->
    value_at kd dcount (spec_record kd vals e t) (build t) p = Some (Ok (PAtom (py_of (stored (kd i) (vals p))))).
Proof.
  intros dcount kd vals e t Hwf Hnd Hu Hok Hh. unfold uniq_keys in Hu. apply SR.Proofs.LayoutValueP.nodupk_NoDup in Hu.
  apply (compose dcount kd vals e t (or_intror (ex_intro _ [] Hwf)) Hnd Hu Hok).
  destruct (SR.Proofs.LayoutOdoP.layout_correct_odo N dcount (spec_record kd vals e t) e t Hwf Hnd Hh) as [v0 [H0 [_ [_ Hpaths]]]].
  exists v0. split; [exact H0|]. intros p v st Hs. destruct (Hpaths p v st Hs) as [nv [H1 [_ [_ [H2 _]]]]]. eauto.
Qed.
Print Assumptions C01b_stored_is_read_odo_partial.

(* no $anchor occurs twice: half of C10c_cobol_like_built_odo *)
Theorem C01b_uniq_keys_odo : forall (e : env) (t : item),
  SR.Proofs.LayoutOdoP.wfo e [] t = true -> NoDup (SR.Proofs.LayoutP.ids t) -> uniq_keys (build t) = true.
Proof.
  intros e t Hw Hnd. pose proof (SR.Proofs.LayoutValueOdoP.cobol_like_build_o e [] t Hw Hnd) as H.
  apply andb_prop in H. exact (proj2 H).
Qed.
Print Assumptions C01b_uniq_keys_odo.

Theorem C01b_stored_is_read_odo : forall (dcount : list N -> nat) (kd : kinds) (vals : assignment) (e : env) (t : item),
  SR.Proofs.LayoutOdoP.wfo e [] t = true -> NoDup (SR.Proofs.LayoutP.ids t) -> record_ok kd vals e t = true ->
  SR.Proofs.LayoutOdoP.Holds N dcount (spec_record kd vals e t) e t 0 ->
  forall p i sz st, elem_at e t p = Some (i, sz, st) -> own_storage e (VItem t) 0 p = true ->
    value_at kd dcount (spec_record kd vals e t) (build t) p = Some (Ok (PAtom (py_of (stored (kd i) (vals p))))).
Proof.
  intros dcount kd vals e t Hw Hnd.
  exact (C01b_stored_is_read_odo_partial dcount kd vals e t Hw Hnd (C01b_uniq_keys_odo e t Hw Hnd)).
Qed.
Print Assumptions C01b_stored_is_read_odo.

(* non-vacuity, evaluated end to end
   01 R.  05 A PIC X(3).
          05 G.  10 P PIC S9(3)V99 COMP-3.  10 Z PIC S9(3).
          05 T OCCURS 2.  10 B PIC S9(3) COMP.  10 X PIC X(2).
          05 D PIC X(4).
          05 E REDEFINES D.  10 E1 PIC 99.  10 E2 PIC XX.
          05 N PIC 99 OCCURS 2.
   ids R=1 A=2 G=3 P=4 Z=5 T=6 B=7 X=8 D=9 E=10 E1=11 E2=12 N=13.
   A = Ab1, P = -123.45, Z = -42, T(0) = (-2, HI), T(1) = (513, e-acute !), D = 12? line-feed, N = (7, 98). *)
Definition ex_tree : item :=
  Group 1%N Once None
    (ICons (Elem 2%N 3 Once None)
    (ICons (Group 3%N Once None (ICons (Elem 4%N 3 Once None) (ICons (Elem 5%N 4 Once None) INil)))
    (ICons (Group 6%N (Times 2) None (ICons (Elem 7%N 2 Once None) (ICons (Elem 8%N 2 Once None) INil)))
    (ICons (Elem 9%N 4 Once None)
    (ICons (Group 10%N Once (Some 9%N) (ICons (Elem 11%N 2 Once None) (ICons (Elem 12%N 2 Once None) INil)))
    (ICons (Elem 13%N 2 (Times 2) None) INil)))))).

Definition ex_kinds : kinds := fun i =>
  match i with
  | 4%N => KPacked 8 true 3 2
  | 5%N => KZoned true 3 0
  | 7%N => KBinary 10 true 3 0
  | 11%N | 13%N => KZoned false 2 0
  | _ => KText (match i with 2%N => 3 | 9%N => 4 | _ => 2 end)
  end.

Definition step_eqb (a b : step) : bool :=
  match a, b with PName x, PName y => N.eqb x y | PIndex x, PIndex y => Nat.eqb x y | _, _ => false end.
Fixpoint path_eqb (a b : list step) : bool :=
  match a, b with [] , [] => true | x :: a', y :: b' => step_eqb x y && path_eqb a' b' | _, _ => false end.
Definition ex_table : list (list step * fval) :=
  [ ([PName 2%N], FTxt [65; 98; 49]%N);
    ([PName 3%N; PName 4%N], FNum [1; 2; 3; 4; 5]%N 13%N);
    ([PName 3%N; PName 5%N], FNum [4; 2]%N 13%N);
    ([PName 6%N; PIndex 0; PName 7%N], FInt (-2));
    ([PName 6%N; PIndex 0; PName 8%N], FTxt [72; 73]%N);
    ([PName 6%N; PIndex 1; PName 7%N], FInt 513);
    ([PName 6%N; PIndex 1; PName 8%N], FTxt [233; 33]%N);
    ([PName 9%N], FTxt [49; 50; 63; 10]%N);
    ([PName 13%N; PIndex 0; PName 13%N], FNum [7]%N 15%N);
    ([PName 13%N; PIndex 1; PName 13%N], FNum [9; 8]%N 15%N) ].
Definition ex_vals : assignment := fun p =>
  match find (fun e => path_eqb (fst e) p) ex_table with Some e => snd e | None => FInt 0 end.
Definition ex_env : env := fun _ => 0.
Definition ex_record : list N := spec_record ex_kinds ex_vals ex_env ex_tree.
Definition ex_value (p : list step) : vres (pv pyval) := value_at ex_kinds (fun _ => 0) ex_record (build ex_tree) p.

Example C01b_example_hypotheses :
  SR.Proofs.LayoutP.wf ex_env ex_tree = true /\ record_ok ex_kinds ex_vals ex_env ex_tree = true
  /\ map (fun p => (elem_at ex_env ex_tree p, own_storage ex_env (VItem ex_tree) 0 p)) (storage_paths ex_env ex_tree)
     = [(Some (2%N, 3, 0), true); (Some (4%N, 3, 3), true); (Some (5%N, 4, 6), true); (Some (7%N, 2, 10), true);
        (Some (8%N, 2, 12), true); (Some (7%N, 2, 14), true); (Some (8%N, 2, 16), true); (Some (9%N, 4, 18), true);
        (Some (13%N, 2, 22), true); (Some (13%N, 2, 24), true)].
Proof. vm_compute. repeat split; reflexivity. Qed.
Example C01b_example_ids : NoDup (SR.Proofs.LayoutP.ids ex_tree).
Proof. vm_compute. repeat constructor; simpl; intuition discriminate. Qed.

(* the record: C1 82 F1 | 12 34 5D | F0 F0 F4 D2 | FF FE C8 C9 | 02 01 51 5A | F1 F2 6F 25 | F0 F7 | F9 F8 *)
Example C01b_example_record :
  ex_record = [193; 130; 241;  18; 52; 93;  240; 240; 244; 210;  255; 254; 200; 201;  2; 1; 81; 90;
               241; 242; 111; 37;  240; 247;  249; 248]%N.
Proof. vm_compute. reflexivity. Qed.

(* every elementary occurrence reads back what was assigned: the model of nav / name / index / value evaluated on the record *)
Example C01b_example_values :
  map ex_value (storage_paths ex_env ex_tree)
  = [Some (Ok (PAtom (VStr [65; 98; 49]%N)));
     Some (Ok (PAtom (VDec (mkdec true 12345 (-2)))));
     Some (Ok (PAtom (VDec (mkdec true 42 0))));
     Some (Ok (PAtom (VInt (-2)))); Some (Ok (PAtom (VStr [72; 73]%N)));
     Some (Ok (PAtom (VInt 513))); Some (Ok (PAtom (VStr [233; 33]%N)));
     Some (Ok (PAtom (VStr [49; 50; 63; 10]%N)));
     Some (Ok (PAtom (VDec (mkdec false 7 0))));
     Some (Ok (PAtom (VDec (mkdec false 98 0))))]
  /\ map ex_value (storage_paths ex_env ex_tree)
     = map (fun p => match elem_at ex_env ex_tree p with
                     | Some (i, _, _) => Some (Ok (PAtom (py_of (stored (ex_kinds i) (ex_vals p)))))
                     | None => None
                     end) (storage_paths ex_env ex_tree).
Proof. vm_compute. split; reflexivity. Qed.

(* the redefining item E reads the same bytes as D (F1 F2 6F 25): E1 = 12 as a number, E2 = the last two characters;
   the whole value of G is the dictionary of the values assigned to its members (C01b_group_value) *)
Example C01b_example_redefines_and_group :
  ex_value [PName 10%N; PName 11%N] = Some (Ok (PAtom (VDec (mkdec false 12 0))))
  /\ ex_value [PName 10%N; PName 12%N] = Some (Ok (PAtom (VStr [63; 10]%N)))
  /\ own_storage ex_env (VItem ex_tree) 0 [PName 10%N; PName 11%N] = false
  /\ ex_value [PName 3%N] = Some (Ok (PDict [(KName 4%N, PAtom (VDec (mkdec true 12345 (-2))));
                                             (KName 5%N, PAtom (VDec (mkdec true 42 0)))])).
Proof. vm_compute. repeat split; reflexivity. Qed.

(* non-vacuity of the OCCURS DEPENDING ON form
   01 R.  05 N PIC 9.  05 G.  10 A PIC X(2).  10 T PIC S9(3) COMP-3 OCCURS 0 TO 9 DEPENDING ON N.
          05 U OCCURS 0 TO 9 DEPENDING ON N.  10 V PIC X.   05 Z PIC 99.
   ids R=1 N=2 G=3 A=4 T=5 U=6 V=7 Z=8.  N = 2, A = HI, T = (-12, 345), U = (x, y), Z = 12.
   Counters are decoded as the judges do: the low nibbles as decimal digits. *)
Definition odo_tree : item :=
  Group 1%N Once None
    (ICons (Elem 2%N 1 Once None)
    (ICons (Group 3%N Once None (ICons (Elem 4%N 2 Once None) (ICons (Elem 5%N 2 (Odo 2%N) None) INil)))
    (ICons (Group 6%N (Odo 2%N) None (ICons (Elem 7%N 1 Once None) INil))
    (ICons (Elem 8%N 2 Once None) INil)))).
Definition odo_kinds : kinds := fun i =>
  match i with
  | 2%N => KZoned false 1 0
  | 5%N => KPacked 8 true 3 0
  | 8%N => KZoned false 2 0
  | 4%N => KText 2
  | _ => KText 1
  end.
Definition odo_table : list (list step * fval) :=
  [ ([PName 2%N], FNum [2]%N 15%N);
    ([PName 3%N; PName 4%N], FTxt [72; 73]%N);
    ([PName 3%N; PName 5%N; PIndex 0; PName 5%N], FNum [1; 2]%N 13%N);
    ([PName 3%N; PName 5%N; PIndex 1; PName 5%N], FNum [3; 4; 5]%N 12%N);
    ([PName 6%N; PIndex 0; PName 7%N], FTxt [120]%N);
    ([PName 6%N; PIndex 1; PName 7%N], FTxt [121]%N);
    ([PName 8%N], FNum [1; 2]%N 15%N) ].
Definition odo_vals : assignment := fun p =>
  match find (fun e => path_eqb (fst e) p) odo_table with Some e => snd e | None => FInt 0 end.
Definition odo_dcount (bs : list N) : nat := N.to_nat (val (map (fun b => (b mod 16)%N) bs)).
Definition odo_env : env := fun c => match c with 2%N => 2 | 4%N => 89 | 8%N => 12 | _ => 0 end.
Definition odo_record : list N := spec_record odo_kinds odo_vals odo_env odo_tree.

Example C01b_odo_example_hypotheses :
  SR.Proofs.LayoutOdoP.wfo odo_env [] odo_tree = true /\ record_ok odo_kinds odo_vals odo_env odo_tree = true
  /\ uniq_keys (build odo_tree) = true
  /\ odo_record = [242; 200; 201; 1; 45; 52; 92; 167; 168; 241; 242]%N
  /\ map (fun p => (elem_at odo_env odo_tree p, own_storage odo_env (VItem odo_tree) 0 p)) (storage_paths odo_env odo_tree)
     = [(Some (2%N, 1, 0), true); (Some (4%N, 2, 1), true); (Some (5%N, 2, 3), true); (Some (5%N, 2, 5), true);
        (Some (7%N, 1, 7), true); (Some (7%N, 1, 8), true); (Some (8%N, 2, 9), true)].
Proof. vm_compute. repeat split; reflexivity. Qed.
Example C01b_odo_example_ids : NoDup (SR.Proofs.LayoutP.ids odo_tree).
Proof. vm_compute. repeat constructor; simpl; intuition discriminate. Qed.
Example C01b_odo_example_holds : SR.Proofs.LayoutOdoP.Holds N odo_dcount odo_record odo_env odo_tree 0.
Proof.
  (* the record and the decoder stay folded until a counter field is compared *)
  cbn -[odo_dcount odo_record slice].
  repeat first [exact I | split | eexists; split; [reflexivity|] | vm_compute; reflexivity].
Qed.
Example C01b_odo_example_values :
  map (value_at odo_kinds odo_dcount odo_record (build odo_tree)) (storage_paths odo_env odo_tree)
  = [Some (Ok (PAtom (VDec (mkdec false 2 0))));
     Some (Ok (PAtom (VStr [72; 73]%N)));
     Some (Ok (PAtom (VDec (mkdec true 12 0)))); Some (Ok (PAtom (VDec (mkdec false 345 0))));
     Some (Ok (PAtom (VStr [120]%N))); Some (Ok (PAtom (VStr [121]%N)));
     Some (Ok (PAtom (VDec (mkdec false 12 0))))].
Proof. vm_compute. reflexivity. Qed.
