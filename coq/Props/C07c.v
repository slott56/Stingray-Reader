(* C07c - companion of C07 / C07b: FROM RAW COPYBOOK TEXT TO BYTE RANGES AND DECODED VALUES.
   The property theorems; the lemmas they rest on are in Proofs/TextLayoutP.v, where the text theorems are stated for every text
   that reads as its entries (reads_as), the printed copybook being one.  No engine of its own: the models are
   C07b's (Model/Pipeline.v: the whole parser on raw text, compared with schema_iter on every run of ./check C07) and C01's /
   C10's (Model/Layout.v, Model/LayoutValue.v: LocationMaker.walk, NDNav, value(); ./check C01, C10).

   What it connects.  C07b_end_to_end ends at the JSON DOCUMENTS (Model/Pipeline.v jdoc: strings, every keyword);
   C01c_layout / C06_layout / C01b_stored_is_read start from a record description t : item (Spec/Layout.v: identifiers,
   every elementary item carrying its WIDTH) and speak about build t : js.  This file states that the documents computed from
   the text are such built trees, with which names and which widths.

   Vocabulary (Model/TextLayout.v, no proofs there).
     name_id s          the identifier of the data name s - an injective numbering of strings (C07c_names_are_faithful), so a
                        path of Spec/Layout.v steps IS a path of names and indices (steps_of)
     layout_of_doc d    the tree js the loader and LocationMaker read off a document, object by object in the order of the
                        loader's tests: $ref, oneOf, type array (maxItems / maxItemsDependsOn.$ref), type object (properties in
                        document order), anything else atomic.  The WIDTH of an atomic object is calcsize_text of its OWN cobol
                        keyword - estruct's second parse of the entry text through Model/Estruct.v calcsize, which is what
                        EBCDIC.calcsize does - not maxLength (the item of an elementary OCCURS has none).  $anchor is kept; a
                        key or anchor REDEFINES-x is the key of the union of x.
     item_of t          the record description of a tree t of the annotated forest xf (the forest of C07_structure with the
                        clause values of the entries attached, C07b_end_to_end): names by name_id of the unique name (FILLER-n
                        for fillers), OCCURS n / DEPENDING ON c from the clause values, the REDEFINES target of the entry, every
                        elementary width calcsize_text of the entry's cobol text
     bridge_ok t        the DECIDABLE domain of the bridge: no name starts with REDEFINES-; json_type, calcsize_text and the
                        item count of every item exist; an elementary OCCURS item has no subordinate entries; the children of a
                        group differ in name; a child is marked as redefined exactly when a later sibling names it, is then no
                        FILLER and does not itself redefine; a redefiner names an earlier marked sibling; nothing is redefined
                        below an OCCURS group (known finding C07-K2: KeyError there)
     forest_of_entries es, records_of_entries es   the annotated forest / the record descriptions of the entries es
     bridge_domain es   structure() accepts the entries, names_wf (C07b_end_to_end's hypothesis) and bridge_ok of every tree
     text_layout_ok es  bridge_domain es and, for every record, the hypotheses of C01c_layout (wf: no OCCURS DEPENDING ON, COBOL's
                        own demands on REDEFINES, the two known-bad shapes excluded; siblings_distinct; anchored_names_unique)
     layouts_of_text text   schemas_of_text text followed by layout_of_doc: the layouts computed from raw text
     located text k dcount r p   where navigation along p ends in record k of the text on the record instance r
     kind_of_cobol c, kinds_of t, unpack_cobol c   USAGE / PICTURE of an item as estruct.unpack sees them in its cobol text
                        (the scan of calcsize again: est_loop over est_items), as the field kind of Spec/Record.v
     text_values_ok es  text_layout_ok es, every elementary item has a kind, all names of a record differ (C01b's hypothesis)
   Every hypothesis of the text theorems is copybook_ok (the printable domain of C07b) or one boolean on the entries es.

   What is proved.
     C07c_documents_are_built_trees        A, per tree: on bridge_ok the document doc_r t exists and layout_of_doc of it IS
                                           Model/Layout.v build (item_of t): same nesting, same property order, same $anchor /
                                           $ref / oneOf / maxItems / maxItemsDependsOn, same widths.  OCCURS DEPENDING ON included.
     C07c_text_documents_are_built_trees   A, from the text: for every printed copybook of the domain the documents computed
                                           from the text are the built trees of the forest C07_structure characterises
     C07c_text_to_layout                   B, IN FULL (REDEFINES included): the schema computed from the text, navigated by the
                                           model of LocationMaker / NDNav, lands for every record instance and every path on the
                                           bytes the COBOL rules (Spec/Layout.v) assign to the item the path names
     C07c_text_to_layout_odo               the same through C06_layout for copybooks with OCCURS DEPENDING ON (the hypotheses on
                                           the count vector and the record are C06's: they speak about the record, not the text)
     C07c_text_to_values                   B composed with C01b: what the specification's encoders store for an assignment of
                                           values is what value() returns, every atom decoded by its own cobol text
     C07c_decoder_of_the_text              the decoder of the kind taken from a cobol text is estruct.unpack on that text
   Boundary (witnesses): REDEFINES below an OCCURS group and two siblings of one name are outside bridge_domain. *)
From Coq Require Import NArith ZArith List Bool.
Import ListNotations.
Require Import SR.Base.Res SR.Base.Dec SR.Model.RefFormat SR.Spec.RefFormat SR.Spec.Clauses.
Require SR.Model.Structure SR.Proofs.LayoutP SR.Proofs.LayoutNamesP SR.Proofs.LayoutOdoP.
Require Import SR.Model.Pipeline SR.Spec.Copybook SR.Proofs.PipelineP.
Require Import SR.Spec.Layout SR.Model.Layout.
Require Import SR.Spec.Encode SR.Spec.Record SR.Model.Estruct SR.Model.LayoutValue SR.Model.RecordValue.
Require Import SR.Model.TextLayout SR.Proofs.TextLayoutP.
Require SR.Props.C07b.

(* ---- names: the numbering of data names loses nothing ---- *)
Theorem C07c_names_are_faithful : forall s s' : list N, name_id s = name_id s' -> s = s'.
Proof. exact name_id_inj. Qed.
Print Assumptions C07c_names_are_faithful.

Theorem C07c_keys_are_faithful : forall a b : list N, key_of a = key_of b -> a = b.
Proof. exact key_of_inj. Qed.
Print Assumptions C07c_keys_are_faithful.

(* ---- A. the bridge, per tree of the forest ---- *)
Theorem C07c_documents_are_built_trees : forall t : xtree, bridge_ok t = true ->
  exists doc, doc_r t = ROk doc /\ layout_of_doc doc = Some (build (item_of t)).
Proof. exact (proj1 bridge_all). Qed.
Print Assumptions C07c_documents_are_built_trees.

(* ---- A. from the text: [f] is the forest of structure() (C07_structure: every kept entry once, in source order, below the
        nearest preceding entry with a smaller level number), [xf] is f with the clause values attached (C07b_end_to_end) ---- *)
Theorem C07c_text_documents_are_built_trees : forall es tail seqs,
  copybook_ok es tail seqs = true -> bridge_domain es = true ->
  exists f xf docs,
    SR.Model.Structure.structure (map spec_entry es) = Ok f
    /\ annot_forest f (kept_infos (map spec_info es)) = Some xf /\ map SR.Proofs.PipelineP.erase xf = f
    /\ concat (map xpre xf) = kept_infos (map spec_info es)
    /\ schemas_of_text (print_copybook es tail seqs) = Done (Ok docs)
    /\ Forall2 (fun doc t => layout_of_doc doc = Some (build (item_of t))) docs xf
    /\ layouts_of_text (print_copybook es tail seqs) = Some (map (fun t => build (item_of t)) xf).
Proof. intros es tail seqs OK. exact (reading_documents_are_built _ es (printed_reads_as es tail seqs OK)). Qed.
Print Assumptions C07c_text_documents_are_built_trees.

(* ---- B. from the text to byte ranges.  For every printed copybook of the domain, record number k of the text: its schema
        [s] (computed FROM THE TEXT) is the built tree of the k-th tree [t] of the forest, and for every record instance r over
        any element type and every path p (names through name_id, indices): navigation succeeds exactly where the COBOL rules
        place an item and ends on the specification's bytes; the record has the specification's length. ---- *)
Theorem C07c_text_to_layout : forall es tail seqs,
  copybook_ok es tail seqs = true -> text_layout_ok es = true ->
  exists f xf schemas,
    SR.Model.Structure.structure (map spec_entry es) = Ok f
    /\ annot_forest f (kept_infos (map spec_info es)) = Some xf /\ map SR.Proofs.PipelineP.erase xf = f
    /\ concat (map xpre xf) = kept_infos (map spec_info es)
    /\ layouts_of_text (print_copybook es tail seqs) = Some schemas /\ length schemas = length xf
    /\ forall k s t, nth_error schemas k = Some s -> nth_error xf k = Some t ->
         s = build (item_of t)
         /\ forall (B : Type) (dcount : list B -> nat) (r : list B),
            exists v0, nav_of dcount r s = Ok v0
              /\ lstart (n_loc v0) = 0%nat /\ lend (n_loc v0) = extent no_counters (item_of t)
              /\ forall p v st, spec_nav no_counters (VItem (item_of t)) 0 p = inl (v, st) ->
                   exists nv, nav_path dcount r v0 p = Ok nv
                     /\ lstart (n_loc nv) = st /\ lend (n_loc nv) = (st + view_size no_counters v)%nat
                     /\ nav_raw r nv = slice r st (st + view_size no_counters v).
Proof. intros es tail seqs OK. exact (reading_to_layout _ es (printed_reads_as es tail seqs OK)). Qed.
Print Assumptions C07c_text_to_layout.

(* ---- ... and with OCCURS DEPENDING ON (C06_layout): [e] is the count vector of the record, wfo C06's family, Holds says
        that the record carries e at the place of every counter ---- *)
Theorem C07c_text_to_layout_odo : forall es tail seqs,
  copybook_ok es tail seqs = true -> bridge_domain es = true ->
  exists xf schemas,
    forest_of_entries es = Some xf
    /\ layouts_of_text (print_copybook es tail seqs) = Some schemas /\ length schemas = length xf
    /\ forall k s t, nth_error schemas k = Some s -> nth_error xf k = Some t ->
         s = build (item_of t)
         /\ forall (B : Type) (dcount : list B -> nat) (r : list B) (e : env),
            SR.Proofs.LayoutOdoP.wfo e [] (item_of t) = true -> NoDup (SR.Proofs.LayoutP.ids (item_of t)) ->
            SR.Proofs.LayoutOdoP.Holds B dcount r e (item_of t) 0 ->
            exists v0, nav_of dcount r s = Ok v0
              /\ lstart (n_loc v0) = 0%nat /\ lend (n_loc v0) = extent e (item_of t)
              /\ forall p v st, spec_nav e (VItem (item_of t)) 0 p = inl (v, st) ->
                   exists nv, nav_path dcount r v0 p = Ok nv
                     /\ lstart (n_loc nv) = st /\ lend (n_loc nv) = (st + view_size e v)%nat
                     /\ nav_raw r nv = slice r st (st + view_size e v)
                     /\ (forall x, v = VItem x -> is_table x = true ->
                           forall i, (count e (item_oc x) <= i)%nat -> nav_index dcount r nv i = Err IndexError).
Proof. intros es tail seqs OK. exact (reading_to_layout_odo _ es (printed_reads_as es tail seqs OK)). Qed.
Print Assumptions C07c_text_to_layout_odo.

(* ---- B composed with C01b: decoded values.  kinds_of t gives every elementary item the kind estruct.unpack reads in its own
        cobol text; record_ok (Spec/Record.v): the widths the text gives are the widths the kinds demand and the assigned values
        fit; the record is built by the SPECIFICATION's encoders and layout; value() of the navigator on the schema computed
        from the text is the assigned value (exact Decimal / int / text). ---- *)
Theorem C07c_text_to_values : forall es tail seqs,
  copybook_ok es tail seqs = true -> text_values_ok es = true ->
  exists xf schemas,
    forest_of_entries es = Some xf
    /\ layouts_of_text (print_copybook es tail seqs) = Some schemas /\ length schemas = length xf
    /\ forall k s t, nth_error schemas k = Some s -> nth_error xf k = Some t ->
       forall (dcount : list N -> nat) (vals : assignment),
         record_ok (kinds_of t) vals no_counters (item_of t) = true ->
         forall p i sz st, elem_at no_counters (item_of t) p = Some (i, sz, st) ->
           own_storage no_counters (VItem (item_of t)) 0 p = true ->
           value_at (kinds_of t) dcount (spec_record (kinds_of t) vals no_counters (item_of t)) s p
           = Some (Ok (PAtom (py_of (stored (kinds_of t i) (vals p))))).
Proof. intros es tail seqs OK. exact (reading_to_values _ es (printed_reads_as es tail seqs OK)). Qed.
Print Assumptions C07c_text_to_values.

(* the per-atom decoder value_at uses for a kind taken from a cobol text is the decoder's own treatment of that text *)
Theorem C07c_decoder_of_the_text : forall (c : list N) (k : fkind), kind_of_cobol c = Some k ->
  forall bs, dec_kind k bs = unpack_cobol c bs.
Proof.
  intros c k H bs. unfold kind_of_cobol, kind_of_shape in H. unfold unpack_cobol. destruct (shape_of_cobol c) as [u s m n|u n|]; [| |discriminate].
  - destruct (mem u SR.Gen.EstructParams.unpack_display) eqn:E1.
    + injection H as <-. cbn [dec_kind]. unfold unpack. rewrite E1. reflexivity.
    + destruct (mem u SR.Gen.EstructParams.unpack_packed) eqn:E2.
      * injection H as <-. cbn [dec_kind]. unfold canon_usage. rewrite E1, E2. unfold unpack. rewrite E1, E2. reflexivity.
      * destruct (mem u SR.Gen.EstructParams.unpack_binary) eqn:E3; [|discriminate].
        injection H as <-. cbn [dec_kind]. unfold canon_usage. rewrite E1, E2, E3. unfold unpack. rewrite E1, E2, E3. reflexivity.
  - destruct (mem u SR.Gen.EstructParams.unpack_display) eqn:E1; [|discriminate]. injection H as <-. cbn [dec_kind].
    unfold unpack_x. rewrite E1. reflexivity.
Qed.
Print Assumptions C07c_decoder_of_the_text.

Theorem C07c_field_decoder : forall (kd : kinds) (i : id) (bs : list N), field_dec kd (Some (KName i)) bs = dec_kind (kd i) bs.
Proof. intros kd i bs. cbn [field_dec]. destruct (kd i); reflexivity. Qed.
Print Assumptions C07c_field_decoder.

(* ------------------------------------------------------------------ non-vacuity *)
Import SR.Props.C07b.
Open Scope N_scope.

(* a copybook with groups, an elementary and a group OCCURS table, a REDEFINES union, FILLERs and COMP-3 items

       01 CUST-REC .
           05 CUST-NO PIC 9(5) .
           05 NAME-G .
               10 FIRST PIC X(3) .
               10 FILLER PIC X(2) .
           05 PHONE PIC X(4) .
           05 PHONE-R REDEFINES PHONE .
               10 AREA-C PIC XX .
               10 REST-P PIC XX .
           05 AMT PIC S9(3) COMP-3 OCCURS 3 .
           05 LINE-T OCCURS 2 .
               10 QTY PIC S9(5) COMP-3 .
               10 FILLER PIC X .                                                  *)
Definition ind8 : line := [32; 32; 32; 32; 32; 32; 32; 32].
Definition n_NAME_G : line := [78; 65; 77; 69; 45; 71].
Definition n_FIRST : line := [70; 73; 82; 83; 84].
Definition n_PHONE : line := [80; 72; 79; 78; 69].
Definition n_PHONE_R : line := [80; 72; 79; 78; 69; 45; 82].
Definition n_AREA_C : line := [65; 82; 69; 65; 45; 67].
Definition n_REST_P : line := [82; 69; 83; 84; 45; 80].
Definition n_AMT : line := [65; 77; 84].
Definition n_LINE_T : line := [76; 73; 78; 69; 45; 84].
Definition n_QTY : line := [81; 84; 89].
Definition n_FILLER_1 : line := SR.Model.Structure.gen_name 1.
Definition n_FILLER_2 : line := SR.Model.Structure.gen_name 2.
Definition p_XX : line := [88; 88].
Definition p_X_2 : line := [88; 40; 50; 41].
Definition p_X_4 : line := [88; 40; 52; 41].
Definition p_S9_5 : line := [83; 57; 40; 53; 41].

Definition ex_full : list centry :=
  [mkce 48 49 [CName n_CUST_REC] [] [] [32];
   mkce 48 53 [CName n_CUST_NO; CPicture p_9_5] [] ind4 [32];
   mkce 48 53 [CName n_NAME_G] [] ind4 [32];
   mkce 49 48 [CName n_FIRST; CPicture p_X_3] [] ind8 [32];
   mkce 49 48 [CFiller; CPicture p_X_2] [] ind8 [32];
   mkce 48 53 [CName n_PHONE; CPicture p_X_4] [] ind4 [32];
   mkce 48 53 [CName n_PHONE_R; CRedefines n_PHONE] [] ind4 [32];
   mkce 49 48 [CName n_AREA_C; CPicture p_XX] [] ind8 [32];
   mkce 49 48 [CName n_REST_P; CPicture p_XX] [] ind8 [32];
   mkce 48 53 [CName n_AMT; CPicture p_S9_3; CUsage 2; COccurs [51] None] [] ind4 [32];
   mkce 48 53 [CName n_LINE_T; COccurs [50] None] [] ind4 [32];
   mkce 49 48 [CName n_QTY; CPicture p_S9_5; CUsage 2] [] ind8 [32];
   mkce 49 48 [CFiller; CPicture [88]] [] ind8 [32]].

Definition ex_full_text : list N := print_copybook ex_full [] [].

(* it is in every domain of this file *)
Example C07c_example_domain :
  copybook_ok ex_full [] [] = true /\ bridge_domain ex_full = true /\ text_layout_ok ex_full = true /\ text_values_ok ex_full = true.
Proof.
  assert (TV : text_values_ok ex_full = true) by (rewrite text_values_ok_eq; vm_compute; reflexivity).
  split; [vm_compute; reflexivity|]. split; [exact (layout_ok_bridge _ (values_ok_layout _ TV))|]. split; [exact (values_ok_layout _ TV)|exact TV].
Qed.

(* its record description, read off the forest: widths 5 3 2 4 2 2 from the DISPLAY pictures, 2 and 3 bytes for the packed items *)
Definition nid (s : line) : id := name_id s.
Example C07c_example_record :
  records_of_entries ex_full =
  Some [Group (nid n_CUST_REC) Once None
         (ICons (Elem (nid n_CUST_NO) 5 Once None)
         (ICons (Group (nid n_NAME_G) Once None (ICons (Elem (nid n_FIRST) 3 Once None) (ICons (Elem (nid n_FILLER_1) 2 Once None) INil)))
         (ICons (Elem (nid n_PHONE) 4 Once None)
         (ICons (Group (nid n_PHONE_R) Once (Some (nid n_PHONE))
                   (ICons (Elem (nid n_AREA_C) 2 Once None) (ICons (Elem (nid n_REST_P) 2 Once None) INil)))
         (ICons (Elem (nid n_AMT) 2 (Times 3) None)
         (ICons (Group (nid n_LINE_T) (Times 2) None (ICons (Elem (nid n_QTY) 3 Once None) (ICons (Elem (nid n_FILLER_2) 1 Once None) INil)))
          INil))))))].
Proof. vm_compute. reflexivity. Qed.

(* the layouts of the text are built from the record descriptions of its entries (C07c_text_documents_are_built_trees):
   the examples below evaluate the record description, not the text *)
Lemma ex_full_layouts : layouts_of_text ex_full_text = option_map (map build) (records_of_entries ex_full).
Proof. destruct C07c_example_domain as (OK & BD & _). exact (printed_layouts _ _ _ OK BD). Qed.

(* A on it: the one document computed from the text, read by layout_of_doc, is build of that description - with the union
   REDEFINES-PHONE -> oneOf [PHONE, PHONE-R] where PHONE stands and the two reference placeholders *)
Example C07c_example_bridge :
  exists t doc, forest_of_entries ex_full = Some [t] /\ bridge_ok t = true
    /\ schemas_of_text ex_full_text = Done (Ok [doc])
    /\ layout_of_doc doc = Some (build (item_of t))
    /\ exists u a b rest, build (item_of t) = Layout.JObj (Some (KName (nid n_CUST_REC)))
         (PCons (KName (nid n_CUST_NO)) u (PCons (KName (nid n_NAME_G)) a
           (PCons (KRedef (nid n_PHONE)) (JOne (Some (KRedef (nid n_PHONE))) (ACons (JAtom (Some (KName (nid n_PHONE))) 4) (ACons b ANil)))
             (PCons (KName (nid n_PHONE)) (JRef (KName (nid n_PHONE))) (PCons (KName (nid n_PHONE_R)) (JRef (KName (nid n_PHONE_R))) rest))))).
Proof.
  destruct C07c_example_domain as (OK & BD & _). destruct (one_record _ _ C07c_example_record) as (t & FE & R).
  destruct (C07c_text_documents_are_built_trees _ _ _ OK BD) as (f & xf & docs & Hf & A & _ & _ & S & F & _).
  rewrite <- (forest_of_entries_eq _ _ Hf), FE in A. injection A as <-.
  inversion F as [|doc t0 docs0 xf0 L F0]. subst. inversion F0. subst.
  exists t, doc. split; [exact FE|]. split; [exact (bridge_domain_tree _ _ _ BD FE (or_introl eq_refl))|]. split; [exact S|]. split; [exact L|]. rewrite R. do 4 eexists. vm_compute. reflexivity.
Qed.

(* B on it: where the schema computed from the text puts the items (the real LocationMaker agrees: 0-28, 0-5, 8-10, 12-14,
   18-20, 24-27, 27-28); an index beyond the table is refused *)
Definition ex_loc (p : list nstep) : option (res (nat * nat)) := located ex_full_text 0 (fun _ : list unit => O) [] (steps_of p).
Example C07c_example_located :
  ex_loc [] = Some (Ok (0, 28)%nat)
  /\ ex_loc [NName n_CUST_NO] = Some (Ok (0, 5)%nat)
  /\ ex_loc [NName n_NAME_G; NName n_FILLER_1] = Some (Ok (8, 10)%nat)
  /\ ex_loc [NName n_PHONE] = Some (Ok (10, 14)%nat)
  /\ ex_loc [NName n_PHONE_R; NName n_REST_P] = Some (Ok (12, 14)%nat)
  /\ ex_loc [NName n_AMT; NIndex 2; NName n_AMT] = Some (Ok (18, 20)%nat)
  /\ ex_loc [NName n_LINE_T; NIndex 1; NName n_QTY] = Some (Ok (24, 27)%nat)
  /\ ex_loc [NName n_LINE_T; NIndex 1; NName n_FILLER_2] = Some (Ok (27, 28)%nat)
  /\ ex_loc [NName n_LINE_T; NIndex 2] = Some (Err IndexError).
Proof.
  unfold ex_loc, located. rewrite ex_full_layouts, C07c_example_record.
  (* named, the layouts are evaluated once, not once for every path *)
  set (ss := option_map _ _). vm_compute. repeat split; reflexivity.
Qed.

(* ... and that is what the COBOL rules say (the hypothesis of C07c_text_to_layout's inner implication is satisfiable) *)
Example C07c_example_spec :
  exists t, forest_of_entries ex_full = Some [t]
    /\ extent no_counters (item_of t) = 28%nat
    /\ spec_nav no_counters (VItem (item_of t)) 0 (steps_of [NName n_PHONE_R; NName n_REST_P])
       = inl (VItem (Elem (nid n_REST_P) 2 Once None), 12%nat)
    /\ spec_nav no_counters (VItem (item_of t)) 0 (steps_of [NName n_LINE_T; NIndex 1; NName n_QTY])
       = inl (VItem (Elem (nid n_QTY) 3 Once None), 24%nat).
Proof.
  destruct (one_record _ _ C07c_example_record) as (t & FE & R).
  exists t. split; [exact FE|]. rewrite R. vm_compute. repeat split; reflexivity.
Qed.

(* values on it: the kinds estruct reads in the cobol texts; a record built by the specification's encoders for
   CUST-NO = 123, FIRST = Abc, FILLER = two blanks, PHONE = 1234, AMT = (-12, 345, 7), LINE-T = ((-12345, x), (42, y));
   every elementary occurrence that owns storage reads back what was assigned, the redefining group reads PHONE's bytes *)
Definition ex_tree : xtree :=
  match forest_of_entries ex_full with
  | Some (t :: _) => t
  | _ => XNode {| SR.Model.Structure.de := spec_entry (mkce 48 49 [] [] [] []); SR.Model.Structure.du := [] |} false
               (spec_info (mkce 48 49 [] [] [] [])) XNil
  end.

Example C07c_example_kinds :
  map snd (kind_table ex_tree)
  = [KZoned false 5 0; KText 3; KText 2; KText 4; KText 2; KText 2; KPacked 8 true 3 0; KPacked 8 true 5 0; KText 1].
Proof. vm_compute. reflexivity. Qed.

Definition ex_assign : list fval :=
  [FNum [1; 2; 3] 15; FTxt [65; 98; 99]; FTxt [64; 64]; FTxt [49; 50; 51; 52];
   FNum [1; 2] 13; FNum [3; 4; 5] 12; FNum [7] 12;
   FNum [1; 2; 3; 4; 5] 13; FTxt [120]; FNum [4; 2] 12; FTxt [121]].
Definition step_eqb (a b : step) : bool :=
  match a, b with PName x, PName y => N.eqb x y | PIndex x, PIndex y => Nat.eqb x y | _, _ => false end.
Fixpoint path_eqb (a b : list step) : bool :=
  match a, b with [], [] => true | x :: a', y :: b' => step_eqb x y && path_eqb a' b' | _, _ => false end.
Definition ex_vals : assignment := fun p =>
  match find (fun e => path_eqb (fst e) p) (combine (storage_paths no_counters (item_of ex_tree)) ex_assign) with
  | Some e => snd e
  | None => FInt 0
  end.
Definition ex_record : list N := spec_record (kinds_of ex_tree) ex_vals no_counters (item_of ex_tree).
Definition ex_value (p : list step) : vres (pv pyval) :=
  match layouts_of_text ex_full_text with
  | Some (s :: _) => value_at (kinds_of ex_tree) (fun _ => O) ex_record s p
  | _ => None
  end.

Example C07c_example_values :
  record_ok (kinds_of ex_tree) ex_vals no_counters (item_of ex_tree) = true
  /\ length (storage_paths no_counters (item_of ex_tree)) = 11%nat /\ length ex_record = 28%nat
  /\ map ex_value (storage_paths no_counters (item_of ex_tree))
     = [Some (Ok (PAtom (VDec (mkdec false 123 0)))); Some (Ok (PAtom (VStr [65; 98; 99]))); Some (Ok (PAtom (VStr [64; 64])));
        Some (Ok (PAtom (VStr [49; 50; 51; 52])));
        Some (Ok (PAtom (VDec (mkdec true 12 0)))); Some (Ok (PAtom (VDec (mkdec false 345 0)))); Some (Ok (PAtom (VDec (mkdec false 7 0))));
        Some (Ok (PAtom (VDec (mkdec true 12345 0)))); Some (Ok (PAtom (VStr [120])));
        Some (Ok (PAtom (VDec (mkdec false 42 0)))); Some (Ok (PAtom (VStr [121])))]
  /\ ex_value (steps_of [NName n_PHONE_R; NName n_REST_P]) = Some (Ok (PAtom (VStr [51; 52]))).
Proof.
  unfold ex_value, ex_record, ex_vals, kinds_of. rewrite ex_full_layouts, C07c_example_record.
  (* named, each of these is evaluated once; left inside ex_vals and kinds_of they are evaluated again for every field *)
  set (kt := kind_table ex_tree). set (it := item_of ex_tree). set (tb := combine _ ex_assign). set (rec := spec_record _ _ _ _).
  vm_compute. repeat split; reflexivity.
Qed.

(* the example copybooks of Props/C07b.v are in the domain too: the record with a FILLER and a COMP-3 table in its two spellings,
   and the record with a REDEFINES in its two spellings *)
Example C07c_example_c07b :
  text_values_ok ex_es = true /\ text_values_ok ex_es' = true /\ text_values_ok ex_redef = true /\ text_values_ok ex_redef' = true
  /\ located (print_copybook ex_es [] ex_seqs) 0 (fun _ : list unit => O) [] (steps_of [NName [84]; NIndex 2; NName [84]]) = Some (Ok (12, 14)%nat)
  /\ located (print_copybook ex_redef [] []) 0 (fun _ : list unit => O) [] (steps_of [NName [66]]) = Some (Ok (0, 3)%nat)
  /\ located (print_copybook ex_redef [] []) 0 (fun _ : list unit => O) [] (steps_of [NName [67]]) = Some (Ok (3, 4)%nat).
Proof.
  assert (V1 : text_values_ok ex_es = true) by (rewrite text_values_ok_eq; vm_compute; reflexivity).
  assert (V3 : text_values_ok ex_redef = true) by (rewrite text_values_ok_eq; vm_compute; reflexivity).
  split; [exact V1|]. split; [rewrite text_values_ok_eq; vm_compute; reflexivity|]. split; [exact V3|].
  split; [rewrite text_values_ok_eq; vm_compute; reflexivity|].
  unfold located.
  rewrite (printed_layouts _ _ _ (proj1 C07b_example_domain) (layout_ok_bridge _ (values_ok_layout _ V1))).
  rewrite (printed_layouts _ _ _ (proj1 C07b_example_redefines) (layout_ok_bridge _ (values_ok_layout _ V3))).
  set (rr := records_of_entries ex_redef). vm_compute. repeat split; reflexivity.
Qed.

(* OCCURS DEPENDING ON (C07c_text_to_layout_odo):   01 R .  05 N PIC 9 .  05 T OCCURS 1 TO 5 DEPENDING N PIC XX .  05 Z PIC X .
   is in the bridge domain (not in text_layout_ok: C01c's family has no DEPENDING ON); on the record  F2 C1 C2 C3 C4 E9  whose
   counter holds 2 the schema computed from the text puts T(1) at 3-5 and Z at 5-6 and refuses T(2); wfo and Holds are satisfiable
   (Holds asks the count vector to agree with the record at every non-repeated elementary item: N = 2, Z = 9) *)
Definition ex_odo : list centry :=
  [mkce 48 49 [CName [82]] [] [] [32];
   mkce 48 53 [CName [78]; CPicture [57]] [] ind4 [32];
   mkce 48 53 [CName [84]; COdo (Some [49]) [53] [78] None; CPicture p_XX] [] ind4 [32];
   mkce 48 53 [CName [90]; CPicture [88]] [] ind4 [32]].
Definition ex_dcount (bs : list N) : nat := N.to_nat (SR.Base.Dec.val (map (fun b => (b mod 16)%N) bs)).
Definition ex_odo_record : list N := [242; 193; 194; 195; 196; 233].
Definition ex_odo_env : env := fun c => if (c =? name_id [78])%N then 2%nat else if (c =? name_id [90])%N then 9%nat else O.
Definition ex_odo_item : item :=
  Group (name_id [82]) Once None
    (ICons (Elem (name_id [78]) 1 Once None) (ICons (Elem (name_id [84]) 2 (Odo (name_id [78])) None) (ICons (Elem (name_id [90]) 1 Once None) INil))).

Example C07c_example_odo :
  copybook_ok ex_odo [] [] = true /\ bridge_domain ex_odo = true /\ text_layout_ok ex_odo = false
  /\ records_of_entries ex_odo = Some [ex_odo_item]
  /\ SR.Proofs.LayoutOdoP.wfo ex_odo_env [] ex_odo_item = true
  /\ SR.Proofs.LayoutNamesP.nodupb (SR.Proofs.LayoutP.ids ex_odo_item) = true
  /\ located (print_copybook ex_odo [] []) 0 ex_dcount ex_odo_record (steps_of [NName [84]; NIndex 1; NName [84]]) = Some (Ok (3, 5)%nat)
  /\ located (print_copybook ex_odo [] []) 0 ex_dcount ex_odo_record (steps_of [NName [90]]) = Some (Ok (5, 6)%nat)
  /\ located (print_copybook ex_odo [] []) 0 ex_dcount ex_odo_record (steps_of [NName [84]; NIndex 2]) = Some (Err IndexError).
Proof.
  assert (OK : copybook_ok ex_odo [] [] = true) by (vm_compute; reflexivity).
  assert (BD : bridge_domain ex_odo = true) by (vm_compute; reflexivity).
  assert (R : records_of_entries ex_odo = Some [ex_odo_item]) by (vm_compute; reflexivity).
  split; [exact OK|]. split; [exact BD|]. split; [vm_compute; reflexivity|]. split; [exact R|].
  unfold located. rewrite (printed_layouts _ _ _ OK BD), R. vm_compute. repeat split; reflexivity.
Qed.

Example C07c_example_odo_holds : SR.Proofs.LayoutOdoP.Holds N ex_dcount ex_odo_record ex_odo_env ex_odo_item 0.
Proof.
  unfold ex_odo_item. cbn [SR.Proofs.LayoutOdoP.Holds SR.Proofs.LayoutOdoP.HoldsKids].
  repeat split; try exact I;
    (match goal with |- if ?b then _ else _ => let v := eval vm_compute in b in change b with v; cbv iota end);
    eexists; (split; [lazy; reflexivity|first [exact I|vm_compute; reflexivity]]).
Qed.

(* ------------------------------------------------------------------ the boundary of the domain: witnesses *)
(* REDEFINES below an OCCURS group (known finding C07-K2, C07b_refuted_k2: KeyError) and two siblings of one name
   (C07b_refuted_duplicate_sibling: the first entry is lost) are outside bridge_domain *)
Example C07c_outside_domain :
  copybook_ok ex_k2 [] [] = true /\ bridge_domain ex_k2 = false /\ layouts_of_text (print_copybook ex_k2 [] []) = None
  /\ copybook_ok ex_dup [] [] = true /\ bridge_domain ex_dup = false.
Proof. vm_compute. repeat split; reflexivity. Qed.
