(* C11 - Schemas are immutable and results do not depend on what was processed before.

   The property theorems; the lemmas are in Proofs/GlobalsP.v.
   [step], [run], [outs], [out_of] are the state machine of Model/Globals.v over the process-wide state the
   code really has (DDE.filler_count, SchemaMaker.ATOMIC), with the two behaviours that decide the property
   read from the source on every run (Gen/GlobalsParams.v): does structure() reset the FILLER counter before
   it starts, does constructing the extended-vocabulary maker write to the shared ATOMIC set.
   [run init h] is the state after the calls of h; [outs g qs] the outputs of the calls qs made from state g.

   WHAT IS PROVED (second half of the property): every output - the names a parse assigns, whether a load is
   accepted, what a navigator reads - is the same after EVERY history of calls as in a fresh process; so
   parsing the same copybook again gives the same names.  All histories: induction over the list, no bound.

   (The first half has a theorem of its own over an explicit heap model with object identity, relative to
   an effect summary of the source regenerated on every run - companion file Props/C11c.v.  What follows describes THIS
   file's model.)

   WHAT IS NOT PROVED, AND CANNOT BE IN THIS MODEL (first half: the JSON document and the loaded schema equal
   their initial state): a Gallina value cannot be written to, so in a functional model the statement is true
   by construction and a theorem about it would say nothing about Python aliasing.  NO theorem is claimed for
   it.  It rests entirely on the correspondence run of this check: every document and every loaded Schema used
   in a random history is fingerprinted before and after (serialised document with key order, identity of
   Schema.json() with the document, class / reference structure of the Schema tree), and the same probe is run in
   a fresh interpreter.  The same holds for the state that is per object in the code (JSONSchemaMaker.names,
   SchemaMaker.name_cache, LocationMaker.anchors): the model has no such state, the run checks it.
   Hence the suffix _partial on the main theorem. *)
From Coq Require Import NArith List Bool.
Import ListNotations.
Require Import SR.Base.Res SR.Model.Globals SR.Proofs.GlobalsP.
Require SR.Model.Structure.

(* The full property, as far as it can be written over this model: for the tree under test ... *)
Definition C11_statement : Prop :=
  forall (h qs : list op), outs (run init h) qs = outs init qs.

(* After every history h, every sequence of probes qs gives the outputs it gives in a fresh process. *)
Theorem C11_history_independent_partial : forall (h qs : list op), outs (run init h) qs = outs init qs.
Proof. exact gen_independent. Qed.
Print Assumptions C11_history_independent_partial.

(* The single-probe form. *)
Theorem C11_history_independent_probe : forall (h : list op) (q : op), out_of (run init h) q = out_of init q.
Proof. exact gen_independent_one. Qed.
Print Assumptions C11_history_independent_probe.

(* Parsing the same entries again, anywhere later in any history, assigns the same names. *)
Theorem C11_deterministic_parse : forall (h1 h2 : list op) (es : list entry),
  out_of (run init (h1 ++ ParseCopybook es :: h2)) (ParseCopybook es)
  = out_of (run init h1) (ParseCopybook es).
Proof. intros. rewrite !gen_independent_one. reflexivity. Qed.
Print Assumptions C11_deterministic_parse.

(* ... and they are the names of a FILLER counter that starts at zero. *)
Theorem C11_parse_names : forall (h : list op) (es : list entry),
  out_of (run init h) (ParseCopybook es) = ONames (names_of 0 es).
Proof. intros. rewrite gen_independent_one. unfold out_of, step. rewrite gen_is_fixed. reflexivity. Qed.
Print Assumptions C11_parse_names.

(* The standard loader never accepts the type decimal, whatever makers were constructed before. *)
Theorem C11_load_ignores_makers : forall (h : list op) (ts : list str),
  out_of (run init h) (LoadSchema ts) = OLoad (load false ts).
Proof. intros. rewrite gen_independent_one. unfold out_of, step. rewrite gen_is_fixed. reflexivity. Qed.
Print Assumptions C11_load_ignores_makers.

(* The property holds for exactly one choice of the two behaviours: the one the repaired tree has.
   (history_independent_for m := forall h qs, outs_m m (run_m m init h) qs = outs_m m init qs.) *)
Theorem C11_modes_characterised : forall m : modes,
  history_independent_for m <-> (m_reset m = true /\ m_ext_mutates m = false).
Proof.
  intros [r e]; split.
  - intros H. destruct r.
    + destruct e; [exfalso; exact (ext_mutates_refuted true H) | split; reflexivity].
    + exfalso. exact (no_reset_refuted e H).
  - cbn. intros [-> ->]. exact fixed_independent.
Qed.
Print Assumptions C11_modes_characterised.

(* The tree before commit 6cf36a5 (no reset at the start of structure()): the fragment
   05 FILLER PIC X. 05 FILLER PIC X.  parsed twice is named FILLER-1, FILLER-2 and then FILLER-3, FILLER-4. *)
Theorem C11_old_refuted_filler : forall ext : bool,
  outs_m {| m_reset := false; m_ext_mutates := ext |} init [ParseCopybook fragment; ParseCopybook fragment]
  = [ONames (Ok [fname 1; fname 2]); ONames (Ok [fname 3; fname 4])]
  /\ ~ history_independent_for {| m_reset := false; m_ext_mutates := ext |}.
Proof. intros ext. split; [vm_compute; reflexivity | exact (no_reset_refuted ext)]. Qed.
Print Assumptions C11_old_refuted_filler.

(* The tree before commit 5271a92 (the extended maker adds decimal to the shared set): a document with a leaf
   of type decimal is rejected in a fresh process and accepted once an extended maker has been constructed. *)
Theorem C11_old_refuted_decimal : forall rs : bool,
  outs_m {| m_reset := rs; m_ext_mutates := true |} init [LoadSchema [decimal_name]] = [OLoad (Err ValueError)]
  /\ outs_m {| m_reset := rs; m_ext_mutates := true |} init [MakeExtendedMaker; LoadSchema [decimal_name]]
     = [OUnit; OLoad (Ok tt)]
  /\ ~ history_independent_for {| m_reset := rs; m_ext_mutates := true |}.
Proof.
  intros rs. split; [exact (decimal_alone_any _) | split; [destruct rs; vm_compute; reflexivity | exact (ext_mutates_refuted rs)]].
Qed.
Print Assumptions C11_old_refuted_decimal.

(* Non-vacuity: the state machine distinguishes states (the counter does move, the history is not ignored by
   construction), and a probe has a non-trivial output: after parsing  01 x. 05 FILLER. 05 FILLER.  the counter
   is 2, yet the fragment is still named FILLER-1, FILLER-2. *)
Example C11_example :
  let rec01 := {| Structure.elv := Structure.L01; Structure.ename := Some [82]%N; Structure.efill := None;
                  Structure.eredef := None; Structure.epic := false; Structure.eocc := false;
                  Structure.etext := [82]%N |} in
  let h := [ParseCopybook (rec01 :: fragment); MakeExtendedMaker; LoadExtended [decimal_name]] in
  filler_count (run init h) = 2%N
  /\ out_of (run init h) (ParseCopybook fragment) = ONames (Ok [fname 1; fname 2])
  /\ out_of (run init h) (LoadSchema [decimal_name]) = OLoad (Err ValueError)
  /\ outs (run init h) [LoadExtended [decimal_name]] = [OLoad (Ok tt)].
Proof. vm_compute. repeat split; reflexivity. Qed.
